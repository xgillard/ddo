(* Proofs about the coordination protocol of the parallel branch-and-bound solver (Par.v, model of
   ddo/src/implementation/solver/parallel.rs), for every schedule, every fuel and every number of workers T
   (upper_bounds sized like the number of workers: the code after the fix of finding D2).
   Configuration covered: sc_use_cache = false, sc_nodup = false (SimpleFringe as the abstract priority queue pq_pop).
   Method: [view] = the observable part of a pstate; [pstep] = relational, case-by-case description of one transition
   (par_step_cases: par_step refines pstep under the invariant); every invariant is a predicate on views.
   The invariants are proved about [gstep], which is [pstep] over an abstract fringe (a pop takes any element out, a
   push inserts or coalesces): they use neither sc_nodup cfg = false nor the order of the fringe, unless [ord] is
   asked for, and ParNoDup.v applies them to the NoDupFringe as they stand.
   (A) property C04, any cutoff, assuming that a compilation never panics and that the cut-set nodes of a relaxed,
       inexact compilation are well formed with depth <= nb_vars (section PartA; [good] abstract): the structural
       invariant PInv, no deadlock, no panic, completion declared only when idle.
   (Calm) any cutoff, contracts of SolverCutoff.v: while nobody has called abort_search, the optimum is witnessed by a
       node of the fringe or of a worker (CalmV); the incumbent is feasible.  ParAnytime.v continues from here.
   (B) termination, cutoff = 0, contracts K0, K3_good, K3_depth, K5: every transition decreases the measure Mu, so
       fuel >= fuelP T = S ((T+8) * (S M)^nb_vars + 2 T) is enough.
   (C) property C03 (+ warm start), cutoff = 0, contracts K0..K4 as in SolverProofs.v: no compilation is cut short, so
       CalmV holds until every worker has exited, and every finished run returns the optimum (presult_ok).
   (D) finding D2, module D2: concrete pre-fix runs by evaluation.  "The pre-fix run reaches PDeadlock" is false of the
       model (see the comment above module D2); the _partial examples show the panic and the wrong result instead. *)
Require Import DDO.Base DDO.Fringe DDO.FringeProofs DDO.Fringe2 DDO.DP DDO.Cache DDO.Dom DDO.Mdd DDO.Solver DDO.Par.
Require Import DDO.SolverProofs DDO.SolverCutoff.
From Coq Require Import Permutation Arith.
Open Scope Z_scope.

Section ListFacts2.
  Context {A : Type}.

  Lemma sumf_upd_nth (f : A -> nat) w x old l : nth_error l w = Some old ->
    (sumf f (upd_nth w (fun _ => x) l) + f old = sumf f l + f x)%nat.
  Proof.
    revert w; induction l as [|y l IH]; intros [|w]; simpl; try discriminate.
    - intros H; inversion H; subst. lia.
    - intros H. specialize (IH _ H). lia.
  Qed.

  Lemma sumf_ext (f g : A -> nat) l : (forall x, In x l -> f x = g x) -> sumf f l = sumf g l.
  Proof.
    induction l as [|y l IH]; simpl; intros H; [reflexivity|]. rewrite (H y), IH; auto.
  Qed.

  Lemma sumf_le (f g : A -> nat) l : (forall x, In x l -> (f x <= g x)%nat) -> (sumf f l <= sumf g l)%nat.
  Proof.
    induction l as [|y l IH]; simpl; intros H; [lia|].
    assert (f y <= g y)%nat by auto. assert (sumf f l <= sumf g l)%nat by auto. lia.
  Qed.

  Lemma sumf_app (f : A -> nat) l1 l2 : sumf f (l1 ++ l2) = (sumf f l1 + sumf f l2)%nat.
  Proof. induction l1 as [|y l IH]; simpl; auto. rewrite IH. lia. Qed.

  Lemma sumf_scale (a : nat) (g : A -> nat) l : sumf (fun x => a * g x)%nat l = (a * sumf g l)%nat.
  Proof. induction l as [|x l IH]; cbn [sumf]; [lia|]. rewrite IH. lia. Qed.

  Lemma sumf_rev (f : A -> nat) l : sumf f (rev l) = sumf f l.
  Proof. apply sumf_perm. apply Permutation_sym, Permutation_rev. Qed.

  Lemma sumf_In_le (f : A -> nat) l x : In x l -> (f x <= sumf f l)%nat.
  Proof. induction l as [|y l IH]; simpl; [intros []|]. intros [H|H]; subst; [lia|]. specialize (IH H). lia. Qed.

  Lemma In_upd_nth w (x y : A) l : In y (upd_nth w (fun _ => x) l) -> y = x \/ In y l.
  Proof.
    revert w; induction l as [|z l IH]; intros [|w]; simpl; auto.
    - intros [H|H]; auto.
    - intros [H|H]; auto. destruct (IH _ H); auto.
  Qed.

  Lemma Forall_upd_nth (P : A -> Prop) w x l : Forall P l -> P x -> Forall P (upd_nth w (fun _ => x) l).
  Proof.
    intros H Hx. revert w; induction H as [|z l Hz Hl IH]; intros [|w]; simpl; constructor; auto.
  Qed.

  Lemma Forall_nth_error (P : A -> Prop) l w x : Forall P l -> nth_error l w = Some x -> P x.
  Proof. intros H Hn. rewrite Forall_forall in H. apply H. eapply nth_error_In; eauto. Qed.

  Lemma nth_error_upd_nth n (f : A -> A) l d x : nth_error l d = Some x ->
    nth_error (upd_nth n f l) d = Some (if Nat.eqb n d then f x else x).
  Proof.
    intros H. destruct (Nat.eqb_spec n d) as [->|Hne]; [apply nth_error_upd_nth_same, H|].
    rewrite nth_error_upd_nth_other by exact Hne. exact H.
  Qed.

  Lemma nth_error_upd_nth_eq w (f : A -> A) l x :
    nth_error l w = Some x -> nth_error (upd_nth w f l) w = Some (f x).
  Proof. apply nth_error_upd_nth_same. Qed.

  Lemma In_upd_nth_keep w (x p : A) l : In p l -> In p (upd_nth w (fun _ => x) l) \/ nth_error l w = Some p.
  Proof.
    revert w; induction l as [|y l IH]; intros w; [intros []|]. intros [H|H].
    - subst y. destruct w; [right; reflexivity|left; left; reflexivity].
    - destruct w as [|w]; [left; right; exact H|]. destruct (IH w H) as [H'|H']; [left; right; exact H'|right; exact H'].
  Qed.
  Lemma nth_error_upd_In w (x old : A) l : nth_error l w = Some old -> In x (upd_nth w (fun _ => x) l).
  Proof. intros H. eapply nth_error_In. apply (nth_error_upd_nth_same w (fun _ => x) l old H). Qed.
End ListFacts2.

Lemma cntp_upd_nth {A} (p : A -> bool) w x old l : nth_error l w = Some old ->
  (cntp p (upd_nth w (fun _ => x) l) + (if p old then 1 else 0) = cntp p l + (if p x then 1 else 0))%nat.
Proof. intros H. unfold cntp. apply (sumf_upd_nth (fun x => if p x then 1%nat else O) w x old l H). Qed.

Lemma cntp_pos {A} (p : A -> bool) l w x : nth_error l w = Some x -> p x = true -> (0 < cntp p l)%nat.
Proof.
  intros Hn Hp. apply nth_error_In in Hn. pose proof (sumf_In_le (fun x => if p x then 1%nat else O) l x Hn) as H.
  cbv beta in H. rewrite Hp in H. exact H.
Qed.

Lemma cntp_pos_In {A} (p : A -> bool) l : (0 < cntp p l)%nat -> exists x, In x l /\ p x = true.
Proof.
  unfold cntp. induction l as [|y l IH]; cbn [sumf]; [lia|]. destruct (p y) eqn:E.
  - exists y. split; [left; reflexivity|exact E].
  - intros H. destruct (IH H) as (x & Hx & Hp). exists x. split; [right; exact Hx|exact Hp].
Qed.

Lemma cntp_repeat_false {A} (p : A -> bool) x k : p x = false -> cntp p (repeat x k) = O.
Proof. intros H. unfold cntp. induction k as [|k IH]; cbn [repeat sumf]; [reflexivity|]. rewrite H. exact IH. Qed.

(* L' is L after the nodes ks were pushed in turn, each inserted or coalesced with an entry that has the [same] key *)
Inductive pushes {St : Type} (same : @subproblem St -> @subproblem St -> Prop) :
    list (@subproblem St) -> list (@subproblem St) -> list (@subproblem St) -> Prop :=
| pushes_nil L : pushes same L L []
| pushes_cons L L1 L' n ks : pushed_by same L L1 n -> pushes same L1 L' ks -> pushes same L L' (n :: ks).

Lemma pushes_insert {St : Type} (same : @subproblem St -> @subproblem St -> Prop) ks : forall L, pushes same L (rev ks ++ L) ks.
Proof.
  induction ks as [|n ks IH]; intros L; [apply pushes_nil|]. cbn [rev]. rewrite <- app_assoc.
  apply (pushes_cons same L (n :: L)); [left; apply Permutation_refl|apply IH].
Qed.

(* a coalescing push replaces an entry by one of the same depth *)
Lemma pushes_weight {St : Type} (same : @subproblem St -> @subproblem St -> Prop) (f : @subproblem St -> nat) L L' ks :
  (forall a b, same a b -> sp_depth a = sp_depth b) -> (forall x y, sp_depth x = sp_depth y -> f x = f y) ->
  pushes same L L' ks -> (sumf f L' <= sumf f L + sumf f ks)%nat.
Proof.
  intros Hd Hf. induction 1 as [L|L L1 L' n ks [HP|(old & rest & HP & Hs & HP')] _ IH]; cbn [sumf]; [lia| |].
  - rewrite (sumf_perm _ _ _ HP) in IH. cbn [sumf] in IH. lia.
  - rewrite (sumf_perm _ _ _ HP') in IH. rewrite (sumf_perm _ _ _ HP). cbn [sumf] in *.
    rewrite (Hf (coalesce old n) old) in IH by (rewrite (coalesce_depth old n (Hd _ _ Hs)); symmetry; exact (Hd _ _ Hs)). lia.
Qed.

(* the thirteen cases of [gstep] (below), with the names used in the proofs by cases *)
Ltac gstep_cases H :=
  destruct H as [Ew G1 G2 G3 Hv|Ew G1 Hv|Ew G1 G2 G3 Hv|x rest Ew G1 G2 Gmax G3 Hv|x rest k Ew G1 G2 G3 G4 Hv
                |n Ew G1 Hv|n m o c ds polls Ew G1 Hc Hv|n inp m Ew Hv|n m o c ds polls Ew Hc Hv|n inp m Ew Hv
                |n inp m L' op' Ew P L1 L2 Hv|n ub' Ew Hv|n ea k j Ew G1 G2 Hv].

Section ParProofs.
  Context {St : Type}.
  Variable st_eqb : St -> St -> bool.
  Variable cfg : @sconfig St.
  Let pb := sc_problem cfg.
  Let N := nb_vars pb.

  Notation pstate := (@pstate St).
  Notation pc := (@pc St).
  Notation subproblem := (@subproblem St).

  Hypothesis no_cache : sc_use_cache cfg = false.
  Hypothesis simple_fringe : sc_nodup cfg = false.

  Variable good : subproblem -> Prop.
  Hypothesis good_root : good (root_node cfg).
  Hypothesis good_set_ub : forall c u, good c -> good (set_ub c u).

  Record vw := mkV {
    v_simple : list subproblem; v_ongoing : nat; v_open : list nat; v_obl : list nat;
    v_lb : Z; v_ub : Z; v_sol : option (list decision); v_nubs : nat; v_abort : bool; v_crash : bool;
    v_workers : list pc }.

  Definition view (s : pstate) : vw :=
    mkV (p_simple s) (p_ongoing s) (p_open s) (p_ongoing_by_layer s) (p_lb s) (p_ub s) (p_sol s)
        (length (p_upper_bounds s)) (p_abort s) (p_crash s) (p_workers s).

  Lemma view_proj s a b c d e f g h i j k : view s = mkV a b c d e f g h i j k ->
    p_simple s = a /\ p_ongoing s = b /\ p_open s = c /\ p_ongoing_by_layer s = d /\ p_lb s = e /\ p_ub s = f /\
    p_sol s = g /\ length (p_upper_bounds s) = h /\ p_abort s = i /\ p_crash s = j /\ p_workers s = k.
  Proof. unfold view. intros H. injection H. intros. repeat split; assumption. Qed.

  Lemma view_p_crashed s : view (p_crashed s) =
    mkV (p_simple s) (p_ongoing s) (p_open s) (p_ongoing_by_layer s) (p_lb s) (p_ub s) (p_sol s)
        (length (p_upper_bounds s)) (p_abort s) true (p_workers s).
  Proof. reflexivity. Qed.
  Lemma view_with_fringe s l nd : view (with_fringe s l nd) =
    mkV l (p_ongoing s) (p_open s) (p_ongoing_by_layer s) (p_lb s) (p_ub s) (p_sol s)
        (length (p_upper_bounds s)) (p_abort s) (p_crash s) (p_workers s).
  Proof. reflexivity. Qed.
  Lemma view_pf_clear s : view (pf_clear s) =
    mkV [] (p_ongoing s) (p_open s) (p_ongoing_by_layer s) (p_lb s) (p_ub s) (p_sol s)
        (length (p_upper_bounds s)) (p_abort s) (p_crash s) (p_workers s).
  Proof. reflexivity. Qed.
  Lemma view_with_open s op obl : view (with_open s op obl) =
    mkV (p_simple s) (p_ongoing s) op obl (p_lb s) (p_ub s) (p_sol s)
        (length (p_upper_bounds s)) (p_abort s) (p_crash s) (p_workers s).
  Proof. reflexivity. Qed.
  Lemma view_with_cache_fal s c fal : view (with_cache_fal s c fal) = view s.
  Proof. reflexivity. Qed.

  Lemma view_set_worker_eq s w p a b c d e f g h i j ws : view s = mkV a b c d e f g h i j ws ->
    view (set_worker s w p) = mkV a b c d e f g h i j (upd_nth w (fun _ => p) ws).
  Proof. unfold view. intros [= <- <- <- <- <- <- <- <- <- <- <-]. reflexivity. Qed.

  Lemma pf_len_simple s : pf_len cfg s = length (p_simple s).
  Proof. unfold pf_len. rewrite simple_fringe. reflexivity. Qed.
  Lemma pf_pop_simple s : pf_pop st_eqb cfg s =
    match pq_pop cfg (p_simple s) with
    | None => (s, None)
    | Some (x, rest) => (with_fringe s rest (p_nodup s), Some x)
    end.
  Proof. unfold pf_pop. rewrite simple_fringe. reflexivity. Qed.

  (* the abstract priority queue pops an element whose upper bound is maximal (MaxUB compares sp_ub first) *)
  Lemma pq_pop_max l x rest : pq_pop cfg l = Some (x, rest) -> forall y, In y l -> sp_ub y <= sp_ub x.
  Proof.
    revert x rest; induction l as [|z l IH]; intros x rest H; [discriminate|].
    cbn [pq_pop] in H. destruct (pq_pop cfg l) as [[y r]|] eqn:E.
    2:{ injection H as <- <-. apply pq_pop_none in E. subst l. intros u [<-|[]]. lia. }
    specialize (IH _ _ eq_refl).
    assert (Hzy : if is_gt (maxub_cmp (sc_ranking cfg) z y) then sp_ub y <= sp_ub z else sp_ub z <= sp_ub y).
    { unfold maxub_cmp, Zcmp at 1. destruct (Z.compare_spec (sp_ub z) (sp_ub y)); cbn [cmp_then is_gt]; try lia.
      destruct (is_gt (cmp_then _ _)); lia. }
    destruct (is_gt (maxub_cmp (sc_ranking cfg) z y)); injection H as <- <-; intros u [<-|Hu];
      try specialize (IH u Hu); lia.
  Qed.

  Lemma pq_pop_In l x rest : pq_pop cfg l = Some (x, rest) -> In x l /\ (forall y, In y rest -> In y l).
  Proof.
    intros H. apply pq_pop_perm in H. split.
    - eapply Permutation_in; [apply Permutation_sym; exact H|]. left; reflexivity.
    - intros y Hy. eapply Permutation_in; [apply Permutation_sym; exact H|]. right; exact Hy.
  Qed.

  Definition busy_node (p : pc) : option subproblem :=
    match p with
    | PReadLb1 n | PUpdate1 n _ _ | PReadLb2 n | PUpdate2 n _ _ | PEnqueue n _ _ | PAbort n | PNotify n _ => Some n
    | _ => None
    end.
  Definition is_busy (p : pc) : bool := match busy_node p with Some _ => true | None => false end.
  Definition busy_at (d : nat) (p : pc) : bool :=
    match busy_node p with Some n => Nat.eqb (sp_depth n) d | None => false end.
  Definition wake (p : pc) : pc := match p with PParked => PGetWork | _ => p end.

  Lemma wake_all_map ws : wake_all ws = map wake ws.
  Proof. reflexivity. Qed.
  Lemma busy_node_wake p : busy_node (wake p) = busy_node p.
  Proof. destruct p; reflexivity. Qed.

  (* what is known about the data a worker carries between two critical sections *)
  Definition compiled_from (ct : comptype) (n : subproblem) (inp : @cinput St) (m : @mdd St) (lbcur : Z) : Prop :=
    exists lb0 c ds polls, lb0 <= lbcur /\ inp = mk_input cfg ct n lb0 /\
      compile st_eqb (mk_input cfg ct n lb0) 0 0 c ds polls = (m, Compiled).

  Definition pc_ok (lbcur : Z) (p : pc) : Prop :=
    match p with
    | PGetWork | PParked | PExited => True
    | PReadLb1 n | PReadLb2 n | PAbort n | PNotify n _ => good n /\ (sp_depth n <= N)%nat
    | PUpdate1 n inp m => good n /\ (sp_depth n <= N)%nat /\ compiled_from Restricted n inp m lbcur
    | PUpdate2 n inp m => good n /\ (sp_depth n <= N)%nat /\ compiled_from Relaxed n inp m lbcur
    | PEnqueue n inp m => good n /\ (sp_depth n <= N)%nat /\ compiled_from Relaxed n inp m lbcur /\
        dd_is_exact m = false /\ (forall e, dd_best_exact_value inp m = Some e -> e <= lbcur)
    end.

  Lemma compiled_from_mono ct n inp m lb lb' : lb <= lb' -> compiled_from ct n inp m lb -> compiled_from ct n inp m lb'.
  Proof. intros H (lb0 & c & ds & polls & H1 & H2 & H3). exists lb0, c, ds, polls. split; [lia|auto]. Qed.

  Lemma compiled_from_refl ct n lb c ds polls m :
    compile st_eqb (mk_input cfg ct n lb) 0 0 c ds polls = (m, Compiled) -> compiled_from ct n (mk_input cfg ct n lb) m lb.
  Proof. intros H. exists lb, c, ds, polls. split; [lia|]. split; [reflexivity|exact H]. Qed.

  Lemma pc_ok_mono lb lb' p : lb <= lb' -> pc_ok lb p -> pc_ok lb' p.
  Proof.
    intros H. destruct p; cbn [pc_ok]; auto.
    - intros (A & B & C). eauto using compiled_from_mono.
    - intros (A & B & C). eauto using compiled_from_mono.
    - intros (A & B & C & D & E). split; [auto|]. split; [auto|]. split; [eauto using compiled_from_mono|].
      split; [auto|]. intros e He. specialize (E e He). lia.
  Qed.

  Lemma pc_ok_busy lb p n : pc_ok lb p -> busy_node p = Some n -> good n /\ (sp_depth n <= N)%nat.
  Proof. destruct p; cbn [pc_ok busy_node]; intros H E; inversion E; subst; tauto. Qed.

  Definition PInvV (v : vw) : Prop :=
    v_crash v = false /\
    v_ongoing v = cntp is_busy (v_workers v) /\
    length (v_open v) = S N /\ length (v_obl v) = S N /\
    (forall d, (d <= N)%nat -> nth_error (v_obl v) d = Some (cntp (busy_at d) (v_workers v))) /\
    Forall (pc_ok (v_lb v)) (v_workers v) /\
    (forall n, In n (v_simple v) -> good n /\ (sp_depth n <= N)%nat) /\
    (v_abort v = true \/ forall d, (d <= N)%nat -> nth_error (v_open v) d = Some (cnt d (v_simple v))) /\
    v_nubs v = length (v_workers v) /\
    (In PParked (v_workers v) -> (0 < v_ongoing v)%nat).

  Definition PInv (s : pstate) : Prop := PInvV (view s).

  Lemma PInv_fields s : PInv s ->
    p_crash s = false /\
    p_ongoing s = cntp is_busy (p_workers s) /\
    length (p_open s) = S N /\ length (p_ongoing_by_layer s) = S N /\
    (forall d, (d <= N)%nat -> nth_error (p_ongoing_by_layer s) d = Some (cntp (busy_at d) (p_workers s))) /\
    Forall (pc_ok (p_lb s)) (p_workers s) /\
    (forall n, In n (p_simple s) -> good n /\ (sp_depth n <= N)%nat) /\
    (p_abort s = true \/ forall d, (d <= N)%nat -> nth_error (p_open s) d = Some (cnt d (p_simple s))) /\
    length (p_upper_bounds s) = length (p_workers s) /\
    (In PParked (p_workers s) -> (0 < p_ongoing s)%nat).
  Proof. exact (fun H => H). Qed.

  Lemma PInv_pc s w p : PInv s -> nth_error (p_workers s) w = Some p -> pc_ok (p_lb s) p.
  Proof. intros HI. apply Forall_nth_error, HI. Qed.
  Lemma PInv_idle s : PInv s -> p_ongoing s = O ->
    forall w p, nth_error (p_workers s) w = Some p -> busy_node p = None /\ p <> PParked.
  Proof.
    intros HI H0 w p Hp. destruct (PInv_fields s HI) as (_ & I2 & _ & _ & _ & _ & _ & _ & _ & I10). split.
    - destruct (busy_node p) eqn:Eb; [|reflexivity].
      assert (Hb : is_busy p = true) by (unfold is_busy; rewrite Eb; reflexivity).
      pose proof (cntp_pos _ _ _ _ Hp Hb). lia.
    - intros ->. apply nth_error_In in Hp. specialize (I10 Hp). lia.
  Qed.
  Lemma PInv_fringe s : PInv s -> FringeOK cfg good (p_simple s).
  Proof. intros (_ & _ & _ & _ & _ & _ & I7 & _). exact I7. Qed.

  Ltac psimp := cbn [mk set_worker p_crashed with_fringe with_open with_cache_fal pf_clear
                     p_simple p_nodup p_ongoing p_explored p_open p_ongoing_by_layer p_fal p_lb p_ub p_sol
                     p_upper_bounds p_abort p_cache p_dom p_polls p_crash p_tie p_workers].
  Ltac vsimp := unfold view; psimp.
  Lemma with_cache_fal_id (s : pstate) : with_cache_fal s (p_cache s) (p_fal s) = s.
  Proof. destruct s; reflexivity. Qed.

  Lemma clean_loop_eq fuel : forall s,
    (N < length (p_open s))%nat -> (N < length (p_ongoing_by_layer s))%nat ->
    exists fal, p_clean_cache_loop cfg fuel s = with_cache_fal s (p_cache s) fal.
  Proof.
    assert (Hid : forall s : pstate, exists fal, s = with_cache_fal s (p_cache s) fal).
    { intros s. exists (p_fal s). symmetry. apply with_cache_fal_id. }
    induction fuel as [|fuel IH]; intros s Ho Hb; cbn [p_clean_cache_loop]; [apply Hid|].
    destruct (Nat.ltb (p_fal s) (nb_vars (sc_problem cfg))) eqn:E; [|apply Hid].
    apply Nat.ltb_lt in E.
    destruct (nth_error_lt_Some (p_open s) (p_fal s)) as [a ->]; [unfold N, pb in *; lia|].
    destruct (nth_error_lt_Some (p_ongoing_by_layer s) (p_fal s)) as [b ->]; [unfold N, pb in *; lia|].
    destruct (Nat.eqb (a + b) 0); [|apply Hid]. rewrite no_cache.
    destruct (IH (with_cache_fal s (p_cache s) (S (p_fal s))) Ho Hb) as [fal ->]. exists fal. reflexivity.
  Qed.

  Lemma gw_select_S fuel s nn : gw_select st_eqb cfg (S fuel) s nn =
    if sp_ub nn <=? p_lb s then
      (with_open (pf_clear s) (map (fun _ => O) (p_open (pf_clear s))) (p_ongoing_by_layer (pf_clear s)), GWStarvation)
    else (with_cache_fal s (p_cache s) (p_fal s), GWItem nn).
  Proof. cbn [gw_select]. rewrite no_cache. reflexivity. Qed.

  Inductive gw_spec (s : pstate) (s1 : pstate) : @gw_result St -> Prop :=
  | GS_complete : p_ongoing s = O -> p_simple s = [] -> p_abort s = false ->
      view s1 = mkV (p_simple s) (p_ongoing s) (p_open s) (p_ongoing_by_layer s) (p_lb s) (p_lb s) (p_sol s)
                    (length (p_upper_bounds s)) (p_abort s) (p_crash s) (p_workers s) ->
      gw_spec s s1 GWComplete
  | GS_aborted : p_abort s = true -> view s1 = view s -> gw_spec s s1 GWAborted
  | GS_wait : p_abort s = false -> p_simple s = [] -> (0 < p_ongoing s)%nat -> view s1 = view s -> gw_spec s s1 GWWait
  | GS_starve x rest : p_abort s = false -> pq_pop cfg (p_simple s) = Some (x, rest) -> sp_ub x <= p_lb s ->
      view s1 = mkV [] (p_ongoing s) (map (fun _ => O) (p_open s)) (p_ongoing_by_layer s) (p_lb s) (p_ub s) (p_sol s)
                    (length (p_upper_bounds s)) (p_abort s) (p_crash s) (p_workers s) ->
      gw_spec s s1 GWStarvation
  | GS_item x rest k : p_abort s = false -> pq_pop cfg (p_simple s) = Some (x, rest) -> p_lb s < sp_ub x ->
      nth_error (p_open s) (sp_depth x) = Some (S k) ->
      view s1 = mkV rest (S (p_ongoing s)) (upd_nth (sp_depth x) (fun _ => k) (p_open s))
                    (upd_nth (sp_depth x) S (p_ongoing_by_layer s)) (p_lb s) (p_ub s) (p_sol s)
                    (length (p_upper_bounds s)) (p_abort s) (p_crash s) (p_workers s) ->
      gw_spec s s1 (GWItem x).

  Lemma get_workload_spec s w s1 r : PInv s -> (w < length (p_workers s))%nat ->
    get_workload st_eqb cfg s w = (s1, r) -> gw_spec s s1 r.
  Proof.
    intros HI Hw. destruct (PInv_fields s HI) as (I1 & _ & I3 & I4 & I5 & _ & I7 & I8 & I9 & _).
    unfold get_workload. destruct (clean_loop_eq (S (nb_vars (sc_problem cfg))) s) as [fal ->]; [lia..|].
    rewrite !pf_len_simple, pf_pop_simple. psimp. rewrite I1.
    destruct (p_abort s) eqn:Eab.
    { rewrite andb_false_r. intros [= <- <-]. apply GS_aborted; auto. }
    destruct (p_simple s) as [|y l] eqn:Es.
    { destruct (p_ongoing s) eqn:Eo; intros [= <- <-]; [apply GS_complete|apply GS_wait]; auto.
      - unfold view. psimp. rewrite Es, Eo, Eab, I1. reflexivity.
      - lia. }
    rewrite andb_false_r. cbn [andb length Nat.eqb]. rewrite <- Es in *.
    destruct (pq_pop cfg (p_simple s)) as [[x rest]|] eqn:Ep.
    2:{ apply pq_pop_none in Ep. congruence. }
    rewrite pf_len_simple, gw_select_S. psimp.
    destruct (sp_ub x <=? p_lb s) eqn:Eub.
    { intros [= <- <-]. apply Z.leb_le in Eub. eapply GS_starve; eauto. }
    apply Z.leb_gt in Eub. psimp.
    destruct (nth_error_lt_Some (p_upper_bounds s) w) as [u ->]; [lia|].
    destruct I8 as [I8|I8]; [congruence|].
    pose proof (pq_pop_perm _ _ _ _ Ep) as Hperm.
    destruct (pq_pop_In _ _ _ Ep) as [Hx _]. destruct (I7 x Hx) as [_ Hdx].
    assert (Hop : nth_error (p_open s) (sp_depth x) = Some (S (cnt (sp_depth x) rest))).
    { rewrite (I8 _ Hdx), (cnt_perm _ _ _ Hperm), cnt_cons_same. reflexivity. }
    rewrite Hop, (I5 _ Hdx). intros [= <- <-]. eapply GS_item; eauto.
    unfold view. psimp. rewrite upd_nth_length. reflexivity.
  Qed.

  Lemma p_compile_spec s ct n lb s1 inp m o :
    p_compile st_eqb cfg s ct n lb = (s1, inp, m, o) ->
    inp = mk_input cfg ct n lb /\
    compile st_eqb (mk_input cfg ct n lb) 0 0 (p_cache s) (p_dom s) (p_polls s) = (m, o) /\
    view s1 = mkV (p_simple s) (p_ongoing s) (p_open s) (p_ongoing_by_layer s) (p_lb s) (p_ub s) (p_sol s)
                  (length (p_upper_bounds s)) (p_abort s) (p_crash s || m_crash m)%bool (p_workers s).
  Proof.
    unfold p_compile.
    destruct (compile st_eqb (mk_input cfg ct n lb) 0 0 (p_cache s) (p_dom s) (p_polls s)) as [m0 o0] eqn:E.
    intros H; inversion H; subst. auto.
  Qed.

  Definition mub_lb (lb : Z) (inp : @cinput St) (m : @mdd St) : Z :=
    if opt_default IMIN (dd_best_exact_value inp m) >? lb then opt_default IMIN (dd_best_exact_value inp m) else lb.
  Definition mub_sol (lb : Z) (sol : option (list decision)) (inp : @cinput St) (m : @mdd St) : option (list decision) :=
    if opt_default IMIN (dd_best_exact_value inp m) >? lb then dd_best_exact_solution inp m else sol.

  Lemma view_mub s inp m : view (p_maybe_update_best s inp m) =
    mkV (p_simple s) (p_ongoing s) (p_open s) (p_ongoing_by_layer s) (mub_lb (p_lb s) inp m) (p_ub s)
        (mub_sol (p_lb s) (p_sol s) inp m) (length (p_upper_bounds s)) (p_abort s) (p_crash s) (p_workers s).
  Proof.
    unfold p_maybe_update_best, mub_lb, mub_sol.
    destruct (opt_default IMIN (dd_best_exact_value inp m) >? p_lb s); reflexivity.
  Qed.

  Lemma mub_lb_ge lb inp m :
    lb <= mub_lb lb inp m /\ (forall e, dd_best_exact_value inp m = Some e -> e <= mub_lb lb inp m).
  Proof.
    unfold mub_lb.
    destruct (opt_default IMIN (dd_best_exact_value inp m) >? lb) eqn:E; rewrite Z.gtb_ltb in E.
    - apply Z.ltb_lt in E. split; [lia|]. intros e He. rewrite He. cbn [opt_default]. lia.
    - apply Z.ltb_ge in E. split; [lia|]. intros e He. rewrite He in E. exact E.
  Qed.

  Lemma mub_lb_spec lb inp m : IMIN <= lb ->
    (mub_lb lb inp m = lb /\ forall sol, mub_sol lb sol inp m = sol) \/
    (exists v, dd_best_exact_value inp m = Some v /\ v > lb /\ mub_lb lb inp m = v /\
               forall sol, mub_sol lb sol inp m = dd_best_exact_solution inp m).
  Proof.
    intros Hlb. unfold mub_lb, mub_sol.
    destruct (opt_default IMIN (dd_best_exact_value inp m) >? lb) eqn:E; rewrite Z.gtb_ltb in E.
    - apply Z.ltb_lt in E. destruct (dd_best_exact_value inp m) as [v|]; cbn [opt_default] in *; [|lia].
      right. exists v. auto with zarith.
    - left; auto.
  Qed.

  Definition kept (lb ub : Z) (cs : list subproblem) : list subproblem :=
    map (fun c => set_ub c (Z.min ub (sp_ub c))) (filter (fun c => Z.min ub (sp_ub c) >? lb) cs).

  Lemma kept_cons lb ub c cs : kept lb ub (c :: cs) =
    if Z.min ub (sp_ub c) >? lb then set_ub c (Z.min ub (sp_ub c)) :: kept lb ub cs else kept lb ub cs.
  Proof. unfold kept. cbn [filter]. destruct (Z.min ub (sp_ub c) >? lb); reflexivity. Qed.

  Lemma In_kept lb ub cs x : In x (kept lb ub cs) <->
    exists c, In c cs /\ Z.min ub (sp_ub c) > lb /\ x = set_ub c (Z.min ub (sp_ub c)).
  Proof.
    unfold kept. rewrite in_map_iff. split.
    - intros (c & <- & Hc). apply filter_In in Hc. destruct Hc as [Hc Hg].
      rewrite Z.gtb_ltb in Hg. apply Z.ltb_lt in Hg. exists c. split; [auto|]. split; [lia|auto].
    - intros (c & Hc & Hg & ->). exists c. split; [reflexivity|]. apply filter_In. split; [auto|].
      rewrite Z.gtb_ltb. apply Z.ltb_lt. lia.
  Qed.

  Lemma sumf_kept_le (f : subproblem -> nat) lb ub cs :
    (sumf f (kept lb ub cs) <= sumf (fun c => f (set_ub c (Z.min ub (sp_ub c)))) cs)%nat.
  Proof.
    induction cs as [|c cs IH]; [cbn; lia|]. rewrite kept_cons.
    destruct (Z.min ub (sp_ub c) >? lb); cbn [sumf]; lia.
  Qed.

  Definition enq_stepP (best_lb ub : Z) (s : pstate) (c : subproblem) : pstate :=
    let cub := Z.min ub (sp_ub c) in
    if cub >? best_lb then
      let c' := {| sp_state := sp_state c; sp_value := sp_value c; sp_path := sp_path c; sp_ub := cub; sp_depth := sp_depth c |} in
      let before := pf_len cfg s in
      let s := pf_push st_eqb cfg s c' in
      let after := pf_len cfg s in
      match nth_error (p_open s) (sp_depth c) with
      | None => p_crashed s
      | Some _ => with_open s (upd_nth (sp_depth c) (fun o => o + (after - before))%nat (p_open s)) (p_ongoing_by_layer s)
      end
    else s.

  Lemma p_enqueue_cutset_fold s inp m ub :
    p_enqueue_cutset st_eqb cfg s inp m ub = fold_left (enq_stepP (p_lb s) ub) (drain_cutset inp m) s.
  Proof. reflexivity. Qed.

  Lemma enq_fold_spec lb ub cs : forall s,
    (forall c, In c cs -> (sp_depth c < length (p_open s))%nat) ->
    exists op', length op' = length (p_open s) /\
      (forall d k, nth_error (p_open s) d = Some k -> nth_error op' d = Some (k + cnt d (kept lb ub cs))%nat) /\
      view (fold_left (enq_stepP lb ub) cs s) =
        mkV (rev (kept lb ub cs) ++ p_simple s) (p_ongoing s) op' (p_ongoing_by_layer s) (p_lb s) (p_ub s) (p_sol s)
            (length (p_upper_bounds s)) (p_abort s) (p_crash s) (p_workers s).
  Proof.
    induction cs as [|c cs IH]; intros s Hd.
    - exists (p_open s). split; [reflexivity|]. split; [|reflexivity].
      intros d k Hk. change (cnt d (kept lb ub [])) with O. rewrite Nat.add_0_r. exact Hk.
    - cbn [fold_left]. rewrite kept_cons.
      assert (Hdc : (sp_depth c < length (p_open s))%nat) by (apply Hd; left; reflexivity).
      assert (Hd' : forall c', In c' cs -> (sp_depth c' < length (p_open s))%nat) by (intros; apply Hd; right; assumption).
      unfold enq_stepP at 2.
      destruct (Z.min ub (sp_ub c) >? lb) eqn:E.
      + unfold pf_push. rewrite simple_fringe, !pf_len_simple. cbn [with_fringe mk p_open p_simple p_ongoing_by_layer p_nodup].
        destruct (nth_error_lt_Some _ _ Hdc) as [k0 Hk0]. rewrite Hk0.
        fold (set_ub c (Z.min ub (sp_ub c))).
        match goal with |- context [fold_left _ cs ?s1] => set (s1' := s1) end.
        destruct (IH s1') as (op' & L1 & L2 & L3).
        { intros c' Hc'. unfold s1'. vsimp. rewrite upd_nth_length. auto. }
        exists op'. split; [rewrite L1; unfold s1'; vsimp; apply upd_nth_length|].
        split.
        * intros d k Hk. rewrite (L2 d _ (nth_error_upd_nth _ _ _ _ _ Hk)). unfold cnt, cntp.
          cbn [sumf set_ub sp_depth length]. f_equal. destruct (Nat.eqb (sp_depth c) d); lia.
        * rewrite L3. unfold s1'. vsimp. cbn [rev]. rewrite <- app_assoc. reflexivity.
      + destruct (IH s Hd') as (op' & L1 & L2 & L3). exists op'. auto.
  Qed.

  Definition vW (s : pstate) (ws : list pc) : vw :=
    mkV (p_simple s) (p_ongoing s) (p_open s) (p_ongoing_by_layer s) (p_lb s) (p_ub s) (p_sol s)
        (length (p_upper_bounds s)) (p_abort s) (p_crash s) ws.
  Definition setw (s : pstate) (w : nat) (p : pc) : list pc := upd_nth w (fun _ => p) (p_workers s).

  Inductive pstep (s : pstate) (w : nat) (s' : pstate) : Prop :=
  | ST_complete : nth_error (p_workers s) w = Some PGetWork ->
      p_ongoing s = O -> p_simple s = [] -> p_abort s = false ->
      view s' = mkV (p_simple s) (p_ongoing s) (p_open s) (p_ongoing_by_layer s) (p_lb s) (p_lb s) (p_sol s)
                    (length (p_upper_bounds s)) (p_abort s) (p_crash s) (setw s w PExited) ->
      pstep s w s'
  | ST_aborted : nth_error (p_workers s) w = Some PGetWork -> p_abort s = true ->
      view s' = vW s (setw s w PExited) -> pstep s w s'
  | ST_wait : nth_error (p_workers s) w = Some PGetWork ->
      p_abort s = false -> p_simple s = [] -> (0 < p_ongoing s)%nat ->
      view s' = vW s (setw s w PParked) -> pstep s w s'
  | ST_starve x rest : nth_error (p_workers s) w = Some PGetWork ->
      p_abort s = false -> pq_pop cfg (p_simple s) = Some (x, rest) -> sp_ub x <= p_lb s ->
      view s' = mkV [] (p_ongoing s) (map (fun _ => O) (p_open s)) (p_ongoing_by_layer s) (p_lb s) (p_ub s) (p_sol s)
                    (length (p_upper_bounds s)) (p_abort s) (p_crash s) (setw s w PGetWork) ->
      pstep s w s'
  | ST_item x rest k : nth_error (p_workers s) w = Some PGetWork ->
      p_abort s = false -> pq_pop cfg (p_simple s) = Some (x, rest) -> p_lb s < sp_ub x ->
      nth_error (p_open s) (sp_depth x) = Some (S k) ->
      view s' = mkV rest (S (p_ongoing s)) (upd_nth (sp_depth x) (fun _ => k) (p_open s))
                    (upd_nth (sp_depth x) S (p_ongoing_by_layer s)) (p_lb s) (p_ub s) (p_sol s)
                    (length (p_upper_bounds s)) (p_abort s) (p_crash s) (setw s w (PReadLb1 x)) ->
      pstep s w s'
  | ST_prune n : nth_error (p_workers s) w = Some (PReadLb1 n) -> sp_ub n <= p_lb s ->
      view s' = vW s (setw s w (PNotify n false)) -> pstep s w s'
  | ST_compile1 n m o c ds polls : nth_error (p_workers s) w = Some (PReadLb1 n) -> p_lb s < sp_ub n ->
      compile st_eqb (mk_input cfg Restricted n (p_lb s)) 0 0 c ds polls = (m, o) ->
      view s' = mkV (p_simple s) (p_ongoing s) (p_open s) (p_ongoing_by_layer s) (p_lb s) (p_ub s) (p_sol s)
                    (length (p_upper_bounds s)) (p_abort s) (p_crash s || m_crash m)%bool
                    (setw s w (match o with Compiled => PUpdate1 n (mk_input cfg Restricted n (p_lb s)) m | _ => PAbort n end)) ->
      pstep s w s'
  | ST_update1 n inp m : nth_error (p_workers s) w = Some (PUpdate1 n inp m) ->
      view s' = mkV (p_simple s) (p_ongoing s) (p_open s) (p_ongoing_by_layer s) (mub_lb (p_lb s) inp m) (p_ub s)
                    (mub_sol (p_lb s) (p_sol s) inp m) (length (p_upper_bounds s)) (p_abort s) (p_crash s)
                    (setw s w (if dd_is_exact m then PNotify n false else PReadLb2 n)) ->
      pstep s w s'
  | ST_compile2 n m o c ds polls : nth_error (p_workers s) w = Some (PReadLb2 n) ->
      compile st_eqb (mk_input cfg Relaxed n (p_lb s)) 0 0 c ds polls = (m, o) ->
      view s' = mkV (p_simple s) (p_ongoing s) (p_open s) (p_ongoing_by_layer s) (p_lb s) (p_ub s) (p_sol s)
                    (length (p_upper_bounds s)) (p_abort s) (p_crash s || m_crash m)%bool
                    (setw s w (match o with Compiled => PUpdate2 n (mk_input cfg Relaxed n (p_lb s)) m | _ => PAbort n end)) ->
      pstep s w s'
  | ST_update2 n inp m : nth_error (p_workers s) w = Some (PUpdate2 n inp m) ->
      view s' = mkV (p_simple s) (p_ongoing s) (p_open s) (p_ongoing_by_layer s) (mub_lb (p_lb s) inp m) (p_ub s)
                    (mub_sol (p_lb s) (p_sol s) inp m) (length (p_upper_bounds s)) (p_abort s) (p_crash s)
                    (setw s w (if dd_is_exact m then PNotify n false else PEnqueue n inp m)) ->
      pstep s w s'
  | ST_enqueue n inp m op' : nth_error (p_workers s) w = Some (PEnqueue n inp m) ->
      length op' = length (p_open s) ->
      (forall d k, nth_error (p_open s) d = Some k ->
                   nth_error op' d = Some (k + cnt d (kept (p_lb s) (sp_ub n) (drain_cutset inp m)))%nat) ->
      view s' = mkV (rev (kept (p_lb s) (sp_ub n) (drain_cutset inp m)) ++ p_simple s) (p_ongoing s) op'
                    (p_ongoing_by_layer s) (p_lb s) (p_ub s) (p_sol s) (length (p_upper_bounds s)) (p_abort s)
                    (p_crash s) (setw s w (PNotify n false)) ->
      pstep s w s'
  | ST_abort n ub' : nth_error (p_workers s) w = Some (PAbort n) ->
      view s' = mkV [] (p_ongoing s) (p_open s) (p_ongoing_by_layer s) (p_lb s) ub' (p_sol s)
                    (length (p_upper_bounds s)) true (p_crash s) (setw s w (PNotify n true)) ->
      pstep s w s'
  | ST_notify n ea k j : nth_error (p_workers s) w = Some (PNotify n ea) ->
      p_ongoing s = S k -> nth_error (p_ongoing_by_layer s) (sp_depth n) = Some (S j) ->
      view s' = mkV (p_simple s) k (p_open s) (upd_nth (sp_depth n) (fun _ => j) (p_ongoing_by_layer s)) (p_lb s)
                    (p_ub s) (p_sol s) (length (p_upper_bounds s)) (p_abort s) (p_crash s)
                    (upd_nth w (fun _ => if ea then PExited else PGetWork) (map wake (p_workers s))) ->
      pstep s w s'.

  (* [pstep] over an abstract fringe.  The content of the fringe is the list in p_simple (the first field of the view),
     and nothing else of the fringe is read: a pop takes any element out of that list (GT_starve: one with the largest
     upper bound, provided [ord] holds), a push inserts a node or coalesces it with an entry that has the [same] key
     (SolverProofs.pushed_by), and open_by_layer follows the number of entries per layer.  Like [pstep] it constrains
     s' through [view s'] only.
     SimpleFringe: par_step s w = Some (s', _) gives pstep s w s' (par_step_cases), hence gstep no_key ord s w s' for
     any [ord] (pstep_gstep: pq_pop returns a ub-maximal node, and no two entries are ever merged).
     NoDupFringe: there p_simple is neither read nor written, so ParNoDup.v states the step between the ghost states
     gh s = s with p_simple := the content list of the heap p_nodup s, and proves (par_step_cases_nd)
     gstep key_same (rank_ok cfg /\ kord rk (p_nodup s)) (gh s) w (gh s'): [same] = equal (state, depth), [ord] = the
     ranking is a total preorder and the heap is ordered, which is what makes its top ub-maximal.
     Every invariant below is proved about gstep for any [ord] and any [same] that relates nodes of equal depth
     (gstep_calm, the one that needs the maximality of the popped node, asks for a proof of [ord] and for key_ok same),
     so that both fringes get it through one of these two refinements. *)
  Inductive gstep (same : subproblem -> subproblem -> Prop) (ord : Prop) (s : pstate) (w : nat) (s' : pstate) : Prop :=
  | GT_complete : nth_error (p_workers s) w = Some PGetWork ->
      p_ongoing s = O -> p_simple s = [] -> p_abort s = false ->
      view s' = mkV (p_simple s) (p_ongoing s) (p_open s) (p_ongoing_by_layer s) (p_lb s) (p_lb s) (p_sol s)
                    (length (p_upper_bounds s)) (p_abort s) (p_crash s) (setw s w PExited) ->
      gstep same ord s w s'
  | GT_aborted : nth_error (p_workers s) w = Some PGetWork -> p_abort s = true ->
      view s' = vW s (setw s w PExited) -> gstep same ord s w s'
  | GT_wait : nth_error (p_workers s) w = Some PGetWork ->
      p_abort s = false -> p_simple s = [] -> (0 < p_ongoing s)%nat ->
      view s' = vW s (setw s w PParked) -> gstep same ord s w s'
  | GT_starve x rest : nth_error (p_workers s) w = Some PGetWork ->
      p_abort s = false -> Permutation (p_simple s) (x :: rest) ->
      (ord -> forall y, In y (p_simple s) -> sp_ub y <= sp_ub x) -> sp_ub x <= p_lb s ->
      view s' = mkV [] (p_ongoing s) (map (fun _ => O) (p_open s)) (p_ongoing_by_layer s) (p_lb s) (p_ub s) (p_sol s)
                    (length (p_upper_bounds s)) (p_abort s) (p_crash s) (setw s w PGetWork) ->
      gstep same ord s w s'
  | GT_item x rest k : nth_error (p_workers s) w = Some PGetWork ->
      p_abort s = false -> Permutation (p_simple s) (x :: rest) -> p_lb s < sp_ub x ->
      nth_error (p_open s) (sp_depth x) = Some (S k) ->
      view s' = mkV rest (S (p_ongoing s)) (upd_nth (sp_depth x) (fun _ => k) (p_open s))
                    (upd_nth (sp_depth x) S (p_ongoing_by_layer s)) (p_lb s) (p_ub s) (p_sol s)
                    (length (p_upper_bounds s)) (p_abort s) (p_crash s) (setw s w (PReadLb1 x)) ->
      gstep same ord s w s'
  | GT_prune n : nth_error (p_workers s) w = Some (PReadLb1 n) -> sp_ub n <= p_lb s ->
      view s' = vW s (setw s w (PNotify n false)) -> gstep same ord s w s'
  | GT_compile1 n m o c ds polls : nth_error (p_workers s) w = Some (PReadLb1 n) -> p_lb s < sp_ub n ->
      compile st_eqb (mk_input cfg Restricted n (p_lb s)) 0 0 c ds polls = (m, o) ->
      view s' = mkV (p_simple s) (p_ongoing s) (p_open s) (p_ongoing_by_layer s) (p_lb s) (p_ub s) (p_sol s)
                    (length (p_upper_bounds s)) (p_abort s) (p_crash s || m_crash m)%bool
                    (setw s w (match o with Compiled => PUpdate1 n (mk_input cfg Restricted n (p_lb s)) m | _ => PAbort n end)) ->
      gstep same ord s w s'
  | GT_update1 n inp m : nth_error (p_workers s) w = Some (PUpdate1 n inp m) ->
      view s' = mkV (p_simple s) (p_ongoing s) (p_open s) (p_ongoing_by_layer s) (mub_lb (p_lb s) inp m) (p_ub s)
                    (mub_sol (p_lb s) (p_sol s) inp m) (length (p_upper_bounds s)) (p_abort s) (p_crash s)
                    (setw s w (if dd_is_exact m then PNotify n false else PReadLb2 n)) ->
      gstep same ord s w s'
  | GT_compile2 n m o c ds polls : nth_error (p_workers s) w = Some (PReadLb2 n) ->
      compile st_eqb (mk_input cfg Relaxed n (p_lb s)) 0 0 c ds polls = (m, o) ->
      view s' = mkV (p_simple s) (p_ongoing s) (p_open s) (p_ongoing_by_layer s) (p_lb s) (p_ub s) (p_sol s)
                    (length (p_upper_bounds s)) (p_abort s) (p_crash s || m_crash m)%bool
                    (setw s w (match o with Compiled => PUpdate2 n (mk_input cfg Relaxed n (p_lb s)) m | _ => PAbort n end)) ->
      gstep same ord s w s'
  | GT_update2 n inp m : nth_error (p_workers s) w = Some (PUpdate2 n inp m) ->
      view s' = mkV (p_simple s) (p_ongoing s) (p_open s) (p_ongoing_by_layer s) (mub_lb (p_lb s) inp m) (p_ub s)
                    (mub_sol (p_lb s) (p_sol s) inp m) (length (p_upper_bounds s)) (p_abort s) (p_crash s)
                    (setw s w (if dd_is_exact m then PNotify n false else PEnqueue n inp m)) ->
      gstep same ord s w s'
  | GT_enqueue n inp m L' op' : nth_error (p_workers s) w = Some (PEnqueue n inp m) ->
      pushes same (p_simple s) L' (kept (p_lb s) (sp_ub n) (drain_cutset inp m)) ->
      length op' = length (p_open s) ->
      (forall d, nth_error (p_open s) d = Some (cnt d (p_simple s)) -> nth_error op' d = Some (cnt d L')) ->
      view s' = mkV L' (p_ongoing s) op' (p_ongoing_by_layer s) (p_lb s) (p_ub s) (p_sol s)
                    (length (p_upper_bounds s)) (p_abort s) (p_crash s) (setw s w (PNotify n false)) ->
      gstep same ord s w s'
  | GT_abort n ub' : nth_error (p_workers s) w = Some (PAbort n) ->
      view s' = mkV [] (p_ongoing s) (p_open s) (p_ongoing_by_layer s) (p_lb s) ub' (p_sol s)
                    (length (p_upper_bounds s)) true (p_crash s) (setw s w (PNotify n true)) ->
      gstep same ord s w s'
  | GT_notify n ea k j : nth_error (p_workers s) w = Some (PNotify n ea) ->
      p_ongoing s = S k -> nth_error (p_ongoing_by_layer s) (sp_depth n) = Some (S j) ->
      view s' = mkV (p_simple s) k (p_open s) (upd_nth (sp_depth n) (fun _ => j) (p_ongoing_by_layer s)) (p_lb s)
                    (p_ub s) (p_sol s) (length (p_upper_bounds s)) (p_abort s) (p_crash s)
                    (upd_nth w (fun _ => if ea then PExited else PGetWork) (map wake (p_workers s))) ->
      gstep same ord s w s'.

  Lemma pstep_gstep ord s w s' : pstep s w s' -> gstep no_key ord s w s'.
  Proof.
    intros Hst.
    destruct Hst as [Ew G1 G2 G3 Hv|Ew G1 Hv|Ew G1 G2 G3 Hv|x rest Ew G1 G2 G3 Hv|x rest k Ew G1 G2 G3 G4 Hv
                  |n Ew G1 Hv|n m o c ds polls Ew G1 Hc Hv|n inp m Ew Hv|n m o c ds polls Ew Hc Hv|n inp m Ew Hv
                  |n inp m op' Ew L1 L2 Hv|n ub' Ew Hv|n ea k j Ew G1 G2 Hv];
      [apply GT_complete|apply GT_aborted|apply GT_wait|eapply GT_starve|eapply GT_item|eapply GT_prune|eapply GT_compile1
      |eapply GT_update1|eapply GT_compile2|eapply GT_update2|eapply GT_enqueue|eapply GT_abort|eapply GT_notify]; eauto.
    - exact (pq_pop_perm _ _ _ _ G2).
    - intros _. exact (pq_pop_max _ _ _ G2).
    - exact (pq_pop_perm _ _ _ _ G2).
    - apply pushes_insert.
    - intros d Hd. rewrite (L2 d _ Hd). unfold cnt, cntp. rewrite sumf_app, sumf_rev. f_equal. lia.
  Qed.

  (* [Proof using], here and further down: the list is what the statement keeps of the section's variables and
     premises once the section is closed, whatever the script happens to touch; the other files apply these lemmas with
     explicit arguments, and the closed statements of the theorems are what Props/ restates. *)
  Lemma busy_cnt_pos ws w p : nth_error ws w = Some p -> is_busy p = true -> (0 < cntp is_busy ws)%nat.
  Proof using cfg. apply cntp_pos. Qed.
  Lemma busy_at_cnt_pos ws w p n : nth_error ws w = Some p -> busy_node p = Some n ->
    (0 < cntp (busy_at (sp_depth n)) ws)%nat.
  Proof using cfg. intros Hn Hb. apply (cntp_pos _ _ _ _ Hn). unfold busy_at. rewrite Hb. apply Nat.eqb_refl. Qed.

  Definition runnable (p : pc) : bool := match p with PParked | PExited => false | _ => true end.

  Lemma enabled_spec s w : In w (enabled s) <-> exists p, nth_error (p_workers s) w = Some p /\ runnable p = true.
  Proof.
    unfold enabled. rewrite filter_In, in_seq. split.
    - intros [_ H]. destruct (nth_error (p_workers s) w) as [p|]; [|discriminate]. exists p. split; [reflexivity|].
      destruct p; try discriminate; reflexivity.
    - intros (p & Hp & Hr). split; [pose proof (nth_error_Some_lt _ _ _ Hp); lia|]. rewrite Hp.
      destruct p; try discriminate; reflexivity.
  Qed.

  Lemma choose_spec en sched last : en <> [] -> exists w rest, choose en sched last = (Some w, rest) /\ In w en.
  Proof.
    intros Hne. destruct en as [|e en]; [congruence|]. unfold choose.
    destruct sched as [|c sched].
    - destruct last as [l|].
      + destruct (existsb (Nat.eqb l) (e :: en)) eqn:Ex.
        * apply existsb_exists in Ex. destruct Ex as (x & Hx & Heq). apply Nat.eqb_eq in Heq. subst x. eauto.
        * exists e, []. split; [reflexivity|left; reflexivity].
      + exists e, []. split; [reflexivity|left; reflexivity].
    - destruct (nth_error_lt_Some (e :: en) (Nat.modulo c (length (e :: en)))) as [x Hx].
      { apply Nat.mod_upper_bound. cbn [length]. lia. }
      exists x, sched. rewrite Hx. split; [reflexivity|]. eapply nth_error_In; eauto.
  Qed.

  Lemma par_step_enabled s w : In w (enabled s) -> exists s' st, par_step st_eqb cfg s w = Some (s', st).
  Proof.
    intros H. apply enabled_spec in H. destruct H as (p & Hp & Hr). unfold par_step. rewrite Hp.
    destruct p; try discriminate; eauto.
    - destruct (get_workload st_eqb cfg s w) as [s1 r]. eauto.
    - destruct (p_compile st_eqb cfg s Relaxed n (p_lb s)) as [[[s1 inp] m] o]. eauto.
    - destruct (pf_pop st_eqb cfg s) as [s1 top]. eauto.
    - destruct (p_ongoing s); [eauto|]. destruct (nth_error (p_ongoing_by_layer s) (sp_depth n)) as [[|j]|]; [eauto| |eauto].
      destruct (nth_error (p_upper_bounds s) w); eauto.
  Qed.

  (* A run from a state that satisfies an invariant P of par_step ends in such a state, reports PFinished only when every
     worker has exited, and does not deadlock if P always leaves somebody who can run *)
  Lemma par_run_preserves (P : pstate -> Prop) :
    (forall s w s' st, P s -> par_step st_eqb cfg s w = Some (s', st) -> P s') ->
    forall fuel s sched last trace s' tr e, P s ->
    par_run st_eqb cfg fuel s sched last trace = (s', tr, e) ->
    P s' /\ (e = PFinished -> all_exited s' = true) /\
    ((forall s, P s -> all_exited s = false -> enabled s <> []) -> e <> PDeadlock).
  Proof.
    intros Hstep. induction fuel as [|fuel IH]; intros s sched last trace s' tr e HP; cbn [par_run].
    - intros [= <- <- <-]. split; [exact HP|]. split; [discriminate|intros _; discriminate].
    - destruct (all_exited s) eqn:Eall.
      { intros [= <- <- <-]. split; [exact HP|]. split; [intros _; exact Eall|intros _; discriminate]. }
      destruct (choose (enabled s) sched last) as [[w|] rest] eqn:Ech.
      + destruct (par_step st_eqb cfg s w) as [[s1 st]|] eqn:Hst; [apply IH; eapply Hstep; eauto|].
        intros [= <- <- <-]. split; [exact HP|]. split; [discriminate|]. intros Hlive _.
        destruct (choose_spec _ sched last (Hlive s HP Eall)) as (w' & rest' & Hch & Hin).
        rewrite Ech in Hch. injection Hch as <- <-. destruct (par_step_enabled s w Hin) as (s1 & st & H1). congruence.
      + intros [= <- <- <-]. split; [exact HP|]. split; [discriminate|]. intros Hlive _.
        destruct (choose_spec _ sched last (Hlive s HP Eall)) as (w' & rest' & Hch & _). congruence.
  Qed.

  (* ... and it finishes if, moreover, every transition decreases a measure that the fuel exceeds *)
  Lemma par_run_finishes (P : pstate -> Prop) (mu : pstate -> nat) :
    (forall s, P s -> all_exited s = false -> enabled s <> []) ->
    (forall s w s' st, P s -> par_step st_eqb cfg s w = Some (s', st) -> P s' /\ (mu s' < mu s)%nat) ->
    forall fuel s sched last trace s' tr e, P s -> (mu s < fuel)%nat ->
    par_run st_eqb cfg fuel s sched last trace = (s', tr, e) -> e = PFinished.
  Proof.
    intros Hlive Hstep. induction fuel as [|fuel IH]; intros s sched last trace s' tr e HP Hmu; [lia|]. cbn [par_run].
    destruct (all_exited s) eqn:Eall; [intros [= _ _ <-]; reflexivity|].
    destruct (choose_spec (enabled s) sched last (Hlive s HP Eall)) as (w & rest & Hch & Hin). rewrite Hch.
    destruct (par_step_enabled s w Hin) as (s1 & st & Hst). rewrite Hst.
    destruct (Hstep _ _ _ _ HP Hst) as [HP1 Hlt]. apply IH; [exact HP1|lia].
  Qed.

  Section PartA.
  (* a compilation never panics; the nodes of a relaxed diagram's cut-set are well formed and their depth is a layer
     index (quantified over ALL compile calls: any cache / dominance store / poll counter / best_lb) *)
  Hypothesis HA_nocrash : forall ct n lb c ds polls m out,
    dd_ct ct -> good n -> (sp_depth n <= N)%nat ->
    compile st_eqb (mk_input cfg ct n lb) 0 0 c ds polls = (m, out) -> m_crash m = false.
  Hypothesis HA_cut : forall n lb c ds polls m,
    good n -> (sp_depth n <= N)%nat ->
    compile st_eqb (mk_input cfg Relaxed n lb) 0 0 c ds polls = (m, Compiled) ->
    dd_is_exact m = false ->
    forall x, In x (drain_cutset (mk_input cfg Relaxed n lb) m) -> good x /\ (sp_depth x <= N)%nat.

  Lemma par_step_cases s w s' st : PInv s -> par_step st_eqb cfg s w = Some (s', st) -> pstep s w s'.
  Proof.
    intros HI. unfold par_step. destruct (nth_error (p_workers s) w) as [p|] eqn:Ew; [|discriminate].
    assert (Hw : (w < length (p_workers s))%nat) by (eapply nth_error_Some_lt; eauto).
    pose proof (PInv_pc _ _ _ HI Ew) as Hok.
    destruct p; try discriminate.
    - (* PGetWork *)
      destruct (get_workload st_eqb cfg s w) as [s1 r] eqn:Eg.
      apply (get_workload_spec s w s1 r HI Hw) in Eg. intros [= <- <-].
      destruct Eg as [G1 G2 G3 Hv|G1 Hv|G1 G2 G3 Hv|x rest G1 G2 G3 Hv|x rest k G1 G2 G3 G4 Hv];
        [apply ST_complete|apply ST_aborted|apply ST_wait|eapply ST_starve|eapply ST_item]; eauto;
        apply view_set_worker_eq, Hv.
    - (* PReadLb1 *)
      intros [= <- <-]. destruct (sp_ub n <=? p_lb s) eqn:E.
      + apply Z.leb_le in E. apply ST_prune with (n := n); auto.
      + apply Z.leb_gt in E.
        destruct (p_compile st_eqb cfg s Restricted n (p_lb s)) as [[[s1 inp] m] o] eqn:Ec.
        apply p_compile_spec in Ec. destruct Ec as (-> & Hc & Hv).
        eapply ST_compile1; eauto. destruct o; apply view_set_worker_eq, Hv.
    - (* PUpdate1 *)
      intros [= <- <-]. eapply ST_update1; eauto.
      destruct (dd_is_exact m); apply view_set_worker_eq, view_mub.
    - (* PReadLb2 *)
      destruct (p_compile st_eqb cfg s Relaxed n (p_lb s)) as [[[s1 inp] m] o] eqn:Ec.
      apply p_compile_spec in Ec. destruct Ec as (-> & Hc & Hv). intros [= <- <-].
      eapply ST_compile2; eauto. destruct o; apply view_set_worker_eq, Hv.
    - (* PUpdate2 *)
      intros [= <- <-]. eapply ST_update2; eauto.
      destruct (dd_is_exact m); apply view_set_worker_eq, view_mub.
    - (* PEnqueue *)
      intros [= <- <-].
      cbn [pc_ok] in Hok. destruct Hok as (Hg & Hd & (lb0 & c & ds & polls & Hlb0 & -> & Hc) & Hex & Hev).
      rewrite p_enqueue_cutset_fold.
      destruct (enq_fold_spec (p_lb s) (sp_ub n) (drain_cutset (mk_input cfg Relaxed n lb0) m) s) as (op' & L1 & L2 & L3).
      { intros x Hx. destruct (HA_cut _ _ _ _ _ _ Hg Hd Hc Hex x Hx) as [_ Hdx].
        destruct (PInv_fields s HI) as (_ & _ & I3 & _). lia. }
      eapply ST_enqueue; eauto. apply view_set_worker_eq, L3.
    - (* PAbort *)
      rewrite pf_pop_simple.
      destruct (pq_pop cfg (p_simple s)) as [[x rest]|]; intros [= <- <-]; eapply ST_abort; eauto; reflexivity.
    - (* PNotify *)
      destruct (PInv_fields s HI) as (_ & I2 & _ & _ & I5 & _ & _ & _ & I9 & _).
      pose proof (busy_cnt_pos _ _ _ Ew eq_refl) as P1. rewrite <- I2 in P1.
      pose proof (busy_at_cnt_pos _ _ _ n Ew eq_refl) as P2.
      cbn [pc_ok] in Hok. destruct Hok as [Hg Hd]. rewrite (I5 _ Hd).
      destruct (p_ongoing s) as [|k] eqn:Eo; [lia|].
      destruct (cntp (busy_at (sp_depth n)) (p_workers s)) as [|j] eqn:Ej; [lia|].
      destruct (nth_error_lt_Some (p_upper_bounds s) w) as [u ->]; [lia|].
      intros [= <- <-]. eapply ST_notify; eauto.
      + rewrite (I5 _ Hd), Ej. reflexivity.
      + unfold view. psimp. rewrite upd_nth_length. reflexivity.
  Qed.

  Lemma cntp_wake (f : pc -> bool) ws : (forall p, f (wake p) = f p) -> cntp f (map wake ws) = cntp f ws.
  Proof.
    intros H. unfold cntp. induction ws as [|p ws IH]; cbn [map sumf]; [reflexivity|]. rewrite H, IH. reflexivity.
  Qed.

  (* notify_all: parked workers become runnable, nothing else changes *)
  Lemma PInvV_wake v : PInvV v ->
    PInvV (mkV (v_simple v) (v_ongoing v) (v_open v) (v_obl v) (v_lb v) (v_ub v) (v_sol v) (v_nubs v) (v_abort v)
               (v_crash v) (map wake (v_workers v))).
  Proof.
    intros (I1 & I2 & I3 & I4 & I5 & I6 & I7 & I8 & I9 & I10).
    assert (Hb : forall d p, busy_at d (wake p) = busy_at d p) by (intros d p; unfold busy_at; rewrite busy_node_wake; reflexivity).
    unfold PInvV. cbn [v_simple v_ongoing v_open v_obl v_lb v_ub v_sol v_nubs v_abort v_crash v_workers].
    split; [exact I1|]. split.
    { rewrite cntp_wake; [exact I2|]. intros p. unfold is_busy. rewrite busy_node_wake. reflexivity. }
    split; [exact I3|]. split; [exact I4|]. split; [intros d Hd; rewrite cntp_wake; auto|].
    split; [rewrite Forall_map; eapply Forall_impl; [|exact I6]; intros []; cbn [wake pc_ok]; auto|].
    split; [exact I7|]. split; [exact I8|]. split; [rewrite map_length; exact I9|].
    intros Hin. apply in_map_iff in Hin. destruct Hin as ([] & Ha & _); discriminate.
  Qed.

  (* Worker w moves from p to p'.  The counters of busy workers follow busy_node; the fringe, its counters, the bounds
     and the flags may change as long as their own clauses hold again. *)
  Lemma PInvV_step v w p p' simple' ongoing' open' obl' lb' ub' sol' abort' crash' :
    PInvV v -> nth_error (v_workers v) w = Some p ->
    (ongoing' + (if is_busy p then 1 else 0) = v_ongoing v + (if is_busy p' then 1 else 0))%nat ->
    length obl' = S N ->
    (forall d k, nth_error (v_obl v) d = Some k -> exists k', nth_error obl' d = Some k' /\
       (k' + (if busy_at d p then 1 else 0) = k + (if busy_at d p' then 1 else 0))%nat) ->
    v_lb v <= lb' -> pc_ok lb' p' ->
    (p' = PParked \/ In PParked (v_workers v) -> (0 < ongoing')%nat) -> crash' = false ->
    (forall n, In n simple' -> good n /\ (sp_depth n <= N)%nat) -> length open' = S N ->
    (abort' = true \/ forall d, (d <= N)%nat -> nth_error open' d = Some (cnt d simple')) ->
    PInvV (mkV simple' ongoing' open' obl' lb' ub' sol' (v_nubs v) abort' crash' (upd_nth w (fun _ => p') (v_workers v))).
  Proof.
    intros (I1 & I2 & I3 & I4 & I5 & I6 & I7 & I8 & I9 & I10) Ew Hon Hlobl Hobl Hlb Hok Hpark Hcr Hfr Hlen Hop.
    unfold PInvV. cbn [v_simple v_ongoing v_open v_obl v_lb v_ub v_sol v_nubs v_abort v_crash v_workers].
    split; [exact Hcr|]. split.
    { pose proof (cntp_upd_nth is_busy w p' p _ Ew). lia. }
    split; [exact Hlen|]. split; [exact Hlobl|]. split.
    { intros d Hd. destruct (Hobl d _ (I5 d Hd)) as (k' & -> & Hk). pose proof (cntp_upd_nth (busy_at d) w p' p _ Ew).
      f_equal. lia. }
    split.
    { apply Forall_upd_nth; [|exact Hok]. eapply Forall_impl; [|exact I6]. intros a. apply pc_ok_mono. exact Hlb. }
    split; [exact Hfr|]. split; [exact Hop|]. split; [rewrite upd_nth_length; exact I9|].
    intros Hin. apply In_upd_nth in Hin. apply Hpark. destruct Hin as [Hin|Hin]; [left; congruence|right; exact Hin].
  Qed.

  (* the usual case: p' works on the same node as p, so no counter of busy workers moves *)
  Lemma PInvV_frame v w p p' simple' open' lb' ub' sol' abort' crash' :
    PInvV v -> nth_error (v_workers v) w = Some p -> busy_node p' = busy_node p -> v_lb v <= lb' -> pc_ok lb' p' ->
    (p' = PParked -> (0 < v_ongoing v)%nat) -> crash' = false ->
    (forall n, In n simple' -> good n /\ (sp_depth n <= N)%nat) -> length open' = S N ->
    (abort' = true \/ forall d, (d <= N)%nat -> nth_error open' d = Some (cnt d simple')) ->
    PInvV (mkV simple' (v_ongoing v) open' (v_obl v) lb' ub' sol' (v_nubs v) abort' crash'
               (upd_nth w (fun _ => p') (v_workers v))).
  Proof.
    intros HI Ew Hb Hlb Hok Hpark. apply PInvV_step with (p := p); auto.
    - unfold is_busy. rewrite Hb. reflexivity.
    - apply HI.
    - intros d k Hk. exists k. split; [exact Hk|]. unfold busy_at. rewrite Hb. reflexivity.
    - intros [E|Hin]; [auto|]. apply HI, Hin.
  Qed.

  Lemma pushes_fringe (same : subproblem -> subproblem -> Prop) L L' ks :
    (forall a b, same a b -> sp_depth a = sp_depth b) -> pushes same L L' ks ->
    FringeOK cfg good L -> FringeOK cfg good ks -> FringeOK cfg good L'.
  Proof.
    intros Hsd. induction 1 as [L|L L1 L' n ks Hp _ IH]; intros HF Hk; [exact HF|].
    destruct (Hk n (or_introl eq_refl)) as [Hg Hd]. apply IH.
    - exact (pushed_by_fringe cfg good good_set_ub same Hsd _ _ _ Hp HF Hg Hd).
    - intros n0 Hn0. apply Hk. right. exact Hn0.
  Qed.

  (* what enqueue_cutset keeps of the cut-set of a relaxed, inexact diagram is well formed *)
  Lemma kept_ok n lb0 lb c ds polls m : good n -> (sp_depth n <= N)%nat ->
    compile st_eqb (mk_input cfg Relaxed n lb0) 0 0 c ds polls = (m, Compiled) -> dd_is_exact m = false ->
    FringeOK cfg good (kept lb (sp_ub n) (drain_cutset (mk_input cfg Relaxed n lb0) m)).
  Proof.
    intros Hg Hd Hc Hex x Hx. apply In_kept in Hx. destruct Hx as (c0 & Hc0 & _ & ->).
    destruct (HA_cut _ _ _ _ _ _ Hg Hd Hc Hex c0 Hc0) as [Hg0 Hd0]. split; [apply good_set_ub; exact Hg0|exact Hd0].
  Qed.

  Lemma gstep_inv (same : subproblem -> subproblem -> Prop) ord s w s' : (forall a b, same a b -> sp_depth a = sp_depth b) ->
    PInv s -> gstep same ord s w s' -> PInv s'.
  Proof.
    intros Hsd HI Hst. destruct (PInv_fields s HI) as (I1 & I2 & I3 & I4 & I5 & I6 & I7 & I8 & I9 & I10).
    unfold PInv.
    gstep_cases Hst;
      rewrite Hv; pose proof (PInv_pc _ _ _ HI Ew) as Hok; cbn [pc_ok] in Hok.
    - (* complete *)
      apply (PInvV_frame (view s) w PGetWork PExited); auto; try reflexivity; try discriminate; try (cbn; lia).
    - apply (PInvV_frame (view s) w PGetWork PExited); auto; try reflexivity; try discriminate; try (cbn; lia).
    - apply (PInvV_frame (view s) w PGetWork PParked); auto; try reflexivity; try (cbn; lia).
    - (* starve *)
      apply (PInvV_frame (view s) w PGetWork PGetWork); auto; try reflexivity; try discriminate; try (cbn; lia).
      + rewrite map_length. exact I3.
      + right. intros d Hd. rewrite nth_error_map.
        destruct (nth_error_lt_Some (p_open s) d) as [a Ha]; [lia|]. rewrite Ha. reflexivity.
    - (* item *)
      destruct I8 as [I8|I8]; [congruence|].
      destruct (I7 x (Permutation_in _ (Permutation_sym G2) (or_introl eq_refl))) as [Hgx Hdx].
      apply (PInvV_step (view s) w PGetWork (PReadLb1 x)); auto; try reflexivity; try discriminate;
        try (rewrite upd_nth_length; assumption).
      + cbn. lia.
      + intros d k0 Hk. rewrite (nth_error_upd_nth _ _ _ _ _ Hk). eexists. split; [reflexivity|].
        unfold busy_at. cbn [busy_node]. destruct (Nat.eqb (sp_depth x) d); lia.
      + cbn [pc_ok]. auto.
      + intros _. lia.
      + intros y Hy. apply I7. exact (Permutation_in _ (Permutation_sym G2) (or_intror Hy)).
      + right. intros d Hd. rewrite (nth_error_upd_nth _ _ _ _ _ (I8 d Hd)). f_equal.
        destruct (Nat.eqb_spec (sp_depth x) d) as [<-|Hne].
        * rewrite (I8 _ Hd), (cnt_perm _ _ _ G2), cnt_cons_same in G4. congruence.
        * rewrite (cnt_perm _ _ _ G2), cnt_cons_other by exact Hne. reflexivity.
    - (* prune *)
      apply (PInvV_frame (view s) w (PReadLb1 n) (PNotify n false)); auto; try reflexivity; try discriminate; try (cbn; lia).
    - (* compile1 *)
      destruct Hok as [Hg Hd].
      apply (PInvV_frame (view s) w (PReadLb1 n)); auto; try reflexivity; try (cbn; lia).
      + destruct o; reflexivity.
      + destruct o; cbn [pc_ok]; eauto using compiled_from_refl.
      + destruct o; discriminate.
      + rewrite I1. eapply (HA_nocrash Restricted); eauto. left; reflexivity.
    - (* update1 *)
      destruct Hok as (Hg & Hd & Hcf). destruct (mub_lb_ge (p_lb s) inp m) as [Hge _].
      apply (PInvV_frame (view s) w (PUpdate1 n inp m)); auto; try reflexivity.
      + destruct (dd_is_exact m); reflexivity.
      + destruct (dd_is_exact m); cbn [pc_ok]; auto.
      + destruct (dd_is_exact m); discriminate.
    - (* compile2 *)
      destruct Hok as [Hg Hd].
      apply (PInvV_frame (view s) w (PReadLb2 n)); auto; try reflexivity; try (cbn; lia).
      + destruct o; reflexivity.
      + destruct o; cbn [pc_ok]; eauto using compiled_from_refl.
      + destruct o; discriminate.
      + rewrite I1. eapply (HA_nocrash Relaxed); eauto. right; reflexivity.
    - (* update2 *)
      destruct Hok as (Hg & Hd & Hcf). destruct (mub_lb_ge (p_lb s) inp m) as [Hge Hev].
      apply (PInvV_frame (view s) w (PUpdate2 n inp m)); auto; try reflexivity.
      + destruct (dd_is_exact m); reflexivity.
      + destruct (dd_is_exact m) eqn:Eex; cbn [pc_ok]; auto.
        split; [auto|]. split; [auto|]. split; [eapply compiled_from_mono; eauto|]. auto.
      + destruct (dd_is_exact m); discriminate.
    - (* enqueue: the pushed nodes are well formed, and open_by_layer still counts the entries *)
      destruct Hok as (Hg & Hd & (lb0 & c & ds & polls & Hlb0 & -> & Hc) & Hex & Hev).
      apply (PInvV_frame (view s) w (PEnqueue n (mk_input cfg Relaxed n lb0) m) (PNotify n false)); auto;
        try reflexivity; try discriminate; try (cbn; lia).
      + cbn [pc_ok]. auto.
      + exact (pushes_fringe same _ _ _ Hsd P I7 (kept_ok n lb0 _ c ds polls m Hg Hd Hc Hex)).
      + destruct I8 as [I8|I8]; [left; exact I8|right]. intros d Hd'. exact (L2 d (I8 d Hd')).
    - (* abort *)
      apply (PInvV_frame (view s) w (PAbort n) (PNotify n true)); auto; try reflexivity; try discriminate; try (cbn; lia).
    - (* notify *)
      apply (PInvV_step _ w (PNotify n ea) (if ea then PExited else PGetWork) _ _ _ _ _ _ _ _ _ (PInvV_wake _ HI));
        cbn [view v_simple v_ongoing v_open v_obl v_lb v_ub v_sol v_nubs v_abort v_crash v_workers]; auto;
        try (rewrite upd_nth_length; assumption).
      + rewrite nth_error_map, Ew. reflexivity.
      + rewrite G1. destruct ea; cbn; lia.
      + intros d k0 Hk. rewrite (nth_error_upd_nth _ _ _ _ _ Hk). eexists. split; [reflexivity|].
        unfold busy_at. cbn [busy_node].
        replace (busy_node (if ea then PExited else PGetWork)) with (@None subproblem) by (destruct ea; reflexivity).
        destruct (Nat.eqb_spec (sp_depth n) d) as [<-|_]; [|lia]. rewrite G2 in Hk. injection Hk as <-. lia.
      + lia.
      + destruct ea; exact I.
      + intros [E|Hin]; [destruct ea; discriminate|]. apply in_map_iff in Hin. destruct Hin as ([] & Ha & _); discriminate.
  Qed.

  Theorem par_step_inv s w s' st : PInv s -> par_step st_eqb cfg s w = Some (s', st) -> PInv s'.
  Proof.
    intros HI H. apply (gstep_inv no_key True s w s'); [intros a b []|exact HI|]. apply pstep_gstep. eapply par_step_cases; eauto.
  Qed.

  Definition init_lb (primal : option (Z * list decision)) : Z :=
    match primal with Some (v, _) => if v >? IMIN then v else IMIN | None => IMIN end.
  Definition init_sol (primal : option (Z * list decision)) : option (list decision) :=
    match primal with Some (v, sl) => if v >? IMIN then Some sl else None | None => None end.

  Lemma view_init c n primal : view (init_pstate st_eqb cfg c n primal) =
    mkV [root_node cfg] O (upd_nth O S (repeat O (S N))) (repeat O (S N)) (init_lb primal) IMAX (init_sol primal)
        c false false (repeat PGetWork n).
  Proof.
    unfold init_pstate. rewrite simple_fringe.
    destruct primal as [[v sl]|]; [destruct (v >? IMIN) eqn:E|]; vsimp; unfold init_lb, init_sol; rewrite ?E, repeat_length;
      reflexivity.
  Qed.

  Lemma PInvV_init T lb sol :
    PInvV (mkV [root_node cfg] O (upd_nth O S (repeat O (S N))) (repeat O (S N)) lb IMAX sol T false false (repeat PGetWork T)).
  Proof.
    unfold PInvV.
    cbn [v_simple v_ongoing v_open v_obl v_lb v_ub v_sol v_nubs v_abort v_crash v_workers].
    split; [reflexivity|]. split; [symmetry; apply cntp_repeat_false; reflexivity|].
    split; [rewrite upd_nth_length, repeat_length; reflexivity|]. split; [apply repeat_length|]. split.
    { intros d Hd. rewrite nth_error_repeat by lia. f_equal. symmetry. apply cntp_repeat_false. reflexivity. }
    split.
    { apply Forall_forall. intros p Hp. apply repeat_spec in Hp. subst p. exact I. }
    split.
    { intros n [<-|[]]. split; [exact good_root|]. cbn [root_node sp_depth]. lia. }
    split.
    { right. intros d Hd. destruct d as [|d].
      - reflexivity.
      - cbn [repeat upd_nth nth_error]. rewrite nth_error_repeat by lia.
        rewrite cnt_cons_other by (cbn [root_node sp_depth]; lia). reflexivity. }
    split; [rewrite repeat_length; reflexivity|].
    intros Hin. apply repeat_spec in Hin. discriminate.
  Qed.

  Lemma PInv_init T primal : PInv (init_pstate st_eqb cfg T T primal).
  Proof. unfold PInv. rewrite view_init. apply PInvV_init. Qed.

  Lemma forallb_false_ex {A} (f : A -> bool) l : forallb f l = false -> exists x, In x l /\ f x = false.
  Proof.
    induction l as [|x l IH]; cbn [forallb]; [discriminate|]. destruct (f x) eqn:E.
    - intros H. destruct (IH H) as (y & Hy & Hf). exists y. split; [right; exact Hy|exact Hf].
    - intros _. exists x. split; [left; reflexivity|exact E].
  Qed.

  (* the lost-wake-up argument: somebody who is neither parked nor exited always exists *)
  Lemma no_deadlock_state s : PInv s -> all_exited s = false -> enabled s <> [].
  Proof.
    intros HI Hne Hen. destruct (PInv_fields s HI) as (_ & I2 & _ & _ & _ & _ & _ & _ & _ & I10).
    assert (Hnone : forall w p, nth_error (p_workers s) w = Some p -> runnable p = false).
    { intros w p Hp. destruct (runnable p) eqn:E; [|reflexivity].
      assert (Hin : In w (enabled s)) by (apply enabled_spec; eauto). rewrite Hen in Hin. destruct Hin. }
    apply forallb_false_ex in Hne. destruct Hne as (p & Hp & Hf).
    apply In_nth_error in Hp. destruct Hp as [w Hw]. pose proof (Hnone _ _ Hw) as Hr.
    assert (p = PParked) by (destruct p; try discriminate; reflexivity). subst p.
    apply nth_error_In in Hw. specialize (I10 Hw). rewrite I2 in I10.
    apply cntp_pos_In in I10. destruct I10 as (q & Hq & Hb).
    apply In_nth_error in Hq. destruct Hq as [w' Hw']. pose proof (Hnone _ _ Hw') as Hr'.
    destruct q; discriminate.
  Qed.

  Lemma par_run_inv fuel s sched last trace s' tr e : PInv s ->
    par_run st_eqb cfg fuel s sched last trace = (s', tr, e) -> PInv s' /\ e <> PDeadlock.
  Proof.
    intros HI E. destruct (par_run_preserves PInv par_step_inv _ _ _ _ _ _ _ _ HI E) as (HI' & _ & Hlive).
    split; [exact HI'|exact (Hlive no_deadlock_state)].
  Qed.

  (* C04, first half: for every schedule, thread count and fuel the run never deadlocks ... *)
  Theorem par_no_deadlock T primal fuel sched s' tr e :
    par_run st_eqb cfg fuel (init_pstate st_eqb cfg T T primal) sched None [] = (s', tr, e) ->
    e = PFinished \/ e = POutOfFuel.
  Proof.
    intros H. apply par_run_inv in H; [|apply PInv_init]. destruct H as [_ H]. destruct e; auto. congruence.
  Qed.

  (* ... and no worker ever panics *)
  Theorem par_never_crashes T primal fuel sched s' tr e :
    par_run st_eqb cfg fuel (init_pstate st_eqb cfg T T primal) sched None [] = (s', tr, e) -> p_crash s' = false.
  Proof.
    intros H. apply par_run_inv in H; [|apply PInv_init]. destruct H as [H _]. apply H.
  Qed.

  Corollary par_maximize_no_deadlock_no_crash T primal fuel sched :
    pr_end (par_maximize st_eqb cfg fuel T T primal sched) <> PDeadlock /\
    pr_crash (par_maximize st_eqb cfg fuel T T primal sched) = false.
  Proof.
    unfold par_maximize.
    destruct (par_run st_eqb cfg fuel (init_pstate st_eqb cfg T T primal) sched None []) as [[s' tr] e] eqn:E.
    cbn [pr_end pr_crash]. apply par_run_inv in E; [|apply PInv_init]. destruct E as [HI He]. split; [exact He|apply HI].
  Qed.

  Inductive reachable (T : nat) (primal : option (Z * list decision)) : pstate -> Prop :=
  | R_init : reachable T primal (init_pstate st_eqb cfg T T primal)
  | R_step s w s' st : reachable T primal s -> par_step st_eqb cfg s w = Some (s', st) -> reachable T primal s'.

  Lemma reachable_PInv T primal s : reachable T primal s -> PInv s.
  Proof. induction 1; [apply PInv_init|eapply par_step_inv; eauto]. Qed.

  (* C04, second half: completion is declared only when nothing is open or in progress *)
  Theorem complete_only_when_idle T primal s w s1 : reachable T primal s -> (w < length (p_workers s))%nat ->
    get_workload st_eqb cfg s w = (s1, GWComplete) ->
    p_ongoing s = O /\ p_simple s = [] /\ pf_len cfg s = O /\ p_abort s = false /\
    (forall w' p, nth_error (p_workers s) w' = Some p -> busy_node p = None /\ p <> PParked).
  Proof.
    intros HR Hw Hg. pose proof (reachable_PInv _ _ _ HR) as HI.
    pose proof (get_workload_spec s w s1 _ HI Hw Hg) as Hs. inversion Hs as [G1 G2 G3 Hv| | | |].
    split; [exact G1|]. split; [exact G2|]. split; [rewrite pf_len_simple, G2; reflexivity|]. split; [exact G3|].
    exact (PInv_idle s HI G1).
  Qed.

  End PartA.

  Lemma all_exited_spec (s : pstate) : all_exited s = true -> forall p, In p (p_workers s) -> p = PExited.
  Proof.
    unfold all_exited. intros H p Hp. rewrite forallb_forall in H. specialize (H p Hp). destruct p; try discriminate; reflexivity.
  Qed.

  (* The regime before any abort_search, for ANY cutoff: the optimum, while it exceeds the incumbent, is witnessed by a node
     of the fringe or by a node some worker answers for.  Part C below is the case where no compilation is ever cut short;
     ParAnytime.v builds the bounds of an aborted run on it.
     Premises: the contracts of SolverCutoff.v (they constrain only compilations whose outcome is Compiled, plus the
     absence of a model crash). *)
  Section Calm.
  Variable best : subproblem -> option Z.
  Variable feasible : list decision -> Z -> Prop.
  Hypothesis HK : contracts st_eqb good best feasible cfg.
  Hypothesis HS : semantics good best feasible cfg.
  Notation OPT := (@OPT St cfg best).
  Notation Incumbent := (Incumbent feasible).

  Lemma HA_cut_c : forall n lb c ds polls m,
    good n -> (sp_depth n <= nb_vars (sc_problem cfg))%nat ->
    compile st_eqb (mk_input cfg Relaxed n lb) 0 0 c ds polls = (m, Compiled) ->
    dd_is_exact m = false ->
    forall x, In x (drain_cutset (mk_input cfg Relaxed n lb) m) -> good x /\ (sp_depth x <= nb_vars (sc_problem cfg))%nat.
  Proof.
    destruct HK as (_ & _ & _ & K3g & K3d & _). intros n lb c ds polls m Hg Hd Hc Hex x Hx.
    split; [eapply K3g; eauto|eapply K3d; eauto].
  Qed.

  Lemma gstep_pinv (same : subproblem -> subproblem -> Prop) ord s w s' : (forall a b, same a b -> sp_depth a = sp_depth b) ->
    PInv s -> gstep same ord s w s' -> PInv s'.
  Proof. destruct HK as (Kcrash & _). apply (gstep_inv Kcrash HA_cut_c). Qed.

  (* entries with the [same] key may be coalesced: they lie at the same depth and have the same value-to-go *)
  Definition key_ok (same : subproblem -> subproblem -> Prop) : Prop :=
    (forall a b, same a b -> same b a) /\ (forall a b, same a b -> sp_depth a = sp_depth b) /\
    (forall a b, good a -> good b -> same a b -> forall oa, best a = Some oa -> best b = Some (oa - sp_value a + sp_value b)).
  Lemma no_key_ok : key_ok no_key.
  Proof. split; [|split]; intros a b; try intros _ _; intros []. Qed.

  Lemma PInv_busy s w p : PInv s -> nth_error (p_workers s) w = Some p -> is_busy p = true -> (0 < p_ongoing s)%nat.
  Proof.
    intros (_ & I2 & _) Ew Hb. cbn [view v_ongoing v_workers] in I2. rewrite I2. exact (busy_cnt_pos _ _ _ Ew Hb).
  Qed.

  (* the pcs that still carry the responsibility for the completions of their node; a worker whose compilation was
     cut short keeps it until it has called abort_search *)
  Definition owner (p : pc) : option subproblem :=
    match p with
    | PReadLb1 n | PUpdate1 n _ _ | PReadLb2 n | PUpdate2 n _ _ | PEnqueue n _ _ | PAbort n => Some n
    | _ => None
    end.
  Definition quiet (p : pc) : Prop := match p with PNotify _ true => False | _ => True end.

  Lemma owner_busy p n : owner p = Some n -> busy_node p = Some n.
  Proof. destruct p; cbn [owner busy_node]; intros H; try discriminate; exact H. Qed.
  Lemma quiet_wake p : quiet p -> quiet (wake p).
  Proof. destruct p; auto. Qed.

  (* o is still reachable through n: the best completion of n is worth at least o and n's bound does not hide it
     (SolverProofs.Leads; "at least" and not "exactly", so that the survivor of a coalescing push, which may be worth
     more than the node it replaces, qualifies) *)
  Definition witness (o : Z) (n : subproblem) : Prop := exists o', best n = Some o' /\ o <= o' /\ o <= sp_ub n.

  (* the optimum, when it exceeds the incumbent, is witnessed by an open node or by a node some worker answers for *)
  Definition Cover (simple : list subproblem) (ws : list pc) (lb : Z) : Prop :=
    forall o, OPT = Some o ->
      o <= lb \/ exists n, witness o n /\ (In n simple \/ exists p, In p ws /\ owner p = Some n).

  (* the regime before any abort: the witness is there; whoever has exited has seen the search complete; nobody is on
     its way out after an abort; best_ub is untouched until somebody exits *)
  Definition CalmV (v : vw) : Prop :=
    v_abort v = false /\ Cover (v_simple v) (v_workers v) (v_lb v) /\
    (In PExited (v_workers v) -> v_simple v = [] /\ v_ongoing v = O /\ v_ub v = v_lb v) /\
    Forall quiet (v_workers v) /\
    (~ In PExited (v_workers v) -> v_ub v = IMAX).

  (* worker w goes from p to p' (the others from ws to ws0: identity or wake): every witness in the fringe stays there,
     passes to w or is overtaken by the incumbent, and so does the witness w answered for *)
  Lemma CalmV_frame v ws0 w p p' simple' ongoing' open' obl' lb' ub' sol' nubs' crash' :
    CalmV v -> nth_error ws0 w = Some p ->
    (forall p0, In p0 (v_workers v) -> owner p0 = None \/ In p0 ws0) ->
    Forall quiet ws0 -> quiet p' -> v_lb v <= lb' ->
    (forall n o, In n (v_simple v) -> witness o n ->
       (exists c, In c simple' /\ witness o c) \/ owner p' = Some n \/ o <= lb') ->
    (forall n o, owner p = Some n -> OPT = Some o -> witness o n ->
       owner p' = Some n \/ o <= lb' \/ exists c, In c simple' /\ witness o c) ->
    (In PExited (upd_nth w (fun _ => p') ws0) -> simple' = [] /\ ongoing' = O /\ ub' = lb') ->
    (~ In PExited (upd_nth w (fun _ => p') ws0) -> ub' = IMAX) ->
    CalmV (mkV simple' ongoing' open' obl' lb' ub' sol' nubs' false crash' (upd_nth w (fun _ => p') ws0)).
  Proof.
    intros (_ & C4 & _ & _ & _) Ew Hown Hq0 Hq Hlb Hsim Howner Hexit Hnoexit.
    split; [reflexivity|]. split; [|split; [exact Hexit|split; [apply Forall_upd_nth; assumption|exact Hnoexit]]].
    cbn [v_simple v_workers v_lb]. intros o Ho.
    assert (Hw : forall n, owner p' = Some n -> exists p1, In p1 (upd_nth w (fun _ => p') ws0) /\ owner p1 = Some n).
    { intros n H. exists p'. split; [eapply nth_error_upd_In; eauto|exact H]. }
    destruct (C4 o Ho) as [Hle|(n & Hn & [Hin|(p0 & Hp0 & Hr0)])]; [left; lia| |].
    - destruct (Hsim n o Hin Hn) as [(c & Hc & Hwc)|[H|H]]; [right; exists c; auto|right; exists n; auto|left; exact H].
    - destruct (Hown p0 Hp0) as [H|H]; [congruence|].
      destruct (In_upd_nth_keep w p' p0 ws0 H) as [H'|H']; [right; exists n; eauto|].
      assert (p0 = p) by congruence. subst p0.
      destruct (Howner n o Hr0 Ho Hn) as [H1|[H1|(c & Hc & Hwc)]]; [right; exists n; auto|left; exact H1|right; exists c; auto].
  Qed.

  (* the usual case: w does not exit, and a node is open or in progress, so that nobody has exited *)
  Lemma CalmV_busy v w p p' {simple' ongoing' open' obl' lb' sol' nubs' crash'} :
    CalmV v -> nth_error (v_workers v) w = Some p ->
    (0 < v_ongoing v)%nat \/ v_simple v <> [] -> p' <> PExited -> quiet p' -> v_lb v <= lb' ->
    (forall n o, In n (v_simple v) -> witness o n ->
       (exists c, In c simple' /\ witness o c) \/ owner p' = Some n \/ o <= lb') ->
    (forall n o, owner p = Some n -> OPT = Some o -> witness o n ->
       owner p' = Some n \/ o <= lb' \/ exists c, In c simple' /\ witness o c) ->
    CalmV (mkV simple' ongoing' open' obl' lb' (v_ub v) sol' nubs' false crash' (upd_nth w (fun _ => p') (v_workers v))).
  Proof.
    intros HC Ew Hopen Hp' Hq Hlb Hsim Hresp. pose proof HC as (_ & _ & C5 & C2 & C7).
    assert (Hno : ~ In PExited (v_workers v)).
    { intros Hin. destruct (C5 Hin) as (E1 & E2 & _). destruct Hopen as [H|H]; [lia|exact (H E1)]. }
    apply (CalmV_frame v (v_workers v) w p p'); auto.
    intros Hin. apply In_upd_nth in Hin. destruct Hin as [Hin|Hin]; [congruence|contradiction].
  Qed.

  (* an exact diagram of n settles every witness n carried *)
  Lemma exact_settles ct n lb0 lb c ds polls m o : dd_ct ct -> good n -> (sp_depth n <= nb_vars (sc_problem cfg))%nat ->
    compile st_eqb (mk_input cfg ct n lb0) 0 0 c ds polls = (m, Compiled) -> dd_is_exact m = true -> lb0 <= lb ->
    witness o n -> o <= mub_lb lb (mk_input cfg ct n lb0) m.
  Proof.
    destruct HK as (_ & _ & K2 & _). intros Hct Hg Hd Hc Hex Hlb (o' & Hb & Hoo & _).
    destruct (mub_lb_ge lb (mk_input cfg ct n lb0) m) as [Hge Hev].
    destruct (Z_le_gt_dec o' lb0) as [Hle|Hgt]; [lia|].
    pose proof (Hev o' (K2 ct _ _ _ _ _ _ Hct Hg Hd Hc Hex o' Hb Hgt)). lia.
  Qed.

  (* an inexact relaxed diagram of n hands every witness n carried (above the incumbent) to a node of its cut-set
     that enqueue_cutset keeps *)
  Lemma cutset_witness n lb0 lb c ds polls m o : good n -> (sp_depth n <= nb_vars (sc_problem cfg))%nat ->
    compile st_eqb (mk_input cfg Relaxed n lb0) 0 0 c ds polls = (m, Compiled) -> dd_is_exact m = false -> lb0 <= lb ->
    (forall e, dd_best_exact_value (mk_input cfg Relaxed n lb0) m = Some e -> e <= lb) ->
    witness o n ->
    o <= lb \/ exists x, In x (kept lb (sp_ub n) (drain_cutset (mk_input cfg Relaxed n lb0) m)) /\ witness o x.
  Proof.
    destruct HK as (_ & _ & _ & _ & _ & K3u & K4), HS as (_ & _ & _ & _ & Hbest).
    intros Hg Hd Hc Hex Hlb Hev (o' & Hb & Hoo & Hu).
    destruct (Z_le_gt_dec o lb) as [Hle|Hgt]; [left; exact Hle|right].
    assert (Hgt0 : o' > lb0) by lia.
    destruct (K4 _ _ _ _ _ _ Hg Hd Hc Hex o' Hb Hgt0) as (x & Hx & Hbx).
    { intros e He. specialize (Hev e He). lia. }
    pose proof (K3u _ _ _ _ _ _ Hg Hd Hc Hex x Hx o' Hbx Hgt0) as Hux.
    exists (set_ub x (Z.min (sp_ub n) (sp_ub x))). split.
    - apply In_kept. exists x. split; [exact Hx|]. split; [lia|reflexivity].
    - exists o'. rewrite Hbest. cbn [set_ub sp_ub]. split; [exact Hbx|]. split; [exact Hoo|lia].
  Qed.

  Lemma wake_exited ws : In (@PExited St) (map wake ws) -> In PExited ws.
  Proof.
    intros Hin. apply in_map_iff in Hin. destruct Hin as (a & Ha & Hin). destruct a; try discriminate. exact Hin.
  Qed.

  (* the witnesses survive a sequence of pushes, possibly in the entry they are merged into *)
  Lemma pushes_witness same L L' ks o : key_ok same -> pushes same L L' ks -> FringeOK cfg good L -> FringeOK cfg good ks ->
    (exists x, In x (ks ++ L) /\ witness o x) -> exists x, In x L' /\ witness o x.
  Proof.
    destruct HS as (_ & _ & _ & _ & Hbest). intros (Hsym & Hsd & Hsb).
    induction 1 as [L|L L1 L' n ks Hp _ IH]; intros HF Hk Hex; [exact Hex|].
    destruct (Hk n (or_introl eq_refl)) as [Hg Hd].
    destruct (extends_push cfg good best Hbest O same Hsym Hsd Hsb L L1 n Hp HF Hg) as (_ & Hl & _).
    apply IH.
    - exact (pushed_by_fringe cfg good good_set_ub same Hsd _ _ _ Hp HF Hg Hd).
    - intros n0 Hn0. apply Hk. right. exact Hn0.
    - destruct Hex as (x & Hx & Hw). apply in_app_or in Hx.
      destruct Hx as [[<-|Hx]|Hx]; [|exists x; split; [apply in_or_app; left; exact Hx|exact Hw]|].
      + destruct (Hl o) as (y & Hy & Hwy); [exists n; split; [left; reflexivity|exact Hw]|].
        exists y. split; [apply in_or_app; right; exact Hy|exact Hwy].
      + destruct (Hl o) as (y & Hy & Hwy); [exists x; split; [right; exact Hx|exact Hw]|].
        exists y. split; [apply in_or_app; right; exact Hy|exact Hwy].
  Qed.

  Lemma gstep_calm same (ord : Prop) s w s' : key_ok same -> ord -> PInv s -> CalmV (view s) -> gstep same ord s w s' ->
    (forall n, nth_error (p_workers s) w <> Some (PAbort n)) -> CalmV (view s').
  Proof.
    intros Hkey Hord HI HC Hst Hnab. pose proof HC as (C1 & _ & C5 & C2 & C7). cbn [view v_abort v_workers] in C1, C2.
    assert (Hbusy : forall p, nth_error (p_workers s) w = Some p -> is_busy p = true ->
              (0 < v_ongoing (view s))%nat \/ v_simple (view s) <> [])
      by (intros p Ew Hb; left; exact (PInv_busy s w p HI Ew Hb)).
    assert (Hopen : forall x rest, Permutation (p_simple s) (x :: rest) ->
              (0 < v_ongoing (view s))%nat \/ v_simple (view s) <> [])
      by (intros x rest G; right; cbn [view v_simple]; intros E; rewrite E in G; apply Permutation_nil in G; discriminate).
    assert (Hstay : forall (p' : pc) lb' n o, In n (p_simple s) -> witness o n ->
              (exists c, In c (p_simple s) /\ witness o c) \/ owner p' = Some n \/ o <= lb') by (intros; left; eauto).
    gstep_cases Hst;
      rewrite Hv; unfold vW, setw; rewrite ?C1; pose proof (PInv_pc _ _ _ HI Ew) as Hok; cbn [pc_ok] in Hok.
    - (* complete *)
      apply (CalmV_frame (view s) (p_workers s) w PGetWork PExited); auto; try exact I; try reflexivity; try discriminate.
      intros Hn. exfalso. apply Hn. eapply nth_error_upd_In; eauto.
    - congruence.
    - (* wait *)
      apply (CalmV_busy (view s) w PGetWork PParked HC Ew (or_introl G3)); [discriminate|exact I|reflexivity|apply Hstay|discriminate].
    - (* starvation: the popped node has the largest upper bound of the fringe *)
      apply (CalmV_busy (view s) w PGetWork PGetWork HC Ew (Hopen _ _ G2)); [discriminate|exact I|reflexivity| |discriminate].
      intros n o Hn (_ & _ & _ & Hu). right; right. pose proof (Gmax Hord n Hn). lia.
    - (* item *)
      apply (CalmV_busy (view s) w PGetWork (PReadLb1 x) HC Ew (Hopen _ _ G2)); [discriminate|exact I|reflexivity| |discriminate].
      intros n o Hn Hw. eapply Permutation_in in Hn; [|exact G2].
      destruct Hn as [<-|Hn]; [right; left; reflexivity|left; eauto].
    - (* prune *)
      apply (CalmV_busy (view s) w _ (PNotify n false) HC Ew (Hbusy _ Ew eq_refl)); [discriminate|exact I|reflexivity|apply Hstay|].
      intros n0 o [= <-] _ (_ & _ & _ & Hu). right; left. lia.
    - (* compile1: a compilation that is cut short keeps the responsibility (PAbort) *)
      apply (CalmV_busy (view s) w _ (match o with Compiled => PUpdate1 n (mk_input cfg Restricted n (p_lb s)) m | _ => PAbort n end)
               HC Ew (Hbusy _ Ew eq_refl)); [destruct o; discriminate|destruct o; exact I|reflexivity|apply Hstay|].
      intros n0 o0 Hr _ _. left. destruct o; exact Hr.
    - (* update1 *)
      destruct Hok as (Hg & Hd & (lb0 & c & ds & polls & Hlb0 & -> & Hc)).
      apply (CalmV_busy (view s) w _ (if dd_is_exact m then PNotify n false else PReadLb2 n) HC Ew (Hbusy _ Ew eq_refl));
        [destruct (dd_is_exact m); discriminate|destruct (dd_is_exact m); exact I
        |exact (proj1 (mub_lb_ge _ _ _))|apply Hstay|].
      intros n0 o [= <-] _ Hw. destruct (dd_is_exact m) eqn:Eex; [right; left|left; reflexivity].
      exact (exact_settles Restricted n lb0 _ c ds polls m o (or_introl eq_refl) Hg Hd Hc Eex Hlb0 Hw).
    - (* compile2 *)
      apply (CalmV_busy (view s) w _ (match o with Compiled => PUpdate2 n (mk_input cfg Relaxed n (p_lb s)) m | _ => PAbort n end)
               HC Ew (Hbusy _ Ew eq_refl)); [destruct o; discriminate|destruct o; exact I|reflexivity|apply Hstay|].
      intros n0 o0 Hr _ _. left. destruct o; exact Hr.
    - (* update2 *)
      destruct Hok as (Hg & Hd & (lb0 & c & ds & polls & Hlb0 & -> & Hc)).
      apply (CalmV_busy (view s) w _ (if dd_is_exact m then PNotify n false else PEnqueue n (mk_input cfg Relaxed n lb0) m)
               HC Ew (Hbusy _ Ew eq_refl));
        [destruct (dd_is_exact m); discriminate|destruct (dd_is_exact m); exact I
        |exact (proj1 (mub_lb_ge _ _ _))|apply Hstay|].
      intros n0 o [= <-] _ Hw. destruct (dd_is_exact m) eqn:Eex; [right; left|left; reflexivity].
      exact (exact_settles Relaxed n lb0 _ c ds polls m o (or_intror eq_refl) Hg Hd Hc Eex Hlb0 Hw).
    - (* enqueue *)
      destruct Hok as (Hg & Hd & (lb0 & c & ds & polls & Hlb0 & -> & Hc) & Hex & Hev).
      assert (Hpush : forall o, (exists x, In x (kept (p_lb s) (sp_ub n) (drain_cutset (mk_input cfg Relaxed n lb0) m) ++ p_simple s) /\
                                           witness o x) -> exists x, In x L' /\ witness o x).
      { intros o. apply (pushes_witness same _ _ _ o Hkey P); [exact (PInv_fringe s HI)|].
        exact (kept_ok HA_cut_c n lb0 _ c ds polls m Hg Hd Hc Hex). }
      apply (CalmV_busy (view s) w _ (PNotify n false) HC Ew (Hbusy _ Ew eq_refl)); [discriminate|exact I|reflexivity| |].
      + intros n0 o Hn0 Hw. left. apply Hpush. exists n0. split; [apply in_or_app; right; exact Hn0|exact Hw].
      + intros n0 o [= <-] _ Hw. right.
        destruct (cutset_witness n lb0 (p_lb s) c ds polls m o Hg Hd Hc Hex Hlb0 Hev Hw) as [Hle|(x & Hx & Hwx)]; [left; exact Hle|right].
        apply Hpush. exists x. split; [apply in_or_app; left; exact Hx|exact Hwx].
    - exfalso. eapply Hnab; eauto.
    - (* notify: w is busy, so that nobody has exited; the parked workers wake up *)
      pose proof (Forall_nth_error _ _ _ _ C2 Ew) as Hq. destruct ea; [destruct Hq|].
      assert (Hno : ~ In PExited (p_workers s)).
      { intros Hin. destruct (C5 Hin) as (_ & E2 & _). pose proof (PInv_busy s w _ HI Ew eq_refl). cbn [view v_ongoing] in E2. lia. }
      apply (CalmV_frame (view s) (map wake (p_workers s)) w (PNotify n false) PGetWork); auto; try exact I; try reflexivity; try discriminate.
      + rewrite nth_error_map, Ew. reflexivity.
      + intros p0 Hp0. destruct (owner p0) eqn:E; [right|left; reflexivity]. apply in_map_iff. exists p0.
        split; [destruct p0; try discriminate; reflexivity|exact Hp0].
      + rewrite Forall_map. eapply Forall_impl; [|exact C2]. intros a. apply quiet_wake.
      + intros Hin. apply In_upd_nth in Hin. destruct Hin as [Hin|Hin]; [discriminate|]. destruct (Hno (wake_exited _ Hin)).
  Qed.

  (* what a transition does to the incumbent, to best_ub and to abort_proof *)
  Lemma gstep_fields same ord s w s' : gstep same ord s w s' ->
    length (p_workers s') = length (p_workers s) /\
    ((p_lb s' = p_lb s /\ p_sol s' = p_sol s) \/
     exists p n inp m, nth_error (p_workers s) w = Some p /\ (p = PUpdate1 n inp m \/ p = PUpdate2 n inp m) /\
       p_lb s' = mub_lb (p_lb s) inp m /\ p_sol s' = mub_sol (p_lb s) (p_sol s) inp m) /\
    ((p_abort s' = p_abort s /\ (p_ub s' = p_ub s \/ p_abort s = false /\ p_ub s' = p_lb s)) \/
     exists n, nth_error (p_workers s) w = Some (PAbort n)).
  Proof.
    intros Hst. gstep_cases Hst;
      unfold vW, setw in Hv;
      pose proof (f_equal v_lb Hv) as V5; pose proof (f_equal v_ub Hv) as V6; pose proof (f_equal v_sol Hv) as V7;
      pose proof (f_equal v_abort Hv) as V9; pose proof (f_equal v_workers Hv) as V11;
      cbn [view v_lb v_ub v_sol v_abort v_workers] in V5, V6, V7, V9, V11;
      (split; [rewrite V11, ?upd_nth_length, ?map_length; reflexivity|]);
      (split; [first [left; split; assumption|right; do 4 eexists; eauto]
              |first [left; split; [exact V9|first [left; exact V6|right; split; assumption]]|right; eauto]]).
  Qed.

  Lemma update_incumbent lb sol p n inp m : p = PUpdate1 n inp m \/ p = PUpdate2 n inp m ->
    pc_ok lb p -> Incumbent lb sol -> Incumbent (mub_lb lb inp m) (mub_sol lb sol inp m).
  Proof.
    destruct HK as (_ & K1 & _). intros Hp Hok [Hmin Hinc].
    assert (exists ct lb0 c ds polls, dd_ct ct /\ good n /\ (sp_depth n <= nb_vars (sc_problem cfg))%nat /\
              inp = mk_input cfg ct n lb0 /\ compile st_eqb (mk_input cfg ct n lb0) 0 0 c ds polls = (m, Compiled))
      as (ct & lb0 & c & ds & polls & Hct & Hg & Hd & -> & Hc).
    { destruct Hp as [-> | ->]; destruct Hok as (Hg & Hd & lb0 & c & ds & polls & _ & E & Hc);
        [exists Restricted|exists Relaxed]; exists lb0, c, ds, polls; unfold dd_ct; auto 6. }
    destruct (mub_lb_spec lb (mk_input cfg ct n lb0) m Hmin) as [[E1 E2]|(v & Hv1 & Hv2 & E1 & E2)]; rewrite E1, E2.
    - split; assumption.
    - destruct (K1 ct _ _ _ _ _ _ Hct Hg Hd Hc v Hv1) as (sl & Hs & Hf). split; [lia|]. right. exists sl. auto.
  Qed.

  Lemma gstep_incumbent same ord s w s' : PInv s -> Incumbent (p_lb s) (p_sol s) -> gstep same ord s w s' ->
    Incumbent (p_lb s') (p_sol s').
  Proof.
    intros HI HInc Hst. destruct (gstep_fields same ord s w s' Hst) as (_ & [[-> ->]|(p & n & inp & m & Ew & Hp & -> & ->)] & _).
    - exact HInc.
    - exact (update_incumbent _ _ p n inp m Hp (PInv_pc s w p HI Ew) HInc).
  Qed.

  Lemma Incumbent_init primal : (forall pv psol, primal = Some (pv, psol) -> feasible psol pv) ->
    Incumbent (init_lb primal) (init_sol primal).
  Proof using.
    intros Hp. unfold init_lb, init_sol. destruct primal as [[v sl]|]; [|split; [apply Z.le_refl|left; auto]].
    destruct (v >? IMIN) eqn:E; [|split; [apply Z.le_refl|left; auto]].
    rewrite Z.gtb_ltb in E. apply Z.ltb_lt in E. split; [apply Z.lt_le_incl; exact E|].
    right. exists sl. split; [reflexivity|]. apply Hp. reflexivity.
  Qed.

  Lemma CalmV_init op obl lb sol nubs T :
    CalmV (mkV [root_node cfg] O op obl lb IMAX sol nubs false false (repeat PGetWork T)).
  Proof.
    split; [reflexivity|]. cbn [v_simple v_ongoing v_lb v_ub v_workers]. split; [|split; [|split]].
    - destruct HS as (_ & _ & Hisz & _). intros o Ho. right. exists (root_node cfg). split; [|left; left; reflexivity].
      exists o. cbn [root_node sp_ub]. pose proof (Hisz o Ho). split; [exact Ho|lia].
    - intros Hin. apply repeat_spec in Hin. discriminate.
    - apply Forall_forall. intros p Hin. apply repeat_spec in Hin. subst p. exact I.
    - reflexivity.
  Qed.

  (* once every worker has exited, and none has aborted, the incumbent matches the optimum *)
  Lemma calm_final s : p_workers s <> [] -> CalmV (view s) -> all_exited s = true ->
    p_ub s = p_lb s /\ forall o, OPT = Some o -> o <= p_lb s.
  Proof.
    intros Hne (_ & C4 & C5 & _) Hall. cbn [view v_simple v_ongoing v_lb v_ub v_workers] in C4, C5.
    pose proof (all_exited_spec s Hall) as Hex.
    assert (Hin : In PExited (p_workers s)).
    { destruct (p_workers s) as [|p ws]; [congruence|]. rewrite <- (Hex p); left; reflexivity. }
    destruct (C5 Hin) as (E1 & _ & E3). split; [exact E3|].
    intros o Ho. destruct (C4 o Ho) as [H|(n & _ & [Hn|(p & Hp & Hown)])]; [exact H| |].
    - rewrite E1 in Hn. destruct Hn.
    - rewrite (Hex p Hp) in Hown. discriminate.
  Qed.
  End Calm.

  Section PartBC.
  Variable best : subproblem -> option Z.
  Variable feasible : list decision -> Z -> Prop.
  Notation OPT := (@OPT St cfg best).

  Hypothesis no_cutoff : sc_cutoff cfg = O.

  Hypothesis feasible_le_opt : forall sol v, feasible sol v -> exists o, OPT = Some o /\ v <= o.
  Hypothesis opt_in_isize : forall o, OPT = Some o -> IMIN < o <= IMAX.
  Hypothesis best_set_ub : forall c u, best (set_ub c u) = best c.

  Variable M : nat.

  Hypothesis K0 : forall ct n lb c ds polls m out,
    dd_ct ct -> good n -> (sp_depth n <= N)%nat ->
    compile st_eqb (mk_input cfg ct n lb) 0 0 c ds polls = (m, out) ->
    out = Compiled /\ m_crash m = false.
  Hypothesis K1 : forall ct n lb c ds polls m out,
    dd_ct ct -> good n -> (sp_depth n <= N)%nat ->
    compile st_eqb (mk_input cfg ct n lb) 0 0 c ds polls = (m, out) ->
    forall v, dd_best_exact_value (mk_input cfg ct n lb) m = Some v ->
    exists sol, dd_best_exact_solution (mk_input cfg ct n lb) m = Some sol /\ feasible sol v.
  Hypothesis K2 : forall ct n lb c ds polls m out,
    dd_ct ct -> good n -> (sp_depth n <= N)%nat ->
    compile st_eqb (mk_input cfg ct n lb) 0 0 c ds polls = (m, out) ->
    dd_is_exact m = true ->
    forall o, best n = Some o -> o > lb -> dd_best_exact_value (mk_input cfg ct n lb) m = Some o.
  Hypothesis K3_good : forall n lb c ds polls m out,
    good n -> (sp_depth n <= N)%nat ->
    compile st_eqb (mk_input cfg Relaxed n lb) 0 0 c ds polls = (m, out) ->
    dd_is_exact m = false ->
    forall x, In x (drain_cutset (mk_input cfg Relaxed n lb) m) -> good x.
  Hypothesis K3_depth : forall n lb c ds polls m out,
    good n -> (sp_depth n <= N)%nat ->
    compile st_eqb (mk_input cfg Relaxed n lb) 0 0 c ds polls = (m, out) ->
    dd_is_exact m = false ->
    forall x, In x (drain_cutset (mk_input cfg Relaxed n lb) m) -> (sp_depth n < sp_depth x <= N)%nat.
  Hypothesis K3_ub : forall n lb c ds polls m out,
    good n -> (sp_depth n <= N)%nat ->
    compile st_eqb (mk_input cfg Relaxed n lb) 0 0 c ds polls = (m, out) ->
    dd_is_exact m = false ->
    forall x, In x (drain_cutset (mk_input cfg Relaxed n lb) m) ->
    forall o, best x = Some o -> o > lb -> o <= sp_ub x.
  Hypothesis K4 : forall n lb c ds polls m out,
    good n -> (sp_depth n <= N)%nat ->
    compile st_eqb (mk_input cfg Relaxed n lb) 0 0 c ds polls = (m, out) ->
    dd_is_exact m = false ->
    forall o, best n = Some o -> o > lb ->
    (forall e, dd_best_exact_value (mk_input cfg Relaxed n lb) m = Some e -> e < o) ->
    exists x, In x (drain_cutset (mk_input cfg Relaxed n lb) m) /\ best x = Some o.
  Hypothesis K5 : forall n lb c ds polls m out,
    good n -> (sp_depth n <= N)%nat ->
    compile st_eqb (mk_input cfg Relaxed n lb) 0 0 c ds polls = (m, out) ->
    dd_is_exact m = false ->
    (length (drain_cutset (mk_input cfg Relaxed n lb) m) <= M)%nat.

  Lemma HA_cut_K : forall n lb c ds polls m,
    good n -> (sp_depth n <= N)%nat ->
    compile st_eqb (mk_input cfg Relaxed n lb) 0 0 c ds polls = (m, Compiled) ->
    dd_is_exact m = false ->
    forall x, In x (drain_cutset (mk_input cfg Relaxed n lb) m) -> good x /\ (sp_depth x <= N)%nat.
  Proof using K3_good K3_depth.
    intros n lb c ds polls m Hg Hd Hc Hex x Hx.
    split; [eapply K3_good; eauto|exact (proj2 (K3_depth _ _ _ _ _ _ _ Hg Hd Hc Hex x Hx))].
  Qed.
  Lemma HA_nocrash_K : forall ct n lb c ds polls m out,
    dd_ct ct -> good n -> (sp_depth n <= N)%nat ->
    compile st_eqb (mk_input cfg ct n lb) 0 0 c ds polls = (m, out) -> m_crash m = false.
  Proof. intros ct n lb c ds polls m out Hct Hg Hd Hc. exact (proj2 (K0 _ _ _ _ _ _ _ _ Hct Hg Hd Hc)). Qed.

  Lemma step_cases s w s' st : PInv s -> par_step st_eqb cfg s w = Some (s', st) -> gstep no_key True s w s'.
  Proof. intros HI H. apply pstep_gstep. exact (par_step_cases HA_cut_K s w s' st HI H). Qed.
  Lemma step_pinv s w s' : PInv s -> gstep no_key True s w s' -> PInv s'.
  Proof.
    apply (gstep_inv HA_nocrash_K HA_cut_K). intros a b [].
  Qed.

  (* the packaging of SolverCutoff.v follows from the contracts K0 .. K4 *)
  Lemma contracts_of_K : contracts st_eqb good best feasible cfg.
  Proof using K0 K1 K2 K3_good K3_depth K3_ub K4.
    split; [|split; [|split; [|split; [|split; [|split]]]]].
    - intros ct n lb c ds polls m out Hct Hg Hd Hc. exact (proj2 (K0 _ _ _ _ _ _ _ _ Hct Hg Hd Hc)).
    - intros ct n lb c ds polls m Hct Hg Hd Hc. exact (K1 _ _ _ _ _ _ _ _ Hct Hg Hd Hc).
    - intros ct n lb c ds polls m Hct Hg Hd Hc. exact (K2 _ _ _ _ _ _ _ _ Hct Hg Hd Hc).
    - intros n lb c ds polls m Hg Hd Hc. exact (K3_good _ _ _ _ _ _ _ Hg Hd Hc).
    - intros n lb c ds polls m Hg Hd Hc Hex x Hx. exact (proj2 (K3_depth _ _ _ _ _ _ _ Hg Hd Hc Hex x Hx)).
    - intros n lb c ds polls m Hg Hd Hc. exact (K3_ub _ _ _ _ _ _ _ Hg Hd Hc).
    - intros n lb c ds polls m Hg Hd Hc. exact (K4 _ _ _ _ _ _ _ Hg Hd Hc).
  Qed.
  Lemma semantics_of_K : semantics good best feasible cfg.
  Proof. repeat split; auto; apply opt_in_isize; assumption. Qed.

  (* with cutoff = 0 every compilation completes (K0): nobody reaches PAbort, abort_proof stays unset; and upper_bounds
     has T slots *)
  Definition calm (p : pc) : Prop := match p with PAbort _ | PNotify _ true => False | _ => True end.
  Definition BInvV (T : nat) (v : vw) : Prop := v_abort v = false /\ Forall calm (v_workers v) /\ v_nubs v = T.
  Definition BInv (T : nat) (s : pstate) : Prop := BInvV T (view s).

  Lemma calm_wake p : calm p -> calm (wake p).
  Proof. destruct p; auto. Qed.

  Lemma BInv_calm T s w p : BInv T s -> nth_error (p_workers s) w = Some p -> calm p.
  Proof. intros HB. apply Forall_nth_error, HB. Qed.

  Lemma compiled_K0 s w p n ct lb c ds polls m o : PInv s -> nth_error (p_workers s) w = Some p ->
    busy_node p = Some n -> dd_ct ct -> compile st_eqb (mk_input cfg ct n lb) 0 0 c ds polls = (m, o) -> o = Compiled.
  Proof.
    intros HI Ew Hb Hct Hc. destruct (pc_ok_busy _ _ _ (PInv_pc _ _ _ HI Ew) Hb) as [Hg Hd].
    eapply K0; eauto.
  Qed.

  Lemma gstep_binv same ord T s w s' : PInv s -> BInv T s -> gstep same ord s w s' -> BInv T s'.
  Proof.
    intros HI HB Hst. pose proof HB as (B1 & B2 & B3). cbn [view v_abort v_workers v_nubs] in B1, B2, B3.
    assert (Hfr : forall ws p' a b c d e f g i, Forall calm ws -> calm p' ->
              BInvV T (mkV a b c d e f g (length (p_upper_bounds s)) false i (upd_nth w (fun _ => p') ws))).
    { intros. split; [reflexivity|]. split; [apply Forall_upd_nth; assumption|exact B3]. }
    unfold BInv.
    gstep_cases Hst;
      rewrite Hv; unfold vW, setw; rewrite ?B1; pose proof (BInv_calm _ _ _ _ HB Ew) as Hcalm;
      try (apply Hfr; [exact B2|exact I]).
    - rewrite (compiled_K0 _ _ _ n _ _ _ _ _ _ _ HI Ew eq_refl (or_introl eq_refl) Hc). apply Hfr; [exact B2|exact I].
    - apply Hfr; [exact B2|]. destruct (dd_is_exact m); exact I.
    - rewrite (compiled_K0 _ _ _ n _ _ _ _ _ _ _ HI Ew eq_refl (or_intror eq_refl) Hc). apply Hfr; [exact B2|exact I].
    - apply Hfr; [exact B2|]. destruct (dd_is_exact m); exact I.
    - destruct Hcalm.
    - destruct ea; [destruct Hcalm|]. apply Hfr; [|exact I].
      rewrite Forall_map. eapply Forall_impl; [|exact B2]. intros a. apply calm_wake.
  Qed.

  Lemma BInvV_init T a b c d e f g i : BInvV T (mkV a b c d e f g T false i (repeat PGetWork T)).
  Proof.
    split; [reflexivity|]. split; [|reflexivity]. apply Forall_forall. intros p Hin. apply repeat_spec in Hin. subst p. exact I.
  Qed.
  Lemma BInv_init T primal : BInv T (init_pstate st_eqb cfg T T primal).
  Proof. unfold BInv. rewrite view_init. apply BInvV_init. Qed.

  Definition primal_okP (primal : option (Z * list decision)) : Prop :=
    forall pv psol, primal = Some (pv, psol) -> feasible psol pv.

  (* what a finished run has computed *)
  Definition FinalP (s : pstate) : Prop :=
    p_crash s = false /\ p_abort s = false /\ p_ub s = p_lb s /\ Incumbent feasible (p_lb s) (p_sol s) /\
    (forall o, OPT = Some o -> o <= p_lb s).

  (* no compilation is cut short, so the regime of section Calm lasts until every worker has exited *)
  Lemma final_of_inv T s : (1 <= T)%nat -> PInv s -> BInv T s -> Incumbent feasible (p_lb s) (p_sol s) ->
    CalmV best (view s) -> all_exited s = true -> FinalP s.
  Proof using.
    intros HT HI (B1 & _ & B3) HInc HC Hall. destruct (PInv_fields s HI) as (I1 & _ & _ & _ & _ & _ & _ & _ & I9 & _).
    cbn [view v_nubs v_abort] in B1, B3.
    destruct (calm_final best s) as [E3 Hopt]; [|exact HC|exact Hall|].
    { intros E. rewrite E in I9. cbn [length] in I9. clear - HT B3 I9. lia. }
    split; [exact I1|]. split; [exact B1|]. split; [exact E3|]. split; [exact HInc|exact Hopt].
  Qed.

  Definition presult_ok (r : presult) : Prop :=
    pr_crash r = false /\ pr_exact r = true /\ pr_value r = OPT /\
    (forall v, OPT = Some v ->
       pr_lb r = v /\ pr_ub r = v /\ exists sol, pr_sol r = Some (sort_by dec_var_cmp sol) /\ feasible sol v) /\
    (OPT = None -> pr_sol r = None /\ pr_lb r = IMIN).

  (* the record par_maximize builds from such a state *)
  Lemma final_result s tr e : FinalP s ->
    presult_ok {| pr_exact := negb (p_abort s);
                  pr_value := match option_map (sort_by dec_var_cmp) (p_sol s) with Some _ => Some (p_lb s) | None => None end;
                  pr_lb := p_lb s; pr_ub := p_ub s; pr_sol := option_map (sort_by dec_var_cmp) (p_sol s);
                  pr_explored := p_explored s; pr_polls := p_polls s; pr_crash := p_crash s; pr_tie := p_tie s;
                  pr_end := e; pr_trace := tr |}.
  Proof using feasible_le_opt opt_in_isize.
    intros (F1 & F2 & F3 & [Hmin Hinc] & Hopt). unfold presult_ok. cbn [pr_crash pr_exact pr_value pr_lb pr_ub pr_sol].
    split; [exact F1|]. split; [rewrite F2; reflexivity|].
    assert (Hcase : forall x : option Z, (exists v, x = Some v) \/ x = None) by (intros [v|]; eauto).
    destruct (Hcase OPT) as [[v Hv]|Hnone]; [rewrite Hv|rewrite Hnone].
    - (* the incumbent is feasible, hence at most the optimum, and the optimum is at most the incumbent *)
      pose proof (Hopt v Hv) as Hle. pose proof (opt_in_isize v Hv) as Hr.
      destruct Hinc as [[_ Hlb]|(sol & Hsol & Hfeas)]; [exfalso; clear - Hle Hr Hlb; lia|].
      destruct (feasible_le_opt _ _ Hfeas) as (o & Ho & Hlo). rewrite Hv in Ho. injection Ho as <-.
      assert (Heq : p_lb s = v) by (clear - Hle Hlo; lia). rewrite Hsol, Heq. cbn [option_map].
      split; [reflexivity|]. split; [|discriminate].
      intros v' [= <-]. split; [reflexivity|]. split; [rewrite F3; exact Heq|]. exists sol. rewrite <- Heq. auto.
    - destruct Hinc as [[Hs Hlb]|(sol & Hsol & Hfeas)].
      + rewrite Hs, Hlb. cbn [option_map]. split; [reflexivity|]. split; [discriminate|]. auto.
      + destruct (feasible_le_opt _ _ Hfeas) as (o & Ho & _). rewrite Hnone in Ho. discriminate.
  Qed.

  (* C03 (and the warm-start variant): every finished run, whatever the schedule, the number of workers and the fuel,
     returns the optimum *)
  Theorem par_optimal_primal T primal fuel sched : (1 <= T)%nat -> primal_okP primal ->
    pr_end (par_maximize st_eqb cfg fuel T T primal sched) = PFinished ->
    presult_ok (par_maximize st_eqb cfg fuel T T primal sched).
  Proof using no_cache simple_fringe good_root good_set_ub no_cutoff feasible_le_opt opt_in_isize best_set_ub
              K0 K1 K2 K3_good K3_depth K3_ub K4.
    intros HT Hp. unfold par_maximize.
    destruct (par_run st_eqb cfg fuel (init_pstate st_eqb cfg T T primal) sched None []) as [[s' tr] e] eqn:E.
    cbn [pr_end]. intros He. subst e.
    apply (par_run_preserves (fun s => PInv s /\ BInv T s /\ Incumbent feasible (p_lb s) (p_sol s) /\ CalmV best (view s))) in E.
    2:{ intros s w s1 st (HI & HB & HInc & HC) Hst. pose proof (step_cases _ _ _ _ HI Hst) as Hgs.
        split; [exact (step_pinv _ _ _ HI Hgs)|]. split; [exact (gstep_binv _ _ T _ _ _ HI HB Hgs)|].
        split; [exact (gstep_incumbent best feasible contracts_of_K _ _ _ _ _ HI HInc Hgs)|].
        apply (gstep_calm best feasible contracts_of_K semantics_of_K _ _ _ _ _ (no_key_ok best) I HI HC Hgs).
        intros n Ew. exact (BInv_calm T s w _ HB Ew). }
    2:{ split; [apply PInv_init|]. split; [apply BInv_init|].
        split; [|rewrite view_init; apply (CalmV_init best feasible semantics_of_K)].
        pose proof (view_init T T primal) as Hv. apply view_proj in Hv. destruct Hv as (_ & _ & _ & _ & -> & _ & -> & _).
        exact (Incumbent_init feasible primal Hp). }
    destruct E as ((HI & HB & HInc & HC) & Hall & _). exact (final_result s' _ _ (final_of_inv T s' HT HI HB HInc HC (Hall eq_refl))).
  Qed.

  Theorem par_optimal T fuel sched : (1 <= T)%nat ->
    pr_end (par_maximize st_eqb cfg fuel T T None sched) = PFinished ->
    presult_ok (par_maximize st_eqb cfg fuel T T None sched).
  Proof. intros HT. apply par_optimal_primal; [exact HT|]. intros pv psol H; discriminate. Qed.

  Notation wtM := (wt cfg M).
  Definition AA (T : nat) : nat := (T + 8)%nat.
  (* cost still to be paid by a worker: protocol steps of the node in progress + the sub-tree it may still enqueue *)
  Definition fw (T : nat) (p : pc) : nat :=
    match p with
    | PExited => 0
    | PParked => 1
    | PGetWork => 2
    | PNotify _ _ => T + 3
    | PAbort _ => T + 4
    | PEnqueue n _ _ => AA T * (wtM n - 1) + T + 4
    | PUpdate2 n _ _ => AA T * (wtM n - 1) + T + 5
    | PReadLb2 n => AA T * (wtM n - 1) + T + 6
    | PUpdate1 n _ _ => AA T * (wtM n - 1) + T + 7
    | PReadLb1 n => AA T * (wtM n - 1) + T + 8
    end%nat.
  Definition fnode (T : nat) (n : subproblem) : nat := (AA T * wtM n)%nat.
  Definition Mu (T : nat) (v : vw) : nat := (sumf (fnode T) (v_simple v) + sumf (fw T) (v_workers v))%nat.

  Definition is_parked (p : pc) : bool := match p with PParked => true | _ => false end.

  Lemma sumf_fw_wake T ws : sumf (fw T) (map wake ws) = (sumf (fw T) ws + cntp is_parked ws)%nat.
  Proof.
    unfold cntp. induction ws as [|p ws IH]; cbn [map sumf]; [reflexivity|]. rewrite IH.
    destruct p; cbn [wake fw is_parked]; lia.
  Qed.

  Lemma fnode_depth T (x y : subproblem) : sp_depth x = sp_depth y -> fnode T x = fnode T y.
  Proof. intros H. unfold fnode. rewrite (wt_depth cfg M x y H). reflexivity. Qed.

  Lemma Mu_decreases (same : subproblem -> subproblem -> Prop) ord T s w s' :
    (forall a b, same a b -> sp_depth a = sp_depth b) ->
    PInv s -> BInv T s -> gstep same ord s w s' -> (Mu T (view s') < Mu T (view s))%nat.
  Proof.
    intros Hsd HI HB Hst. pose proof HB as (B1 & _). cbn [view v_abort] in B1.
    gstep_cases Hst;
      rewrite Hv; unfold Mu, vW, setw, view; cbn [v_simple v_workers];
      pose proof (PInv_pc _ _ _ HI Ew) as Hok; cbn [pc_ok] in Hok;
      pose proof (BInv_calm _ _ _ _ HB Ew) as Hcalm; cbn [calm] in Hcalm;
      try congruence; try (destruct Hcalm; fail).
    - pose proof (sumf_upd_nth (fw T) w PExited _ _ Ew) as H. cbn [fw] in H. lia.
    - pose proof (sumf_upd_nth (fw T) w PParked _ _ Ew) as H. cbn [fw] in H. lia.
    - pose proof (sumf_upd_nth (fw T) w PGetWork _ _ Ew) as H. cbn [fw] in H.
      rewrite (sumf_perm _ _ _ G2). cbn [sumf]. unfold fnode at 1, AA.
      pose proof (wt_pos cfg M x). nia.
    - pose proof (sumf_upd_nth (fw T) w (PReadLb1 x) _ _ Ew) as H. cbn [fw] in H.
      rewrite (sumf_perm _ _ _ G2). cbn [sumf]. unfold fnode at 2. unfold AA in *.
      pose proof (wt_pos cfg M x). destruct (wtM x) as [|q]; [lia|]. replace (S q - 1)%nat with q in H by lia. nia.
    - pose proof (sumf_upd_nth (fw T) w (PNotify n false) _ _ Ew) as H. cbn [fw] in H.
      remember (AA T * (wtM n - 1))%nat as q. lia.
    - rewrite (compiled_K0 _ _ _ n _ _ _ _ _ _ _ HI Ew eq_refl (or_introl eq_refl) Hc).
      pose proof (sumf_upd_nth (fw T) w (PUpdate1 n (mk_input cfg Restricted n (p_lb s)) m) _ _ Ew) as H. cbn [fw] in H.
      remember (AA T * (wtM n - 1))%nat as q. lia.
    - pose proof (sumf_upd_nth (fw T) w (if dd_is_exact m then PNotify n false else PReadLb2 n) _ _ Ew) as H.
      remember (AA T * (wtM n - 1))%nat as q. destruct (dd_is_exact m); cbn [fw] in H; rewrite <- ?Heqq in H; lia.
    - rewrite (compiled_K0 _ _ _ n _ _ _ _ _ _ _ HI Ew eq_refl (or_intror eq_refl) Hc).
      pose proof (sumf_upd_nth (fw T) w (PUpdate2 n (mk_input cfg Relaxed n (p_lb s)) m) _ _ Ew) as H. cbn [fw] in H.
      remember (AA T * (wtM n - 1))%nat as q. lia.
    - pose proof (sumf_upd_nth (fw T) w (if dd_is_exact m then PNotify n false else PEnqueue n inp m) _ _ Ew) as H.
      remember (AA T * (wtM n - 1))%nat as q. destruct (dd_is_exact m); cbn [fw] in H; rewrite <- ?Heqq in H; lia.
    - (* enqueue: a coalescing push adds no weight, and the kept nodes weigh less than their parent *)
      destruct Hok as (Hg & Hd & (lb0 & c & ds & polls & Hlb0 & -> & Hc) & Hex & Hev).
      pose proof (sumf_upd_nth (fw T) w (PNotify n false) _ _ Ew) as H. cbn [fw] in H.
      set (cs := drain_cutset (mk_input cfg Relaxed n lb0) m) in *.
      assert (Hk : (sumf wtM cs < wtM n)%nat).
      { apply kids_weight; [eapply K5; eauto|]. intros c0 Hc0. eapply K3_depth; eauto. }
      pose proof (pushes_weight same (fnode T) _ _ _ Hsd (fnode_depth T) P) as Hw.
      pose proof (sumf_kept_le (fnode T) (p_lb s) (sp_ub n) cs) as Hle.
      assert (Hsc : sumf (fun c0 => fnode T (set_ub c0 (Z.min (sp_ub n) (sp_ub c0)))) cs = (AA T * sumf wtM cs)%nat).
      { rewrite <- sumf_scale. apply sumf_ext. intros c0 _. reflexivity. }
      rewrite Hsc in Hle.
      assert (AA T * sumf wtM cs <= AA T * (wtM n - 1))%nat by (apply Nat.mul_le_mono_l; lia).
      lia.
    - destruct ea; [destruct Hcalm|].
      assert (Ew' : nth_error (map wake (p_workers s)) w = Some (PNotify n false)) by (rewrite nth_error_map, Ew; reflexivity).
      pose proof (sumf_upd_nth (fw T) w PGetWork _ _ Ew') as H. cbn [fw] in H. rewrite sumf_fw_wake in H.
      assert (cntp is_parked (p_workers s) <= length (p_workers s) * 1)%nat.
      { apply sumf_le_const. intros p _. destruct (is_parked p); lia. }
      destruct (PInv_fields s HI) as (_ & _ & _ & _ & _ & _ & _ & _ & I9 & _). destruct HB as (_ & _ & B3).
      cbn [view v_nubs] in B3. lia.
  Qed.

  Lemma par_run_terminates T fuel s sched last trace s' tr e : PInv s -> BInv T s -> (Mu T (view s) < fuel)%nat ->
    par_run st_eqb cfg fuel s sched last trace = (s', tr, e) -> e = PFinished.
  Proof.
    intros HI HB. apply (par_run_finishes (fun s => PInv s /\ BInv T s) (fun s => Mu T (view s))); [| |split; assumption].
    - intros s0 [HI0 _]. exact (no_deadlock_state s0 HI0).
    - intros s0 w s1 st [HI0 HB0] Hst. pose proof (step_cases _ _ _ _ HI0 Hst) as Hgs.
      split; [split; [exact (step_pinv _ _ _ HI0 Hgs)|exact (gstep_binv no_key True T _ _ _ HI0 HB0 Hgs)]|].
      exact (Mu_decreases no_key True T s0 w s1 (fun a b (H : no_key a b) => match H with end) HI0 HB0 Hgs).
  Qed.

  Definition fuelP (T : nat) : nat := S ((T + 8) * (S M) ^ N + 2 * T).

  Lemma Mu_start T v : v_simple v = [root_node cfg] -> v_workers v = repeat PGetWork T ->
    Mu T v = ((T + 8) * (S M) ^ N + 2 * T)%nat.
  Proof.
    intros E1 E2. unfold Mu. rewrite E1, E2. cbn [sumf]. unfold fnode, AA, wt. cbn [root_node sp_depth].
    rewrite Nat.sub_0_r.
    assert (H : forall k, sumf (fw T) (repeat PGetWork k) = (2 * k)%nat).
    { induction k as [|k IHk]; cbn [repeat sumf fw]; lia. }
    rewrite H. fold pb. fold N. lia.
  Qed.

  (* B: every run, whatever the schedule, finishes within fuelP T transitions *)
  Theorem par_terminates T primal fuel sched : (fuelP T <= fuel)%nat ->
    pr_end (par_maximize st_eqb cfg fuel T T primal sched) = PFinished.
  Proof.
    intros Hf. unfold par_maximize.
    destruct (par_run st_eqb cfg fuel (init_pstate st_eqb cfg T T primal) sched None []) as [[s' tr] e] eqn:E.
    cbn [pr_end]. eapply (par_run_terminates T); [apply PInv_init|apply BInv_init| |exact E].
    rewrite (Mu_start T _ (f_equal v_simple (view_init T T primal)) (f_equal v_workers (view_init T T primal))).
    unfold fuelP in Hf. lia.
  Qed.

  (* B + C: total correctness for every schedule and every number of workers *)
  Theorem par_correct T primal fuel sched : (1 <= T)%nat -> primal_okP primal -> (fuelP T <= fuel)%nat ->
    pr_end (par_maximize st_eqb cfg fuel T T primal sched) = PFinished /\
    presult_ok (par_maximize st_eqb cfg fuel T T primal sched).
  Proof.
    intros HT Hp Hf. pose proof (par_terminates T primal fuel sched Hf) as He. split; [exact He|].
    apply par_optimal_primal; assumption.
  Qed.

  End PartBC.
End ParProofs.

(* Part A without the abstract predicate [good] (instance good := fun _ => True): if no compilation panics and every
   cut-set node of a relaxed compilation sits on a layer of the problem, then no schedule deadlocks or panics. *)
Theorem par_no_deadlock_no_crash_plain {St} (st_eqb : St -> St -> bool) (cfg : @sconfig St) :
  sc_use_cache cfg = false -> sc_nodup cfg = false ->
  (forall ct n lb c ds polls m out, dd_ct ct -> (sp_depth n <= nb_vars (sc_problem cfg))%nat ->
     compile st_eqb (mk_input cfg ct n lb) 0 0 c ds polls = (m, out) -> m_crash m = false) ->
  (forall n lb c ds polls m, (sp_depth n <= nb_vars (sc_problem cfg))%nat ->
     compile st_eqb (mk_input cfg Relaxed n lb) 0 0 c ds polls = (m, Compiled) -> dd_is_exact m = false ->
     forall x, In x (drain_cutset (mk_input cfg Relaxed n lb) m) -> (sp_depth x <= nb_vars (sc_problem cfg))%nat) ->
  forall T primal fuel sched,
    pr_end (par_maximize st_eqb cfg fuel T T primal sched) <> PDeadlock /\
    pr_crash (par_maximize st_eqb cfg fuel T T primal sched) = false.
Proof.
  intros Hc Hf Hnc Hcut T primal fuel sched.
  apply (par_maximize_no_deadlock_no_crash st_eqb cfg Hc Hf (fun _ => True)); auto.
  - intros ct n lb c ds polls m out Hct _ Hd Hcomp. eapply Hnc; eauto.
  - intros n lb c ds polls m _ Hd Hcomp Hex x Hx. split; [exact I|]. eapply Hcut; eauto.
Qed.

(* Before the fix `upper_bounds` was sized with the thread count given at construction, while `with_nb_threads(n)`
   could spawn more workers: init_pstate 1 2 = vector of size 1, two workers.  The first node handed to worker 1
   indexes the vector out of bounds AFTER `ongoing += 1`.

   NOTE: "the pre-fix run reaches PDeadlock with p_crash = true" is FALSE of the model Par.v: the first
   test of the model's get_workload is `if p_crash s then GWCrash`, so after a panic every other worker leaves at its
   next get_workload instead of parking for ever, and a parked worker is still woken by the notify of the worker that
   was busy when it parked.  In the model the defect therefore shows as pr_crash = true with pr_end = PFinished and a
   wrong result (no value although OPT = 8); the hang of the real code (ongoing never returns to 0) is what the crash
   flag stands for.  Strongest true variants, on a concrete 3-variable instance, by computation:
     D2_prefix_crash_partial   : schedule [1] makes the pre-fix model panic (and report no solution);
     D2_prefix_crash_late_partial : the panic can also happen after worker 0 enqueued a cut-set; the run then
                                 "finishes" with the sub-optimal incumbent 7 (OPT = 8);
     D2_prefix_never_deadlocks_bounded : over ALL 2^11 schedule prefixes of length 11 (2 workers, vector of size 1)
                                 1544 runs panic, 504 finish normally, none deadlocks, none runs out of fuel;
     D2_fixed                  : with the vector sized like the number of workers the same schedules are fine. *)
Module D2.
  Definition pbD : @problem Z := {|
    nb_vars := 3; init_state := 0; init_value := 0;
    transition := fun s d => 2 * s + d_val d + 1;
    transition_cost := fun s _ d =>
      if Nat.eqb (d_var d) 0 then (if d_val d =? 0 then 1 else 2)
      else if Nat.eqb (d_var d) 1 then
        (if s =? 1 then (if d_val d =? 0 then 5 else 1) else (if d_val d =? 0 then 1 else 3))
      else (if s =? 4 then (if d_val d =? 0 then 0 else 1)
            else if s =? 5 then (if d_val d =? 0 then 7 else 0) else (if d_val d =? 0 then 2 else 1));
    next_variable := fun depth _ => if Nat.ltb depth 3 then Some depth else None;
    domain := fun _ _ => [0; 1];
    is_impacted_by := fun _ _ => true |}.
  Definition rlxD : @relaxation Z := {|
    merge := fun l => fold_right Z.max 0 l;
    relax := fun _ _ _ _ c => c;
    fast_upper_bound := fun _ => IMAX |}.
  Definition cfgD : @sconfig Z := {|
    sc_flavour := CleanLEL; sc_problem := pbD; sc_relax := rlxD; sc_ranking := Z.compare;
    sc_domcmp := fun a va b vb => cmp_then (Zcmp va vb) (Z.compare a b); sc_domrule := None; sc_width := 1;
    sc_use_cache := false; sc_nodup := false; sc_cutoff := 0 |}.

  Definition summary (r : presult) := (pr_end r, pr_crash r, pr_value r).

  (* the sequential solver and the repaired parallel solver find 8 *)
  Example D2_sequential : r_value (maximize Z.eqb cfgD 100 None) = Some 8.
  Proof. vm_compute. reflexivity. Qed.

  Example D2_prefix_crash_partial :
    summary (par_maximize Z.eqb cfgD 100 1 2 None [1%nat]) = (PFinished, true, None).
  Proof. vm_compute. reflexivity. Qed.

  Example D2_prefix_crash_late_partial :
    summary (par_maximize Z.eqb cfgD 100 1 2 None [0; 0; 0; 0; 0; 0; 1; 0; 0]%nat) = (PFinished, true, Some 7) /\
    map fst (pr_trace (par_maximize Z.eqb cfgD 100 1 2 None [0; 0; 0; 0; 0; 0; 1; 0; 0]%nat)) = [0; 0; 0; 0; 0; 0; 1; 0; 0]%nat.
  Proof. vm_compute. split; reflexivity. Qed.

  Example D2_fixed :
    summary (par_maximize Z.eqb cfgD 100 2 2 None [1%nat]) = (PFinished, false, Some 8) /\
    summary (par_maximize Z.eqb cfgD 100 2 2 None [0; 0; 0; 0; 0; 0; 1; 0; 0]%nat) = (PFinished, false, Some 8).
  Proof. vm_compute. split; reflexivity. Qed.

  Fixpoint scheds (T k : nat) : list (list nat) :=
    match k with O => [[]] | S k' => flat_map (fun s => map (fun c => c :: s) (seq 0 T)) (scheds T k') end.
  (* (runs that panicked, runs that finished normally, deadlocks, out of fuel) *)
  Definition tally (T ctor k : nat) : nat * nat * nat * nat :=
    fold_left (fun acc s =>
       let r := par_maximize Z.eqb cfgD 300 ctor T None s in
       let '(a, b, c, d) := acc in
       match pr_end r, pr_crash r with
       | PFinished, true => (S a, b, c, d)
       | PFinished, false => (a, S b, c, d)
       | PDeadlock, _ => (a, b, S c, d)
       | POutOfFuel, _ => (a, b, c, S d)
       end) (scheds T k) (O, O, O, O).

  (* Evaluating [tally] as it stands runs each of the T^k schedules from the initial state, which is slow to check.
     [explore] walks the tree of schedules: a transition is computed once for all the schedules that share the prefix
     leading to it, and once for all the choices c that select the same worker (c mod |enabled|). *)
  Notation Q := (nat * nat * nat * nat)%type.
  Definition qadd (x y : Q) : Q :=
    let '(a, b, c, d) := x in let '(a', b', c', d') := y in (a + a', b + b', c + c', d + d')%nat.
  Fixpoint qsum {A} (g : A -> Q) (l : list A) : Q :=
    match l with [] => (O, O, O, O) | x :: l' => qadd (g x) (qsum g l') end.

  Lemma q_eq (a b c d a' b' c' d' : nat) : a = a' -> b = b' -> c = c' -> d = d' -> (a, b, c, d) = (a', b', c', d').
  Proof. congruence. Qed.
  Lemma qadd_comm x y : qadd x y = qadd y x.
  Proof. destruct x as [[[a b] c] d], y as [[[a' b'] c'] d']. apply q_eq; lia. Qed.
  Lemma qadd_assoc x y z : qadd x (qadd y z) = qadd (qadd x y) z.
  Proof. destruct x as [[[a b] c] d], y as [[[a' b'] c'] d'], z as [[[a'' b''] c''] d'']. apply q_eq; lia. Qed.

  Lemma qsum_ext {A} (g h : A -> Q) l : (forall x, g x = h x) -> qsum g l = qsum h l.
  Proof. intros H. induction l as [|x l IH]; cbn [qsum]; [reflexivity|]. rewrite H, IH. reflexivity. Qed.
  Lemma qsum_app {A} (g : A -> Q) l l' : qsum g (l ++ l') = qadd (qsum g l) (qsum g l').
  Proof.
    induction l as [|x l IH]; cbn [qsum app]; [destruct (qsum g l') as [[[a b] c] d]; reflexivity|].
    rewrite IH. apply qadd_assoc.
  Qed.
  Lemma qsum_map {A B} (h : B -> A) (g : A -> Q) l : qsum g (map h l) = qsum (fun x => g (h x)) l.
  Proof. induction l as [|x l IH]; cbn [qsum map]; [reflexivity|]. rewrite IH. reflexivity. Qed.
  Lemma qsum_add {A} (g h : A -> Q) l : qsum (fun x => qadd (g x) (h x)) l = qadd (qsum g l) (qsum h l).
  Proof.
    induction l as [|x l IH]; cbn [qsum]; [reflexivity|]. rewrite IH, !qadd_assoc. f_equal.
    rewrite <- !qadd_assoc. f_equal. apply qadd_comm.
  Qed.
  Lemma fold_left_qsum {A} (f : Q -> A -> Q) (g : A -> Q) l :
    (forall acc x, f acc x = qadd (g x) acc) -> forall acc, fold_left f l acc = qadd (qsum g l) acc.
  Proof.
    intros H. induction l as [|x l IH]; intros acc; cbn [qsum fold_left]; [destruct acc as [[[a b] c] d]; reflexivity|].
    rewrite IH, H, qadd_assoc. f_equal. apply qadd_comm.
  Qed.

  Lemma qsum_scheds_S T k (g : list nat -> Q) :
    qsum g (scheds T (S k)) = qsum (fun c => qsum (fun r => g (c :: r)) (scheds T k)) (seq 0 T).
  Proof.
    cbn [scheds]. induction (scheds T k) as [|r l IH]; cbn [flat_map qsum].
    - induction (seq 0 T) as [|c l IH]; cbn [qsum]; [reflexivity|]. rewrite <- IH. reflexivity.
    - rewrite qsum_app, qsum_map, IH. symmetry. apply qsum_add.
  Qed.

  Lemma nth_map_error {A B} (F : A -> B) l i d :
    nth i (map F l) d = match nth_error l i with Some x => F x | None => d end.
  Proof. revert i; induction l as [|x l IH]; intros [|i]; cbn [map nth nth_error]; auto. Qed.

  Section Explore.
    Context {St : Type} (st_eqb : St -> St -> bool) (cfg : @sconfig St) (T : nat).
    Notation run := (par_run st_eqb cfg).

    Definition verdict (r : @pstate St * list (nat * site) * par_end) : Q :=
      let '(s, _, e) := r in
      match e, p_crash s with
      | PFinished, true => (1, 0, 0, 0)
      | PFinished, false => (0, 1, 0, 0)
      | PDeadlock, _ => (0, 0, 1, 0)
      | POutOfFuel, _ => (0, 0, 0, 1)
      end%nat.
    Definition same (k : nat) r : Q := qsum (fun _ => verdict r) (scheds T k).

    Fixpoint explore (k fuel : nat) (s : pstate) (last : option nat) (trace : list (nat * site)) : Q :=
      match k, fuel with
      | S k', S fuel' =>
          if all_exited s then same k (s, trace, PFinished)
          else
            let dead := same k' (s, trace, PDeadlock) in
            let sub := map (fun w => match par_step st_eqb cfg s w with
                                     | Some (s', st) => explore k' fuel' s' (Some w) ((w, st) :: trace)
                                     | None => dead
                                     end) (enabled s) in
            qsum (fun c => nth (c mod length (enabled s)) sub dead) (seq 0 T)
      | _, _ => same k (run fuel s [] last trace)
      end.

    Lemma explore_spec k : forall fuel s last trace,
      qsum (fun sch => verdict (run fuel s sch last trace)) (scheds T k) = explore k fuel s last trace.
    Proof.
      induction k as [|k IH]; intros fuel s last trace; [reflexivity|]. destruct fuel as [|fuel]; [reflexivity|].
      cbn [explore]. destruct (all_exited s) eqn:E.
      - apply qsum_ext. intros sch. cbn [par_run]. rewrite E. reflexivity.
      - rewrite qsum_scheds_S. apply qsum_ext. intros c. rewrite nth_map_error. cbn [par_run]. rewrite E.
        destruct (enabled s) as [|e en]; [destruct (c mod _)%nat; reflexivity|].
        cbn [choose]. destruct (nth_error (e :: en) (c mod length (e :: en))) as [w|]; [|reflexivity].
        destruct (par_step st_eqb cfg s w) as [[s' st]|]; [apply IH|reflexivity].
    Qed.
  End Explore.

  Lemma tally_explore T ctor k :
    tally T ctor k = explore Z.eqb cfgD T k 300 (init_pstate Z.eqb cfgD ctor T None) None [].
  Proof.
    rewrite <- explore_spec. unfold tally. rewrite fold_left_qsum with
      (g := fun s => verdict (par_run Z.eqb cfgD 300 (init_pstate Z.eqb cfgD ctor T None) s None [])).
    - destruct (qsum _ _) as [[[a b] c] d]. apply q_eq; lia.
    - intros [[[a b] c] d] s. unfold par_maximize.
      destruct (par_run Z.eqb cfgD 300 (init_pstate Z.eqb cfgD ctor T None) s None []) as [[s' tr] e].
      cbn [pr_end pr_crash verdict]. destruct e, (p_crash s'); reflexivity.
  Qed.

  Example D2_prefix_never_deadlocks_bounded : tally 2 1 11 = (1544, 504, 0, 0)%nat.
  Proof. rewrite tally_explore. vm_compute. reflexivity. Qed.
  Example D2_fixed_bounded : tally 2 2 11 = (0, 2048, 0, 0)%nat.
  Proof. rewrite tally_explore. vm_compute. reflexivity. Qed.
End D2.

Print Assumptions par_step_inv.
Print Assumptions par_no_deadlock.
Print Assumptions par_never_crashes.
Print Assumptions par_maximize_no_deadlock_no_crash.
Print Assumptions complete_only_when_idle.
Print Assumptions pq_pop_max.
Print Assumptions par_optimal.
Print Assumptions par_optimal_primal.
Print Assumptions par_terminates.
Print Assumptions par_correct.
Print Assumptions par_no_deadlock_no_crash_plain.
Print Assumptions D2.D2_prefix_crash_partial.
Print Assumptions D2.D2_prefix_never_deadlocks_bounded.
