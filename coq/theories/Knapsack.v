(* Knapsack.v — a REAL user model against the unconditional solver theorem: ddo's shipped knapsack example
   (/repo/ddo/examples/knapsack/main.rs: KnapsackState, Knapsack : Problem, KPRelax : Relaxation, KPRanking).

   RESULT.  For every instance with kp_wf (machine-integer side conditions) whose items are sorted by decreasing
   profit / weight (sorted_by_ratio), every clean flavour, width >= 1, iteration-order comparator and either fringe, the
   sequential solver model run on the FAITHFUL model of the example terminates, does not crash, reports is_exact and
   returns opt_enum (kp_C01_run / kp_C01 / kp_C01_nodup), and opt_enum is the brute-force optimum of the knapsack problem
   over all bit vectors (kp_opt_is_knapsack).  Everything is closed under the global context.

   HOW, and the FINDINGS about the shape of the premises of Assembly.v:
   F1 The literal premises are UNSATISFIABLE for the shipped model, whatever the covering relation
      (kp_literal_premises_unsat, on the well-formed sorted instance ki_cex).  Reason: the state carries its depth and
      fast_upper_bound reads the items from state.depth on, whereas
        rub_adm : forall k s s' h, cov s s' -> H pb k s' = Some h -> h <= fast_upper_bound s
      quantifies over EVERY pair (k, s'), also those whose depth field is not k (with cov_refl: a state of depth n has
      bound 0 but a positive Bellman value at layer 0).  Likewise merge_cov quantifies over lists mixing several layers:
      with the depth-aware covering relation it fails (kp_literal_merge_cov_fails), with a depth-blind one rub_adm fails.
      What is true is the LAYERED form (kp_rub_adm_layered, kp_merge_cov_layered): states of the layer k only.
      BRIDGE (sections 2-3, generic in the model): if a model agrees with a "layer-guarded extension" (other domain /
      merge / rough bound) on the states of a level invariant lvl k s preserved by transitions and merges, both compile to
      the very same diagram from every levelled root (la_compile, on top of the invariants of MddExact.v), hence the
      diagram contracts K0..K5 transfer and SolverProofs.seq_solver_correct / SolverNoDup.seq_solver_correct_nodup apply
      to the model itself (C01_layered, C01_layered_nodup).  For the knapsack the extension (g_domain: empty domain
      off-level, a top state above depth n; g_merge: top on mixed lists; g_fub: sum of positive profits on top / on
      capacity-0 states facing a weightless item) meets the literal premises (g_wf_relaxation); it is a proof device only.
   F2 cost_isize quantifies over every decision, also values outside every domain: profit * value is therefore modelled
      as the release-profile wrapping multiplication (wrap); on the values ever used (0 / 1) it is exact (wrap_id).
   F3 With capacity 0 the loop `while capacity > 0` never looks at a weightless item of positive profit: the bound is
      then inadmissible (ex_zero_cap_inadmissible: bound 0, optimum 5).  Only initial capacity 0 can produce such a state
      on sorted items, hence the last clause of kp_wf (kp_cap = 0 -> no such item).  No wrong result was derived from it.
   F4 Without sorted_by_ratio the bound is inadmissible and the solver model returns a WRONG optimum flagged exact
      (ex_unsorted_wrong_answer: capacity 1, items (1,1) (10,1): answer 1, optimum 10): this is why Knapsack::new sorts.

   IDEALISATIONS of the Rust code:
   I1 the instance is modelled AFTER Knapsack::new: kp_items is the item list in the order of decision (order =
      identity, variable k = k-th item).  The f64 sort key is outside the model; its only role is to make the rough bound
      admissible, which is the hypothesis sorted_by_ratio (pairwise form; sorted_consecutive_by_ratio: the form on
      consecutive positive items implies it).
   I2 usize capacities / weights and isize profits are unbounded Z; kp_wf states what makes this exact: capacity and
      weights in [0, IMAX], 2 * sum |profit| <= IMAX (no saturating addition saturates, B = sum |profit|),
      capacity * max profit <= IMAX (the product in the rough bound: kp_fub_product_isize; kp_fub_isize).
      `capacity -= weight` (usize) is only reached on TAKE_IT decisions, offered when capacity >= weight: on decisions
      outside the domain (never made) the model's capacity goes negative where Rust would panic / wrap.
   I3 Vec indexing out of range (panic) is the default item (0, 0); merge of an empty iterator (unwrap panic) is a dummy
      state; neither is ever reached (variables are < n, merged lists are non-empty).
   I4 the division of the rough bound has non-negative operands: isize `/` is Z.div.  The rough bound modelled is the one
      of the file as it stands in /repo (integer arithmetic, items of profit <= 0 skipped).
   I5 solver configuration of the theorem: no cache, no dominance rule (the example's main() uses the caching solver with
      KPDominance: outside the theorem), FixedWidth, no cutoff; hash-map iteration order = an arbitrary comparator.
   Stdlib only, no axioms. *)
Require Import DDO.Base DDO.Fringe DDO.DP DDO.Cache DDO.Dom DDO.Mdd DDO.MddExact DDO.MddStruct DDO.Solver DDO.SolverProofs.
Require Import DDO.MddProgress DDO.MddSim DDO.SolverCutoff DDO.Assembly DDO.SolverNoDup.
From Coq Require Import Lia List Arith ZArith Bool.
Import ListNotations.
Local Open Scope Z_scope.

(* ================================================================== 1. the arithmetic core: the Dantzig bound dominates the knapsack recursion *)
Notation item := (Z * Z)%type (only parsing).   (* (profit, weight) *)

(* KPRelax::fast_upper_bound on the items still to decide, capacity c: the greedy fractional (Dantzig) bound in integers.
     while capacity > 0 && depth < n { if profit <= 0 { skip } else if capacity >= weight { take it whole }
                                       else { max_profit += (capacity * profit) / weight; capacity = 0 } } *)
Fixpoint dantzig (l : list item) (c : Z) : Z :=
  match l with
  | [] => 0
  | (p, w) :: r =>
      if c <=? 0 then 0
      else if p <=? 0 then dantzig r c
      else if w <=? c then p + dantzig r (c - w)
      else c * p / w
  end.

(* the knapsack recursion = the Bellman value of the DP model (H_sync below) *)
Fixpoint kbest (l : list item) (c : Z) : Z :=
  match l with
  | [] => 0
  | (p, w) :: r => if w <=? c then Z.max (p + kbest r (c - w)) (kbest r c) else kbest r c
  end.

(* weights are non-negative; no weightless item of positive profit; every item of positive profit has a positive
   weight and a ratio at most P / W (cross-multiplied) *)
Definition wnonneg (l : list item) : Prop := Forall (fun it => 0 <= snd it) l.
Definition nozwpp (l : list item) : Prop := Forall (fun it => 0 < fst it -> 0 < snd it) l.
Definition dom_by (P W : Z) (l : list item) : Prop :=
  Forall (fun it => 0 < fst it -> 0 < snd it /\ fst it * W <= P * snd it) l.

(* the order Knapsack::new establishes (decreasing profit / weight; -p/0 = -inf puts the weightless items of positive
   profit first), in pairwise form: an item of positive profit and weight dominates the ratio of every later one; no
   weightless item of positive profit after an item of positive weight; items of profit <= 0 are unconstrained *)
Fixpoint sortedR (l : list item) : Prop :=
  match l with
  | [] => True
  | (p, w) :: r => (0 < p -> 0 < w -> dom_by p w r) /\ (0 < w -> nozwpp r) /\ sortedR r
  end.

Lemma dantzig_nonpos l c : c <= 0 -> dantzig l c = 0.
Proof. intros Hc. destruct l as [|[p w] r]; cbn [dantzig]; [reflexivity|]. destruct (Z.leb_spec c 0); [reflexivity|lia]. Qed.

Lemma dantzig_nonneg l : forall c, wnonneg l -> 0 <= dantzig l c.
Proof.
  induction l as [|[p w] r IH]; intros c Hw; cbn [dantzig]; [lia|].
  inversion Hw as [|? ? Hw1 Hw2]; subst. cbn [snd] in Hw1.
  destruct (Z.leb_spec c 0); [lia|]. destruct (Z.leb_spec p 0); [apply IH; exact Hw2|].
  destruct (Z.leb_spec w c).
  - specialize (IH (c - w) Hw2). lia.
  - apply Z.div_pos; nia.
Qed.

Lemma kbest_mono l : forall c1 c2, c1 <= c2 -> kbest l c1 <= kbest l c2.
Proof.
  induction l as [|[p w] r IH]; intros c1 c2 Hc; cbn [kbest]; [lia|].
  pose proof (IH c1 c2 Hc) as I1. pose proof (IH (c1 - w) (c2 - w) ltac:(lia)) as I2.
  destruct (Z.leb_spec w c1); destruct (Z.leb_spec w c2); lia.
Qed.

Lemma kbest_nonneg l : forall c, 0 <= kbest l c.
Proof.
  induction l as [|[p w] r IH]; intros c; cbn [kbest]; [lia|].
  pose proof (IH c). destruct (Z.leb_spec w c); lia.
Qed.

(* density: under a dominating ratio P / W the bound grows at most like c * P / W *)
Lemma dantzig_density P W l : 0 < W -> 0 < P -> dom_by P W l -> forall c, 0 <= c -> W * dantzig l c <= P * c.
Proof.
  intros HW HP. induction l as [|[p w] r IH]; intros Hd c Hc; cbn [dantzig]; [nia|].
  inversion Hd as [|? ? Hd1 Hd2]; subst. cbn [fst snd] in Hd1.
  destruct (Z.leb_spec c 0); [nia|]. destruct (Z.leb_spec p 0); [apply IH; assumption|].
  destruct (Hd1 ltac:(lia)) as [Hw Hr].
  destruct (Z.leb_spec w c).
  - specialize (IH Hd2 (c - w) ltac:(lia)). nia.
  - pose proof (Z.mul_div_le (c * p) w Hw) as Hq.
    assert (0 <= c * p / w) by (apply Z.div_pos; nia).
    (* W * q * w <= W * c * p <= c * P * w *)
    assert (W * (c * p / w) * w <= P * c * w) by nia.
    nia.
Qed.

(* slope: W more units of capacity are worth at most P *)
Lemma dantzig_slope P W l : 0 < W -> 0 < P -> dom_by P W l ->
  forall c, 0 <= c -> dantzig l (c + W) <= P + dantzig l c.
Proof.
  intros HW HP. induction l as [|[p w] r IH]; intros Hd c Hc; cbn [dantzig]; [lia|].
  inversion Hd as [|? ? Hd1 Hd2]; subst. cbn [fst snd] in Hd1.
  destruct (Z.leb_spec (c + W) 0); [lia|].
  destruct (Z.leb_spec p 0).
  { destruct (Z.leb_spec c 0).
    - assert (c = 0) by lia. subst c. pose proof (dantzig_density P W r HW HP Hd2 W ltac:(lia)). cbn [Z.add]. nia.
    - apply IH; assumption. }
  destruct (Hd1 ltac:(lia)) as [Hw Hr].
  destruct (Z.leb_spec c 0).
  { assert (c = 0) by lia. subst c. cbn [Z.add].
    pose proof (dantzig_density P W ((p, w) :: r) HW HP Hd W ltac:(lia)) as Hden. cbn [dantzig] in Hden.
    destruct (Z.leb_spec W 0); [lia|]. destruct (Z.leb_spec p 0); [lia|]. nia. }
  destruct (Z.leb_spec w c).
  - destruct (Z.leb_spec w (c + W)); [|lia].
    replace (c + W - w) with ((c - w) + W) by lia. specialize (IH Hd2 (c - w) ltac:(lia)). lia.
  - destruct (Z.leb_spec w (c + W)).
    + (* crossing *)
      pose proof (dantzig_density P W r HW HP Hd2 (c + W - w) ltac:(lia)) as Hden.
      set (D := dantzig r (c + W - w)) in *.
      set (q := c * p / w).
      assert (Hq1 : c * p < (q + 1) * w).
      { unfold q. pose proof (Z.mod_pos_bound (c * p) w Hw). pose proof (Z.div_mod (c * p) w ltac:(lia)). nia. }
      (* (p - q - 1) * w < (w - c) * p ; times W ; p * W <= P * w *)
      assert (X1 : (p - q - 1) * w * W < (w - c) * p * W) by nia.
      assert (X2 : (w - c) * p * W <= (w - c) * P * w) by nia.
      assert (X3 : (p - q - 1) * W < (w - c) * P) by nia.
      assert (X4 : (p - q - 1 + D) * W < W * P) by nia.
      assert (p - q - 1 + D < P) by nia. lia.
    + (* both fractional *)
      assert (Hle : (c + W) * p <= c * p + P * w) by nia.
      pose proof (Z.div_le_mono _ _ w Hw Hle) as Hdv. rewrite Z.div_add in Hdv by lia. lia.
Qed.

(* the bound stops looking at the items as soon as the capacity is 0: it then misses the weightless items of positive profit *)
Definition okcap (l : list item) (c : Z) : Prop := c <= 0 -> nozwpp l.

(* THE MATHEMATICAL HEART: the best selection of items of l of total weight <= c is worth at most the Dantzig bound *)
Theorem dantzig_adm l : wnonneg l -> sortedR l -> forall c, okcap l c -> kbest l c <= dantzig l c.
Proof.
  induction l as [|[p w] r IH]; intros Hw Hs c Hok; cbn [kbest dantzig]; [lia|].
  inversion Hw as [|? ? Hw1 Hw2]; subst. cbn [snd] in Hw1.
  destruct Hs as (Hs1 & Hs2 & Hs3).
  specialize (IH Hw2 Hs3).
  destruct (Z.leb_spec c 0) as [Hc|Hc].
  - pose proof (Hok Hc) as Hz. inversion Hz as [|? ? Hz1 Hz2]; subst. cbn [fst snd] in Hz1.
    assert (I0 : kbest r c <= 0).
    { rewrite <- (dantzig_nonpos r c Hc). apply IH. intros _. exact Hz2. }
    destruct (Z.leb_spec w c); [|exact I0].
    assert (w = 0) by lia. subst w. assert (p <= 0) by lia.
    replace (c - 0) with c by lia. lia.
  - assert (Ic : kbest r c <= dantzig r c) by (apply IH; intros ?; lia).
    destruct (Z.leb_spec p 0) as [Hp|Hp].
    + pose proof (kbest_mono r (c - w) c ltac:(lia)).
      destruct (Z.leb_spec w c); lia.
    + destruct (Z.leb_spec w c) as [Hwc|Hwc].
      * assert (I1 : kbest r (c - w) <= dantzig r (c - w)).
        { apply IH. intros Hcw. apply Hs2. lia. }
        assert (I2 : dantzig r c <= p + dantzig r (c - w)).
        { destruct (Z.eq_dec w 0) as [->|Hw0].
          - replace (c - 0) with c by lia. lia.
          - replace c with ((c - w) + w) at 1 by lia. apply dantzig_slope; try lia. apply Hs1; lia. }
        lia.
      * assert (Hw0 : 0 < w) by lia.
        pose proof (dantzig_density p w r Hw0 Hp (Hs1 Hp Hw0) c ltac:(lia)) as Hden.
        apply Z.le_trans with (dantzig r c); [exact Ic|].
        apply Z.div_le_lower_bound; [exact Hw0|]. nia.
Qed.

(* ================================================================== 2. compiling a model or a layer-guarded extension of it yields the same diagram
   inp: the model; inp2 = the same input with another domain / merge / rough bound that agree with the model on the
   states of the level invariant lvl (A_dom, A_fub, A_merge), which transitions and merges preserve (A_step, A_merge).
   NJ m: every node of the diagram sits on the level of its state.  la_compile: same diagram, same outcome. *)
Definition with_domain {St} (pb : problem St) (dom : nat -> St -> list Z) : problem St := {|
  nb_vars := nb_vars pb; init_state := init_state pb; init_value := init_value pb; transition := transition pb;
  transition_cost := transition_cost pb; next_variable := next_variable pb; domain := dom;
  is_impacted_by := is_impacted_by pb |}.
Definition with_merge_fub {St} (r : relaxation St) (mg : list St -> St) (fub : St -> Z) : relaxation St := {|
  merge := mg; relax := relax r; fast_upper_bound := fub |}.
Definition set_model {St} (inp : @cinput St) (pb : problem St) (r : relaxation St) : @cinput St := {|
  ci_flavour := ci_flavour inp; ci_type := ci_type inp; ci_problem := pb; ci_relax := r;
  ci_ranking := ci_ranking inp; ci_domcmp := ci_domcmp inp; ci_width := ci_width inp; ci_root := ci_root inp;
  ci_best_lb := ci_best_lb inp; ci_use_cache := ci_use_cache inp; ci_domrule := ci_domrule inp; ci_cutoff := ci_cutoff inp |}.

Local Open Scope nat_scope.
Section LayerAgree.
  Context {St : Type}.
  Variable st_eqb : St -> St -> bool.
  Hypothesis st_eqb_spec : forall a b, st_eqb a b = true <-> a = b.
  Variable inp : @cinput St.
  Hypothesis Hclean : ci_flavour inp = CleanLEL \/ ci_flavour inp = CleanFC.
  Variable dom2 : nat -> St -> list Z.
  Variable mg2 : list St -> St.
  Variable fub2 : St -> Z.
  Local Notation pb := (ci_problem inp).
  Local Notation rlx := (ci_relax inp).
  Local Notation inp2 := (set_model inp (with_domain (ci_problem inp) dom2) (with_merge_fub (ci_relax inp) mg2 fub2)).
  Local Notation gn := (get_node inp).

  Variable lvl : nat -> St -> Prop.
  Hypothesis A_dom : forall k l x s, next_variable pb k l = Some x -> lvl k s -> dom2 x s = domain pb x s.
  Hypothesis A_fub : forall k l x s, next_variable pb k l = Some x -> lvl k s -> fub2 s = fast_upper_bound rlx s.
  Hypothesis A_step : forall k l x s v, next_variable pb k l = Some x -> lvl k s -> In v (domain pb x s) ->
    lvl (S k) (transition pb s {| d_var := x; d_val := v |}).
  Hypothesis A_merge : forall k l x L, next_variable pb k l = Some x -> L <> [] -> Forall (lvl k) L ->
    mg2 L = merge rlx L /\ lvl k (merge rlx L).

  Ltac lnorm := cbv beta iota delta [
    set_model with_domain with_merge_fub merge relax fast_upper_bound
    nb_vars init_state init_value transition transition_cost next_variable domain is_impacted_by
    ci_flavour ci_type ci_problem ci_relax ci_ranking ci_domcmp ci_width ci_root ci_best_lb ci_use_cache ci_domrule ci_cutoff
    get_node get_edge upd_node find_next branch_on cache_get cache_update dom_query
    filter_with_cache dom_order dom_retain filter_with_dominance rank_order note_squash restrict_layer
    initialize
    finalize_layers argmax_candidates find_best_node has_exact_best_path finalize_exact frontier_cutset
    finalize_cutset compute_local_bounds maybe_update_cache compute_thresholds default_node].

  Lemma la_filter_with_cache m l : filter_with_cache st_eqb inp2 m l = filter_with_cache st_eqb inp m l.
  Proof. lnorm. reflexivity. Qed.
  Lemma la_filter_with_dominance m l : filter_with_dominance inp2 m l = filter_with_dominance inp m l.
  Proof. lnorm. reflexivity. Qed.
  Lemma la_restrict_layer m l : restrict_layer inp2 m l = restrict_layer inp m l.
  Proof. lnorm. reflexivity. Qed.
  (* Comparing the two sides by conversion would compare the diagram records field by field, over and over
     (each of the 18 fields mentions the whole previous record): rewrite with the operations it is built from. *)
  Lemma la_get_node : get_node inp2 = get_node inp. Proof. reflexivity. Qed.
  Lemma la_find_next : find_next st_eqb inp2 = find_next st_eqb inp. Proof. reflexivity. Qed.
  Lemma la_append_edge : append_edge inp2 = append_edge inp. Proof. reflexivity. Qed.
  Lemma la_branch_on m id d : branch_on st_eqb inp2 m id d = branch_on st_eqb inp m id d.
  Proof. unfold branch_on. rewrite la_get_node, la_find_next, la_append_edge. reflexivity. Qed.
  Lemma la_initialize c ds p : initialize inp2 c ds p = initialize inp c ds p.
  Proof. reflexivity. Qed.
  Lemma la_finalize_layers m : finalize_layers inp2 m = finalize_layers inp m.
  Proof. lnorm. reflexivity. Qed.
  Lemma la_find_best_node a b m : find_best_node inp2 a b m = find_best_node inp a b m.
  Proof. lnorm. reflexivity. Qed.
  Lemma la_finalize_exact m : finalize_exact inp2 m = finalize_exact inp m.
  Proof. lnorm. reflexivity. Qed.
  Lemma la_finalize_cutset m : finalize_cutset inp2 m = finalize_cutset inp m.
  Proof. lnorm. reflexivity. Qed.
  Lemma la_compute_local_bounds m : compute_local_bounds inp2 m = compute_local_bounds inp m.
  Proof. lnorm. reflexivity. Qed.
  Lemma la_compute_thresholds m : compute_thresholds st_eqb inp2 m = compute_thresholds st_eqb inp m.
  Proof. lnorm. reflexivity. Qed.
  Lemma la_finalize tb tb2 m : finalize st_eqb inp2 tb tb2 m = finalize st_eqb inp tb tb2 m.
  Proof.
    unfold finalize.
    rewrite la_finalize_layers, la_find_best_node, la_finalize_exact, la_finalize_cutset,
            la_compute_local_bounds, la_compute_thresholds. reflexivity.
  Qed.
  Lemma la_drop_step merged mid m did : drop_step inp2 merged mid m did = drop_step inp merged mid m did.
  Proof. reflexivity. Qed.

  (* ---- the state-level invariant: every node sits at the level of its state *)
  Definition okn (n : @node St) : Prop := lvl (n_depth n) (n_state n).
  Definition NJ (m : @mdd St) : Prop := Forall okn (m_nodes m).

  Lemma NJ_same (m m' : @mdd St) : m_nodes m' = m_nodes m -> NJ m -> NJ m'.
  Proof. unfold NJ. intros ->. auto. Qed.

  Lemma NJ_upd (m : @mdd St) id f :
    (forall n, n_state (f n) = n_state n) -> (forall n, n_depth (f n) = n_depth n) -> NJ m -> NJ (upd_node m id f).
  Proof.
    intros H1 H2 HN. unfold NJ. cbn [upd_node with_nodes m_nodes]. apply Forall_upd_nth; [|exact HN].
    intros x Hx. unfold okn. rewrite H1, H2. exact Hx.
  Qed.

  Lemma NJ_append (m : @mdd St) e : NJ m -> NJ (append_edge inp m e).
  Proof.
    intros HN. unfold NJ. cbn [append_edge m_nodes]. apply Forall_upd_nth; [|exact HN].
    intros x Hx. exact Hx.
  Qed.

  Lemma NJ_snoc (m : @mdd St) n : NJ m -> okn n -> NJ (with_nodes m (m_nodes m ++ [n])).
  Proof. intros HN Hn. unfold NJ. cbn [with_nodes m_nodes]. apply Forall_app. split; [exact HN|constructor; [exact Hn|constructor]]. Qed.

  Lemma NJ_get (m : @mdd St) id : NJ m -> id < length (m_nodes m) -> okn (gn m id).
  Proof. intros HN Hid. unfold NJ in HN. rewrite Forall_forall in HN. apply HN. unfold get_node. apply nth_In. exact Hid. Qed.

  Lemma NJ_fold {X} (f : @mdd St -> X -> @mdd St) (l : list X) :
    (forall a x, NJ a -> NJ (f a x)) -> forall a, NJ a -> NJ (fold_left f l a).
  Proof. intros Hf. induction l as [|x l IH]; intros a Ha; simpl; auto. Qed.

  Lemma NJ_peq (m m' : @mdd St) : peq inp m m' -> NJ m -> NJ m'.
  Proof.
    intros (_ & _ & Hlen & Hc) HN. unfold NJ. apply Forall_forall. intros x Hx.
    destruct (In_nth _ _ (default_node (sp_state (ci_root inp))) Hx) as (id & Hid & E).
    change (gn m' id = x) in E. subst x.
    destruct (Hc id) as (c1 & _ & _ & _ & _ & _ & c7). unfold okn. rewrite <- c1, <- c7.
    apply NJ_get; [exact HN|]. rewrite <- Hlen. exact Hid.
  Qed.

  Lemma NJ_ceq (m m' : @mdd St) : ceq inp m m' -> NJ m -> NJ m'.
  Proof. intros (Hp & _). apply NJ_peq. exact Hp. Qed.

  Lemma NJ_branch_on (a : @mdd St) id d :
    NJ a -> lvl (S (n_depth (gn a id))) (transition pb (n_state (gn a id)) d) -> NJ (branch_on st_eqb inp a id d).
  Proof.
    intros HN Hl. unfold branch_on. cbv zeta.
    match goal with |- context [find_next ?x ?y ?z ?w] => destruct (find_next x y z w) end.
    - apply NJ_append. exact HN.
    - eapply NJ_same; [reflexivity|]. apply NJ_append. apply NJ_snoc; [exact HN|]. exact Hl.
  Qed.

  Lemma la_expand_node_eq (var : nat) (m : @mdd St) (id k : nat) l0 :
    next_variable pb k l0 = Some var -> lvl k (n_state (gn m id)) ->
    expand_node st_eqb inp2 var m id = expand_node st_eqb inp var m id.
  Proof.
    intros Hv Hl. unfold expand_node. rewrite la_get_node.
    change (fast_upper_bound (ci_relax inp2)) with fub2. change (domain (ci_problem inp2)) with dom2.
    rewrite (A_fub k l0 var _ Hv Hl), (A_dom k l0 var _ Hv Hl).
    rewrite (fold_left_ext _ _ _ (fun a v => la_branch_on a id _)). reflexivity.
  Qed.

  Lemma la_expand_node_NJ (var : nat) (m : @mdd St) (id k : nat) l0 :
    Dinv inp m -> Xinv inp m -> id < m_layer_end m -> next_depth inp (S k) m ->
    n_depth (gn m id) = k -> next_variable pb k l0 = Some var -> NJ m ->
    NJ (expand_node st_eqb inp var m id).
  Proof.
    intros HD HX Hid Hnd Hdk Hv HN.
    assert (Hidlen : id < length (m_nodes m)) by (pose proof (@D_le _ inp _ m HD); lia).
    assert (Hlk : lvl k (n_state (gn m id))).
    { pose proof (NJ_get m id HN Hidlen) as Ho. unfold okn in Ho. rewrite Hdk in Ho. exact Ho. }
    unfold expand_node. cbv zeta.
    set (state := n_state (gn m id)) in *.
    set (m1 := upd_node m id (fun n => set_rub n (fast_upper_bound rlx state))).
    assert (Hc1 : ceq inp m m1) by (apply ceq_upd_node; intros n; apply core_eq_set_rub).
    assert (HD1 : Dinv inp m1) by (eapply Dg_ceq; eauto).
    assert (HX1 : Xinv inp m1) by (eapply Xinv_ceq; eauto).
    assert (HN1 : NJ m1) by (eapply NJ_ceq; eauto).
    assert (Hst1 : stable inp m m1) by (apply ceq_stable; exact Hc1).
    assert (Hnd1 : next_depth inp (S k) m1).
    { intros j Hj. change (In j (m_next m)) in Hj.
      destruct Hc1 as ((_ & _ & _ & A4) & _). destruct (A4 j) as (_ & _ & _ & _ & _ & _ & c7).
      rewrite <- c7. apply Hnd; exact Hj. }
    match goal with |- NJ (if ?c then _ else _) => destruct c end; [|exact HN1].
    set (m2 := add_log m1 (EvDomain var state)).
    assert (Hc2 : ceq inp m1 m2) by apply ceq_add_log.
    assert (HD2 : Dinv inp m2) by (eapply Dg_ceq; eauto).
    assert (HX2 : Xinv inp m2) by (eapply Xinv_ceq; eauto).
    assert (HN2 : NJ m2) by (eapply NJ_ceq; eauto).
    assert (Hst2 : stable inp m m2) by (eapply (stable_trans inp Hclean); [exact Hst1|apply ceq_stable; exact Hc2]).
    assert (Hnd2 : next_depth inp (S k) m2) by exact Hnd1.
    set (P := fun m' => Dinv inp m' /\ Xinv inp m' /\ stable inp m m' /\ next_depth inp (S k) m' /\ NJ m').
    assert (G : P (fold_left (fun m' val => branch_on st_eqb inp m' id {| d_var := var; d_val := val |}) (domain pb var state) m2)).
    { apply (MddExact.fold_left_inv P).
      - unfold P. auto.
      - intros a val Hval (Ha1 & Ha2 & Ha3 & Ha4 & Ha5).
        pose proof Ha3 as (s1 & s2 & s3 & s4 & s5).
        destruct (s4 id Hidlen) as [Hs Hdp].
        assert (Hida : id < m_layer_end a) by (rewrite s1; exact Hid).
        destruct (branch_on_inv st_eqb st_eqb_spec inp Hclean a id {| d_var := var; d_val := val |} Ha1 Ha2 Hida) as (B1 & B2 & B3 & B4).
        + rewrite Hdp, Hdk. exact Ha4.
        + rewrite Hs. apply in_domain_of_In. exact Hval.
        + rewrite Hdp, Hdk. exists l0. exact Hv.
        + split; [exact B1|]. split; [exact B2|]. split; [eapply (stable_trans inp Hclean); eauto|]. split.
          * rewrite Hdp, Hdk in B4. exact B4.
          * apply NJ_branch_on; [exact Ha5|]. rewrite Hdp, Hdk, Hs.
            apply (A_step k l0 var state val Hv Hlk). exact Hval. }
    apply G.
  Qed.

  Lemma la_expand_layer (var k : nat) l0 (l : list nat) : forall (m : @mdd St),
    Dinv inp m -> Xinv inp m -> next_depth inp (S k) m ->
    (forall id, In id l -> id < m_layer_end m /\ n_depth (gn m id) = k) ->
    next_variable pb k l0 = Some var -> NJ m ->
    fold_left (expand_node st_eqb inp2 var) l m = fold_left (expand_node st_eqb inp var) l m /\
    NJ (fold_left (expand_node st_eqb inp var) l m).
  Proof.
    induction l as [|id l IH]; intros m HD HX Hnd Hl Hv HN; [simpl; auto|].
    cbn [fold_left].
    destruct (Hl id (or_introl eq_refl)) as [Hid Hdk].
    assert (Hidlen : id < length (m_nodes m)) by (pose proof (@D_le _ inp _ m HD); lia).
    assert (Hlk : lvl k (n_state (gn m id))).
    { pose proof (NJ_get m id HN Hidlen) as Ho. unfold okn in Ho. rewrite Hdk in Ho. exact Ho. }
    rewrite (la_expand_node_eq var m id k l0 Hv Hlk).
    pose proof (la_expand_node_NJ var m id k l0 HD HX Hid Hnd Hdk Hv HN) as HN'.
    destruct (expand_node_inv st_eqb st_eqb_spec inp Hclean var m id HD HX Hid) as (E1 & E2 & E3 & E4).
    { rewrite Hdk. exact Hnd. }
    { rewrite Hdk. exists l0. exact Hv. }
    rewrite Hdk in E4.
    apply IH; auto.
    intros id' Hin. destruct (Hl id' (or_intror Hin)) as [Hid' Hdk'].
    destruct E3 as (s1 & s2 & s3 & s4 & s5).
    assert (Hlen' : id' < length (m_nodes m)) by (pose proof (@D_le _ inp _ m HD); lia).
    destruct (s4 id' Hlen') as [_ Hdp]. rewrite s1, Hdp. auto.
  Qed.

  Lemma NJ_note_squash (m : @mdd St) : NJ m -> NJ (note_squash inp m).
  Proof. intros HN. destruct (note_squash_fields inp Hclean m) as (F1 & _). eapply NJ_same; [exact F1|exact HN]. Qed.

  Lemma NJ_redirect_step merged mid (m : @mdd St) eid : NJ m -> NJ (redirect_step inp merged mid m eid).
  Proof. intros HN. unfold redirect_step. apply NJ_append. eapply NJ_same; [reflexivity|exact HN]. Qed.

  Lemma NJ_drop_step merged mid (m : @mdd St) did : NJ m -> NJ (drop_step inp merged mid m did).
  Proof.
    intros HN. unfold drop_step. rewrite redirect_edges_fold. apply NJ_fold.
    - intros a x Ha. apply NJ_redirect_step. exact Ha.
    - apply NJ_upd; [reflexivity|reflexivity|exact HN].
  Qed.

  Lemma la_relax_layer (m : @mdd St) (l : list nat) (k var : nat) l0 :
    next_variable pb k l0 = Some var -> layer_ok inp m l k -> ci_width inp < length l -> NJ m ->
    relax_layer st_eqb inp2 m l = relax_layer st_eqb inp m l /\ NJ (fst (relax_layer st_eqb inp m l)).
  Proof.
    intros Hv Hl Hw HN. destruct (ci_width inp) as [|w1] eqn:Ew.
    - unfold relax_layer. cbn [set_model ci_width]. rewrite Ew. split; [reflexivity|]. cbn [fst].
      eapply NJ_same; [reflexivity|]. apply NJ_note_squash. exact HN.
    - rewrite (relax_layer_unfold st_eqb inp2 m l w1 Ew), (relax_layer_unfold st_eqb inp m l w1 Ew). cbv zeta.
      change (note_squash inp2 m) with (note_squash inp m).
      set (m0 := note_squash inp m).
      assert (HN0 : NJ m0) by (apply NJ_note_squash; exact HN).
      assert (Hn0 : m_nodes m0 = m_nodes m) by (destruct (note_squash_fields inp Hclean m) as (F1 & _); exact F1).
      assert (Hg0 : forall id, gn m0 id = gn m id) by (intros id; unfold get_node; rewrite Hn0; reflexivity).
      change (rank_order inp2 m0) with (rank_order inp m0).
      set (sorted := sort_by (rank_order inp m0) l).
      set (mrg := skipn w1 sorted).
      change (map (fun id => n_state (get_node inp2 m0 id)) mrg) with (map (fun id => n_state (get_node inp m0 id)) mrg).
      set (mstates := map (fun id => n_state (get_node inp m0 id)) mrg).
      assert (Hmrg : forall x, In x mrg -> In x l).
      { intros x Hx. apply In_skipn in Hx. apply sort_by_In in Hx. exact Hx. }
      assert (Hne : mstates <> []).
      { unfold mstates. intros E. apply map_eq_nil in E. revert E. apply skipn_nonempty.
        unfold sorted. rewrite sort_by_length. lia. }
      assert (Hall : Forall (lvl k) mstates).
      { unfold mstates. apply Forall_forall. intros s Hs. apply in_map_iff in Hs. destruct Hs as (id & <- & Hid).
        destruct (Hl id (Hmrg id Hid)) as [Hr Hd]. rewrite Hg0.
        pose proof (NJ_get m id HN ltac:(lia)) as Ho. unfold okn in Ho. rewrite Hd in Ho. exact Ho. }
      destruct (A_merge k l0 var mstates Hv Hne Hall) as [Em Hlm].
      change (merge (ci_relax inp2) mstates) with (mg2 mstates). rewrite Em.
      set (merged := merge rlx mstates) in *.
      set (m1 := add_log m0 (EvMerge mstates merged)).
      assert (HN1 : NJ m1) by (eapply NJ_same; [reflexivity|exact HN0]).
      change (find (fun id => st_eqb (n_state (get_node inp2 m1 id)) merged) (firstn w1 sorted))
        with (find (fun id => st_eqb (n_state (get_node inp m1 id)) merged) (firstn w1 sorted)).
      destruct (find (fun id => st_eqb (n_state (get_node inp m1 id)) merged) (firstn w1 sorted)) as [rid|].
      + split; [reflexivity|]. cbn [fst].
        apply NJ_upd; [reflexivity|reflexivity|].
        apply NJ_fold; [intros a x Ha; apply NJ_drop_step; exact Ha|].
        apply NJ_upd; [reflexivity|reflexivity|exact HN1].
      + split; [reflexivity|]. cbn [fst].
        apply NJ_fold; [intros a x Ha; apply NJ_drop_step; exact Ha|].
        apply NJ_upd; [reflexivity|reflexivity|].
        apply NJ_snoc; [exact HN1|].
        unfold okn, merged_node. cbn [n_depth n_state].
        assert (Hhd : In (hd 0 mrg) mrg).
        { apply hd_In. apply skipn_nonempty. unfold sorted. rewrite sort_by_length. lia. }
        destruct (Hl _ (Hmrg _ Hhd)) as [_ Hd].
        change (get_node inp m1 (hd 0 mrg)) with (gn m0 (hd 0 mrg)). rewrite Hg0, Hd. exact Hlm.
  Qed.

  Lemma NJ_mark_deleted ids : forall (m : @mdd St), NJ m -> NJ (mark_deleted m ids).
  Proof. unfold mark_deleted. apply NJ_fold. intros a x Ha. apply NJ_upd; [reflexivity|reflexivity|exact Ha]. Qed.

  Lemma la_squash (m : @mdd St) (l : list nat) (k var : nat) l0 :
    next_variable pb k l0 = Some var -> layer_ok inp m l k -> NJ m ->
    squash_if_needed st_eqb inp2 m l = squash_if_needed st_eqb inp m l /\
    NJ (fst (squash_if_needed st_eqb inp m l)).
  Proof.
    intros Hv Hl HN. unfold squash_if_needed. change (ci_type inp2) with (ci_type inp). change (ci_width inp2) with (ci_width inp).
    destruct (ci_type inp).
    - split; [reflexivity|exact HN].
    - destruct (Nat.ltb (ci_width inp) (length l) && Nat.ltb 1 (length (m_layers m))) eqn:Eg.
      + apply andb_true_iff in Eg. destruct Eg as [E1 _]. apply Nat.ltb_lt in E1.
        apply (la_relax_layer m l k var l0); assumption.
      + split; [reflexivity|exact HN].
    - destruct (Nat.ltb (ci_width inp) (length l)).
      + rewrite la_restrict_layer. split; [reflexivity|].
        unfold restrict_layer. cbn [fst]. apply NJ_mark_deleted. apply NJ_note_squash. exact HN.
      + split; [reflexivity|exact HN].
  Qed.

  Lemma la_move (m : @mdd St) (k var : nat) l0 :
    next_variable pb k l0 = Some var -> Dinv inp m -> Xinv inp m -> next_depth inp k m -> NJ m ->
    move_to_next_layer_clean st_eqb inp2 m = move_to_next_layer_clean st_eqb inp m /\
    NJ (fst (move_to_next_layer_clean st_eqb inp m)).
  Proof.
    intros Hv HD HX Hnd HN. rewrite !move_clean_unfold. destruct (m_next m) as [|c0 cs] eqn:En.
    - split; [reflexivity|]. cbn [fst]. eapply NJ_same; [reflexivity|exact HN].
    - rewrite <- En. set (curr := m_next m). set (ma := with_next m []).
      assert (Hpa : peq inp m ma) by (apply peq_same_nodes; reflexivity).
      assert (HDa : Dinv inp ma).
      { eapply (Dg_peq inp Hclean); [exact Hpa|exact HD|apply Nat.le_refl|apply (@D_le _ inp _ m HD)|]. intros id []. }
      assert (HXa : Xinv inp ma) by (eapply Xg_peq; [exact Hpa|reflexivity|reflexivity|reflexivity|exact HX]).
      assert (HNa : NJ ma) by (eapply NJ_same; [reflexivity|exact HN]).
      assert (Hla : layer_ok inp ma curr k).
      { intros id Hid. split; [apply (@D_next _ inp _ m HD id Hid)|apply Hnd; exact Hid]. }
      unfold prefilter. change (m_layers (with_next m [])) with (m_layers ma).
      rewrite la_filter_with_cache.
      assert (Hb : exists mb lb,
                 (if Nat.ltb 0 (length (m_layers ma)) then filter_with_cache st_eqb inp ma curr else (ma, curr)) = (mb, lb)
                 /\ ceq inp ma mb /\ incl lb curr).
      { destruct (Nat.ltb 0 (length (m_layers ma))).
        - destruct (filter_with_cache_ceq st_eqb inp Hclean curr ma) as [I1 I2].
          destruct (filter_with_cache st_eqb inp ma curr) as [mb lb]. exists mb, lb. auto.
        - exists ma, curr. split; [reflexivity|]. split; [apply ceq_refl|apply incl_refl]. }
      destruct Hb as (mb & lb & Eb & Hcb & Hib). rewrite Eb.
      rewrite la_filter_with_dominance.
      destruct (filter_with_dominance_ceq inp mb lb) as [Hcc Hic].
      destruct (filter_with_dominance inp mb lb) as [mc lc]. cbn [fst snd] in Hcc, Hic.
      assert (Hac : ceq inp ma mc) by (eapply ceq_trans; eauto).
      assert (HNc : NJ mc) by (eapply NJ_ceq; eauto).
      assert (Hlc : layer_ok inp mc lc k).
      { eapply layer_ok_stable; [apply ceq_stable; exact Hac|exact Hla|]. eapply incl_tran; eauto. }
      destruct (la_squash mc lc k var l0 Hv Hlc HNc) as [E1 E2]. rewrite E1.
      destruct (squash_if_needed st_eqb inp mc lc) as [md ld]. cbn [fst] in E2.
      split; [reflexivity|]. cbn [fst]. eapply NJ_same; [reflexivity|exact E2].
  Qed.

  Lemma la_layer_loop : forall fuel (m : @mdd St),
    Dinv inp m -> Xinv inp m -> next_depth inp (m_curr_depth m) m -> NJ m ->
    layer_loop st_eqb inp2 fuel m = layer_loop st_eqb inp fuel m /\ NJ (fst (layer_loop st_eqb inp fuel m)).
  Proof.
    induction fuel as [|fuel IH]; intros m HD HX Hnd HN; [split; [reflexivity|exact HN]|].
    rewrite !layer_loop_iter. cbv zeta.
    change (ci_problem inp2) with (with_domain pb dom2). change (next_variable (with_domain pb dom2)) with (next_variable pb).
    change (ci_cutoff inp2) with (ci_cutoff inp).
    change (fun id => n_state (get_node inp2 m id)) with (fun id => n_state (get_node inp m id)).
    set (states := map (fun id => n_state (get_node inp m id)) (m_next m)).
    set (d := m_curr_depth m) in *.
    destruct (next_variable pb d states) as [var|] eqn:Hv; [|split; [reflexivity|cbn [fst]; eapply NJ_same; [reflexivity|exact HN]]].
    set (m0 := add_log m (EvNextVar d states (Some var))).
    set (m1 := with_polls m0 (S (m_polls m0))).
    assert (Hc1 : ceq inp m m1) by (eapply ceq_trans; [apply ceq_add_log|apply ceq_with_polls]).
    assert (HD1 : Dinv inp m1) by (eapply Dg_ceq; eauto).
    assert (HX1 : Xinv inp m1) by (eapply Xinv_ceq; eauto).
    assert (HN1 : NJ m1) by (eapply NJ_same; [reflexivity|exact HN]).
    assert (Hnd1 : next_depth inp d m1) by exact Hnd.
    destruct (fires (ci_cutoff inp) (m_polls m1)); [split; [reflexivity|exact HN1]|].
    unfold loop_body. change (ci_flavour inp2) with (ci_flavour inp).
    rewrite (not_pooled inp Hclean).
    destruct (la_move m1 d var states Hv HD1 HX1 Hnd1 HN1) as [E1 E2]. rewrite E1.
    pose proof (move_to_next_layer_clean_inv st_eqb inp Hclean m1 d HD1 HX1 Hnd1) as Hmv.
    destruct (move_to_next_layer_clean st_eqb inp m1) as [m2 [l|]]; cbn [fst snd] in Hmv, E2; [|split; [reflexivity|exact E2]].
    destruct Hmv as (M1 & M2 & M3 & M4 & M5).
    assert (Hnd2 : next_depth inp (S d) m2) by (intros id Hid; rewrite M3 in Hid; destruct Hid).
    destruct (la_expand_layer var d states l m2 M1 M2 Hnd2 M4 Hv E2) as [X1 X2]. rewrite X1.
    destruct (expand_layer_inv st_eqb st_eqb_spec inp Hclean var l d m2 M1 M2 Hnd2 M4) as (G1 & G2 & G3 & G4).
    { exists states. exact Hv. }
    set (m4 := fold_left (expand_node st_eqb inp var) l m2) in *.
    assert (Hp5 : peq inp m4 (with_depth m4 (S (m_curr_depth m4)))) by (apply peq_same_nodes; reflexivity).
    apply IH.
    - eapply (Dg_peq inp Hclean); [exact Hp5|exact G1|apply Nat.le_refl|apply (@D_le _ inp _ m4 G1)|apply (@D_next _ inp _ m4 G1)].
    - eapply Xg_peq; [exact Hp5|reflexivity|reflexivity|reflexivity|exact G2].
    - cbn [m_curr_depth with_depth]. destruct G3 as (_ & _ & _ & _ & e5). rewrite e5.
      change (m_curr_depth m1) with d in M5. rewrite M5. exact G4.
    - eapply NJ_same; [reflexivity|exact X2].
  Qed.

  Theorem la_compile tb tb2 c ds polls :
    lvl (sp_depth (ci_root inp)) (sp_state (ci_root inp)) ->
    compile st_eqb inp2 tb tb2 c ds polls = compile st_eqb inp tb tb2 c ds polls.
  Proof.
    intros Hroot. unfold compile. change (nb_vars (ci_problem inp2)) with (nb_vars pb). rewrite la_initialize.
    destruct (MddExact.initialize_inv inp c ds polls) as (I1 & I2 & I3).
    destruct (la_layer_loop (S (S (nb_vars pb))) (initialize inp c ds polls) I1 I2 I3) as [E _].
    { unfold NJ. cbn [initialize m_nodes]. constructor; [exact Hroot|constructor]. }
    rewrite E.
    destruct (layer_loop st_eqb inp (S (S (nb_vars pb))) (initialize inp c ds polls)) as [ml e].
    destruct e; [|reflexivity|reflexivity]. rewrite la_finalize. reflexivity.
  Qed.
End LayerAgree.

(* ================================================================== 3. the solver theorem for a model whose layer-guarded extension meets the premises of Assembly.v *)
Local Open Scope Z_scope.

Definition guarded_cfg {St} (cfg : @sconfig St) dom2 mg2 fub2 : @sconfig St := {|
  sc_flavour := sc_flavour cfg; sc_problem := with_domain (sc_problem cfg) dom2;
  sc_relax := with_merge_fub (sc_relax cfg) mg2 fub2; sc_ranking := sc_ranking cfg; sc_domcmp := sc_domcmp cfg;
  sc_domrule := sc_domrule cfg; sc_width := sc_width cfg; sc_use_cache := sc_use_cache cfg; sc_nodup := false;
  sc_cutoff := sc_cutoff cfg |}.

Lemma frun_cons {St} (pb : problem St) k s v d ds r :
  frun pb k s v (d :: ds) = Some r <->
  next_variable pb k [] = Some (d_var d) /\ In (d_val d) (domain pb (d_var d) s) /\
  frun pb (S k) (transition pb s d) (v + transition_cost pb s (transition pb s d) d) ds = Some r.
Proof.
  cbn [frun]. unfold var_ok. split.
  - destruct (next_variable pb k []) as [x|]; [|discriminate].
    destruct (Nat.eqb_spec x (d_var d)) as [->|]; [|discriminate].
    destruct (in_domain pb s d) eqn:Ed; [|discriminate]. apply in_domain_In in Ed. auto.
  - intros (-> & Hin & Hr). rewrite Nat.eqb_refl, (In_in_domain pb s d Hin). exact Hr.
Qed.

Section Layered.
  Context {St : Type}.
  Variable st_eqb : St -> St -> bool.
  Hypothesis st_eqb_spec : forall a b, st_eqb a b = true <-> a = b.
  Variable cfg : @sconfig St.
  Variable dom2 : nat -> St -> list Z.
  Variable mg2 : list St -> St.
  Variable fub2 : St -> Z.
  Local Notation pb := (sc_problem cfg).
  Local Notation rlx := (sc_relax cfg).
  Local Notation cfg2 := (guarded_cfg cfg dom2 mg2 fub2).
  Local Notation pb2 := (with_domain (sc_problem cfg) dom2).
  Local Notation N := (nb_vars (sc_problem cfg)).

  Hypothesis cfg_clean : sc_flavour cfg = CleanLEL \/ sc_flavour cfg = CleanFC.
  Hypothesis cfg_nocache : sc_use_cache cfg = false.
  Hypothesis cfg_nodom : sc_domrule cfg = None.
  Hypothesis cfg_width : (1 <= sc_width cfg)%nat.
  Hypothesis cfg_nocut : sc_cutoff cfg = 0%nat.
  Hypothesis nv_static : forall k l1 l2, next_variable pb k l1 = next_variable pb k l2.
  Hypothesis nv_some : forall k l, (k < N)%nat -> exists x, next_variable pb k l = Some x.
  Hypothesis nv_none : forall k l, (N <= k)%nat -> next_variable pb k l = None.

  Variable lvl : nat -> St -> Prop.
  Hypothesis lvl_root : lvl 0 (init_state pb).
  Hypothesis A_dom : forall k l x s, next_variable pb k l = Some x -> lvl k s -> dom2 x s = domain pb x s.
  Hypothesis A_fub : forall k l x s, next_variable pb k l = Some x -> lvl k s -> fub2 s = fast_upper_bound rlx s.
  Hypothesis A_step : forall k l x s v, next_variable pb k l = Some x -> lvl k s -> In v (domain pb x s) ->
    lvl (S k) (transition pb s {| d_var := x; d_val := v |}).
  Hypothesis A_merge : forall k l x L, next_variable pb k l = Some x -> L <> [] -> Forall (lvl k) L ->
    mg2 L = merge rlx L /\ lvl k (merge rlx L).

  Hypothesis Hwf2 : wf_relaxation cfg2.
  Variable D : nat.
  Hypothesis dom_bound2 : forall x s, (length (dom2 x s) <= D)%nat.
  Variable B : Z.
  Hypothesis HB : 2 * B <= IMAX.
  Hypothesis guard02 : forall ds s' v', frun pb2 0 (init_state pb) (init_value pb) ds = Some (s', v') -> - B <= v' <= B.

  (* ---- the guarded model and the model have the same runs / Bellman values on levelled states *)
  Lemma frun2_lvl ds : forall k s v s' v', frun pb2 k s v ds = Some (s', v') -> lvl k s ->
    frun pb k s v ds = Some (s', v') /\ lvl (k + length ds) s'.
  Proof.
    induction ds as [|d ds IH]; intros k s v s' v' Hr Hl.
    - inversion Hr; subst. rewrite Nat.add_0_r. auto.
    - apply frun_cons in Hr. destruct Hr as (Hx & Hin & Hr).
      change (In (d_val d) (dom2 (d_var d) s)) in Hin. rewrite (A_dom k [] _ s Hx Hl) in Hin.
      assert (Hl' : lvl (S k) (transition pb s d)).
      { pose proof (A_step k [] (d_var d) s (d_val d) Hx Hl Hin) as Hs. destruct d; exact Hs. }
      destruct (IH _ _ _ _ _ Hr Hl') as [I1 I2]. split; [apply frun_cons; auto|].
      cbn [length]. rewrite Nat.add_succ_r. exact I2.
  Qed.

  Lemma sgood2_lvl n : sgood pb2 n -> lvl (sp_depth n) (sp_state n).
  Proof.
    intros (_ & ds & H1 & _ & H3). destruct (frun2_lvl ds 0%nat _ _ _ _ H3 lvl_root) as [_ Hl].
    cbn [Nat.add] in Hl. rewrite H1 in Hl. exact Hl.
  Qed.

  Lemma sfeasible2 sol v : sfeasible pb2 sol v -> sfeasible pb sol v.
  Proof.
    intros (ds & st & H1 & H2 & H3). exists ds, st. split; [exact H1|]. split; [exact H2|].
    apply (frun2_lvl ds 0%nat _ _ _ _ H3 lvl_root).
  Qed.

  Lemma hstar2 fuel : forall k s, lvl k s -> hstar pb2 fuel k s = hstar pb fuel k s.
  Proof.
    induction fuel as [|fuel IH]; intros k s Hl; cbn [hstar]; [reflexivity|].
    change (next_variable pb2) with (next_variable pb).
    destruct (next_variable pb k [s]) as [x|] eqn:Hx; [|reflexivity].
    change (domain pb2 x s) with (dom2 x s). rewrite (A_dom k [s] x s Hx Hl).
    change (transition pb2) with (transition pb). change (transition_cost pb2) with (transition_cost pb).
    assert (G : forall l, incl l (domain pb x s) ->
      fold_right (fun val acc => omax (oadd (transition_cost pb s (transition pb s {| d_var := x; d_val := val |}) {| d_var := x; d_val := val |})
                                         (hstar pb2 fuel (S k) (transition pb s {| d_var := x; d_val := val |}))) acc) None l =
      fold_right (fun val acc => omax (oadd (transition_cost pb s (transition pb s {| d_var := x; d_val := val |}) {| d_var := x; d_val := val |})
                                         (hstar pb fuel (S k) (transition pb s {| d_var := x; d_val := val |}))) acc) None l).
    { induction l as [|val l IHl]; intros Hi; cbn [fold_right]; [reflexivity|].
      rewrite IHl by (intros y Hy; apply Hi; right; exact Hy).
      rewrite IH; [reflexivity|]. apply (A_step k [s] x s val Hx Hl). apply Hi. left. reflexivity. }
    apply G. apply incl_refl.
  Qed.

  Lemma opt_enum2 : opt_enum pb2 = opt_enum pb.
  Proof.
    unfold opt_enum. rewrite (opt_enum_from_H pb2), (opt_enum_from_H pb). unfold H.
    change (nb_vars pb2) with (nb_vars pb). change (init_state pb2) with (init_state pb).
    rewrite hstar2 by exact lvl_root. reflexivity.
  Qed.

  (* ---- compilations of good sub-problems coincide *)
  Lemma la_compile_cfg ct n lb c ds polls : lvl (sp_depth n) (sp_state n) ->
    compile st_eqb (mk_input cfg2 ct n lb) 0 0 c ds polls = compile st_eqb (mk_input cfg ct n lb) 0 0 c ds polls.
  Proof.
    intros Hl.
    change (mk_input cfg2 ct n lb) with
      (set_model (mk_input cfg ct n lb) (with_domain (ci_problem (mk_input cfg ct n lb)) dom2)
                 (with_merge_fub (ci_relax (mk_input cfg ct n lb)) mg2 fub2)).
    apply (la_compile st_eqb st_eqb_spec (mk_input cfg ct n lb) cfg_clean dom2 mg2 fub2 lvl A_dom A_fub A_step A_merge).
    exact Hl.
  Qed.

  (* ---- the diagram contracts of the model, inherited from its guarded extension *)
  Local Notation good := (sgood pb2).
  Local Notation feas := (sfeasible pb2).
  Local Notation bst := (MddSim.best cfg2).

  Lemma K0t : forall ct n lb c ds polls m out,
    dd_ct ct -> good n -> (sp_depth n <= N)%nat ->
    compile st_eqb (mk_input cfg ct n lb) 0 0 c ds polls = (m, out) -> out = Compiled /\ m_crash m = false.
  Proof.
    intros ct n lb c ds polls m out Hct Hg Hd Hc. rewrite <- (la_compile_cfg ct n lb c ds polls (sgood2_lvl n Hg)) in Hc.
    exact (Assembly.K0 st_eqb st_eqb_spec cfg2 cfg_clean cfg_nocache cfg_nodom cfg_width nv_some nv_none cfg_nocut
             ct n lb c ds polls m out Hct Hg Hd Hc).
  Qed.

  Lemma K1t : forall ct n lb c ds polls m out,
    dd_ct ct -> good n -> (sp_depth n <= N)%nat ->
    compile st_eqb (mk_input cfg ct n lb) 0 0 c ds polls = (m, out) ->
    forall v, dd_best_exact_value (mk_input cfg ct n lb) m = Some v ->
    exists sol, dd_best_exact_solution (mk_input cfg ct n lb) m = Some sol /\ feas sol v.
  Proof.
    intros ct n lb c ds polls m out Hct Hg Hd Hc. rewrite <- (la_compile_cfg ct n lb c ds polls (sgood2_lvl n Hg)) in Hc.
    exact (Assembly.K1 st_eqb st_eqb_spec cfg2 cfg_clean cfg_nocache cfg_nodom eq_refl cfg_width nv_static nv_some nv_none
             B HB guard02 cfg_nocut ct n lb c ds polls m out Hct Hg Hd Hc).
  Qed.

  Lemma K2t : forall ct n lb c ds polls m out,
    dd_ct ct -> good n -> (sp_depth n <= N)%nat ->
    compile st_eqb (mk_input cfg ct n lb) 0 0 c ds polls = (m, out) ->
    dd_is_exact m = true ->
    forall o, bst n = Some o -> o > lb -> dd_best_exact_value (mk_input cfg ct n lb) m = Some o.
  Proof.
    intros ct n lb c ds polls m out Hct Hg Hd Hc. rewrite <- (la_compile_cfg ct n lb c ds polls (sgood2_lvl n Hg)) in Hc.
    exact (Assembly.K2 st_eqb st_eqb_spec cfg2 cfg_clean cfg_nocache cfg_nodom cfg_width nv_static nv_some nv_none
             Hwf2 B HB guard02 cfg_nocut ct n lb c ds polls m out Hct Hg Hd Hc).
  Qed.

  Lemma K3_goodt : forall n lb c ds polls m out,
    good n -> (sp_depth n <= N)%nat ->
    compile st_eqb (mk_input cfg Relaxed n lb) 0 0 c ds polls = (m, out) ->
    dd_is_exact m = false ->
    forall x, In x (drain_cutset (mk_input cfg Relaxed n lb) m) -> good x.
  Proof.
    intros n lb c ds polls m out Hg Hd Hc. rewrite <- (la_compile_cfg Relaxed n lb c ds polls (sgood2_lvl n Hg)) in Hc.
    exact (Assembly.K3_good st_eqb st_eqb_spec cfg2 cfg_clean cfg_nocache cfg_nodom eq_refl cfg_width nv_static nv_some nv_none
             B HB guard02 cfg_nocut n lb c ds polls m out Hg Hd Hc).
  Qed.

  Lemma K3_deptht : forall n lb c ds polls m out,
    good n -> (sp_depth n <= N)%nat ->
    compile st_eqb (mk_input cfg Relaxed n lb) 0 0 c ds polls = (m, out) ->
    dd_is_exact m = false ->
    forall x, In x (drain_cutset (mk_input cfg Relaxed n lb) m) -> (sp_depth n < sp_depth x <= N)%nat.
  Proof.
    intros n lb c ds polls m out Hg Hd Hc. rewrite <- (la_compile_cfg Relaxed n lb c ds polls (sgood2_lvl n Hg)) in Hc.
    exact (Assembly.K3_depth st_eqb st_eqb_spec cfg2 cfg_clean cfg_nocache cfg_nodom eq_refl cfg_width nv_some nv_none cfg_nocut
             n lb c ds polls m out Hg Hd Hc).
  Qed.

  Lemma K3_ubt : forall n lb c ds polls m out,
    good n -> (sp_depth n <= N)%nat ->
    compile st_eqb (mk_input cfg Relaxed n lb) 0 0 c ds polls = (m, out) ->
    dd_is_exact m = false ->
    forall x, In x (drain_cutset (mk_input cfg Relaxed n lb) m) ->
    forall o, bst x = Some o -> o > lb -> o <= sp_ub x.
  Proof.
    intros n lb c ds polls m out Hg Hd Hc. rewrite <- (la_compile_cfg Relaxed n lb c ds polls (sgood2_lvl n Hg)) in Hc.
    exact (Assembly.K3_ub st_eqb st_eqb_spec cfg2 cfg_clean cfg_nocache cfg_nodom cfg_width nv_static nv_some nv_none
             Hwf2 B HB guard02 cfg_nocut n lb c ds polls m out Hg Hd Hc).
  Qed.

  Lemma K4t : forall n lb c ds polls m out,
    good n -> (sp_depth n <= N)%nat ->
    compile st_eqb (mk_input cfg Relaxed n lb) 0 0 c ds polls = (m, out) ->
    dd_is_exact m = false ->
    forall o, bst n = Some o -> o > lb ->
    (forall e, dd_best_exact_value (mk_input cfg Relaxed n lb) m = Some e -> e < o) ->
    exists x, In x (drain_cutset (mk_input cfg Relaxed n lb) m) /\ bst x = Some o.
  Proof.
    intros n lb c ds polls m out Hg Hd Hc. rewrite <- (la_compile_cfg Relaxed n lb c ds polls (sgood2_lvl n Hg)) in Hc.
    exact (Assembly.K4 st_eqb st_eqb_spec cfg2 cfg_clean cfg_nocache cfg_nodom cfg_width nv_static nv_some nv_none
             Hwf2 B HB guard02 cfg_nocut n lb c ds polls m out Hg Hd Hc).
  Qed.

  Lemma K5t : forall n lb c ds polls m out,
    good n -> (sp_depth n <= N)%nat ->
    compile st_eqb (mk_input cfg Relaxed n lb) 0 0 c ds polls = (m, out) ->
    dd_is_exact m = false ->
    (length (drain_cutset (mk_input cfg Relaxed n lb) m) <= Kbound cfg2 D)%nat.
  Proof.
    intros n lb c ds polls m out Hg Hd Hc. rewrite <- (la_compile_cfg Relaxed n lb c ds polls (sgood2_lvl n Hg)) in Hc.
    exact (Assembly.K5 st_eqb st_eqb_spec cfg2 cfg_clean cfg_nocache cfg_nodom eq_refl cfg_width nv_some nv_none
             D dom_bound2 cfg_nocut n lb c ds polls m out Hg Hd Hc).
  Qed.

  Definition C01_conclusion (r : sresult) : Prop :=
    r_crash r = false /\ r_outoffuel r = false /\ r_exact r = true /\ r_value r = opt_enum pb /\
    (forall v, opt_enum pb = Some v ->
       r_lb r = v /\ r_ub r = v /\ exists sol, r_sol r = Some (sort_by dec_var_cmp sol) /\ sfeasible pb sol v) /\
    (opt_enum pb = None -> r_sol r = None /\ r_lb r = IMIN).

  (* what the solver theorem says of a run, in terms of the guarded model, read in terms of the model *)
  Lemma C01_of_guarded r :
    r_crash r = false /\ r_outoffuel r = false /\ r_exact r = true /\ r_value r = OPT cfg2 bst /\
    (forall v, OPT cfg2 bst = Some v ->
       r_lb r = v /\ r_ub r = v /\ exists sol, r_sol r = Some (sort_by dec_var_cmp sol) /\ feas sol v) /\
    (OPT cfg2 bst = None -> r_sol r = None /\ r_lb r = IMIN) -> C01_conclusion r.
  Proof.
    rewrite (Assembly.OPT_is_opt_enum cfg2). change (sc_problem cfg2) with pb2. rewrite opt_enum2.
    intros (A1 & A2 & A3 & A4 & A5 & A6). repeat (split; [assumption|]). split; [|exact A6].
    intros v Hv. destruct (A5 v Hv) as (E1 & E2 & sol & S1 & S2).
    repeat (split; [assumption|]). exists sol. split; [exact S1|apply sfeasible2; exact S2].
  Qed.

  (* C01 for the MODEL ITSELF (SimpleFringe) *)
  Theorem C01_layered : sc_nodup cfg = false ->
    exists f0, forall fuel, (f0 <= fuel)%nat -> C01_conclusion (maximize st_eqb cfg fuel None).
  Proof.
    intros cfg_nodup.
    destruct (seq_solver_correct st_eqb cfg (Assembly.cfg_ok cfg cfg_nocache cfg_nodom cfg_nodup cfg_nocut) good bst feas
                (Assembly.good_root cfg2) (Assembly.feasible_le_opt cfg2 nv_static nv_none)
                (Assembly.opt_in_isize cfg2 cfg_width nv_static nv_some nv_none B HB guard02)
                (fun c u => sgood_set_ub pb2 c u) (Assembly.best_set_ub cfg2)
                (Kbound cfg2 D) K0t K1t K2t K3_goodt K3_deptht K3_ubt K4t K5t) as [f0 Hf].
    exists f0. intros fuel Hfuel. apply C01_of_guarded. exact (Hf fuel Hfuel).
  Qed.

  (* ... and with the NoDupFringe *)
  Theorem C01_layered_nodup : sc_nodup cfg = true ->
    exists f0, forall fuel, (f0 <= fuel)%nat -> C01_conclusion (maximize st_eqb cfg fuel None).
  Proof.
    intros cfg_nodup.
    destruct (seq_solver_correct_nodup st_eqb st_eqb_spec cfg (SolverNoDup.cfg_ok_nd cfg cfg_nocache cfg_nodom cfg_nodup cfg_nocut)
                good bst feas
                (Assembly.good_root cfg2) (Assembly.feasible_le_opt cfg2 nv_static nv_none)
                (Assembly.opt_in_isize cfg2 cfg_width nv_static nv_some nv_none B HB guard02)
                (fun c u => sgood_set_ub pb2 c u) (Assembly.best_set_ub cfg2)
                (fun a b _ _ => best_coalesce_ok cfg2 a b)
                (Kbound cfg2 D) K0t K1t K2t K3_goodt K3_deptht K3_ubt K4t K5t) as [f0 Hf].
    exists f0. intros fuel Hfuel. apply C01_of_guarded. exact (Hf fuel Hfuel).
  Qed.
End Layered.

(* ================================================================== 4. the knapsack model *)
Local Open Scope Z_scope.

Record kstate := { k_depth : nat; k_cap : Z }.

Definition kstate_eqb (a b : kstate) : bool := Nat.eqb (k_depth a) (k_depth b) && (k_cap a =? k_cap b).

Lemma kstate_eqb_spec a b : kstate_eqb a b = true <-> a = b.
Proof.
  unfold kstate_eqb. destruct a as [da ca], b as [db cb]. cbn [k_depth k_cap]. split.
  - intros H. apply andb_true_iff in H. destruct H as [H1 H2]. apply Nat.eqb_eq in H1. apply Z.eqb_eq in H2. subst. reflexivity.
  - intros H. inversion H; subst. rewrite Nat.eqb_refl, Z.eqb_refl. reflexivity.
Qed.

Record kp_inst := { kp_cap : Z; kp_items : list item }.

(* isize multiplication in the release profile (wrapping); in the debug profile an overflow panics.  On the values the
   solver ever passes (0 and 1) and under kp_wf there is no overflow: wrap_id. *)
Definition wrap (z : Z) : Z := (z - IMIN) mod 18446744073709551616 + IMIN.

Lemma wrap_isize z : in_isize (wrap z).
Proof. unfold wrap, in_isize, IMIN, IMAX. pose proof (Z.mod_pos_bound (z - -9223372036854775808) 18446744073709551616 ltac:(lia)). lia. Qed.

Lemma wrap_id z : in_isize z -> wrap z = z.
Proof. unfold wrap, in_isize, IMIN, IMAX. intros H. rewrite Z.mod_small by lia. lia. Qed.

Fixpoint last_max (best : kstate) (l : list kstate) : kstate :=
  match l with
  | [] => best
  | x :: l' => last_max (if k_cap x <? k_cap best then best else x) l'
  end.

Lemma last_max_spec l : forall b, In (last_max b l) (b :: l) /\ forall y, In y (b :: l) -> k_cap y <= k_cap (last_max b l).
Proof.
  induction l as [|x l IH]; intros b; cbn [last_max].
  - split; [left; reflexivity|]. intros y [<-|[]]. lia.
  - destruct (Z.ltb_spec (k_cap x) (k_cap b)) as [Hlt|Hge].
    + destruct (IH b) as [I1 I2]. split.
      * destruct I1 as [I1|I1]; [left; exact I1|right; right; exact I1].
      * intros y [<-|[<-|Hy]]; [apply I2; left; reflexivity| |apply I2; right; exact Hy].
        specialize (I2 b (or_introl eq_refl)). lia.
    + destruct (IH x) as [I1 I2]. split.
      * right. exact I1.
      * intros y [<-|[<-|Hy]]; [|apply I2; left; reflexivity|apply I2; right; exact Hy].
        specialize (I2 x (or_introl eq_refl)). lia.
Qed.

Definition possum (l : list item) : Z := fold_right (fun it a => Z.max 0 (fst it) + a) 0 l.
Definition abssum (l : list item) : Z := fold_right (fun it a => Z.abs (fst it) + a) 0 l.
Definition maxprofit (l : list item) : Z := fold_right (fun it a => Z.max (fst it) a) 0 l.

Lemma possum_nonneg l : 0 <= possum l.
Proof. induction l as [|[p w] r IH]; cbn [possum fold_right fst]; [lia|]. fold (possum r). lia. Qed.
Lemma abssum_nonneg l : 0 <= abssum l.
Proof. induction l as [|[p w] r IH]; cbn [abssum fold_right fst]; [lia|]. fold (abssum r). lia. Qed.
Lemma possum_le_abssum l : possum l <= abssum l.
Proof. induction l as [|[p w] r IH]; cbn [possum abssum fold_right fst]; [lia|]. fold (possum r). fold (abssum r). lia. Qed.
Lemma abssum_In l it : In it l -> Z.abs (fst it) <= abssum l.
Proof.
  induction l as [|[p w] r IH]; intros Hin; [destruct Hin|]. cbn [abssum fold_right fst]. fold (abssum r).
  pose proof (abssum_nonneg r). destruct Hin as [<-|Hin]; [cbn [fst]; lia|]. specialize (IH Hin). lia.
Qed.

Lemma skipn_cons_nth {A} (d : A) k : forall l, (k < length l)%nat -> skipn k l = nth k l d :: skipn (S k) l.
Proof.
  induction k as [|k IH]; intros [|x l] Hk; cbn [length] in Hk; try lia; [reflexivity|].
  cbn [skipn nth]. rewrite (IH l) by lia. reflexivity.
Qed.
Lemma Forall_skipn {A} (P : A -> Prop) k : forall l, Forall P l -> Forall P (skipn k l).
Proof. induction k as [|k IH]; intros [|x l] H; cbn [skipn]; auto. inversion H; subst. apply IH. assumption. Qed.
Lemma skipn_S_tail {A} k : forall (l : list A) x r, skipn k l = x :: r -> skipn (S k) l = r.
Proof.
  induction k as [|k IH]; intros [|y l] x r H; cbn [skipn] in *; try discriminate.
  - inversion H; reflexivity.
  - destruct l as [|z l]; [destruct k; discriminate|]. apply (IH (z :: l) x r). exact H.
Qed.
Lemma sortedR_skipn k : forall l, sortedR l -> sortedR (skipn k l).
Proof. induction k as [|k IH]; intros [|[p w] r] H; cbn [skipn]; auto. apply IH. apply H. Qed.

(* boolean tests read as propositions *)
#[local] Hint Rewrite andb_true_iff orb_true_iff negb_true_iff Z.leb_le Z.ltb_lt Z.ltb_ge Z.eqb_neq : b2p.

Definition nozwppb (l : list item) : bool := forallb (fun it => negb (0 <? fst it) || (0 <? snd it)) l.
Lemma nozwppb_spec l : nozwppb l = true <-> nozwpp l.
Proof.
  unfold nozwppb, nozwpp. rewrite forallb_forall, Forall_forall.
  split; intros H it Hin; specialize (H it Hin); autorewrite with b2p in *; lia.
Qed.

Section KP.
  Variable ki : kp_inst.
  Local Notation items := (kp_items ki).
  Definition nitems : nat := length items.
  Definition item_at (x : nat) : item := nth x items (0, 0).
  Definition profit_at (x : nat) : Z := fst (item_at x).
  Definition weight_at (x : nat) : Z := snd (item_at x).

  (* for_each_in_domain: TAKE_IT (1) first, if it fits; then LEAVE_IT_OUT (0) *)
  Definition kp_domain (x : nat) (s : kstate) : list Z := if weight_at x <=? k_cap s then [1; 0] else [0].
  Definition kp_transition (s : kstate) (d : decision) : kstate :=
    {| k_depth := S (k_depth s); k_cap := if d_val d =? 1 then k_cap s - weight_at (d_var d) else k_cap s |}.
  Definition kp_cost (_ _ : kstate) (d : decision) : Z := wrap (profit_at (d_var d) * d_val d).
  Definition kp_next_variable (depth : nat) (_ : list kstate) : option nat :=
    if Nat.ltb depth nitems then Some depth else None.

  Definition kp_problem : problem kstate := {|
    nb_vars := nitems;
    init_state := {| k_depth := 0; k_cap := kp_cap ki |};
    init_value := 0;
    transition := kp_transition;
    transition_cost := kp_cost;
    next_variable := kp_next_variable;
    domain := kp_domain;
    is_impacted_by := fun _ _ => true |}.

  (* states.max_by_key(|node| node.capacity): the LAST maximum; unwrap() of an empty iterator panics (never called so) *)
  Definition kp_merge (L : list kstate) : kstate :=
    match L with [] => {| k_depth := 0; k_cap := 0 |} | x :: l => last_max x l end.
  Definition kp_fub (s : kstate) : Z := dantzig (skipn (k_depth s) items) (k_cap s).

  Definition kp_relaxation : relaxation kstate := {|
    merge := kp_merge;
    relax := fun _ _ _ _ cost => cost;
    fast_upper_bound := kp_fub |}.

  Definition kp_ranking (a b : kstate) : comparison := Zcmp (k_cap a) (k_cap b).

  (* the solver configuration of the theorem: no cache, no dominance rule, no cutoff, fixed width;
     [domcmp] stands for the iteration order of the layer's hash map (DESIGN.md section 3): arbitrary *)
  Definition kp_sconfig (flv : flavour) (width : nat) (nodupf : bool)
      (domcmp : kstate -> Z -> kstate -> Z -> comparison) : @sconfig kstate := {|
    sc_flavour := flv; sc_problem := kp_problem; sc_relax := kp_relaxation; sc_ranking := kp_ranking;
    sc_domcmp := domcmp; sc_domrule := None; sc_width := width; sc_use_cache := false; sc_nodup := nodupf;
    sc_cutoff := 0 |}.

  (* ---------------------------------------------------------------- well-formed instances *)
  Definition kp_wf : Prop :=
    0 <= kp_cap ki <= IMAX /\
    Forall (fun it => 0 <= snd it <= IMAX) items /\
    2 * abssum items <= IMAX /\
    kp_cap ki * maxprofit items <= IMAX /\
    (kp_cap ki = 0 -> nozwpp items).

  Definition sorted_by_ratio : Prop := sortedR items.

  (* ---------------------------------------------------------------- facts that hold for any domain function *)
  Section AnyDomain.
    Variable dm : nat -> kstate -> list Z.
    Local Notation pbd := (with_domain kp_problem dm).

    Lemma nv_static_d k (l1 l2 : list kstate) : next_variable pbd k l1 = next_variable pbd k l2.
    Proof. reflexivity. Qed.
    Lemma nv_some_d k (l : list kstate) : (k < nb_vars pbd)%nat -> exists x, next_variable pbd k l = Some x.
    Proof.
      cbn [nb_vars next_variable with_domain kp_problem]. unfold kp_next_variable. intros Hk.
      destruct (Nat.ltb_spec k nitems); [eexists; reflexivity|lia].
    Qed.
    Lemma nv_none_d k (l : list kstate) : (nb_vars pbd <= k)%nat -> next_variable pbd k l = None.
    Proof.
      cbn [nb_vars next_variable with_domain kp_problem]. unfold kp_next_variable. intros Hk.
      destruct (Nat.ltb_spec k nitems); [lia|reflexivity].
    Qed.
    Lemma nv_is k (l : list kstate) x : next_variable pbd k l = Some x -> x = k /\ (k < nitems)%nat.
    Proof.
      cbn [next_variable with_domain kp_problem]. unfold kp_next_variable.
      destruct (Nat.ltb_spec k nitems) as [Hlt|Hge]; [|discriminate]. intros E; inversion E; subst. split; [reflexivity|exact Hlt].
    Qed.
    Lemma nv_lt k (l : list kstate) : (k < nitems)%nat -> next_variable pbd k l = Some k.
    Proof.
      cbn [next_variable with_domain kp_problem]. unfold kp_next_variable. intros Hk.
      destruct (Nat.ltb_spec k nitems); [reflexivity|lia].
    Qed.

    Hypothesis Hprof : Forall (fun it => in_isize (fst it)) items.

    Lemma profit_isize x : in_isize (profit_at x).
    Proof.
      unfold profit_at, item_at. destruct (nth_in_or_default x items (0, 0)) as [Hin| ->].
      - rewrite Forall_forall in Hprof. apply Hprof. exact Hin.
      - cbn [fst]. unfold in_isize, IMIN, IMAX. lia.
    Qed.
    Lemma cost1 s s' x : transition_cost pbd s s' {| d_var := x; d_val := 1 |} = profit_at x.
    Proof. cbn [transition_cost with_domain kp_problem]. unfold kp_cost. cbn [d_var d_val]. rewrite Z.mul_1_r. apply wrap_id. apply profit_isize. Qed.
    Lemma cost0 s s' x : transition_cost pbd s s' {| d_var := x; d_val := 0 |} = 0.
    Proof. cbn [transition_cost with_domain kp_problem]. unfold kp_cost. cbn [d_var d_val]. rewrite Z.mul_0_r. apply wrap_id. unfold in_isize, IMIN, IMAX. lia. Qed.

    Lemma skipn_item k : (k < nitems)%nat -> skipn k items = (profit_at k, weight_at k) :: skipn (S k) items.
    Proof.
      intros Hk. rewrite (skipn_cons_nth (0, 0) k items Hk). unfold profit_at, weight_at, item_at.
      destruct (nth k items (0, 0)); reflexivity.
    Qed.

    (* domain values are 0 / 1 *)
    Hypothesis Hdm01 : forall x s v, In v (dm x s) -> v = 1 \/ v = 0.

    Lemma H_le_possum m : forall k s h, (nitems - k = m)%nat -> H pbd k s = Some h -> h <= possum (skipn k items).
    Proof.
      induction m as [|m IH]; intros k s h Hm Hh.
      - rewrite (H_end pbd nv_none_d k s) in Hh by (cbn [nb_vars with_domain kp_problem]; lia).
        inversion Hh; subst. apply possum_nonneg.
      - assert (Hk : (k < nitems)%nat) by lia.
        rewrite (H_step pbd k s k Hk (nv_lt k [s] Hk)) in Hh.
        apply fold_omax_attained in Hh. destruct Hh as (val & Hin & Hf). cbv zeta in Hf.
        change (domain pbd k s) with (dm k s) in Hin.
        rewrite (skipn_item k Hk). cbn [possum fold_right fst]. fold (possum (skipn (S k) items)).
        destruct (H pbd (S k) (transition pbd s {| d_var := k; d_val := val |})) as [h1|] eqn:E1; [|discriminate].
        pose proof (IH (S k) _ h1 ltac:(lia) E1) as I1.
        cbn [oadd option_map] in Hf. inversion Hf; subst h.
        destruct (Hdm01 k s val Hin) as [-> | ->]; [rewrite cost1|rewrite cost0]; lia.
    Qed.

    Lemma frun_bound ds : forall k s v s' v', frun pbd k s v ds = Some (s', v') ->
      v - abssum (skipn k items) <= v' <= v + abssum (skipn k items).
    Proof.
      induction ds as [|d ds IH]; intros k s v s' v' Hr.
      - inversion Hr; subst. pose proof (abssum_nonneg (skipn k items)). lia.
      - apply frun_cons in Hr. destruct Hr as (Hx & Ed & Hr).
        destruct (nv_is k [] _ Hx) as [Hxk Hk]. change (In (d_val d) (dm (d_var d) s)) in Ed.
        specialize (IH _ _ _ _ _ Hr).
        rewrite (skipn_item k Hk). cbn [abssum fold_right fst]. fold (abssum (skipn (S k) items)).
        destruct d as [x val]. cbn [d_var d_val] in *. subst x.
        destruct (Hdm01 k s val Ed) as [-> | ->]; [rewrite cost1 in IH|rewrite cost0 in IH]; lia.
    Qed.

    (* in step with the state's depth field the domain is the model's: the Bellman value is the knapsack recursion *)
    Hypothesis Hdm_sync : forall k s, k_depth s = k -> (k < nitems)%nat -> dm k s = kp_domain k s.

    Lemma H_sync m : forall k s, (nitems - k = m)%nat -> (k <= nitems)%nat -> k_depth s = k ->
      H pbd k s = Some (kbest (skipn k items) (k_cap s)).
    Proof.
      induction m as [|m IH]; intros k s Hm Hle Hd.
      - rewrite (H_end pbd nv_none_d k s) by (cbn [nb_vars with_domain kp_problem]; lia).
        rewrite skipn_all2 by (fold nitems; lia). reflexivity.
      - assert (Hk : (k < nitems)%nat) by lia.
        rewrite (H_step pbd k s k Hk (nv_lt k [s] Hk)).
        change (domain pbd k s) with (dm k s). rewrite (Hdm_sync k s Hd Hk).
        rewrite (skipn_item k Hk). cbn [kbest]. unfold kp_domain.
        assert (I1 : H pbd (S k) (transition pbd s {| d_var := k; d_val := 1 |})
                     = Some (kbest (skipn (S k) items) (k_cap s - weight_at k))).
        { rewrite (IH (S k) _ ltac:(lia) ltac:(lia)); [reflexivity|]. cbn [transition with_domain kp_problem kp_transition k_depth]. lia. }
        assert (I0 : H pbd (S k) (transition pbd s {| d_var := k; d_val := 0 |})
                     = Some (kbest (skipn (S k) items) (k_cap s))).
        { rewrite (IH (S k) _ ltac:(lia) ltac:(lia)); [reflexivity|]. cbn [transition with_domain kp_problem kp_transition k_depth]. lia. }
        destruct (Z.leb_spec (weight_at k) (k_cap s)); cbn [fold_right]; cbv zeta; rewrite ?I1, I0, ?cost1, cost0;
          cbn [oadd option_map omax]; f_equal; lia.
    Qed.
  End AnyDomain.
End KP.

(* ================================================================== 5. the layer-guarded extension of the model (a proof device) *)
Section KPG.
  Variable ki : kp_inst.
  Local Notation items := (kp_items ki).
  Local Notation n := (nitems ki).
  Local Notation pbF := (kp_problem ki).

  Definition is_top (s : kstate) : bool := Nat.ltb n (k_depth s).
  Definition g_domain (x : nat) (s : kstate) : list Z :=
    if is_top s then [1; 0]
    else if Nat.eqb x (k_depth s) && Nat.ltb x n then kp_domain ki x s else [].
  Definition uniform (L : list kstate) : bool :=
    match L with [] => true | x :: l => forallb (fun y => Nat.eqb (k_depth y) (k_depth x)) l end.
  Definition g_merge (L : list kstate) : kstate :=
    if uniform L then kp_merge L else {| k_depth := S n; k_cap := 0 |}.
  Definition bad (s : kstate) : bool := (k_cap s <=? 0) && negb (nozwppb (skipn (k_depth s) items)).
  Definition g_fub (s : kstate) : Z := if is_top s || bad s then possum items else kp_fub ki s.

  Local Notation pbG := (with_domain (kp_problem ki) g_domain).

  Definition kcov (s s' : kstate) : Prop :=
    is_top s = true \/ (k_depth s = k_depth s' /\ k_cap s' <= k_cap s).

  (* the level invariant of the reachable states *)
  Definition klvl (k : nat) (s : kstate) : Prop := k_depth s = k /\ okcap (skipn k items) (k_cap s).

  Lemma g_domain01 x s v : In v (g_domain x s) -> v = 1 \/ v = 0.
  Proof.
    unfold g_domain, kp_domain. destruct (is_top s).
    - intros [<-|[<-|[]]]; auto.
    - destruct (Nat.eqb x (k_depth s) && Nat.ltb x n); [|intros []].
      destruct (weight_at ki x <=? k_cap s); [intros [<-|[<-|[]]]; auto|intros [<-|[]]; auto].
  Qed.
  Lemma kp_domain01 x s v : In v (kp_domain ki x s) -> v = 1 \/ v = 0.
  Proof. unfold kp_domain. destruct (weight_at ki x <=? k_cap s); [intros [<-|[<-|[]]]; auto|intros [<-|[]]; auto]. Qed.
  (* more capacity, more decisions *)
  Lemma kp_domain_mono x s s' v : k_cap s' <= k_cap s -> In v (kp_domain ki x s') -> In v (kp_domain ki x s).
  Proof.
    unfold kp_domain. intros Hc. destruct (Z.leb_spec (weight_at ki x) (k_cap s')).
    - destruct (Z.leb_spec (weight_at ki x) (k_cap s)); [auto|lia].
    - intros [<-|[]]. destruct (weight_at ki x <=? k_cap s); cbn; auto.
  Qed.

  Lemma g_domain_sync k s : k_depth s = k -> (k < n)%nat -> g_domain k s = kp_domain ki k s.
  Proof.
    intros Hd Hk. unfold g_domain, is_top. rewrite Hd.
    destruct (Nat.ltb_spec n k); [lia|]. rewrite Nat.eqb_refl. destruct (Nat.ltb_spec k n); [reflexivity|lia].
  Qed.

  Lemma g_dom_bound x s : (length (g_domain x s) <= 2)%nat.
  Proof.
    unfold g_domain, kp_domain. destruct (is_top s); [cbn; lia|].
    destruct (Nat.eqb x (k_depth s) && Nat.ltb x n); [|cbn; lia]. destruct (weight_at ki x <=? k_cap s); cbn; lia.
  Qed.

  Hypothesis Hwf : kp_wf ki.
  Hypothesis Hsorted : sorted_by_ratio ki.

  Lemma wf_cap : 0 <= kp_cap ki. Proof. apply Hwf. Qed.
  Lemma wf_wnonneg : wnonneg items.
  Proof. destruct Hwf as (_ & H & _). eapply Forall_impl; [|exact H]. intros it Hit. cbv beta in Hit. lia. Qed.
  Lemma wf_abs : 2 * abssum items <= IMAX. Proof. apply Hwf. Qed.
  Lemma wf_prof : Forall (fun it => in_isize (fst it)) items.
  Proof.
    apply Forall_forall. intros it Hin. pose proof (abssum_In items it Hin). pose proof wf_abs.
    unfold in_isize, IMIN, IMAX in *. lia.
  Qed.
  Lemma wf_zw : kp_cap ki = 0 -> nozwpp items. Proof. apply Hwf. Qed.

  Lemma weight_nonneg x : 0 <= weight_at ki x.
  Proof.
    unfold weight_at, item_at. destruct (nth_in_or_default x items (0, 0)) as [Hin| ->]; [|cbn; lia].
    pose proof wf_wnonneg as Hw. unfold wnonneg in Hw. rewrite Forall_forall in Hw. apply Hw. exact Hin.
  Qed.

  (* ---------------------------------------------------------------- the model agrees with its extension on levelled states *)
  Lemma kA_dom k (l : list kstate) x s : next_variable pbF k l = Some x -> klvl k s -> g_domain x s = domain pbF x s.
  Proof.
    intros Hx [Hd _]. destruct (nv_is ki (kp_domain ki) k l x Hx) as [-> Hk]. apply g_domain_sync; assumption.
  Qed.

  Lemma kA_fub k (l : list kstate) x s : next_variable pbF k l = Some x -> klvl k s ->
    g_fub s = fast_upper_bound (kp_relaxation ki) s.
  Proof.
    intros Hx [Hd Hok]. destruct (nv_is ki (kp_domain ki) k l x Hx) as [-> Hk].
    unfold g_fub, is_top, bad. rewrite Hd. destruct (Nat.ltb_spec n k); [lia|]. cbn [orb].
    destruct (Z.leb_spec (k_cap s) 0) as [Hc|Hc]; [|reflexivity]. cbn [andb].
    rewrite (proj2 (nozwppb_spec _) (Hok Hc)). reflexivity.
  Qed.

  Lemma kA_step k (l : list kstate) x s v : next_variable pbF k l = Some x -> klvl k s -> In v (domain pbF x s) ->
    klvl (S k) (transition pbF s {| d_var := x; d_val := v |}).
  Proof.
    intros Hx [Hd Hok] Hin. destruct (nv_is ki (kp_domain ki) k l x Hx) as [-> Hk].
    cbn [transition kp_problem]. unfold kp_transition. cbn [d_var d_val]. split; [cbn [k_depth]; lia|]. cbn [k_cap].
    pose proof (skipn_item ki k Hk) as Esk.
    assert (Htail : nozwpp (skipn k items) -> nozwpp (skipn (S k) items)).
    { rewrite Esk. intros Hz. inversion Hz; assumption. }
    cbn [domain kp_problem] in Hin. unfold kp_domain in Hin.
    intros Hc. pose proof (weight_nonneg k) as Hw0.
    destruct (Z.eqb_spec v 1) as [->|Hv1].
    - destruct (Z.leb_spec (weight_at ki k) (k_cap s)) as [Hfit|Hnf]; [|destruct Hin as [E|[]]; discriminate].
      destruct (Z.eq_dec (weight_at ki k) 0) as [E0|Hne].
      + apply Htail. apply Hok. lia.
      + pose proof (sortedR_skipn k items Hsorted) as Hs. rewrite Esk in Hs. cbn [sortedR] in Hs.
        apply Hs. lia.
    - apply Htail. apply Hok. exact Hc.
  Qed.

  Lemma uniform_spec L : uniform L = true <-> forall x y, In x L -> In y L -> k_depth x = k_depth y.
  Proof.
    destruct L as [|a l]; cbn [uniform]; [split; [intros _ x y []|reflexivity]|].
    rewrite forallb_forall. split.
    - intros H x y Hx Hy.
      assert (G : forall z, In z (a :: l) -> k_depth z = k_depth a).
      { intros z [<-|Hz]; [reflexivity|]. apply Nat.eqb_eq. apply H. exact Hz. }
      rewrite (G x Hx), (G y Hy). reflexivity.
    - intros H y Hy. apply Nat.eqb_eq. apply H; [right; exact Hy|left; reflexivity].
  Qed.

  Lemma kp_merge_spec L : L <> [] -> In (kp_merge L) L /\ forall y, In y L -> k_cap y <= k_cap (kp_merge L).
  Proof. destruct L as [|x l]; [congruence|]. intros _. cbn [kp_merge]. apply last_max_spec. Qed.

  Lemma kA_merge k (l : list kstate) x L : next_variable pbF k l = Some x -> L <> [] -> Forall (klvl k) L ->
    g_merge L = merge (kp_relaxation ki) L /\ klvl k (merge (kp_relaxation ki) L).
  Proof.
    intros _ Hne Hall. rewrite Forall_forall in Hall. cbn [merge kp_relaxation]. split.
    - unfold g_merge. replace (uniform L) with true; [reflexivity|]. symmetry. apply uniform_spec.
      intros a b Ha Hb. destruct (Hall a Ha) as [-> _]. destruct (Hall b Hb) as [-> _]. reflexivity.
    - apply Hall. apply kp_merge_spec. exact Hne.
  Qed.

  Lemma k_lvl_root : klvl 0 (init_state pbF).
  Proof.
    split; [reflexivity|]. cbn [skipn init_state kp_problem k_cap]. intros Hc. apply wf_zw. pose proof wf_cap. lia.
  Qed.

  (* ---------------------------------------------------------------- the extension meets the LITERAL premises of Assembly.v *)
  Lemma is_top_depth s s' : k_depth s = k_depth s' -> is_top s = is_top s'.
  Proof. unfold is_top. intros ->. reflexivity. Qed.

  Lemma kcov_refl s : kcov s s.
  Proof. right. split; [reflexivity|lia]. Qed.

  Lemma kcov_sim s s' x v : kcov s s' -> In v (domain pbG x s') ->
    let d := {| d_var := x; d_val := v |} in
    In v (domain pbG x s) /\ kcov (transition pbG s d) (transition pbG s' d) /\
    transition_cost pbG s' (transition pbG s' d) d <= transition_cost pbG s (transition pbG s d) d.
  Proof.
    intros Hc Hin d. cbn [domain transition transition_cost with_domain kp_problem] in *.
    split; [|split; [|unfold kp_cost; lia]].
    - destruct Hc as [Ht|[Hd Hcap]].
      + unfold g_domain. rewrite Ht. destruct (g_domain01 x s' v Hin) as [-> | ->]; cbn; auto.
      + unfold g_domain in *. rewrite (is_top_depth s s' Hd). destruct (is_top s'); [exact Hin|].
        rewrite Hd. destruct (Nat.eqb x (k_depth s') && Nat.ltb x n); [|destruct Hin].
        exact (kp_domain_mono x s s' v Hcap Hin).
    - unfold kp_transition, d. cbn [d_var d_val]. destruct Hc as [Ht|[Hd Hcap]].
      + left. unfold is_top in *. cbn [k_depth]. apply Nat.ltb_lt in Ht. apply Nat.ltb_lt. lia.
      + right. cbn [k_depth k_cap]. split; [lia|]. destruct (v =? 1); lia.
  Qed.

  Lemma g_merge_cov L s s' : In s L -> kcov s s' -> kcov (g_merge L) s'.
  Proof.
    intros HL Hc. unfold g_merge. destruct (uniform L) eqn:U.
    - assert (Hne : L <> []) by (intros E; rewrite E in HL; destruct HL).
      destruct (kp_merge_spec L Hne) as [Hm Hcap].
      pose proof (proj1 (uniform_spec L) U (kp_merge L) s Hm HL) as Hd.
      destruct Hc as [Ht|[Hd' Hc']].
      + left. rewrite (is_top_depth _ _ Hd). exact Ht.
      + right. split; [congruence|]. specialize (Hcap s HL). lia.
    - left. unfold is_top. cbn [k_depth]. apply Nat.ltb_lt. lia.
  Qed.

  Lemma possum_skipn_le k : forall l, possum (skipn k l) <= possum l.
  Proof.
    induction k as [|k IH]; intros [|[p w] r]; cbn [skipn]; try lia.
    cbn [possum fold_right fst]. fold (possum r). specialize (IH r). lia.
  Qed.

  (* THE MATHEMATICAL HEART, on the model, for any domain function in step with the depth field: on the layer k the
     state belongs to, the Dantzig bound of a state dominates the Bellman value of every state of that layer with at
     most its capacity *)
  Lemma H_le_fub dm : (forall k s, k_depth s = k -> (k < n)%nat -> dm k s = kp_domain ki k s) ->
    forall k s s' h, k_depth s = k -> k_depth s' = k -> k_cap s' <= k_cap s -> okcap (skipn k items) (k_cap s) ->
    H (with_domain pbF dm) k s' = Some h -> h <= kp_fub ki s.
  Proof.
    intros Hsync k s s' h Hd Hd' Hcap Hok Hh. unfold kp_fub. rewrite Hd.
    pose proof (Forall_skipn _ k _ wf_wnonneg) as Hw.
    destruct (le_lt_dec k n) as [Hk|Hk].
    - rewrite (H_sync ki dm wf_prof Hsync (n - k) k s' eq_refl Hk Hd') in Hh. inversion Hh; subst h.
      apply Z.le_trans with (kbest (skipn k items) (k_cap s)); [apply kbest_mono; exact Hcap|].
      apply dantzig_adm; [exact Hw|apply sortedR_skipn; exact Hsorted|exact Hok].
    - rewrite (H_end _ (nv_none_d ki dm) k s') in Hh by (cbn [nb_vars with_domain kp_problem]; lia).
      inversion Hh; subst. apply dantzig_nonneg. exact Hw.
  Qed.

  Lemma g_rub_adm k s s' h : kcov s s' -> H pbG k s' = Some h -> h <= g_fub s.
  Proof.
    intros Hc Hh.
    pose proof (H_le_possum ki g_domain wf_prof g_domain01 (n - k) k s' h eq_refl Hh) as Hle.
    pose proof (possum_skipn_le k items) as Hle2.
    unfold g_fub. destruct (is_top s || bad s) eqn:E; [lia|].
    apply orb_false_iff in E. destruct E as [Et Eb].
    destruct Hc as [Ht|[Hd Hcap]]; [congruence|].
    destruct (Nat.eq_dec (k_depth s') k) as [Hdk|Hdk].
    - apply (H_le_fub g_domain g_domain_sync k s s' h); [congruence|exact Hdk|exact Hcap| |exact Hh].
      intros Hc0. apply nozwppb_spec. unfold bad in Eb. rewrite Hd, Hdk in Eb.
      destruct (Z.leb_spec (k_cap s) 0); [|lia]. cbn [andb] in Eb. apply negb_false_iff in Eb. exact Eb.
    - (* off its level a state below the top has an empty domain: no Bellman value before the last layer *)
      destruct (le_lt_dec n k) as [Hnk|Hkn].
      + rewrite (H_end pbG (nv_none_d ki g_domain) k s') in Hh by exact Hnk. inversion Hh; subst.
        apply dantzig_nonneg. apply Forall_skipn. exact wf_wnonneg.
      + rewrite (H_step pbG k s' k Hkn (nv_lt ki g_domain k [s'] Hkn)) in Hh.
        change (domain pbG k s') with (g_domain k s') in Hh. unfold g_domain in Hh.
        rewrite <- (is_top_depth s s' Hd), Et in Hh.
        destruct (Nat.eqb_spec k (k_depth s')); [congruence|]. cbn [andb fold_right] in Hh. discriminate.
  Qed.

  Definition kB : Z := abssum items.
  Lemma kHB : 2 * kB <= IMAX. Proof. exact wf_abs. Qed.

  Lemma g_guard0 ds s' v' : frun pbG 0 (init_state pbF) (init_value pbF) ds = Some (s', v') -> - kB <= v' <= kB.
  Proof.
    intros Hr. pose proof (frun_bound ki g_domain wf_prof g_domain01 ds 0%nat _ _ _ _ Hr) as Hb.
    cbn [skipn init_value kp_problem] in Hb. unfold kB. lia.
  Qed.

  Lemma kp_guard0 ds s' v' : frun pbF 0 (init_state pbF) (init_value pbF) ds = Some (s', v') -> - kB <= v' <= kB.
  Proof.
    intros Hr. change pbF with (with_domain pbF (kp_domain ki)) in Hr.
    pose proof (frun_bound ki (kp_domain ki) wf_prof kp_domain01 ds 0%nat _ _ _ _ Hr) as Hb.
    cbn [skipn init_value kp_problem with_domain] in Hb. unfold kB. lia.
  Qed.

  (* ---------------------------------------------------------------- the theorem on the model *)
  Variable flv : flavour.
  Hypothesis Hflv : flv = CleanLEL \/ flv = CleanFC.
  Variable width : nat.
  Hypothesis Hwidth : (1 <= width)%nat.
  Variable domcmp : kstate -> Z -> kstate -> Z -> comparison.
  Local Notation cfgF b := (kp_sconfig ki flv width b domcmp).
  Local Notation cfgG b := (guarded_cfg (kp_sconfig ki flv width b domcmp) g_domain g_merge g_fub).

  Lemma g_wf_cover b : wf_cover (cfgG b) kcov.
  Proof. split; [exact kcov_refl|]. split; [exact kcov_sim|]. split; [exact g_merge_cov|exact g_rub_adm]. Qed.

  Lemma g_wf_relaxation b : wf_relaxation (cfgG b).
  Proof.
    exists kcov. right. split; [exact (g_wf_cover b)|]. split; [|split].
    - intros s d. apply wrap_isize.
    - intros src dst mg d c Hc. exact Hc.
    - intros src dst mg d c _. cbn. lia.
  Qed.

  Theorem kp_C01_run b :
    exists f0, forall fuel, (f0 <= fuel)%nat -> C01_conclusion (cfgF b) (maximize kstate_eqb (cfgF b) fuel None).
  Proof.
    destruct b.
    - exact (C01_layered_nodup kstate_eqb kstate_eqb_spec (cfgF true) g_domain g_merge g_fub Hflv eq_refl eq_refl Hwidth eq_refl
               (nv_static_d ki (kp_domain ki)) (nv_some_d ki (kp_domain ki)) (nv_none_d ki (kp_domain ki))
               klvl k_lvl_root kA_dom kA_fub kA_step kA_merge (g_wf_relaxation true) 2%nat g_dom_bound kB kHB g_guard0 eq_refl).
    - exact (C01_layered kstate_eqb kstate_eqb_spec (cfgF false) g_domain g_merge g_fub Hflv eq_refl eq_refl Hwidth eq_refl
               (nv_static_d ki (kp_domain ki)) (nv_some_d ki (kp_domain ki)) (nv_none_d ki (kp_domain ki))
               klvl k_lvl_root kA_dom kA_fub kA_step kA_merge (g_wf_relaxation false) 2%nat g_dom_bound kB kHB g_guard0 eq_refl).
  Qed.
End KPG.

(* ================================================================== 6. the theorems on the shipped model *)
Definition clean (flv : flavour) : Prop := flv = CleanLEL \/ flv = CleanFC.

(* C01, in the shape of TableWf.C01_table_instances; [nodupf = false] SimpleFringe, [nodupf = true] NoDupFringe *)
Theorem kp_C01_gen : forall ki, kp_wf ki -> sorted_by_ratio ki ->
  forall flv width domcmp nodupf, clean flv -> (1 <= width)%nat ->
  exists f0, forall fuel, (f0 <= fuel)%nat ->
    let r := maximize kstate_eqb (kp_sconfig ki flv width nodupf domcmp) fuel None in
    r_crash r = false /\ r_outoffuel r = false /\ r_exact r = true /\ r_value r = opt_enum (kp_problem ki) /\
    (forall v, opt_enum (kp_problem ki) = Some v ->
       r_lb r = v /\ r_ub r = v /\
       exists sol, r_sol r = Some (sort_by dec_var_cmp sol) /\ MddProgress.feasible (kp_problem ki) sol v) /\
    (opt_enum (kp_problem ki) = None -> r_sol r = None /\ r_lb r = IMIN).
Proof.
  intros ki Hwf Hs flv width domcmp nodupf Hflv Hw.
  destruct (kp_C01_run ki Hwf Hs flv Hflv width Hw domcmp nodupf) as [f0 Hf]. exists f0. intros fuel Hfuel.
  destruct (Hf fuel Hfuel) as (A1 & A2 & A3 & A4 & A5 & A6).
  split; [exact A1|]. split; [exact A2|]. split; [exact A3|]. split; [exact A4|]. split; [|exact A6].
  intros v Hv. destruct (A5 v Hv) as (E1 & E2 & sol & S1 & S2). split; [exact E1|]. split; [exact E2|].
  exists sol. split; [exact S1|]. apply (sfeasible_feasible (kp_problem ki) (kB ki) (kHB ki Hwf) (kp_guard0 ki Hwf)). exact S2.
Qed.

Theorem kp_C01 : forall ki, kp_wf ki -> sorted_by_ratio ki ->
  forall flv width domcmp, clean flv -> (1 <= width)%nat ->
  exists f0, forall fuel, (f0 <= fuel)%nat ->
    let r := maximize kstate_eqb (kp_sconfig ki flv width false domcmp) fuel None in
    r_crash r = false /\ r_outoffuel r = false /\ r_exact r = true /\ r_value r = opt_enum (kp_problem ki) /\
    (forall v, opt_enum (kp_problem ki) = Some v ->
       r_lb r = v /\ r_ub r = v /\
       exists sol, r_sol r = Some (sort_by dec_var_cmp sol) /\ MddProgress.feasible (kp_problem ki) sol v) /\
    (opt_enum (kp_problem ki) = None -> r_sol r = None /\ r_lb r = IMIN).
Proof. intros ki Hwf Hs flv width domcmp. exact (kp_C01_gen ki Hwf Hs flv width domcmp false). Qed.

Theorem kp_C01_nodup : forall ki, kp_wf ki -> sorted_by_ratio ki ->
  forall flv width domcmp, clean flv -> (1 <= width)%nat ->
  exists f0, forall fuel, (f0 <= fuel)%nat ->
    let r := maximize kstate_eqb (kp_sconfig ki flv width true domcmp) fuel None in
    r_crash r = false /\ r_outoffuel r = false /\ r_exact r = true /\ r_value r = opt_enum (kp_problem ki) /\
    (forall v, opt_enum (kp_problem ki) = Some v ->
       r_lb r = v /\ r_ub r = v /\
       exists sol, r_sol r = Some (sort_by dec_var_cmp sol) /\ MddProgress.feasible (kp_problem ki) sol v) /\
    (opt_enum (kp_problem ki) = None -> r_sol r = None /\ r_lb r = IMIN).
Proof. intros ki Hwf Hs flv width domcmp. exact (kp_C01_gen ki Hwf Hs flv width domcmp true). Qed.

(* ================================================================== 7. the optimum of the DP is the optimum of the knapsack problem *)
(* all bit vectors of the length of the item list, first item first *)
Fixpoint sels (l : list item) : list (list bool) :=
  match l with
  | [] => [[]]
  | _ :: r => map (cons true) (sels r) ++ map (cons false) (sels r)
  end.
Fixpoint sel_weight (l : list item) (bs : list bool) : Z :=
  match l, bs with
  | (p, w) :: r, b :: bs' => (if b then w else 0) + sel_weight r bs'
  | _, _ => 0
  end.
Fixpoint sel_profit (l : list item) (bs : list bool) : Z :=
  match l, bs with
  | (p, w) :: r, b :: bs' => (if b then p else 0) + sel_profit r bs'
  | _, _ => 0
  end.
(* brute force: the best total profit over the subsets whose total weight fits *)
Definition kp_brute (l : list item) (c : Z) : option Z :=
  zmax_list (map (sel_profit l) (filter (fun bs => sel_weight l bs <=? c) (sels l))).

Lemma sel_weight_nonneg l : wnonneg l -> forall bs, 0 <= sel_weight l bs.
Proof.
  induction l as [|[p w] r IH]; intros Hw bs; cbn [sel_weight]; [lia|]. destruct bs as [|b bs]; [lia|].
  inversion Hw as [|? ? Hw1 Hw2]; subst. cbn [snd] in Hw1. specialize (IH Hw2 bs). destruct b; lia.
Qed.

Lemma zmax_list_map_add p (g : list bool -> Z) L :
  zmax_list (map (fun bs => p + g bs) L) = oadd p (zmax_list (map g L)).
Proof.
  induction L as [|x L IH]; cbn [map zmax_list]; [reflexivity|]. rewrite IH.
  destruct (zmax_list (map g L)); cbn [oadd option_map]; f_equal; lia.
Qed.

Lemma filter_map_cons (f : list bool -> bool) b L :
  filter f (map (cons b) L) = map (cons b) (filter (fun bs => f (b :: bs)) L).
Proof. induction L as [|x L IH]; cbn [map filter]; [reflexivity|]. rewrite IH. destruct (f (b :: x)); reflexivity. Qed.

Lemma kp_brute_neg l : wnonneg l -> forall c, c < 0 -> kp_brute l c = None.
Proof.
  intros Hw c Hc. unfold kp_brute.
  replace (filter (fun bs => sel_weight l bs <=? c) (sels l)) with (@nil (list bool)); [reflexivity|].
  symmetry. induction (sels l) as [|bs L IH]; cbn [filter]; [reflexivity|].
  pose proof (sel_weight_nonneg l Hw bs). destruct (Z.leb_spec (sel_weight l bs) c); [lia|exact IH].
Qed.

Lemma kbest_brute l : wnonneg l -> forall c, 0 <= c -> kp_brute l c = Some (kbest l c).
Proof.
  induction l as [|[p w] r IH]; intros Hw c Hc.
  - unfold kp_brute. cbn. destruct (Z.leb_spec 0 c); [reflexivity|lia].
  - inversion Hw as [|? ? Hw1 Hw2]; subst. cbn [snd] in Hw1.
    unfold kp_brute. cbn [sels]. rewrite filter_app, map_app, zmax_list_app.
    rewrite !filter_map_cons, !map_map. cbn [sel_weight sel_profit].
    assert (E1 : filter (fun bs => w + sel_weight r bs <=? c) (sels r) = filter (fun bs => sel_weight r bs <=? c - w) (sels r)).
    { apply filter_ext. intros bs. destruct (Z.leb_spec (w + sel_weight r bs) c); destruct (Z.leb_spec (sel_weight r bs) (c - w)); try reflexivity; lia. }
    assert (E0 : filter (fun bs => 0 + sel_weight r bs <=? c) (sels r) = filter (fun bs => sel_weight r bs <=? c) (sels r)).
    { apply filter_ext. intros bs. reflexivity. }
    rewrite E1, E0.
    rewrite (zmax_list_map_add p (sel_profit r) (filter (fun bs => sel_weight r bs <=? c - w) (sels r))).
    rewrite (zmax_list_map_add 0 (sel_profit r) (filter (fun bs => sel_weight r bs <=? c) (sels r))).
    fold (kp_brute r (c - w)). fold (kp_brute r c).
    rewrite (IH Hw2 c Hc). cbn [kbest].
    destruct (Z.leb_spec w c) as [Hfit|Hnf].
    + rewrite (IH Hw2 (c - w)) by lia. cbn [oadd option_map omax]. f_equal; lia.
    + rewrite (kp_brute_neg r Hw2 (c - w)) by lia. cbn [oadd option_map omax]. f_equal; lia.
Qed.

Theorem kp_opt_is_knapsack : forall ki, kp_wf ki ->
  opt_enum (kp_problem ki) = kp_brute (kp_items ki) (kp_cap ki).
Proof.
  intros ki Hwf. rewrite (kbest_brute _ (wf_wnonneg ki Hwf) _ (wf_cap ki Hwf)).
  unfold opt_enum. rewrite opt_enum_from_H.
  cbn [init_state init_value kp_problem].
  change (H (kp_problem ki)) with (H (with_domain (kp_problem ki) (kp_domain ki))).
  rewrite (H_sync ki (kp_domain ki) (wf_prof ki Hwf) (fun k s _ _ => eq_refl) (nitems ki - 0) 0%nat
             {| k_depth := 0; k_cap := kp_cap ki |} eq_refl ltac:(lia) eq_refl).
  cbn [oadd option_map skipn k_cap]. f_equal.
Qed.

(* ================================================================== 8. what is true of the model itself: the layered premises; what is not: the literal ones *)
Section KPFacts.
  Variable ki : kp_inst.
  Local Notation items := (kp_items ki).
  Local Notation pbF := (kp_problem ki).
  Hypothesis Hwf : kp_wf ki.
  Hypothesis Hsorted : sorted_by_ratio ki.

  (* rub_adm in its layered form, on the model itself *)
  Theorem kp_rub_adm_layered k s s' h :
    k_depth s = k -> k_depth s' = k -> k_cap s' <= k_cap s -> (k_cap s <= 0 -> nozwpp (skipn k items)) ->
    H pbF k s' = Some h -> h <= fast_upper_bound (kp_relaxation ki) s.
  Proof. exact (H_le_fub ki Hwf Hsorted (kp_domain ki) (fun _ _ _ _ => eq_refl) k s s' h). Qed.

  (* merge covers the members' cover, for the states of ONE layer *)
  Lemma kp_merge_cov_layered L k s s' :
    (forall y, In y L -> k_depth y = k) -> In s L -> k_depth s' = k -> k_cap s' <= k_cap s ->
    k_depth (kp_merge L) = k /\ k_cap s' <= k_cap (kp_merge L).
  Proof.
    intros Hu HL Hd Hc. assert (Hne : L <> []) by (intros E; rewrite E in HL; destruct HL).
    destruct (kp_merge_spec L Hne) as [Hm Hcap]. split; [apply Hu; exact Hm|]. specialize (Hcap s HL). lia.
  Qed.

  (* every state reached by a feasible run sits on its level, with a capacity in [0, kp_cap] *)
  Lemma kp_frun_inv ds : forall k s v s' v', frun pbF k s v ds = Some (s', v') ->
    k_depth s = k -> 0 <= k_cap s <= kp_cap ki ->
    k_depth s' = (k + length ds)%nat /\ 0 <= k_cap s' <= kp_cap ki.
  Proof.
    induction ds as [|d ds IH]; intros k s v s' v' Hr Hd Hc.
    - inversion Hr; subst. cbn [length]. rewrite Nat.add_0_r. auto.
    - apply frun_cons in Hr. destruct Hr as (_ & Ed & Hr).
      cbn [domain kp_problem] in Ed. unfold kp_domain in Ed.
      pose proof (weight_nonneg ki Hwf (d_var d)) as Hw0.
      destruct (IH _ _ _ _ _ Hr) as [I1 I2].
      + cbn [transition kp_problem]. unfold kp_transition. cbn [k_depth]. lia.
      + cbn [transition kp_problem]. unfold kp_transition. cbn [k_cap].
        destruct (Z.leb_spec (weight_at ki (d_var d)) (k_cap s)).
        * destruct (d_val d =? 1); lia.
        * destruct Ed as [E|[]]. rewrite <- E. cbn. lia.
      + split; [cbn [length]; lia|exact I2].
  Qed.
End KPFacts.

(* ---- the rough bound in machine integers: no addition saturates, no product overflows *)
Lemma dantzig_le_possum l : wnonneg l -> forall c, dantzig l c <= possum l.
Proof.
  induction l as [|[p w] r IH]; intros Hw c; cbn [dantzig possum fold_right fst]; [lia|]. fold (possum r).
  inversion Hw as [|? ? Hw1 Hw2]; subst. cbn [snd] in Hw1. pose proof (possum_nonneg r).
  destruct (Z.leb_spec c 0); [lia|]. destruct (Z.leb_spec p 0); [specialize (IH Hw2 c); lia|].
  destruct (Z.leb_spec w c); [specialize (IH Hw2 (c - w)); lia|].
  assert (c * p / w <= p) by (apply Z.div_le_upper_bound; nia). lia.
Qed.

Lemma maxprofit_In l it : In it l -> fst it <= maxprofit l.
Proof.
  induction l as [|[p w] r IH]; intros Hin; [destruct Hin|]. cbn [maxprofit fold_right fst]. fold (maxprofit r).
  destruct Hin as [<-|Hin]; [cbn [fst]; lia|]. specialize (IH Hin). lia.
Qed.
Lemma maxprofit_nonneg l : 0 <= maxprofit l.
Proof. induction l as [|[p w] r IH]; cbn [maxprofit fold_right fst]; [lia|]. fold (maxprofit r). lia. Qed.

(* on every state with a capacity in [0, kp_cap] (all reachable ones: kp_frun_inv; merged states are members):
   the bound is in [0, IMAX / 2], as is every partial sum, and the product capacity * profit is within isize *)
Lemma kp_fub_isize ki : kp_wf ki -> forall s, 0 <= kp_fub ki s /\ 2 * kp_fub ki s <= IMAX.
Proof.
  intros Hwf s. unfold kp_fub.
  assert (Hw : wnonneg (skipn (k_depth s) (kp_items ki))) by (apply Forall_skipn; exact (wf_wnonneg ki Hwf)).
  split; [apply dantzig_nonneg; exact Hw|].
  pose proof (dantzig_le_possum _ Hw (k_cap s)). pose proof (possum_skipn_le (k_depth s) (kp_items ki)).
  pose proof (possum_le_abssum (kp_items ki)). pose proof (wf_abs ki Hwf). lia.
Qed.
Lemma kp_fub_product_isize ki : kp_wf ki -> forall c it, 0 <= c <= kp_cap ki -> In it (kp_items ki) -> 0 < fst it ->
  0 <= c * fst it <= IMAX.
Proof.
  intros (_ & _ & _ & Hprod & _) c it Hc Hin Hp. pose proof (maxprofit_In _ _ Hin). pose proof (maxprofit_nonneg (kp_items ki)). nia.
Qed.

(* ---- FINDING: the literal premises of Assembly.v cannot be met by the shipped model, whatever the covering relation *)
Definition ki_cex : kp_inst := {| kp_cap := 1; kp_items := [(10, 1)] |}.

Lemma kp_literal_rub_adm_fails : forall cov : kstate -> kstate -> Prop, (forall s, cov s s) ->
  ~ (forall k s s' h, cov s s' -> H (kp_problem ki_cex) k s' = Some h -> h <= fast_upper_bound (kp_relaxation ki_cex) s).
Proof.
  intros cov Hrefl Hadm.
  (* a state whose depth field (1) is not the layer (0) at which its Bellman value is asked *)
  specialize (Hadm 0%nat {| k_depth := 1; k_cap := 1 |} {| k_depth := 1; k_cap := 1 |} 10 (Hrefl _) eq_refl).
  vm_compute in Hadm. apply Hadm. reflexivity.
Qed.

Theorem kp_literal_premises_unsat : forall flv width b domcmp cov, ~ wf_cover (kp_sconfig ki_cex flv width b domcmp) cov.
Proof. intros flv width b domcmp cov (H1 & _ & _ & H4). exact (kp_literal_rub_adm_fails cov H1 H4). Qed.

(* ... and with the depth-aware covering relation, merge_cov fails on a list that mixes two layers *)
Lemma kp_literal_merge_cov_fails :
  let cov := fun s s' : kstate => k_depth s = k_depth s' /\ k_cap s' <= k_cap s in
  exists L s s', In s L /\ cov s s' /\ ~ cov (kp_merge L) s'.
Proof.
  exists [ {| k_depth := 0; k_cap := 1 |}; {| k_depth := 1; k_cap := 5 |} ], {| k_depth := 0; k_cap := 1 |}, {| k_depth := 0; k_cap := 1 |}.
  split; [left; reflexivity|]. split; [split; [reflexivity|lia]|]. cbn. intros [E _]. discriminate.
Qed.

(* ---- every premise of Assembly.C01_sequential_optimal_isize but rub_adm holds LITERALLY of the model, with the
        depth-blind covering relation "at least the capacity"; rub_adm holds in its layered form *)
Section KPPremises.
  Variable ki : kp_inst.
  Local Notation pbF := (kp_problem ki).
  Local Notation rlxF := (kp_relaxation ki).
  Hypothesis Hwf : kp_wf ki.
  Hypothesis Hsorted : sorted_by_ratio ki.

  Definition cov0 (s s' : kstate) : Prop := k_cap s' <= k_cap s.

  Lemma kp_cov0_sim s s' x v : cov0 s s' -> In v (domain pbF x s') ->
    let d := {| d_var := x; d_val := v |} in
    In v (domain pbF x s) /\ cov0 (transition pbF s d) (transition pbF s' d) /\
    transition_cost pbF s' (transition pbF s' d) d <= transition_cost pbF s (transition pbF s d) d.
  Proof.
    unfold cov0. intros Hc Hin. cbn [domain transition transition_cost kp_problem] in *.
    split; [|split; [|unfold kp_cost; lia]].
    - exact (kp_domain_mono ki x s s' v Hc Hin).
    - unfold kp_transition. cbn [d_var d_val k_cap]. destruct (v =? 1); lia.
  Qed.

  Lemma kp_cov0_merge L s s' : In s L -> cov0 s s' -> cov0 (merge rlxF L) s'.
  Proof.
    unfold cov0. intros HL Hc. assert (Hne : L <> []) by (intros E; rewrite E in HL; destruct HL).
    destruct (kp_merge_spec L Hne) as [_ Hcap]. specialize (Hcap s HL). cbn [merge kp_relaxation]. lia.
  Qed.

  Lemma kp_dom_bound x s : (length (domain pbF x s) <= 2)%nat.
  Proof. cbn [domain kp_problem]. unfold kp_domain. destruct (weight_at ki x <=? k_cap s); cbn; lia. Qed.

  Theorem kp_premises_model :
    (forall a b, kstate_eqb a b = true <-> a = b) /\
    (forall k l1 l2, next_variable pbF k l1 = next_variable pbF k l2) /\
    (forall k l, (k < nb_vars pbF)%nat -> exists x, next_variable pbF k l = Some x) /\
    (forall k l, (nb_vars pbF <= k)%nat -> next_variable pbF k l = None) /\
    (forall s, cov0 s s) /\
    (forall s s' x v, cov0 s s' -> In v (domain pbF x s') ->
       let d := {| d_var := x; d_val := v |} in
       In v (domain pbF x s) /\ cov0 (transition pbF s d) (transition pbF s' d) /\
       transition_cost pbF s' (transition pbF s' d) d <= transition_cost pbF s (transition pbF s d) d) /\
    (forall L s s', In s L -> cov0 s s' -> cov0 (merge rlxF L) s') /\
    (* rub_adm, LAYERED: the depth fields of s and s' are the layer k *)
    (forall k s s' h, k_depth s = k -> k_depth s' = k -> cov0 s s' -> (k_cap s <= 0 -> nozwpp (skipn k (kp_items ki))) ->
       H pbF k s' = Some h -> h <= fast_upper_bound rlxF s) /\
    (forall x s, (length (domain pbF x s) <= 2)%nat) /\
    2 * kB ki <= IMAX /\
    (forall ds s' v', frun pbF 0 (init_state pbF) (init_value pbF) ds = Some (s', v') -> - kB ki <= v' <= kB ki) /\
    (forall s d, in_isize (transition_cost pbF s (transition pbF s d) d)) /\
    (forall src dst mg d c, in_isize c -> in_isize (relax rlxF src dst mg d c)) /\
    (forall src dst mg d c, in_isize c -> c <= relax rlxF src dst mg d c).
  Proof.
    split; [exact kstate_eqb_spec|]. split; [exact (nv_static_d ki (kp_domain ki))|].
    split; [exact (nv_some_d ki (kp_domain ki))|]. split; [exact (nv_none_d ki (kp_domain ki))|].
    split; [intros s; unfold cov0; lia|]. split; [exact kp_cov0_sim|]. split; [exact kp_cov0_merge|].
    split; [intros k s s' h H1 H2 H3 H4 H5; exact (kp_rub_adm_layered ki Hwf Hsorted k s s' h H1 H2 H3 H4 H5)|].
    split; [exact kp_dom_bound|]. split; [exact (kHB ki Hwf)|]. split; [exact (kp_guard0 ki Hwf)|].
    split; [intros s d; apply wrap_isize|]. split; [intros src dst mg d c Hc; exact Hc|].
    intros src dst mg d c _. cbn [relax kp_relaxation]. lia.
  Qed.
End KPPremises.

(* ================================================================== 9. executable checks of kp_wf / sorted_by_ratio *)
Definition kp_wfb (ki : kp_inst) : bool :=
  (0 <=? kp_cap ki) && (kp_cap ki <=? IMAX) &&
  forallb (fun it => (0 <=? snd it) && (snd it <=? IMAX)) (kp_items ki) &&
  (2 * abssum (kp_items ki) <=? IMAX) &&
  (kp_cap ki * maxprofit (kp_items ki) <=? IMAX) &&
  (negb (kp_cap ki =? 0) || nozwppb (kp_items ki)).

Lemma kp_wfb_spec ki : kp_wfb ki = true -> kp_wf ki.
Proof.
  unfold kp_wfb, kp_wf. rewrite !andb_true_iff, !Z.leb_le, orb_true_iff, negb_true_iff, Z.eqb_neq.
  rewrite forallb_forall, Forall_forall, nozwppb_spec.
  intros (((((H1 & H2) & H3) & H4) & H5) & H6).
  split; [lia|]. split; [|split; [exact H4|split; [exact H5|]]].
  - intros it Hin. specialize (H3 it Hin). autorewrite with b2p in H3. lia.
  - intros Hc. destruct H6 as [H6|H6]; [contradiction|exact H6].
Qed.

Definition dom_byb (P W : Z) (l : list item) : bool :=
  forallb (fun it => negb (0 <? fst it) || ((0 <? snd it) && (fst it * W <=? P * snd it))) l.
Fixpoint sortedRb (l : list item) : bool :=
  match l with
  | [] => true
  | (p, w) :: r => (negb ((0 <? p) && (0 <? w)) || dom_byb p w r) && (negb (0 <? w) || nozwppb r) && sortedRb r
  end.

Lemma dom_byb_spec P W l : dom_byb P W l = true -> dom_by P W l.
Proof.
  unfold dom_byb, dom_by. rewrite forallb_forall, Forall_forall. intros H it Hin Hp. specialize (H it Hin).
  autorewrite with b2p in H. lia.
Qed.

Lemma sortedRb_spec l : sortedRb l = true -> sortedR l.
Proof.
  induction l as [|[p w] r IH]; cbn [sortedRb sortedR]; [auto|].
  rewrite !andb_true_iff, !orb_true_iff, !negb_true_iff, andb_false_iff, !Z.ltb_ge. intros ((H1 & H2) & H3).
  split; [|split; [|apply IH; exact H3]].
  - intros Hp Hw. apply dom_byb_spec. destruct H1 as [H1|H1]; [lia|exact H1].
  - intros Hw. apply nozwppb_spec. destruct H2 as [H2|H2]; [lia|exact H2].
Qed.

(* ================================================================== 10. a concrete instance (non-vacuity)
   capacity 12; items (profit, weight) in the order of decreasing profit / weight:
     (3,0) weight 0 first | (10,2) ratio 5 | (-4,1) a negative profit, anywhere | (12,4) ratio 3 | (7,3) ratio 7/3 |
     (0,2) a null profit, anywhere | (8,5) ratio 8/5 | (3,6) ratio 1/2
   best subset: (3,0) (10,2) (12,4) (8,5): weight 11, profit 33 *)
Definition ex_ki : kp_inst := {|
  kp_cap := 12;
  kp_items := [(3, 0); (10, 2); (-4, 1); (12, 4); (7, 3); (0, 2); (8, 5); (3, 6)] |}.

(* a total comparator standing for the iteration order of the layer (value, then depth, then capacity) *)
Definition ex_domcmp (a : kstate) (va : Z) (b : kstate) (vb : Z) : comparison :=
  cmp_then (Zcmp va vb) (cmp_then (Ncmp (k_depth a) (k_depth b)) (Zcmp (k_cap a) (k_cap b))).

Example ex_wf : kp_wf ex_ki.
Proof. apply kp_wfb_spec. vm_compute. reflexivity. Qed.

Example ex_sorted : sorted_by_ratio ex_ki.
Proof. apply sortedRb_spec. vm_compute. reflexivity. Qed.

Example ex_brute : kp_brute (kp_items ex_ki) (kp_cap ex_ki) = Some 33.
Proof. vm_compute. reflexivity. Qed.

Example ex_opt : opt_enum (kp_problem ex_ki) = Some 33.
Proof. rewrite (kp_opt_is_knapsack ex_ki ex_wf). exact ex_brute. Qed.

(* ---- the order, stated on CONSECUTIVE items of positive profit and positive weight (the others are skipped):
        it implies the pairwise form sorted_by_ratio (the ratio order is transitive) *)
Fixpoint sortedC (prev : option item) (l : list item) : Prop :=
  match l with
  | [] => True
  | (p, w) :: r =>
      (0 < w -> nozwpp r) /\
      if (0 <? p) && (0 <? w)
      then match prev with Some (P, W) => p * W <= P * w | None => True end /\ sortedC (Some (p, w)) r
      else sortedC prev r
  end.

Lemma dom_by_trans P W p w r : 0 < w -> 0 < W -> p * W <= P * w -> dom_by p w r -> dom_by P W r.
Proof.
  intros Hw HW Hle Hd. unfold dom_by in *. eapply Forall_impl; [|exact Hd]. intros [p' w'] Hit Hp'. cbn [fst snd] in *.
  destruct (Hit Hp') as [Hw' Hr]. split; [exact Hw'|].
  assert (p' * w * W <= p * w' * W) by nia. assert (p * W * w' <= P * w * w') by nia. nia.
Qed.

Lemma sortedC_sortedR l : forall prev, sortedC prev l ->
  match prev with Some (P, W) => 0 < P -> 0 < W -> nozwpp l -> dom_by P W l | None => True end /\ sortedR l.
Proof.
  induction l as [|[p w] r IH]; intros prev Hs.
  - split; [destruct prev as [[P W]|]; [intros; constructor|exact I]|exact I].
  - cbn [sortedC] in Hs. destruct Hs as [Hz Hs]. cbn [sortedR].
    destruct (Z.ltb_spec 0 p) as [Hp|Hp]; [destruct (Z.ltb_spec 0 w) as [Hw|Hw]|]; cbn [andb] in Hs.
    + destruct Hs as [Hprev Hs]. destruct (IH _ Hs) as [I1 I2]. pose proof (I1 Hp Hw (Hz Hw)) as Hdr.
      split; [|split; [intros _ _; exact Hdr|split; [exact Hz|exact I2]]].
      destruct prev as [[P W]|]; [|exact I]. intros HP HW Hnz. constructor.
      * cbn [fst snd]. intros _. split; [exact Hw|exact Hprev].
      * eapply dom_by_trans; [exact Hw|exact HW|exact Hprev|exact Hdr].
    + (* a weightless item of positive profit: nozwpp excludes it *)
      destruct (IH _ Hs) as [I1 I2].
      split; [|split; [intros _ Hw'; lia|split; [exact Hz|exact I2]]].
      destruct prev as [[P W]|]; [|exact I]. intros HP HW Hnz. inversion Hnz as [|? ? Hn1 Hn2]; subst. cbn [fst snd] in Hn1.
      specialize (Hn1 Hp). lia.
    + (* profit <= 0: the item constrains nothing *)
      destruct (IH _ Hs) as [I1 I2].
      split; [|split; [intros Hp'; lia|split; [exact Hz|exact I2]]].
      destruct prev as [[P W]|]; [|exact I]. intros HP HW Hnz. inversion Hnz as [|? ? Hn1 Hn2]; subst.
      constructor; [cbn [fst snd]; intros Hp'; lia|apply I1; assumption].
Qed.

Definition sorted_consecutive (ki : kp_inst) : Prop := sortedC None (kp_items ki).
Lemma sorted_consecutive_by_ratio ki : sorted_consecutive ki -> sorted_by_ratio ki.
Proof. intros H. exact (proj2 (sortedC_sortedR _ None H)). Qed.

Definition ex_show (r : sresult) := (r_crash r, r_outoffuel r, r_exact r, r_value r, r_lb r, r_ub r).

(* running the model: width 1 (every layer merged into one node), SimpleFringe, last-exact-layer cut-sets ... *)
Example ex_run :
  ex_show (maximize kstate_eqb (kp_sconfig ex_ki CleanLEL 1 false ex_domcmp) 200 None) = (false, false, true, Some 33, 33, 33).
Proof. vm_compute. reflexivity. Qed.
(* ... and width 2, NoDupFringe, frontier cut-sets *)
Example ex_run_nodup_fc :
  ex_show (maximize kstate_eqb (kp_sconfig ex_ki CleanFC 2 true ex_domcmp) 200 None) = (false, false, true, Some 33, 33, 33).
Proof. vm_compute. reflexivity. Qed.

(* the theorem applies to the instance: for every comparator, both fringes, enough fuel *)
Example ex_C01 : forall domcmp nodupf,
  exists f0, forall fuel, (f0 <= fuel)%nat ->
    let r := maximize kstate_eqb (kp_sconfig ex_ki CleanLEL 1 nodupf domcmp) fuel None in
    r_crash r = false /\ r_outoffuel r = false /\ r_exact r = true /\ r_value r = Some 33 /\ r_lb r = 33 /\ r_ub r = 33.
Proof.
  intros domcmp nodupf.
  destruct (kp_C01_gen ex_ki ex_wf ex_sorted CleanLEL 1 domcmp nodupf (or_introl eq_refl) (le_n 1)) as [f0 Hf].
  exists f0. intros fuel Hfuel. destruct (Hf fuel Hfuel) as (A1 & A2 & A3 & A4 & A5 & _).
  rewrite ex_opt in A4. destruct (A5 33 ex_opt) as (B1 & B2 & _). cbv zeta. repeat split; assumption.
Qed.

(* ---- WITHOUT sorted_by_ratio the rough bound is not admissible, and the solver is WRONG: two items in the wrong order *)
Definition ex_unsorted : kp_inst := {| kp_cap := 1; kp_items := [(1, 1); (10, 1)] |}.

Example ex_unsorted_wf : kp_wf ex_unsorted.
Proof. apply kp_wfb_spec. vm_compute. reflexivity. Qed.

Example ex_unsorted_not_sorted : ~ sorted_by_ratio ex_unsorted.
Proof.
  unfold sorted_by_ratio. cbn [ex_unsorted kp_items sortedR]. intros (H & _).
  specialize (H ltac:(lia) ltac:(lia)). inversion H as [|? ? H1 _]; subst. cbn [fst snd] in H1. lia.
Qed.

(* at the root: the bound says 1, the best completion is worth 10 *)
Example ex_unsorted_inadmissible :
  H (kp_problem ex_unsorted) 0 (init_state (kp_problem ex_unsorted)) = Some 10 /\
  fast_upper_bound (kp_relaxation ex_unsorted) (init_state (kp_problem ex_unsorted)) = 1.
Proof. split; vm_compute; reflexivity. Qed.

(* ... and the solver model claims the optimum is 1, "exact", while it is 10: this is why Knapsack::new sorts the items *)
Example ex_unsorted_wrong_answer :
  ex_show (maximize kstate_eqb (kp_sconfig ex_unsorted CleanLEL 1 false ex_domcmp) 200 None) = (false, false, true, Some 1, 1, 1) /\
  opt_enum (kp_problem ex_unsorted) = Some 10.
Proof. split; vm_compute; reflexivity. Qed.

(* ---- FINDING: capacity 0 and a weightless item of positive profit: the loop `while capacity > 0` never looks at it *)
Definition ex_zero_cap : kp_inst := {| kp_cap := 0; kp_items := [(5, 0)] |}.

Example ex_zero_cap_sorted : sorted_by_ratio ex_zero_cap.
Proof. apply sortedRb_spec. vm_compute. reflexivity. Qed.

Example ex_zero_cap_inadmissible :
  H (kp_problem ex_zero_cap) 0 (init_state (kp_problem ex_zero_cap)) = Some 5 /\
  fast_upper_bound (kp_relaxation ex_zero_cap) (init_state (kp_problem ex_zero_cap)) = 0.
Proof. split; vm_compute; reflexivity. Qed.

(* the counter-example instance of kp_literal_premises_unsat is a perfectly good one *)
Example ki_cex_ok : kp_wf ki_cex /\ sorted_by_ratio ki_cex.
Proof. split; [apply kp_wfb_spec|apply sortedRb_spec]; vm_compute; reflexivity. Qed.

Print Assumptions dantzig_adm.
Print Assumptions la_compile.
Print Assumptions C01_layered.
Print Assumptions C01_layered_nodup.
Print Assumptions kp_rub_adm_layered.
Print Assumptions kp_premises_model.
Print Assumptions kp_C01_run.
Print Assumptions kp_C01.
Print Assumptions kp_C01_nodup.
Print Assumptions kp_opt_is_knapsack.
Print Assumptions kp_literal_premises_unsat.
Print Assumptions ex_C01.
Print Assumptions ex_run.
Print Assumptions ex_unsorted_wrong_answer.

Check @dantzig_adm.
Check @la_compile.
Check @C01_layered.
Check @kp_rub_adm_layered.
Check @kp_C01.
Check @kp_C01_nodup.
Check @kp_opt_is_knapsack.
Check @kp_literal_premises_unsat.
Check @kp_literal_merge_cov_fails.
Check @ex_unsorted_wrong_answer.
