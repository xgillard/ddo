(* PooledEq.v -- the pooled decision diagram (pooled.rs, flavour Pooled of Mdd.v) is observationally the clean diagram
   with a frontier cut-set (clean.rs, flavour CleanFC) as soon as every state is impacted by every variable (no long
   arcs); transfer of the diagram-level and solver-level theorems of the development to the pooled flavour.

   Main statements (details, findings and method: summary at the END of this file):
     pooled_is_frontier_core / pooled_is_frontier / pooled_is_frontier_nocache   compile, Pooled vs to_fc
     maximize_pooled_eq, par_maximize_pooled_eq                                   the solvers, Pooled vs cfg_fc
     S1.._S4_.._pooled, C07_.._pooled, C01_sequential_optimal_pooled, C03_parallel_optimal_pooled
     dead_end_finding (the one observable difference), kp_* / kq_* (non-vacuity, vm_compute).
   Stdlib only, no axioms (Print Assumptions at the end). *)
Require Import DDO.Base DDO.Fringe DDO.DP DDO.Cache DDO.Dom DDO.Mdd DDO.MddStruct DDO.MddExact.
Require Import DDO.FringeProofs DDO.Fringe2.
Require DDO.Par DDO.ParProofs.
Require Import DDO.Solver DDO.SolverProofs DDO.MddProgress DDO.MddSim DDO.Assembly DDO.Diagram DDO.MddStruct2.
From Coq Require Import Lia List Arith ZArith Bool.
Import ListNotations.
Open Scope nat_scope.

Section Obs.
  Context {St : Type}.
  Notation mddT := (@mdd St).

  (* what the solvers (Solver.run_compile / process_one_node, Par.p_compile ...) and the theorems of the
     development read off a compilation result, except the threshold cache, the crash flag and the log *)
  Record obs_core_eq (ip ic : @cinput St) (rp rc : mddT * outcome) : Prop := {
    oc_outcome : snd rp = snd rc;
    oc_polls : m_polls (fst rp) = m_polls (fst rc);
    oc_dom : m_dom (fst rp) = m_dom (fst rc);
    oc_cands : argmax_candidates ip (fst rp) (m_next (fst rp)) = argmax_candidates ic (fst rc) (m_next (fst rc));
    oc_cands_exact :
      argmax_candidates ip (fst rp) (filter (fun id => fl_is_exact (n_flags (get_node ip (fst rp) id))) (m_next (fst rp))) =
      argmax_candidates ic (fst rc) (filter (fun id => fl_is_exact (n_flags (get_node ic (fst rc) id))) (m_next (fst rc)));
    oc_is_exact : snd rc = Compiled -> dd_is_exact (fst rp) = dd_is_exact (fst rc);
    oc_best_value : snd rc = Compiled -> dd_best_value ip (fst rp) = dd_best_value ic (fst rc);
    oc_best_exact_value : snd rc = Compiled -> dd_best_exact_value ip (fst rp) = dd_best_exact_value ic (fst rc);
    oc_best_solution : snd rc = Compiled -> dd_best_solution ip (fst rp) = dd_best_solution ic (fst rc);
    oc_best_exact_solution : snd rc = Compiled -> dd_best_exact_solution ip (fst rp) = dd_best_exact_solution ic (fst rc);
    oc_cutset : snd rc = Compiled -> drain_cutset ip (fst rp) = drain_cutset ic (fst rc) }.

  Record obs_eq (ip ic : @cinput St) (rp rc : mddT * outcome) : Prop := {
    oe_core : obs_core_eq ip ic rp rc;
    oe_crash : m_crash (fst rp) = m_crash (fst rc);
    oe_cache : m_cache (fst rp) = m_cache (fst rc);
    oe_log : m_log (fst rp) = m_log (fst rc) }.

  (* the one situation in which the two flavours differ: a Relaxed compilation, some layer was squashed,
     next_variable answered None (variables exhausted) while the last layer had come out empty *)
  Fixpoint last_nv_res (log : list (event St)) : option (option nat) :=
    match log with
    | [] => None
    | EvNextVar _ _ r :: _ => Some r
    | _ :: k => last_nv_res k
    end.
  Definition bottom_dead_end (r : mddT * outcome) : bool :=
    match snd r with
    | Compiled => match m_next (fst r), last_nv_res (m_log (fst r)) with [], Some None => true | _, _ => false end
    | _ => false
    end.
  Definition dead_end_diff (i : @cinput St) (r : mddT * outcome) : bool :=
    is_relaxed_ct (ci_type i) && negb (m_is_exact (fst r)) && bottom_dead_end r.

  Lemma last_nv_res_app (k l : list (event St)) :
    Forall (fun ev => match ev with EvNextVar _ _ _ => False | _ => True end) k ->
    last_nv_res (k ++ l) = last_nv_res l.
  Proof. induction 1 as [|x k Hx _ IH]; [reflexivity|]. destruct x; try contradiction; exact IH. Qed.
End Obs.

Section Blind.
  Context {St : Type}.
  Variable st_eqb : St -> St -> bool.
  Variable inp : @cinput St.
  Notation mddT := (@mdd St).

  (* [retag] overwrites m_lel, m_is_exact, m_layer_end and m_layers, the four fields ("tags") that pooled.rs and clean.rs
     maintain differently.  A function is blind when it commutes with retag (the lemmas r_xxx): it neither reads nor
     writes a tag, so it does the same to a pooled diagram and to its frontier twin (tags_blind; R_blind in Section Sim). *)
  Definition retag (m : mddT) (lel : option nat) (ex : bool) (le : nat) (ly : list (list nat)) : mddT :=
    {| m_nodes := m_nodes m; m_edges := m_edges m; m_layers := ly; m_layer_end := le; m_next := m_next m;
       m_curr_depth := m_curr_depth m; m_path := m_path m; m_lel := lel; m_cutset := m_cutset m; m_best := m_best m;
       m_best_exact := m_best_exact m; m_is_exact := ex; m_has_ebp := m_has_ebp m;
       m_cache := m_cache m; m_dom := m_dom m; m_log := m_log m; m_polls := m_polls m; m_crash := m_crash m |}.

  Lemma gn_retag m a b c d : get_node inp (retag m a b c d) = get_node inp m. Proof. reflexivity. Qed.
  Lemma ge_retag m a b c d : get_edge (retag m a b c d) = get_edge m. Proof. reflexivity. Qed.
  Lemma fn_retag m a b c d s : find_next st_eqb inp (retag m a b c d) s = find_next st_eqb inp m s. Proof. reflexivity. Qed.
  Lemma fn_add_log m e s : find_next st_eqb inp (add_log m e) s = find_next st_eqb inp m s. Proof. reflexivity. Qed.

  Lemma r_fold {B} (f : mddT -> B -> mddT) (l : list B) :
    (forall m x a b c d, f (retag m a b c d) x = retag (f m x) a b c d) ->
    forall m a b c d, fold_left f l (retag m a b c d) = retag (fold_left f l m) a b c d.
  Proof.
    intros Hf. induction l as [|x l IH]; intros m a b c d; simpl; [reflexivity|].
    rewrite Hf. apply IH.
  Qed.

  Lemma r_add_log m a b c d e : add_log (retag m a b c d) e = retag (add_log m e) a b c d. Proof. reflexivity. Qed.
  Lemma r_upd_node m a b c d id f : upd_node (retag m a b c d) id f = retag (upd_node m id f) a b c d. Proof. reflexivity. Qed.
  Lemma r_append_edge m a b c d e : append_edge inp (retag m a b c d) e = retag (append_edge inp m e) a b c d. Proof. reflexivity. Qed.
  Lemma r_with_nodes m a b c d ns : with_nodes (retag m a b c d) ns = retag (with_nodes m ns) a b c d. Proof. reflexivity. Qed.
  Lemma r_with_next m a b c d ns : with_next (retag m a b c d) ns = retag (with_next m ns) a b c d. Proof. reflexivity. Qed.
  Lemma r_set_crash m a b c d : set_crash (retag m a b c d) = retag (set_crash m) a b c d. Proof. reflexivity. Qed.

  Lemma r_branch_on m a b c d id dc : branch_on st_eqb inp (retag m a b c d) id dc = retag (branch_on st_eqb inp m id dc) a b c d.
  Proof.
    unfold branch_on. cbv zeta. rewrite !gn_retag, !fn_add_log, fn_retag.
    match goal with |- context [find_next ?p ?q ?r ?s] => destruct (find_next p q r s) end; reflexivity.
  Qed.

  Lemma r_expand_node var m a b c d id :
    expand_node st_eqb inp var (retag m a b c d) id = retag (expand_node st_eqb inp var m id) a b c d.
  Proof.
    unfold expand_node. cbv zeta. rewrite !gn_retag, r_upd_node, gn_retag.
    match goal with |- context [if ?x then _ else _] => destruct x end; [|reflexivity].
    rewrite r_add_log. apply r_fold. intros. apply r_branch_on.
  Qed.

  Lemma r_expand_layer var l m a b c d :
    fold_left (expand_node st_eqb inp var) l (retag m a b c d) = retag (fold_left (expand_node st_eqb inp var) l m) a b c d.
  Proof. apply r_fold. intros. apply r_expand_node. Qed.

  Lemma r_cache_get m a b c d s dp :
    cache_get st_eqb inp (retag m a b c d) s dp =
    (retag (fst (cache_get st_eqb inp m s dp)) a b c d, snd (cache_get st_eqb inp m s dp)).
  Proof.
    unfold cache_get. destruct (ci_use_cache inp); [|reflexivity].
    change (m_cache (add_log (retag m a b c d) ?e)) with (m_cache m).
    change (m_cache (add_log m ?e)) with (m_cache m).
    destruct (get_threshold st_eqb (m_cache m) s dp); reflexivity.
  Qed.

  Lemma r_cache_update m a b c d s dp v e :
    cache_update st_eqb inp (retag m a b c d) s dp v e = retag (cache_update st_eqb inp m s dp v e) a b c d.
  Proof.
    unfold cache_update. destruct (ci_use_cache inp); [|reflexivity].
    change (m_cache (add_log (retag m a b c d) ?e)) with (m_cache m).
    change (m_cache (add_log m ?e)) with (m_cache m).
    destruct (update_threshold st_eqb (m_cache m) s dp v e); reflexivity.
  Qed.

  Lemma r_dom_query m a b c d s dp v :
    dom_query inp (retag m a b c d) s dp v =
    (retag (fst (dom_query inp m s dp v)) a b c d, snd (dom_query inp m s dp v)).
  Proof.
    unfold dom_query. destruct (ci_domrule inp) as [[[[key nd] coord] usev]|]; [|reflexivity].
    change (m_dom (retag m a b c d)) with (m_dom m).
    destruct (is_dominated_or_insert _ _ _ _ _ _ _ _ _) as [[st' r]|]; reflexivity.
  Qed.

  Lemma r_filter_with_cache l : forall m a b c d,
    filter_with_cache st_eqb inp (retag m a b c d) l =
    (retag (fst (filter_with_cache st_eqb inp m l)) a b c d, snd (filter_with_cache st_eqb inp m l)).
  Proof.
    induction l as [|id l IH]; intros m a b c d; [reflexivity|].
    cbn [filter_with_cache]. rewrite !gn_retag. rewrite r_cache_get.
    destruct (cache_get st_eqb inp m _ _) as [m1 th]. cbn [fst snd].
    destruct th as [t|].
    - destruct (_ >? _)%Z.
      + rewrite IH. destruct (filter_with_cache st_eqb inp m1 l); reflexivity.
      + rewrite r_upd_node. apply IH.
    - rewrite IH. destruct (filter_with_cache st_eqb inp m1 l); reflexivity.
  Qed.

  Lemma r_dom_retain l : forall m a b c d,
    dom_retain inp (retag m a b c d) l = (retag (fst (dom_retain inp m l)) a b c d, snd (dom_retain inp m l)).
  Proof.
    induction l as [|id l IH]; intros m a b c d; [reflexivity|].
    cbn [dom_retain]. rewrite !gn_retag.
    destruct (fl_is_exact _).
    - rewrite r_dom_query.
      destruct (dom_query inp m _ _ _) as [m1 r]. cbn [fst snd].
      destruct (dc_dominated r).
      + rewrite r_upd_node. apply IH.
      + rewrite IH. destruct (dom_retain inp m1 l); reflexivity.
    - rewrite IH. destruct (dom_retain inp m l); reflexivity.
  Qed.

  Lemma r_filter_with_dominance l m a b c d :
    filter_with_dominance inp (retag m a b c d) l =
    (retag (fst (filter_with_dominance inp m l)) a b c d, snd (filter_with_dominance inp m l)).
  Proof. unfold filter_with_dominance. apply r_dom_retain. Qed.

  (* squash: note_squash, which sets a tag, followed by a blind body *)
  Lemma rank_order_retag m a b c d : rank_order inp (retag m a b c d) = rank_order inp m. Proof. reflexivity. Qed.
  Lemma dom_order_retag m a b c d : dom_order inp (retag m a b c d) = dom_order inp m. Proof. reflexivity. Qed.

  Definition restrict_body (m : mddT) (l : list nat) : mddT * list nat :=
    let sorted := sort_by (rank_order inp m) l in
    let w := ci_width inp in
    (mark_deleted m (skipn w sorted), firstn w sorted).

  Lemma restrict_layer_eq m l : restrict_layer inp m l = restrict_body (note_squash inp m) l.
  Proof. reflexivity. Qed.

  Lemma r_mark_deleted ids m a b c d : mark_deleted (retag m a b c d) ids = retag (mark_deleted m ids) a b c d.
  Proof. unfold mark_deleted. apply r_fold. intros. apply r_upd_node. Qed.

  Lemma r_restrict_body m a b c d l :
    restrict_body (retag m a b c d) l = (retag (fst (restrict_body m l)) a b c d, snd (restrict_body m l)).
  Proof. unfold restrict_body. cbv zeta. cbn [fst snd]. rewrite rank_order_retag, r_mark_deleted. reflexivity. Qed.

  Definition relax_body (m0 : mddT) (l : list nat) : mddT * list nat :=
    match ci_width inp with
    | O => (set_crash m0, l)
    | S w1 =>
      let sorted := sort_by (rank_order inp m0) l in
      let keep := firstn w1 sorted in
      let mrg := skipn w1 sorted in
      let mstates := map (fun id => n_state (get_node inp m0 id)) mrg in
      let merged := merge (ci_relax inp) mstates in
      let m1 := add_log m0 (EvMerge mstates merged) in
      match find (fun id => st_eqb (n_state (get_node inp m1 id)) merged) keep with
      | Some rid =>
          let m2 := upd_node m1 rid set_relaxed_flag in
          let m3 := fold_left (drop_step inp merged rid) mrg m2 in
          (upd_node m3 (nth w1 sorted 0) clear_deleted_flag, firstn (S w1) sorted)
      | None =>
          let mid := length (m_nodes m1) in
          let n := merged_node merged (n_depth (get_node inp m1 (hd 0 mrg))) in
          let m2 := upd_node (with_nodes m1 (m_nodes m1 ++ [n])) mid set_relaxed_flag in
          (fold_left (drop_step inp merged mid) mrg m2, keep ++ [mid])
      end
    end.

  Lemma relax_layer_eq m l : relax_layer st_eqb inp m l = relax_body (note_squash inp m) l.
  Proof.
    unfold relax_layer, relax_body. cbv zeta. destruct (ci_width inp) as [|w1]; [reflexivity|].
    match goal with |- context [find ?f ?k] => destruct (find f k) end; reflexivity.
  Qed.

  Lemma r_redirect_step merged mid m a b c d eid :
    redirect_step inp merged mid (retag m a b c d) eid = retag (redirect_step inp merged mid m eid) a b c d.
  Proof. reflexivity. Qed.

  Lemma r_drop_step merged mid m a b c d did :
    drop_step inp merged mid (retag m a b c d) did = retag (drop_step inp merged mid m did) a b c d.
  Proof.
    unfold drop_step. rewrite r_upd_node. rewrite !redirect_edges_fold. rewrite gn_retag.
    apply r_fold. intros. apply r_redirect_step.
  Qed.

  Lemma r_relax_body m a b c d l :
    relax_body (retag m a b c d) l = (retag (fst (relax_body m l)) a b c d, snd (relax_body m l)).
  Proof.
    unfold relax_body. destruct (ci_width inp) as [|w1]; [reflexivity|]. cbv zeta.
    rewrite rank_order_retag, !gn_retag, r_add_log, !gn_retag.
    match goal with |- context [find ?f ?k] => destruct (find f k) as [rid|] end; cbn [fst snd].
    - rewrite r_upd_node, (r_fold (drop_step inp _ rid)) by (intros; apply r_drop_step). reflexivity.
    - change (m_nodes (retag ?x a b c d)) with (m_nodes x).
      rewrite r_with_nodes, r_upd_node, (r_fold (drop_step inp _ _)) by (intros; apply r_drop_step). reflexivity.
  Qed.

  Lemma squash_eq m l :
    squash_if_needed st_eqb inp m l =
    match ci_type inp with
    | Exact => (m, l)
    | Restricted => if ci_width inp <? length l then restrict_body (note_squash inp m) l else (m, l)
    | Relaxed => if (ci_width inp <? length l) && (1 <? length (m_layers m))
                 then relax_body (note_squash inp m) l else (m, l)
    end.
  Proof. unfold squash_if_needed. rewrite relax_layer_eq. reflexivity. Qed.

  (* _finalize: the traversals, with the traversal order made a parameter; none of them reads a tag *)
  Lemma r_with_best m a b c d x y : with_best (retag m a b c d) x y = retag (with_best m x y) a b c d. Proof. reflexivity. Qed.
  Lemma r_with_cutset m a b c d cs : with_cutset (retag m a b c d) cs = retag (with_cutset m cs) a b c d. Proof. reflexivity. Qed.
  Lemma r_find_best_node tb tb2 m a b c d :
    find_best_node inp tb tb2 (retag m a b c d) = retag (find_best_node inp tb tb2 m) a b c d.
  Proof. reflexivity. Qed.

  Lemma hebp_retag fuel : forall m a b c d o,
    has_exact_best_path inp fuel (retag m a b c d) o = has_exact_best_path inp fuel m o.
  Proof.
    induction fuel as [|fuel IH]; intros m a b c d o; [reflexivity|]. cbn [has_exact_best_path].
    destruct o as [id|]; [|reflexivity]. rewrite gn_retag, ge_retag, IH. reflexivity.
  Qed.

  Definition fc_inner (push : bool) (m : mddT) (eid : nat) : mddT :=
    let e := get_edge m eid in
    let p := get_node inp m (e_from e) in
    if fl_is_exact (n_flags p) && negb (f_cutset (n_flags p)) then
      let m := if push then with_cutset m (m_cutset m ++ [e_from e]) else m in
      upd_node m (e_from e) (fun n => set_flags n (fl_set_cutset (n_flags n) true))
    else m.
  Definition fc_step (push : bool) (m : mddT) (id : nat) : mddT :=
    let n := get_node inp m id in
    if fl_is_exact (n_flags n) then upd_node m id (fun n => set_flags n (fl_set_above (n_flags n) true))
    else fold_left (fc_inner push) (n_inb n) m.
  Definition fc_on (ids : list nat) (m : mddT) (push : bool) : mddT := fold_left (fc_step push) ids m.

  Lemma frontier_cutset_on m push : frontier_cutset inp m push = fc_on (bottom_up m) m push.
  Proof. reflexivity. Qed.

  Lemma r_fc_inner push m a b c d eid : fc_inner push (retag m a b c d) eid = retag (fc_inner push m eid) a b c d.
  Proof.
    unfold fc_inner. cbv zeta. rewrite ge_retag, gn_retag.
    destruct (_ && _); [|reflexivity]. destruct push; reflexivity.
  Qed.
  Lemma r_fc_step push m a b c d id : fc_step push (retag m a b c d) id = retag (fc_step push m id) a b c d.
  Proof.
    unfold fc_step. cbv zeta. rewrite gn_retag. destruct (fl_is_exact _); [reflexivity|].
    apply r_fold. intros. apply r_fc_inner.
  Qed.
  Lemma r_fc_on ids push m a b c d : fc_on ids (retag m a b c d) push = retag (fc_on ids m push) a b c d.
  Proof. unfold fc_on. apply r_fold. intros. apply r_fc_step. Qed.

  (* _compute_local_bounds *)
  Definition lb_mark (m : mddT) (id : nat) : mddT :=
    upd_node m id (fun n => set_vbot (set_flags n (fl_set_marked (n_flags n) true)) 0).
  Definition lb_inner (n : @node St) (m : mddT) (eid : nat) : mddT :=
    let e := get_edge m eid in
    let using_edge := sat_add (n_vbot n) (e_cost e) in
    upd_node m (e_from e) (fun p => set_vbot (set_flags p (fl_set_marked (n_flags p) true)) (Z.max (n_vbot p) using_edge)).
  Definition lb_step (m : mddT) (id : nat) : mddT :=
    let n := get_node inp m id in
    if f_marked (n_flags n) then fold_left (lb_inner n) (n_inb n) m else m.
  Definition lb_on (lastl ids : list nat) (m : mddT) : mddT :=
    fold_left lb_step ids (fold_left lb_mark lastl m).

  Lemma compute_local_bounds_on m :
    compute_local_bounds inp m =
    if (if is_pooled (ci_flavour inp) then 0 <? length (m_cutset m)
        else opt_default 0 (m_lel m) <? length (m_layers m)) && is_relaxed_ct (ci_type inp)
    then lb_on (last (m_layers m) []) (bottom_up m) m else m.
  Proof.
    unfold compute_local_bounds. cbv zeta. destruct (_ && _); [|reflexivity].
    change (lb_on (last (m_layers m) []) (bottom_up (fold_left lb_mark (last (m_layers m) []) m)) m =
            lb_on (last (m_layers m) []) (bottom_up m) m).
    unfold bottom_up. rewrite (fold_left_proj (@m_layers St)) by (intros; reflexivity). reflexivity.
  Qed.

  Lemma r_lb_on lastl ids m a b c d : lb_on lastl ids (retag m a b c d) = retag (lb_on lastl ids m) a b c d.
  Proof.
    unfold lb_on. rewrite (r_fold lb_mark) by (intros; reflexivity).
    apply r_fold. intros m0 id a0 b0 c0 d0. unfold lb_step. cbv zeta. rewrite gn_retag.
    destruct (f_marked _); [|reflexivity]. apply r_fold. intros. reflexivity.
  Qed.

  (* _compute_thresholds, frontier / pooled variant of the terminal-node condition *)
  Lemma r_maybe_update_cache m a b c d id :
    maybe_update_cache st_eqb inp (retag m a b c d) id = retag (maybe_update_cache st_eqb inp m id) a b c d.
  Proof.
    unfold maybe_update_cache. cbv zeta. rewrite gn_retag. destruct (n_theta _); [|reflexivity].
    destruct (f_above _); [apply r_cache_update|reflexivity].
  Qed.

  Definition th_term (bk : Z) (m : mddT) (id : nat) : mddT :=
    if fl_is_exact (n_flags (get_node inp m id)) then upd_node m id (fun n => set_theta n (Some bk)) else m.
  Definition th_push (my_theta : Z) (m : mddT) (eid : nat) : mddT :=
    let e := get_edge m eid in
    upd_node m (e_from e) (fun p => set_theta p (Some (Z.min (opt_default IMAX (n_theta p)) (sat_sub my_theta (e_cost e))))).
  Definition th_step (best_known : Z) (m : mddT) (id : nat) : mddT :=
    let n := get_node inp m id in
    if f_deleted (n_flags n) then m
    else
      let m :=
        if negb (f_cache (n_flags n)) then
          let tot_rub := sat_add (n_vtop n) (n_rub n) in
          let m :=
            if (tot_rub <=? best_known)%Z then upd_node m id (fun n => set_theta n (Some (sat_sub best_known (n_rub n))))
            else if f_cutset (n_flags n) then
              let tot_locb := sat_add (n_vtop n) (n_vbot n) in
              if (tot_locb <=? best_known)%Z then
                upd_node m id (fun n => set_theta n (Some (Z.min (opt_default IMAX (n_theta n)) (sat_sub best_known (n_vbot n)))))
              else upd_node m id (fun n => set_theta n (Some (n_vtop n)))
            else if fl_is_exact (n_flags n) && match n_theta n with None => true | Some _ => false end then
              upd_node m id (fun n => set_theta n (Some IMAX))
            else m in
          maybe_update_cache st_eqb inp m id
        else m in
      match n_theta (get_node inp m id) with
      | Some my_theta => fold_left (th_push my_theta) (n_inb (get_node inp m id)) m
      | None => m
      end.
  Definition th_on (ids : list nat) (m : mddT) : mddT :=
    match m_best_exact m with
    | Some be =>
        let bk := Z.max (ci_best_lb inp) (n_vtop (get_node inp m be)) in
        fold_left (th_step bk) ids (fold_left (th_term bk) (m_next m) m)
    | None => fold_left (th_step (ci_best_lb inp)) ids m
    end.

  Lemma compute_thresholds_on m :
    ci_flavour inp <> CleanLEL ->
    compute_thresholds st_eqb inp m =
    if is_relaxed_ct (ci_type inp) || m_is_exact m then th_on (bottom_up m) m else m.
  Proof.
    intros Hf. unfold compute_thresholds, th_on. destruct (_ || _); [|reflexivity].
    destruct (m_best_exact m) as [be|]; [|reflexivity]. cbv zeta.
    assert (E : forall bk, fold_left (fun (m0 : mddT) (id : nat) =>
                   if match ci_flavour inp with CleanLEL => m_is_exact m0 | _ => fl_is_exact (n_flags (get_node inp m0 id)) end
                   then upd_node m0 id (fun n => set_theta n (Some bk)) else m0) (m_next m) m =
                 fold_left (th_term bk) (m_next m) m).
    { intros bk. destruct (ci_flavour inp); [congruence| |]; reflexivity. }
    rewrite E. unfold bottom_up. rewrite (fold_left_proj (@m_layers St)).
    - reflexivity.
    - intros a x. unfold th_term. destruct (fl_is_exact _); reflexivity.
  Qed.

  Lemma r_th_step bk m a b c d id : th_step bk (retag m a b c d) id = retag (th_step bk m id) a b c d.
  Proof.
    unfold th_step. cbv zeta. rewrite !gn_retag. destruct (f_deleted _); [reflexivity|].
    match goal with |- match n_theta (get_node inp ?X id) with _ => _ end = retag (match n_theta (get_node inp ?Y id) with _ => _ end) a b c d =>
      assert (E : X = retag Y a b c d); [|set (Yv := Y) in *] end.
    { destruct (negb _); [|reflexivity]. rewrite <- r_maybe_update_cache. f_equal.
      repeat match goal with |- context [if ?x then _ else _] => destruct x end; reflexivity. }
    rewrite E, gn_retag. destruct (n_theta (get_node inp Yv id)); [|reflexivity].
    apply r_fold. intros. reflexivity.
  Qed.

  Lemma r_th_on ids m a b c d : th_on ids (retag m a b c d) = retag (th_on ids m) a b c d.
  Proof.
    unfold th_on. change (m_best_exact (retag m a b c d)) with (m_best_exact m).
    destruct (m_best_exact m) as [be|].
    - cbv zeta. rewrite gn_retag. change (m_next (retag m a b c d)) with (m_next m).
      rewrite (r_fold (th_term _)).
      + apply r_fold. intros. apply r_th_step.
      + intros m0 x a0 b0 c0 d0. unfold th_term. rewrite gn_retag. destruct (fl_is_exact _); reflexivity.
    - apply r_fold. intros. apply r_th_step.
  Qed.

  (* [insens g]: g is a field, or tuple of fields, that node updates, log entries and cut-set pushes leave alone *)
  Definition insens {X} (g : mddT -> X) : Prop :=
    (forall m k f, g (upd_node m k f) = g m) /\ (forall m ev, g (add_log m ev) = g m) /\
    (forall m cs, g (with_cutset m cs) = g m).
  (* [cinsens g]: cache writes and the crash flag leave g alone too *)
  Definition cinsens {X} (g : mddT -> X) : Prop :=
    (forall m c, g (with_cache m c) = g m) /\ (forall m, g (set_crash m) = g m).

  Definition hdr (m : mddT) :=
    (m_best m, m_best_exact m, m_is_exact m, m_has_ebp m, m_polls m, m_dom m, m_next m, m_path m).
  Lemma insens_hdr : insens hdr. Proof. repeat split. Qed.
  Lemma cinsens_hdr : cinsens hdr. Proof. repeat split. Qed.
  Definition cc (m : mddT) := (m_crash m, m_cache m).
  Lemma insens_cc : insens cc. Proof. repeat split. Qed.

  Section Insens.
    Context {X : Type}.
    Variable g : mddT -> X.
    Hypothesis Hg : insens g.
    Hypothesis Hc : ci_use_cache inp = false \/ cinsens g.

    Lemma ins_fc_on ids m push : g (fc_on ids m push) = g m.
    Proof.
      unfold fc_on. apply fold_left_proj. intros a id. unfold fc_step. cbv zeta.
      destruct (fl_is_exact _); [apply Hg|]. apply fold_left_proj. intros b eid. unfold fc_inner. cbv zeta.
      destruct (_ && _); [|reflexivity].
      destruct Hg as (H1 & H2 & H3). rewrite H1. destruct push; [apply H3|reflexivity].
    Qed.

    Lemma ins_cache_update m s dp v e : g (cache_update st_eqb inp m s dp v e) = g m.
    Proof.
      destruct Hg as (H1 & H2 & H3). unfold cache_update.
      destruct Hc as [Hn|[C1 C2]].
      - rewrite Hn. apply H2.
      - destruct (ci_use_cache inp); [|apply H2].
        destruct (update_threshold _ _ _ _ _ _); [rewrite C1|rewrite C2]; apply H2.
    Qed.

    Lemma ins_local_bounds m : g (compute_local_bounds inp m) = g m.
    Proof.
      apply (compute_local_bounds_steps inp (fun a b => g b = g a)); [reflexivity|congruence|]. intros; apply Hg.
    Qed.

    Lemma ins_thresholds m : g (compute_thresholds st_eqb inp m) = g m.
    Proof.
      apply (compute_thresholds_steps st_eqb inp (fun a b => g b = g a)); [reflexivity|congruence| |].
      - intros; apply Hg.
      - intros; apply ins_cache_update.
    Qed.

    Lemma ins_tail m : g (compute_thresholds st_eqb inp (compute_local_bounds inp m)) = g m.
    Proof. rewrite ins_thresholds. apply ins_local_bounds. Qed.
  End Insens.

  (* a blind function keeps the tags *)
  Definition tags (m : mddT) := (m_lel m, m_is_exact m, m_layer_end m, m_layers m).
  Lemma retag_self m : retag m (m_lel m) (m_is_exact m) (m_layer_end m) (m_layers m) = m.
  Proof. destruct m; reflexivity. Qed.
  Lemma tags_retag m a b c d : tags (retag m a b c d) = (a, b, c, d). Proof. reflexivity. Qed.

  Lemma tags_blind (f : mddT -> mddT) m :
    (forall a b c d, f (retag m a b c d) = retag (f m) a b c d) -> tags (f m) = tags m.
  Proof.
    intros H. specialize (H (m_lel m) (m_is_exact m) (m_layer_end m) (m_layers m)).
    rewrite retag_self in H. rewrite H at 1. reflexivity.
  Qed.
  Lemma tags_blind2 {A} (f : mddT -> mddT * A) m :
    (forall a b c d, f (retag m a b c d) = (retag (fst (f m)) a b c d, snd (f m))) -> tags (fst (f m)) = tags m.
  Proof.
    intros H. specialize (H (m_lel m) (m_is_exact m) (m_layer_end m) (m_layers m)).
    rewrite retag_self in H. rewrite H at 1. reflexivity.
  Qed.

  Lemma tags_relax_body m l : tags (fst (relax_body m l)) = tags m.
  Proof. apply (tags_blind2 (fun m => relax_body m l)). intros. apply r_relax_body. Qed.
  Lemma tags_expand_layer var l m : tags (fold_left (expand_node st_eqb inp var) l m) = tags m.
  Proof. apply (tags_blind (fun m => fold_left (expand_node st_eqb inp var) l m)). intros. apply r_expand_layer. Qed.

  Lemma prefilter_eq m l :
    prefilter st_eqb inp m l = if 0 <? length (m_layers m) then filter_with_cache st_eqb inp m l else (m, l).
  Proof. reflexivity. Qed.

  Lemma upd_node_len (m : mddT) id f : length (m_nodes (upd_node m id f)) = length (m_nodes m).
  Proof. apply upd_nth_length. Qed.

  Lemma restrict_body_len m l : length (m_nodes (fst (restrict_body m l))) = length (m_nodes m).
  Proof. unfold restrict_body. cbn [fst]. unfold mark_deleted. apply (fold_left_proj (fun m => length (m_nodes m))). intros. apply upd_node_len. Qed.

  Lemma relax_body_len m l :
    length (m_nodes (fst (relax_body m l))) = length (m_nodes m) \/
    length (m_nodes (fst (relax_body m l))) = S (length (m_nodes m)).
  Proof.
    unfold relax_body. destruct (ci_width inp) as [|w1]; [left; reflexivity|]. cbv zeta.
    match goal with |- context [find ?f ?k] => destruct (find f k) as [rid|] end; cbn [fst].
    - left. rewrite upd_node_len, (fold_left_proj (fun m => length (m_nodes m))) by (intros; apply drop_step_nodes_length). rewrite upd_node_len. reflexivity.
    - right. rewrite (fold_left_proj (fun m => length (m_nodes m))) by (intros; apply drop_step_nodes_length). rewrite upd_node_len.
      cbn [m_nodes with_nodes add_log]. rewrite app_length. simpl. lia.
  Qed.

  (* no node carries the cut-set flag before _finalize_cutset (node-local invariant of the layer loop, any flavour) *)
  Definition nocutb (n : @node St) : Prop := f_cutset (n_flags n) = false.
  Definition NoCut (m : mddT) : Prop := Forall nocutb (m_nodes m).

  Lemma NoCut_same (m m' : mddT) : m_nodes m' = m_nodes m -> NoCut m -> NoCut m'.
  Proof. unfold NoCut. intros ->. auto. Qed.
  Lemma NoCut_gn (m : mddT) id : NoCut m -> f_cutset (n_flags (get_node inp m id)) = false.
  Proof.
    intros H. unfold get_node. destruct (Nat.lt_ge_cases id (length (m_nodes m))) as [Hlt|Hge].
    - unfold NoCut in H. rewrite Forall_forall in H. apply H. apply nth_In. exact Hlt.
    - rewrite nth_overflow by exact Hge. reflexivity.
  Qed.

  Lemma nocutb_reads (n n' : @node St) :
    n_state n' = n_state n -> n_rub n' = n_rub n -> f_cutset (n_flags n') = f_cutset (n_flags n) ->
    f_marked (n_flags n') = f_marked (n_flags n) -> nocutb n -> nocutb n'.
  Proof. unfold nocutb. intros _ _ -> _ H. exact H. Qed.

  Lemma NoCut_expand_layer var l m : NoCut m -> NoCut (fold_left (expand_node st_eqb inp var) l m).
  Proof.
    apply (nodes_ok_fold_expand st_eqb inp nocutb nocutb_reads); [intros n _ H _; exact H|intros n H; exact H].
  Qed.

  Lemma NoCut_move_clean m : NoCut m -> NoCut (fst (move_to_next_layer_clean st_eqb inp m)).
  Proof. apply (nodes_ok_move_clean st_eqb inp nocutb nocutb_reads). intros n _ H _. exact H. Qed.

  Lemma NoCut_initialize c ds polls : NoCut (initialize inp c ds polls).
  Proof. constructor; [reflexivity|constructor]. Qed.

  (* when _compute_frontier_cutset pushes something *)
  Definition exb (m : mddT) (id : nat) : bool := fl_is_exact (n_flags (get_node inp m id)).
  Definition CutRdy (m : mddT) : Prop :=
    NoCut m /\ exists M eid, In M (bottom_up m) /\ exb m M = false /\ In eid (n_inb (get_node inp m M)) /\
      exb m (e_from (get_edge m eid)) = true.

  Lemma CutRdy_same (m m' : mddT) :
    m_nodes m' = m_nodes m -> m_edges m' = m_edges m -> m_layers m' = m_layers m -> m_cutset m' = m_cutset m ->
    CutRdy m -> CutRdy m'.
  Proof.
    intros Hn He Hl _ [H1 H2]. unfold CutRdy, exb, get_node, get_edge, bottom_up, NoCut in *.
    rewrite Hn, He, Hl. auto.
  Qed.

  Definition FQ (m a : mddT) : Prop :=
    (forall id, exb a id = exb m id) /\ (forall id, n_inb (get_node inp a id) = n_inb (get_node inp m id)) /\
    m_edges a = m_edges m /\ (m_cutset a <> [] \/ forall id, f_cutset (n_flags (get_node inp a id)) = false).

  Lemma FQ_inner m a eid : FQ m a -> FQ m (fc_inner true a eid).
  Proof.
    intros (Q1 & Q2 & Q3 & Q4). unfold fc_inner. cbv zeta. destruct (_ && _); [|repeat split; auto].
    split; [|split; [|split]].
    - intros id. rewrite <- Q1. unfold exb.
      rewrite (get_node_upd_node_proj inp (fun n => fl_is_exact (n_flags n))) by reflexivity. reflexivity.
    - intros id. rewrite <- Q2. rewrite (get_node_upd_node_proj inp (@n_inb St)) by reflexivity. reflexivity.
    - exact Q3.
    - left. cbn [m_cutset upd_node with_nodes with_cutset]. apply app_one_not_nil.
  Qed.
  Lemma FN_inner a eid : m_cutset a <> [] -> m_cutset (fc_inner true a eid) <> [].
  Proof.
    intros H. unfold fc_inner. cbv zeta. destruct (_ && _); [|exact H].
    cbn [m_cutset upd_node with_nodes with_cutset]. apply app_one_not_nil.
  Qed.
  Lemma FQ_step m a id : FQ m a -> FQ m (fc_step true a id).
  Proof.
    intros HQ. unfold fc_step. cbv zeta. destruct (fl_is_exact _).
    - destruct HQ as (Q1 & Q2 & Q3 & Q4). split; [|split; [|split]].
      + intros x. rewrite <- Q1. unfold exb. apply (get_node_upd_node_proj inp (fun n => fl_is_exact (n_flags n))). reflexivity.
      + intros x. rewrite <- Q2. apply (get_node_upd_node_proj inp (@n_inb St)). reflexivity.
      + exact Q3.
      + destruct Q4 as [Q4|Q4]; [left; exact Q4|right]. intros x. rewrite <- (Q4 x).
        apply (get_node_upd_node_proj inp (fun n => f_cutset (n_flags n))). reflexivity.
    - apply fold_left_inv; [exact HQ|]. intros b eid _ Hb. apply FQ_inner. exact Hb.
  Qed.
  Lemma FN_step a id : m_cutset a <> [] -> m_cutset (fc_step true a id) <> [].
  Proof.
    intros H. unfold fc_step. cbv zeta. destruct (fl_is_exact _); [exact H|].
    apply fold_left_inv; [exact H|]. intros b eid _ Hb. apply FN_inner. exact Hb.
  Qed.

  Lemma CutRdy_nonempty m : CutRdy m -> m_cutset (fc_on (bottom_up m) m true) <> [].
  Proof.
    intros [Hnc (M & eid & HM & HexM & Heid & Hexp)].
    destruct (in_split _ _ HM) as (pre & post & Hsplit).
    unfold fc_on. rewrite Hsplit, fold_left_app. cbn [fold_left].
    set (a1 := fold_left (fc_step true) pre m).
    assert (HQ1 : FQ m a1).
    { unfold a1. apply fold_left_inv.
      - repeat split; auto. right. intros id. apply NoCut_gn. exact Hnc.
      - intros a x _ Ha. apply FQ_step. exact Ha. }
    assert (HN : m_cutset (fc_step true a1 M) <> []).
    { unfold fc_step. cbv zeta. destruct HQ1 as (Q1 & Q2 & Q3 & Q4).
      change (fl_is_exact (n_flags (get_node inp a1 M))) with (exb a1 M). rewrite Q1, HexM, Q2.
      destruct (in_split _ _ Heid) as (q1 & q2 & Hq). rewrite Hq, fold_left_app. cbn [fold_left].
      set (b := fold_left (fc_inner true) q1 a1).
      assert (HQb : FQ m b).
      { unfold b. apply fold_left_inv; [repeat split; auto|]. intros x y _ Hx. apply FQ_inner. exact Hx. }
      assert (HNb : m_cutset (fc_inner true b eid) <> []).
      { destruct HQb as (B1 & B2 & B3 & B4). unfold fc_inner. cbv zeta.
        assert (Eg : get_edge b eid = get_edge m eid) by (unfold get_edge; rewrite B3; reflexivity).
        rewrite Eg. change (fl_is_exact (n_flags (get_node inp b (e_from (get_edge m eid))))) with (exb b (e_from (get_edge m eid))).
        rewrite B1, Hexp. cbn [andb].
        destruct (f_cutset (n_flags (get_node inp b (e_from (get_edge m eid))))) eqn:Ec; cbn [negb].
        - destruct B4 as [B4|B4]; [exact B4|]. rewrite B4 in Ec. discriminate.
        - cbn [m_cutset upd_node with_nodes with_cutset]. apply app_one_not_nil. }
      apply fold_left_inv; [exact HNb|]. intros x y _ Hx. apply FN_inner. exact Hx. }
    apply fold_left_inv; [exact HN|]. intros x y _ Hx. apply FN_step. exact Hx.
  Qed.

  (* the merged node of _relax: it is flagged relaxed and it ends up with an inbound edge as soon as the merged-away
     nodes had one *)
  Section MergedNode.
    Variable mid : nat.
    Definition PR (a : mddT) : Prop := f_relaxed (n_flags (get_node inp a mid)) = true.
    Definition PI (a : mddT) : Prop := n_inb (get_node inp a mid) <> [].

    Lemma PR_upd a k f : (forall n, f_relaxed (n_flags (f n)) = f_relaxed (n_flags n)) -> PR a -> PR (upd_node a k f).
    Proof. intros Hf H. unfold PR. rewrite (get_node_upd_node_proj inp (fun n => f_relaxed (n_flags n))) by exact Hf. exact H. Qed.
    Lemma PI_upd a k f : (forall n, n_inb (f n) = n_inb n) -> PI a -> PI (upd_node a k f).
    Proof. intros Hf H. unfold PI. rewrite (get_node_upd_node_proj inp (@n_inb St)) by exact Hf. exact H. Qed.
    Lemma PR_append a e : PR a -> PR (append_edge inp a e).
    Proof.
      intros H. unfold PR, get_node. cbn [m_nodes append_edge].
      rewrite (nth_upd_nth_proj (fun n : @node St => f_relaxed (n_flags n))) by reflexivity. exact H.
    Qed.
    Lemma PI_append a e : PI a -> PI (append_edge inp a e).
    Proof.
      intros H. unfold PI. destruct (Nat.eq_dec mid (e_to e)) as [E|E].
      - destruct (Nat.lt_ge_cases (e_to e) (length (m_nodes a))) as [Hlt|Hge].
        + rewrite E, gn_append_same by exact Hlt. cbv zeta. cbn [n_inb]. discriminate.
        + unfold get_node. cbn [m_nodes append_edge]. rewrite upd_nth_oob by exact Hge. exact H.
      - rewrite gn_append_other by exact E. exact H.
    Qed.
    Lemma PR_redirect_step merged a eid : PR a -> PR (redirect_step inp merged mid a eid).
    Proof. intros H. unfold redirect_step. cbv zeta. apply PR_append. exact H. Qed.
    Lemma PI_redirect_step merged a eid : PI a -> PI (redirect_step inp merged mid a eid).
    Proof. intros H. unfold redirect_step. cbv zeta. apply PI_append. exact H. Qed.
    Lemma PR_drop_step merged a did : PR a -> PR (drop_step inp merged mid a did).
    Proof.
      intros H. unfold drop_step. rewrite redirect_edges_fold. apply fold_left_inv.
      - apply PR_upd; [reflexivity|exact H].
      - intros b eid _ Hb. apply PR_redirect_step. exact Hb.
    Qed.
    Lemma PI_drop_step merged a did : PI a -> PI (drop_step inp merged mid a did).
    Proof.
      intros H. unfold drop_step. rewrite redirect_edges_fold. apply fold_left_inv.
      - apply PI_upd; [reflexivity|exact H].
      - intros b eid _ Hb. apply PI_redirect_step. exact Hb.
    Qed.
    (* the first redirected edge *)
    Lemma PI_drop_step_first merged a did :
      mid < length (m_nodes a) -> n_inb (get_node inp a did) <> [] -> PI (drop_step inp merged mid a did).
    Proof.
      intros Hlt Hne. unfold drop_step. rewrite redirect_edges_fold.
      set (a0 := upd_node a did (fun n => set_flags n (fl_set_deleted (n_flags n) true))).
      assert (E : n_inb (get_node inp a0 did) = n_inb (get_node inp a did))
        by (apply (get_node_upd_node_proj inp (@n_inb St)); reflexivity).
      rewrite E. destruct (n_inb (get_node inp a did)) as [|e1 rest]; [congruence|].
      cbn [fold_left]. apply fold_left_inv.
      - unfold redirect_step, PI. cbv zeta.
        match goal with |- n_inb (get_node inp (append_edge inp ?X ?e) mid) <> [] =>
          pose proof (gn_append_same inp X e) as G end.
        cbn [e_to] in G. rewrite G.
        + cbv zeta. cbn [n_inb]. discriminate.
        + cbn [m_nodes add_log]. unfold a0. rewrite upd_node_len. exact Hlt.
      - intros b eid _ Hb. apply PI_redirect_step. exact Hb.
    Qed.
  End MergedNode.

  Lemma relax_body_merged m0 l w1 :
    ci_width inp = S w1 -> S w1 < length l ->
    (forall id, In id l -> id < length (m_nodes m0) /\ n_inb (get_node inp m0 id) <> []) ->
    exists mid eid, (In mid l \/ mid = length (m_nodes m0)) /\
      mid < length (m_nodes (fst (relax_body m0 l))) /\
      f_relaxed (n_flags (get_node inp (fst (relax_body m0 l)) mid)) = true /\
      In eid (n_inb (get_node inp (fst (relax_body m0 l)) mid)).
  Proof.
    intros Hw Hlen Hl. unfold relax_body. rewrite Hw. cbv zeta.
    set (sorted := sort_by (rank_order inp m0) l).
    set (mrg := skipn w1 sorted).
    set (mstates := map (fun id => n_state (get_node inp m0 id)) mrg).
    set (merged := merge (ci_relax inp) mstates).
    set (m1 := add_log m0 (EvMerge mstates merged)).
    assert (Hsorted : forall x, In x sorted -> In x l) by (intros x Hx; apply sort_by_In in Hx; exact Hx).
    assert (Hmrg : forall x, In x mrg -> In x l) by (intros x Hx; apply Hsorted; eapply In_skipn; exact Hx).
    assert (Hfin : forall mid a, PR mid a -> PI mid a -> mid < length (m_nodes a) ->
              exists eid, mid < length (m_nodes a) /\ f_relaxed (n_flags (get_node inp a mid)) = true /\
                          In eid (n_inb (get_node inp a mid))).
    { intros mid a H1 H2 H3. unfold PI in H2. destruct (n_inb (get_node inp a mid)) as [|e r] eqn:E; [congruence|].
      exists e. split; [exact H3|]. split; [exact H1|]. left; reflexivity. }
    destruct (find (fun id => st_eqb (n_state (get_node inp m1 id)) merged) (firstn w1 sorted)) as [rid|] eqn:Hf; cbn [fst].
    - (* recycled *)
      apply find_some in Hf. destruct Hf as [Hin _].
      assert (Hrl : In rid l) by (apply Hsorted; eapply In_firstn; exact Hin).
      destruct (Hl rid Hrl) as [Hlt Hne].
      exists rid.
      set (m2 := upd_node m1 rid set_relaxed_flag).
      assert (R2 : PR rid m2) by (unfold PR, m2; rewrite gn_upd_same by exact Hlt; reflexivity).
      assert (I2 : PI rid m2) by (apply PI_upd; [reflexivity|exact Hne]).
      set (m3 := fold_left (drop_step inp merged rid) mrg m2).
      assert (R3 : PR rid m3) by (apply fold_left_inv; [exact R2|intros; apply PR_drop_step; assumption]).
      assert (I3 : PI rid m3) by (apply fold_left_inv; [exact I2|intros; apply PI_drop_step; assumption]).
      destruct (Hfin rid (upd_node m3 (nth w1 sorted 0) clear_deleted_flag)) as (eid & F1 & F2 & F3).
      + apply PR_upd; [reflexivity|exact R3].
      + apply PI_upd; [reflexivity|exact I3].
      + rewrite upd_node_len. unfold m3. rewrite (fold_left_proj (fun m => length (m_nodes m))) by (intros; apply drop_step_nodes_length).
        unfold m2. rewrite upd_node_len. exact Hlt.
      + exists eid. split; [left; exact Hrl|]. auto.
    - (* fresh merged node *)
      set (mid := length (m_nodes m1)).
      set (n := merged_node merged (n_depth (get_node inp m1 (hd 0 mrg)))).
      set (m2 := upd_node (with_nodes m1 (m_nodes m1 ++ [n])) mid set_relaxed_flag).
      assert (L2 : length (m_nodes m2) = S mid).
      { unfold m2. rewrite upd_node_len. cbn [m_nodes with_nodes]. rewrite app_length. cbn [length]. unfold mid. lia. }
      assert (R2 : PR mid m2).
      { unfold PR, m2. rewrite gn_upd_same; [reflexivity|]. cbn [m_nodes with_nodes]. rewrite app_length. cbn [length]. unfold mid. lia. }
      assert (Hne : mrg <> []).
      { apply skipn_nonempty. unfold sorted. rewrite sort_by_length. lia. }
      destruct mrg as [|d0 rest] eqn:Emrg; [congruence|].
      assert (Hd0 : In d0 l) by (apply Hmrg; left; reflexivity).
      destruct (Hl d0 Hd0) as [Hd0lt Hd0ne].
      cbn [fold_left].
      assert (I3 : PI mid (drop_step inp merged mid m2 d0)).
      { apply PI_drop_step_first; [rewrite L2; lia|].
        unfold m2. rewrite (get_node_upd_node_proj inp (@n_inb St)) by reflexivity.
        rewrite gn_snoc_old by exact Hd0lt. exact Hd0ne. }
      assert (R3 : PR mid (drop_step inp merged mid m2 d0)) by (apply PR_drop_step; exact R2).
      destruct (Hfin mid (fold_left (drop_step inp merged mid) rest (drop_step inp merged mid m2 d0))) as (eid & F1 & F2 & F3).
      + apply fold_left_inv; [exact R3|intros; apply PR_drop_step; assumption].
      + apply fold_left_inv; [exact I3|intros; apply PI_drop_step; assumption].
      + rewrite (fold_left_proj (fun m => length (m_nodes m))) by (intros; apply drop_step_nodes_length). rewrite drop_step_nodes_length, L2. lia.
      + exists mid, eid. split; [right; reflexivity|]. auto.
  Qed.

  (* every node created by the expansion of a layer has an inbound edge *)
  Definition next_inb (m : mddT) : Prop := forall x, In x (m_next m) -> n_inb (get_node inp m x) <> [].

  Lemma next_inb_branch_on m id d :
    wf inp m -> id < length (m_nodes m) -> next_inb m -> next_inb (branch_on st_eqb inp m id d).
  Proof.
    intros W Hid H. unfold branch_on. cbv zeta. rewrite !fn_add_log.
    set (s := transition (ci_problem inp) (n_state (get_node inp m id)) d).
    set (cost := transition_cost (ci_problem inp) (n_state (get_node inp m id)) s d).
    set (m' := add_log (add_log m (EvTransition (n_state (get_node inp m id)) d s)) (EvCost (n_state (get_node inp m id)) s d cost)).
    destruct (find_next st_eqb inp m s) as [nid|].
    - intros x Hx. apply (PI_append x). apply (H x Hx).
    - intros x Hx. cbn [m_next with_next append_edge with_nodes add_log m'] in Hx.
      change (get_node inp (with_next ?a ?b) x) with (get_node inp a x).
      apply in_app_or in Hx. destruct Hx as [Hx|[<-|[]]].
      + apply (PI_append x). unfold PI. rewrite gn_snoc_old.
        * apply (H x Hx).
        * pose proof (wf_next _ _ W) as Hn. unfold ids_ok in Hn. rewrite Forall_forall in Hn. apply (Hn x Hx).
      + match goal with |- n_inb (get_node inp (append_edge inp ?X ?e) _) <> [] =>
          pose proof (gn_append_same inp X e) as G end.
        cbn [e_to] in G. rewrite G.
        * cbv zeta. cbn [n_inb]. discriminate.
        * cbn [m_nodes with_nodes m' add_log]. rewrite app_length. cbn [length]. lia.
  Qed.

  Lemma next_inb_expand_node var m id :
    wf inp m -> id < length (m_nodes m) -> next_inb m -> next_inb (expand_node st_eqb inp var m id).
  Proof.
    intros W Hid H. unfold expand_node. cbv zeta.
    set (m1 := upd_node m id (fun n => set_rub n (fast_upper_bound (ci_relax inp) (n_state (get_node inp m id))))).
    assert (W1 : wf inp m1) by (apply wf_upd_node; [intros n; split; reflexivity|exact W]).
    assert (H1 : next_inb m1).
    { intros x Hx. unfold m1. rewrite (get_node_upd_node_proj inp (@n_inb St)) by reflexivity. apply (H x Hx). }
    assert (L1 : length (m_nodes m1) = length (m_nodes m)) by apply upd_node_len.
    destruct (_ >? _)%Z; [|exact H1].
    set (m2 := add_log m1 (EvDomain var (n_state (get_node inp m id)))).
    assert (G : forall vals a, wf inp a -> id < length (m_nodes a) -> next_inb a ->
              let a' := fold_left (fun m0 val => branch_on st_eqb inp m0 id {| d_var := var; d_val := val |}) vals a in
              next_inb a').
    { induction vals as [|v vals IH]; intros a Wa Ha Hna; cbn [fold_left]; [exact Hna|].
      apply IH.
      - apply wf_branch_on; assumption.
      - pose proof (ext_nodes _ _ _ (ext_branch_on st_eqb inp a id {| d_var := var; d_val := v |})). lia.
      - apply next_inb_branch_on; assumption. }
    apply G; [apply wf_add_log; exact W1|cbn [m_nodes add_log m2]; lia|exact H1].
  Qed.

  Lemma next_inb_expand_layer var l : forall m,
    wf inp m -> ids_ok (length (m_nodes m)) l -> next_inb m -> next_inb (fold_left (expand_node st_eqb inp var) l m).
  Proof.
    induction l as [|id l IH]; intros m W Hl H; cbn [fold_left]; [exact H|].
    inversion Hl as [|? ? Hid Hl']; subst.
    apply IH.
    - apply wf_expand_node; assumption.
    - eapply ids_ok_mono; [|exact Hl']. apply (ext_nodes _ _ _ (ext_expand_node st_eqb inp var m id)).
    - apply next_inb_expand_node; assumption.
  Qed.

  (* one iteration of the layer loop (layer_loop_body); [inl r]: the loop ends with the result r, [inr m']: it goes on
     from the state m'.  Stated for any flavour, so that the simulation is one lemma about one iteration (body_sim in Section Sim)
     and the fuel only appears in the two inductions loop_sim and K_loop. *)
  Definition loop_body (m : mddT) : mddT * loop_end + mddT :=
    let sts := map (fun id => n_state (get_node inp m id)) (m_next m) in
    let ov := next_variable (ci_problem inp) (m_curr_depth m) sts in
    let m0 := add_log m (EvNextVar (m_curr_depth m) sts ov) in
    match ov with
    | None => inl (m0, LoopDone)
    | Some var =>
        let m1 := with_polls m0 (S (m_polls m0)) in
        if (0 <? ci_cutoff inp) && (ci_cutoff inp <=? m_polls m1) then inl (m1, LoopCut)
        else let '(m2, ol) := loop_move st_eqb inp m1 var in
             match ol with
             | None => inl (m2, LoopDone)
             | Some l => let m3 := fold_left (expand_node st_eqb inp var) l m2 in
                         inr (with_depth m3 (S (m_curr_depth m3)))
             end
    end.

  Lemma layer_loop_body fuel m :
    layer_loop st_eqb inp (S fuel) m =
    match loop_body m with inl r => r | inr m' => layer_loop st_eqb inp fuel m' end.
  Proof.
    rewrite layer_loop_iteration. unfold loop_body. cbv zeta.
    destruct (next_variable _ _ _); [|reflexivity]. destruct (_ && _); [reflexivity|].
    destruct (loop_move _ _ _ _) as [m2 [l|]]; reflexivity.
  Qed.
End Blind.

Arguments retag {St} m lel ex le ly.
Arguments tags {St} m.

Section Sim.
  Context {St : Type}.
  Variable st_eqb : St -> St -> bool.
  Hypothesis st_eqb_spec : forall a b, st_eqb a b = true <-> a = b.
  Variable inp : @cinput St.
  Notation mddT := (@mdd St).
  Notation pb := (ci_problem inp).

  Definition to_fc : @cinput St :=
    {| ci_flavour := CleanFC; ci_type := ci_type inp; ci_problem := ci_problem inp; ci_relax := ci_relax inp;
       ci_ranking := ci_ranking inp; ci_domcmp := ci_domcmp inp; ci_width := ci_width inp; ci_root := ci_root inp;
       ci_best_lb := ci_best_lb inp; ci_use_cache := ci_use_cache inp; ci_domrule := ci_domrule inp;
       ci_cutoff := ci_cutoff inp |}.
  Notation inc := to_fc.

  Definition all_impacted : Prop := forall x s, is_impacted_by (ci_problem inp) x s = true.
  Hypothesis Hpooled : ci_flavour inp = Pooled.
  Hypothesis Himp : all_impacted.

  Lemma inc_clean : ci_flavour inc = CleanLEL \/ ci_flavour inc = CleanFC. Proof. right; reflexivity. Qed.

  Definition isn (o : option nat) : bool := match o with None => true | Some _ => false end.
  (* the pooled diagram state that corresponds to the frontier state [mc] *)
  Definition R (mc : mddT) : mddT := retag mc None (isn (m_lel mc)) 0 (m_layers mc).

  (* [inc] differs from [inp] in its flavour only, and these functions do not read the flavour: each equation holds by
     conversion.  They are stated so that the proofs can rewrite with them: left to conversion inside a goal about
     the layer loop, [branch_on] is unfolded at every occurrence, which is slow to check. *)
  Lemma inc_get_node : get_node inc = get_node inp. Proof. reflexivity. Qed.
  Lemma inc_branch_on : branch_on st_eqb inc = branch_on st_eqb inp.
  Proof. unfold branch_on. rewrite inc_get_node. reflexivity. Qed.
  Lemma inc_expand_node : expand_node st_eqb inc = expand_node st_eqb inp.
  Proof. unfold expand_node. rewrite inc_get_node, inc_branch_on. reflexivity. Qed.
  Lemma inc_prefilter : prefilter st_eqb inc = prefilter st_eqb inp. Proof. reflexivity. Qed.
  Lemma inc_frontier_cutset : frontier_cutset inc = frontier_cutset inp. Proof. reflexivity. Qed.
  Lemma inc_lb_on : lb_on inc = lb_on inp. Proof. reflexivity. Qed.
  Lemma inc_th_on : th_on st_eqb inc = th_on st_eqb inp. Proof. reflexivity. Qed.
  Lemma inc_filter_with_dominance : filter_with_dominance inc = filter_with_dominance inp. Proof. reflexivity. Qed.
  Lemma inc_relax_body : relax_body st_eqb inc = relax_body st_eqb inp. Proof. reflexivity. Qed.
  Lemma inc_restrict_body : restrict_body inc = restrict_body inp. Proof. reflexivity. Qed.

  Lemma gn_R m : get_node inp (R m) = get_node inp m. Proof. reflexivity. Qed.
  Lemma R_next m : m_next (R m) = m_next m. Proof. reflexivity. Qed.
  Lemma R_nodes m : m_nodes (R m) = m_nodes m. Proof. reflexivity. Qed.
  Lemma R_depth m : m_curr_depth (R m) = m_curr_depth m. Proof. reflexivity. Qed.
  Lemma R_polls m : m_polls (R m) = m_polls m. Proof. reflexivity. Qed.
  Lemma R_layers m : m_layers (R m) = m_layers m. Proof. reflexivity. Qed.
  Lemma R_add_log m e : add_log (R m) e = R (add_log m e). Proof. reflexivity. Qed.
  Lemma R_with_polls m p : with_polls (R m) p = R (with_polls m p). Proof. reflexivity. Qed.
  Lemma R_with_depth m d : with_depth (R m) d = R (with_depth m d). Proof. reflexivity. Qed.
  Lemma R_push_layer m ids e : push_layer (R m) ids 0 = R (push_layer m ids e). Proof. reflexivity. Qed.

  Lemma tags_lel (m m' : mddT) : tags m' = tags m -> m_lel m' = m_lel m.
  Proof. unfold tags. intros H. inversion H. reflexivity. Qed.
  Lemma tags_layers (m m' : mddT) : tags m' = tags m -> m_layers m' = m_layers m.
  Proof. unfold tags. intros H. inversion H. reflexivity. Qed.
  Lemma tags_lend (m m' : mddT) : tags m' = tags m -> m_layer_end m' = m_layer_end m.
  Proof. unfold tags. intros H. inversion H. reflexivity. Qed.

  (* a blind f maps the pooled twin of m to the pooled twin of f m; the X_sim lemmas below are instances *)
  Lemma R_blind (f : mddT -> mddT) m :
    (forall a b c d, f (retag m a b c d) = retag (f m) a b c d) -> f (R m) = R (f m).
  Proof.
    intros H. pose proof (tags_blind f m H) as T. unfold R.
    rewrite H, (tags_lel _ _ T), (tags_layers _ _ T). reflexivity.
  Qed.
  Lemma R_blind2 {A} (f : mddT -> mddT * A) m :
    (forall a b c d, f (retag m a b c d) = (retag (fst (f m)) a b c d, snd (f m))) -> f (R m) = (R (fst (f m)), snd (f m)).
  Proof.
    intros H. pose proof (tags_blind2 f m H) as T. unfold R.
    rewrite H, (tags_lel _ _ T), (tags_layers _ _ T). reflexivity.
  Qed.

  Lemma expand_sim var l m :
    fold_left (expand_node st_eqb inp var) l (R m) = R (fold_left (expand_node st_eqb inc var) l m).
  Proof.
    rewrite inc_expand_node. apply (R_blind (fold_left (expand_node st_eqb inp var) l)). intros. apply r_expand_layer.
  Qed.
  Lemma dominance_sim m l :
    filter_with_dominance inp (R m) l = (R (fst (filter_with_dominance inc m l)), snd (filter_with_dominance inc m l)).
  Proof.
    rewrite inc_filter_with_dominance. apply (R_blind2 (fun m => filter_with_dominance inp m l)).
    intros. apply r_filter_with_dominance.
  Qed.
  Lemma prefilter_sim m l :
    prefilter st_eqb inp (R m) l = (R (fst (prefilter st_eqb inc m l)), snd (prefilter st_eqb inc m l)).
  Proof.
    rewrite inc_prefilter, !prefilter_eq, R_layers. destruct (_ <? _); [|reflexivity].
    apply (R_blind2 (fun m => filter_with_cache st_eqb inp m l)). intros. apply r_filter_with_cache.
  Qed.

  Lemma note_squash_sim m ex ly :
    note_squash inp (retag m None ex 0 ly) = retag (note_squash inc m) None false 0 ly.
  Proof. unfold note_squash. rewrite Hpooled. cbn [is_pooled ci_flavour to_fc]. destruct (m_lel m); reflexivity. Qed.
  Lemma note_squash_lel m : isn (m_lel (note_squash inc m)) = false.
  Proof. unfold note_squash. cbn [is_pooled ci_flavour to_fc]. destruct (m_lel m) eqn:E; [rewrite E|]; reflexivity. Qed.

  (* squash: same body, the squash is noted in m_is_exact resp. m_lel *)
  Lemma squash_sim m l :
    squash_if_needed st_eqb inp (R m) l =
    (R (fst (squash_if_needed st_eqb inc m l)), snd (squash_if_needed st_eqb inc m l)).
  Proof.
    rewrite (squash_eq st_eqb inp), (squash_eq st_eqb inc), inc_relax_body, inc_restrict_body, R_layers.
    change (ci_type inc) with (ci_type inp). change (ci_width inc) with (ci_width inp).
    destruct (note_squash_fields inc inc_clean m) as (_ & _ & _ & _ & _ & Fl & _).
    assert (E : forall f : mddT -> mddT * list nat,
              (forall m a b c d, f (retag m a b c d) = (retag (fst (f m)) a b c d, snd (f m))) ->
              f (note_squash inp (R m)) = (R (fst (f (note_squash inc m))), snd (f (note_squash inc m)))).
    { intros f Hf. pose proof (tags_blind2 f _ (Hf (note_squash inc m))) as T. unfold R.
      rewrite note_squash_sim, Hf, (tags_lel _ _ T), (tags_layers _ _ T), note_squash_lel, Fl. reflexivity. }
    destruct (ci_type inp); [reflexivity| |].
    - destruct (_ && _); [|reflexivity]. apply (E (fun m => relax_body st_eqb inp m l)). intros. apply r_relax_body.
    - destruct (_ <? _); [|reflexivity]. apply (E (fun m => restrict_body inp m l)). intros. apply r_restrict_body.
  Qed.

  Lemma squash_len m l :
    length (m_nodes (fst (squash_if_needed st_eqb inc m l))) = length (m_nodes m) \/
    length (m_nodes (fst (squash_if_needed st_eqb inc m l))) = S (length (m_nodes m)).
  Proof.
    rewrite (squash_eq st_eqb inc). destruct (ci_type inc).
    - left; reflexivity.
    - destruct (_ && _); [|left; reflexivity].
      rewrite <- (note_squash_nodes inc m). apply relax_body_len.
    - destruct (_ <? _); [|left; reflexivity].
      rewrite <- (note_squash_nodes inc m). left. apply restrict_body_len.
  Qed.
  Lemma squash_layers m l : m_layers (fst (squash_if_needed st_eqb inc m l)) = m_layers m.
  Proof.
    apply (ext_layers inc). apply (ext_squash_if_needed st_eqb inc m l _ (snd (squash_if_needed st_eqb inc m l))).
    destruct (squash_if_needed st_eqb inc m l); reflexivity.
  Qed.

  Lemma filter_true {A} (f : A -> bool) l : (forall x, f x = true) -> filter f l = l.
  Proof. intros H. induction l as [|x l IH]; simpl; [reflexivity|]. rewrite H, IH. reflexivity. Qed.
  Lemma filter_false {A} (f : A -> bool) l : (forall x, f x = false) -> filter f l = [].
  Proof. intros H. induction l as [|x l IH]; simpl; [reflexivity|]. rewrite H, IH. reflexivity. Qed.

  Lemma upd_nth_same_id {A} k (f : A -> A) (l : list A) d :
    (k < length l -> f (nth k l d) = nth k l d) -> upd_nth k f l = l.
  Proof.
    revert k. induction l as [|x l IH]; intros [|k] H; simpl; auto.
    - f_equal. apply H. simpl. lia.
    - f_equal. apply IH. intros Hk. apply H. simpl. lia.
  Qed.
  Lemma with_nodes_self (m : mddT) : with_nodes m (m_nodes m) = m. Proof. destruct m; reflexivity. Qed.
  Lemma set_depth_self (n : @node St) : set_depth n (n_depth n) = n. Proof. destruct n; reflexivity. Qed.

  (* pooled: recording the depth of the nodes leaving the pool changes nothing when they were created
     at that depth *)
  Lemma set_depth_fold_id dp l : forall m : mddT,
    (forall id, In id l -> n_depth (get_node inp m id) = dp) ->
    fold_left (fun a id => upd_node a id (fun n => set_depth n dp)) l m = m.
  Proof.
    induction l as [|id l IH]; intros m H; simpl; [reflexivity|].
    assert (E : upd_node m id (fun n => set_depth n dp) = m).
    { unfold upd_node. rewrite (upd_nth_same_id id _ (m_nodes m) (default_node (sp_state (ci_root inp)))).
      - apply with_nodes_self.
      - intros _. rewrite <- (H id (or_introl eq_refl)). apply set_depth_self. }
    rewrite E. apply IH. intros x Hx. apply H. right; exact Hx.
  Qed.

  Lemma seq_grow le n : le <= n -> seq le (S n - le) = seq le (n - le) ++ [n].
  Proof. intros H. replace (S n - le) with (S (n - le)) by lia. rewrite seq_S. f_equal. f_equal. lia. Qed.

  (* the open layer of the frontier compilation is the index range [m_layer_end, |nodes|) : so the range it records as
     a layer is the list the pooled compilation records *)
  Definition open_seq (m : mddT) : Prop :=
    m_layer_end m <= length (m_nodes m) /\
    m_next m = seq (m_layer_end m) (length (m_nodes m) - m_layer_end m).

  Lemma open_seq_same (m m' : mddT) :
    m_layer_end m' = m_layer_end m -> length (m_nodes m') = length (m_nodes m) -> m_next m' = m_next m ->
    open_seq m -> open_seq m'.
  Proof. unfold open_seq. intros -> -> ->. auto. Qed.

  Lemma open_seq_branch_on m id d : open_seq m -> open_seq (branch_on st_eqb inc m id d).
  Proof.
    intros [Hle Hs]. unfold open_seq.
    rewrite (tags_lend _ _ (tags_blind (fun m => branch_on st_eqb inc m id d) m
                              (fun a b c e => r_branch_on st_eqb inc m a b c e id d))).
    unfold branch_on. cbv zeta. rewrite !fn_add_log.
    destruct (find_next st_eqb inc m _) as [nid|].
    - cbn [m_nodes m_next append_edge add_log]. rewrite upd_nth_length. auto.
    - cbn [m_nodes m_next append_edge add_log with_next with_nodes]. rewrite upd_nth_length, app_length. simpl.
      split; [lia|]. rewrite Hs at 1. replace (length (m_nodes m) + 1) with (S (length (m_nodes m))) by lia.
      symmetry. apply seq_grow. exact Hle.
  Qed.

  Lemma open_seq_expand_node var m id : open_seq m -> open_seq (expand_node st_eqb inc var m id).
  Proof.
    intros H. unfold expand_node. cbv zeta.
    assert (H1 : open_seq (upd_node m id (fun n => set_rub n (fast_upper_bound (ci_relax inc) (n_state (get_node inc m id)))))).
    { eapply open_seq_same; [| | |exact H]; [reflexivity|apply upd_node_len|reflexivity]. }
    destruct (_ >? _)%Z; [|exact H1].
    apply fold_left_inv2; [|intros; apply open_seq_branch_on; assumption].
    eapply open_seq_same; [| | |exact H1]; reflexivity.
  Qed.

  Lemma open_seq_expand_layer var l m : open_seq m -> open_seq (fold_left (expand_node st_eqb inc var) l m).
  Proof. intros H. apply fold_left_inv2; [exact H|]. intros; apply open_seq_expand_node; assumption. Qed.

  (* after a move that expands something the frontier compilation has closed its layer *)
  Lemma move_clean_some m :
    m_next m <> [] ->
    exists l, snd (move_to_next_layer_clean st_eqb inc m) = Some l /\
      m_layer_end (fst (move_to_next_layer_clean st_eqb inc m)) = length (m_nodes (fst (move_to_next_layer_clean st_eqb inc m))).
  Proof.
    intros Hne. rewrite move_clean_unfold. destruct (m_next m) as [|x nx]; [congruence|].
    destruct (prefilter st_eqb inc (with_next m []) (x :: nx)) as [m1 l1].
    destruct (filter_with_dominance inc m1 l1) as [m2 l2].
    destruct (squash_if_needed st_eqb inc m2 l2) as [m3 l3].
    exists l3. split; reflexivity.
  Qed.

  Lemma prefilter_ceq m l :
    ceq inc m (fst (prefilter st_eqb inc m l)) /\ incl (snd (prefilter st_eqb inc m l)) l.
  Proof.
    rewrite prefilter_eq. destruct (_ <? _); [apply (filter_with_cache_ceq st_eqb inc inc_clean)|].
    split; [apply ceq_refl|apply incl_refl].
  Qed.

  Lemma move_sim mc var :
    m_next mc <> [] -> open_seq mc ->
    (forall id, In id (m_next mc) -> n_depth (get_node inp mc id) = m_curr_depth mc) ->
    move_to_next_layer_pooled st_eqb inp (R mc) var =
    (R (fst (move_to_next_layer_clean st_eqb inc mc)), snd (move_to_next_layer_clean st_eqb inc mc)).
  Proof.
    intros Hne [Hle Hseq] Hdep.
    rewrite move_pooled_unfold, move_clean_unfold.
    assert (Hcurr : pooled_curr inp (R mc) var = m_next mc).
    { unfold pooled_curr. apply filter_true. intros id. apply Himp. }
    assert (Hstart : pooled_start inp (R mc) var = R (with_next mc [])).
    { unfold pooled_start. rewrite Hcurr. cbv zeta.
      rewrite set_depth_fold_id by exact Hdep.
      rewrite filter_false by (intros id; rewrite Himp; reflexivity). reflexivity. }
    cbv zeta. rewrite Hcurr, Hstart.
    destruct (m_next mc) as [|x nx] eqn:En; [congruence|]. set (curr := x :: nx) in *.
    rewrite prefilter_sim.
    destruct (prefilter_ceq (with_next mc []) curr) as [((_ & _ & N1 & _) & _ & L1 & _) _].
    destruct (prefilter st_eqb inc (with_next mc []) curr) as [m1 l1].
    cbn [fst snd m_nodes m_layer_end with_next] in *.
    rewrite dominance_sim.
    destruct (filter_with_dominance_ceq inc m1 l1) as [((_ & _ & N2 & _) & _ & L2 & _) _].
    destruct (filter_with_dominance inc m1 l1) as [m2 l2]. cbn [fst snd] in *.
    rewrite squash_sim.
    pose proof (squash_len m2 l2) as N3.
    destruct (squash_if_needed st_eqb inc m2 l2) as [m3 l3] eqn:E3. cbn [fst snd] in *.
    rewrite !R_nodes, (ext_lend _ _ _ (ext_squash_if_needed st_eqb inc _ _ _ _ E3)), L2, L1. f_equal.
    destruct N3 as [N3|N3]; rewrite N3, N2, N1.
    - rewrite Nat.ltb_irrefl, <- Hseq. reflexivity.
    - assert (Hlt : (length (m_nodes mc) <? S (length (m_nodes mc))) = true) by (apply Nat.ltb_lt; lia).
      rewrite Hlt, (seq_grow _ _ Hle), <- Hseq. reflexivity.
  Qed.

  (* relation after _finalize_layers; second case: the variables are exhausted and the last layer is empty,
     the pooled implementation records that empty layer, the clean one does not *)
  Definition FinRel (mp mc : mddT) : Prop :=
    mp = R mc \/
    (mp = retag mc None (isn (m_lel mc)) 0 (m_layers mc ++ [[]]) /\ m_next mc = [] /\
     exists d sts k, m_log mc = EvNextVar d sts None :: k).

  Lemma fin_layers_p (m : mddT) :
    (forall id, In id (m_next m) -> n_depth (get_node inp m id) = m_curr_depth m) ->
    finalize_layers inp m = push_layer m (m_next m) 0.
  Proof.
    intros H. unfold finalize_layers. rewrite Hpooled. cbn [is_pooled].
    rewrite set_depth_fold_id by exact H. reflexivity.
  Qed.

  Lemma fin_layers_sim m :
    open_seq m -> (forall id, In id (m_next m) -> n_depth (get_node inp m id) = m_curr_depth m) ->
    (m_next m = [] -> exists d sts k, m_log m = EvNextVar d sts None :: k) ->
    FinRel (finalize_layers inp (R m)) (finalize_layers inc m).
  Proof.
    intros [Hle Hs] Hd Hlog. rewrite fin_layers_p by exact Hd. rewrite R_next.
    unfold finalize_layers. cbn [is_pooled ci_flavour to_fc].
    destruct (m_next m) as [|x nx] eqn:En.
    - right. split; [reflexivity|]. split; [exact En|]. apply Hlog. reflexivity.
    - left. rewrite Hs. apply R_push_layer.
  Qed.

  (* the pooled loop breaks on an empty pool before the move, the frontier loop inside it *)
  Lemma fin_layers_break m :
    m_next m = [] -> finalize_layers inp (R m) = R (finalize_layers inc (push_layer (with_next m []) [] 0)).
  Proof.
    intros E. rewrite fin_layers_p by (rewrite R_next, E; intros id []).
    rewrite R_next, E, (R_push_layer m [] 0). f_equal. destruct m. cbn in E. subst. reflexivity.
  Qed.

  Lemma body_sim mc :
    open_seq mc -> (forall id, In id (m_next mc) -> n_depth (get_node inp mc id) = m_curr_depth mc) ->
    match loop_body st_eqb inc mc with
    | inl (m', e) =>
        exists mp', loop_body st_eqb inp (R mc) = inl (mp', e) /\
          match e with
          | LoopDone => FinRel (finalize_layers inp mp') (finalize_layers inc m')
          | _ => mp' = R m'
          end
    | inr m' => loop_body st_eqb inp (R mc) = inr (R m')
    end.
  Proof.
    intros Hseq Hnd. unfold loop_body, loop_move. cbv zeta. rewrite Hpooled, inc_get_node.
    cbn [is_pooled ci_flavour to_fc]. change (ci_problem inc) with pb. change (ci_cutoff inc) with (ci_cutoff inp).
    rewrite gn_R, R_next, R_depth.
    destruct (next_variable pb (m_curr_depth mc) _) as [var|].
    2:{ eexists. split; [reflexivity|]. rewrite R_add_log.
        apply fin_layers_sim; [exact Hseq|exact Hnd|]. intros _. do 3 eexists. reflexivity. }
    rewrite !R_add_log, !R_polls, !R_with_polls, R_polls.
    set (m1 := with_polls _ _).
    destruct (_ && _). { exists (R m1). split; reflexivity. }
    rewrite R_next. destruct (m_next m1) as [|x nx] eqn:En.
    { rewrite move_clean_unfold, En. exists (R m1). split; [reflexivity|]. left. apply fin_layers_break. exact En. }
    assert (Hne : m_next m1 <> []) by (rewrite En; discriminate).
    rewrite (move_sim m1 var Hne Hseq Hnd).
    destruct (move_clean_some m1 Hne) as (l & El & _).
    destruct (move_to_next_layer_clean st_eqb inc m1) as [m2 ol]. cbn [fst snd] in *. subst ol.
    rewrite expand_sim, R_depth, R_with_depth. reflexivity.
  Qed.

  (* a squashed Relaxed diagram has an inexact node with an exact parent (so that its frontier cut-set is not empty):
     invariant of the clean loop *)
  Hypothesis Hwidth : 1 <= ci_width inp.

  Definition Kw (m : mddT) (M eid : nat) : Prop :=
    In M (concat (m_layers m)) /\ exb inp m M = false /\ In eid (n_inb (get_node inp m M)) /\
    exb inp m (e_from (get_edge m eid)) = true.
  Definition Kinv (m : mddT) : Prop := ci_type inp = Relaxed -> m_lel m <> None -> exists M eid, Kw m M eid.

  Lemma Kw_transfer m m' M eid :
    Dinv inc m -> Xinv inc m -> Kw m M eid ->
    (forall id, id < m_layer_end m -> core_eq (get_node inp m id) (get_node inp m' id)) ->
    (forall e, e < length (m_edges m) -> get_edge m' e = get_edge m e) ->
    (forall x, In x (concat (m_layers m)) -> In x (concat (m_layers m'))) ->
    Kw m' M eid.
  Proof.
    intros HD HX (K1 & K2 & K3 & K4) Hc He Hl.
    assert (HM : M < m_layer_end m).
    { apply in_concat in K1. destruct K1 as (ids & Hi & HMi). apply (X_layers inc _ m HX ids M Hi HMi). }
    pose proof (D_le inc _ m HD) as Hle.
    assert (Heid : eid < length (m_edges m)).
    { destruct (D_nodes inc _ m HD M ltac:(lia) I) as [Hinb _]. apply Hinb. exact K3. }
    pose proof (D_efrom inc _ m HD eid Heid) as Hp.
    pose proof (Hc M HM) as CM. pose proof (Hc _ Hp) as Cp.
    split; [apply Hl; exact K1|]. unfold exb in *.
    rewrite <- (core_eq_is_exact _ _ CM). split; [exact K2|].
    destruct CM as (_ & _ & _ & c4 & _). rewrite <- c4. split; [exact K3|].
    rewrite (He eid Heid), <- (core_eq_is_exact _ _ Cp). exact K4.
  Qed.

  Lemma Kinv_same (m m' : mddT) :
    m_nodes m' = m_nodes m -> m_edges m' = m_edges m ->
    (forall x, In x (concat (m_layers m)) -> In x (concat (m_layers m'))) -> m_lel m' = m_lel m ->
    Kinv m -> Kinv m'.
  Proof.
    intros Hn He Hl Hlel HK Ht Hne. rewrite Hlel in Hne. destruct (HK Ht Hne) as (M & eid & K1 & K2 & K3 & K4).
    exists M, eid. unfold Kw, exb, get_node, get_edge in *. rewrite Hn, He. auto.
  Qed.

  Lemma Kinv_ceq m m' : Dinv inc m -> Xinv inc m -> ceq inc m m' -> Kinv m -> Kinv m'.
  Proof.
    intros HD HX ((A1 & A2 & A3 & A4) & _ & _ & Hly & Hlel & _) HK Ht Hne. rewrite Hlel in Hne.
    destruct (HK Ht Hne) as (M & eid & HKw). exists M, eid.
    eapply Kw_transfer; [exact HD|exact HX|exact HKw| | |].
    - intros id _. apply A4.
    - intros e _. unfold get_edge. rewrite A1. reflexivity.
    - rewrite Hly. auto.
  Qed.

  Lemma Kinv_stable m m' :
    Dinv inc m -> Xinv inc m -> stable inc m m' -> ext inc m m' -> m_lel m' = m_lel m -> Kinv m -> Kinv m'.
  Proof.
    intros HD HX (_ & _ & S3 & _) E Hlel HK Ht Hne. rewrite Hlel in Hne.
    destruct (HK Ht Hne) as (M & eid & HKw). exists M, eid.
    eapply Kw_transfer; [exact HD|exact HX|exact HKw|exact S3| |].
    - intros e He. apply (get_edge_ext inc m m' e E He).
    - rewrite (ext_layers _ _ _ E). auto.
  Qed.

  (* the squash stage: at the first squash the merged node is the witness *)
  Lemma K_squash mc lc d :
    Dinv inc mc -> Xinv inc mc -> MddExact.layer_ok inc mc lc d -> Kinv mc ->
    (m_layers mc <> [] -> forall id, In id lc -> n_inb (get_node inc mc id) <> []) ->
    forall md ld, squash_if_needed st_eqb inc mc lc = (md, ld) ->
    Kinv (push_layer md (seq (m_layer_end md) (length (m_nodes md) - m_layer_end md)) (length (m_nodes md))).
  Proof.
    intros HDc HXc Hlc HKc HJ md ld Esq.
    destruct (squash_if_needed_inv st_eqb inc inc_clean mc lc d HDc HXc Hlc) as (Q1 & Q2 & Q3 & _).
    rewrite Esq in Q1, Q2, Q3. cbn [fst] in Q1, Q2, Q3.
    pose proof (ext_squash_if_needed st_eqb inc mc lc md ld Esq) as E3.
    rewrite (squash_eq st_eqb inc), inc_relax_body in Esq. change (ci_type inc) with (ci_type inp) in Esq.
    change (ci_width inc) with (ci_width inp) in Esq.
    intros Ht Hlel. cbn [m_lel push_layer] in Hlel. rewrite Ht in Esq. cbv iota in Esq.
    destruct (m_lel mc) as [k|] eqn:Elc.
    - (* squashed before: lel is kept, the old witness stays *)
      assert (HKd : Kinv md).
      { eapply Kinv_stable; [exact HDc|exact HXc|exact Q3|exact E3| |exact HKc].
        destruct (_ && _); apply (f_equal fst) in Esq; cbn [fst] in Esq; subst md; [|reflexivity].
        rewrite (tags_lel _ _ (tags_relax_body st_eqb inp _ lc)).
        unfold note_squash. cbn [is_pooled ci_flavour to_fc]. rewrite Elc. exact Elc. }
      destruct (HKd Ht Hlel) as (M & eid & K1 & K2).
      exists M, eid. split; [|exact K2]. cbn [m_layers push_layer]. rewrite concat_app. apply in_or_app. left; exact K1.
    - (* the first squash *)
      destruct ((ci_width inp <? length lc) && (1 <? length (m_layers mc))) eqn:Eg.
      2:{ inversion Esq; subst md. rewrite Elc in Hlel. congruence. }
      apply andb_true_iff in Eg. destruct Eg as [G1 G2]. apply Nat.ltb_lt in G1. apply Nat.ltb_lt in G2.
      destruct (ci_width inp) as [|w1] eqn:Ew; [lia|].
      assert (Hly : m_layers mc <> []) by (intros E; rewrite E in G2; simpl in G2; lia).
      assert (Hl0 : forall id, In id lc ->
                id < length (m_nodes (note_squash inc mc)) /\ n_inb (get_node inp (note_squash inc mc) id) <> []).
      { intros id Hid. rewrite (note_squash_nodes inc). split; [apply (Hlc id Hid)|].
        rewrite <- inc_get_node. unfold get_node. rewrite (note_squash_nodes inc). apply (HJ Hly id Hid). }
      destruct (relax_body_merged st_eqb inp (note_squash inc mc) lc w1 Ew G1 Hl0) as (mid & eid & Hmid & Hlt & Hrel & Heid).
      assert (Emd : fst (relax_body st_eqb inp (note_squash inc mc) lc) = md) by (rewrite Esq; reflexivity).
      rewrite Emd in Hlt, Hrel, Heid.
      assert (Hend : m_layer_end md = m_layer_end mc) by (destruct Q3 as (q1 & _); exact q1).
      assert (Hge : m_layer_end md <= mid).
      { rewrite Hend. destruct Hmid as [Hin| ->].
        - apply (Hlc mid Hin).
        - rewrite (note_squash_nodes inc). apply (D_le _ _ _ HDc). }
      exists mid, eid. split; [|split; [|split]].
      + cbn [m_layers push_layer]. rewrite concat_app. apply in_or_app. right. cbn [concat]. rewrite app_nil_r.
        apply in_seq. lia.
      + unfold exb, fl_is_exact. change (get_node inp (push_layer md ?a ?b) mid) with (get_node inp md mid).
        rewrite Hrel. apply andb_false_r.
      + exact Heid.
      + change (get_edge (push_layer md ?a ?b) eid) with (get_edge md eid).
        change (exb inp (push_layer md ?a ?b) ?x) with (exb inp md x).
        assert (Heid' : eid < length (m_edges md)).
        { destruct (D_nodes inc _ md Q1 mid Hlt I) as [Hinb _]. apply Hinb. exact Heid. }
        pose proof (D_efrom inc _ md Q1 eid Heid') as Hp. rewrite Hend in Hp.
        destruct Q3 as (_ & _ & q3 & _). unfold exb.
        pose proof (core_eq_is_exact _ _ (q3 _ Hp)) as Hce. rewrite inc_get_node in Hce. rewrite <- Hce.
        apply (X_lel_none inc _ mc HXc Elc). pose proof (D_le _ _ _ HDc). lia.
  Qed.

  Lemma K_move m d :
    Dinv inc m -> Xinv inc m -> next_depth inc d m -> (m_layers m <> [] -> next_inb inc m) -> Kinv m ->
    m_next m <> [] -> Kinv (fst (move_to_next_layer_clean st_eqb inc m)).
  Proof.
    intros HD HX Hnd HJ HK Hne. rewrite move_clean_unfold.
    destruct (m_next m) as [|c0 cs] eqn:En; [congruence|]. set (curr := c0 :: cs) in *.
    set (ma := with_next m []).
    assert (Hpa : peq inc m ma) by (apply peq_same_nodes; reflexivity).
    assert (HDa : Dinv inc ma).
    { eapply (Dg_peq inc inc_clean); [exact Hpa|exact HD|apply Nat.le_refl|apply (D_le _ _ _ HD)|]. intros id []. }
    assert (HXa : Xinv inc ma) by (eapply Xg_peq; [exact Hpa|reflexivity|reflexivity|reflexivity|exact HX]).
    assert (HKa : Kinv ma) by (eapply Kinv_same; [| | | |exact HK]; auto).
    assert (Hla : MddExact.layer_ok inc ma curr d).
    { intros id Hid. rewrite <- En in Hid. split; [apply (D_next _ _ _ HD id Hid)|apply Hnd; exact Hid]. }
    destruct (prefilter_ceq ma curr) as [Hcb Hib].
    destruct (prefilter st_eqb inc ma curr) as [mb lb]. cbn [fst snd] in Hcb, Hib.
    destruct (filter_with_dominance_ceq inc mb lb) as [Hcc Hic].
    destruct (filter_with_dominance inc mb lb) as [mc lc]. cbn [fst snd] in Hcc, Hic.
    assert (Hac : ceq inc ma mc) by (eapply ceq_trans; eauto).
    assert (Hlc : MddExact.layer_ok inc mc lc d).
    { eapply layer_ok_stable; [apply ceq_stable; exact Hac|exact Hla|]. eapply incl_tran; eauto. }
    destruct (squash_if_needed st_eqb inc mc lc) as [md ld] eqn:Esq. cbn [fst].
    refine (K_squash mc lc d _ _ Hlc _ _ md ld Esq);
      [eapply (Dg_ceq inc inc_clean); eauto|eapply Xinv_ceq; eauto|eapply Kinv_ceq; [exact HDa|exact HXa|exact Hac|exact HKa]|].
    destruct Hac as ((_ & _ & _ & A4) & _ & _ & Aly & _).
    intros Hly id Hid. destruct (A4 id) as (_ & _ & _ & c4 & _). rewrite <- c4.
    apply HJ; [intros E; apply Hly; rewrite Aly; exact E|]. rewrite En. apply Hib, Hic. exact Hid.
  Qed.

  Record LInv (m : mddT) : Prop := {
    li_D : Dinv inc m;
    li_X : Xinv inc m;
    li_nd : next_depth inc (m_curr_depth m) m;
    li_wf : wf inc m;
    li_seq : open_seq m;
    li_J : m_layers m <> [] -> next_inb inc m;   (* for the first squash, see K_move *)
    li_K : Kinv m;
    li_nc : NoCut m }.

  Lemma LInv_body m :
    LInv m -> match loop_body st_eqb inc m with inl (m', _) => Kinv m' /\ NoCut m' | inr m' => LInv m' end.
  Proof.
    intros [HD HX Hnd W Hseq HJ HK HN]. unfold loop_body, loop_move. cbv zeta. cbn [is_pooled ci_flavour to_fc].
    destruct (next_variable _ (m_curr_depth m) _) as [var|] eqn:Hov.
    2:{ split; [|exact HN]. eapply Kinv_ceq; [exact HD|exact HX|apply ceq_add_log|exact HK]. }
    set (m1 := with_polls _ _).
    assert (C1 : ceq inc m m1) by (eapply ceq_trans; [apply ceq_add_log|apply ceq_with_polls]).
    assert (HD1 : Dinv inc m1) by (eapply (Dg_ceq inc inc_clean); [exact C1|exact HD]).
    assert (HX1 : Xinv inc m1) by (eapply Xinv_ceq; [exact C1|exact HX]).
    assert (HK1 : Kinv m1) by (eapply Kinv_ceq; [exact HD|exact HX|exact C1|exact HK]).
    assert (W1 : wf inc m1) by (apply wf_with_polls, wf_add_log, W).
    assert (Hnd1 : next_depth inc (m_curr_depth m) m1) by exact Hnd.
    assert (HN1 : NoCut m1) by exact HN.
    destruct (_ && _); [split; assumption|].
    destruct (m_next m1) as [|x nx] eqn:En.
    { rewrite move_clean_unfold, En. split; [|exact HN].
      eapply Kinv_same; [| | | |exact HK1]; try reflexivity.
      intros y Hy. cbn [m_layers push_layer with_next]. rewrite concat_app. apply in_or_app. left; exact Hy. }
    assert (Hne : m_next m1 <> []) by (rewrite En; discriminate).
    pose proof (K_move m1 (m_curr_depth m) HD1 HX1 Hnd1 HJ HK1 Hne) as HK2.
    pose proof (NoCut_move_clean st_eqb inc m1 HN1) as HN2.
    pose proof (move_to_next_layer_clean_inv st_eqb inc inc_clean m1 (m_curr_depth m) HD1 HX1 Hnd1) as Hmv.
    destruct (move_clean_some m1 Hne) as (l & El & Hend).
    pose proof (wf_move_clean st_eqb inc m1) as Wmv.
    destruct (move_to_next_layer_clean st_eqb inc m1) as [m2 ol]. cbn [fst snd] in *. subst ol.
    destruct Hmv as (M1 & M2 & M3 & M4 & M5).
    destruct (Wmv _ _ eq_refl W1) as [W2 Wl]. destruct (Wl l eq_refl) as [Il _].
    assert (Hnd2 : next_depth inc (S (m_curr_depth m)) m2) by (intros id Hid; rewrite M3 in Hid; destruct Hid).
    destruct (expand_layer_inv st_eqb st_eqb_spec inc inc_clean var l (m_curr_depth m) m2 M1 M2 Hnd2 M4)
      as (E1 & E2 & E3 & E4).
    { eexists. exact Hov. }
    pose proof (ext_fold_expand st_eqb inc var l m2) as Ex.
    pose proof (wf_fold_expand st_eqb inc var l m2 W2 Il) as W3.
    assert (J3 : next_inb inc (fold_left (expand_node st_eqb inc var) l m2)).
    { apply (next_inb_expand_layer st_eqb inc var l m2 W2 Il). intros y Hy. rewrite M3 in Hy. destruct Hy. }
    set (m3 := fold_left (expand_node st_eqb inc var) l m2) in *.
    assert (Hp : peq inc m3 (with_depth m3 (S (m_curr_depth m3)))) by (apply peq_same_nodes; reflexivity).
    split.
    - eapply (Dg_peq inc inc_clean); [exact Hp|exact E1|apply Nat.le_refl|apply (D_le _ _ _ E1)|apply (D_next _ _ _ E1)].
    - eapply Xg_peq; [exact Hp|reflexivity|reflexivity|reflexivity|exact E2].
    - cbn [m_curr_depth with_depth]. destruct E3 as (_ & _ & _ & _ & e5). rewrite e5, M5. exact E4.
    - apply wf_with_depth. exact W3.
    - eapply open_seq_same; [| | |apply (open_seq_expand_layer var l m2)]; [reflexivity|reflexivity|reflexivity|].
      split; [rewrite Hend; apply Nat.le_refl|]. rewrite M3, Hend, Nat.sub_diag. reflexivity.
    - intros _. exact J3.
    - eapply Kinv_same; [| | | |eapply (Kinv_stable m2 m3 M1 M2 E3 Ex); [|exact HK2]]; try reflexivity; auto.
      apply (tags_lel _ _ (tags_expand_layer st_eqb inc var l m2)).
    - eapply NoCut_same; [reflexivity|]. apply NoCut_expand_layer. exact HN2.
  Qed.

  Lemma LInv_initialize c ds polls : LInv (initialize inc c ds polls).
  Proof.
    destruct (MddExact.initialize_inv inc c ds polls) as (H1 & H2 & H3).
    split; [exact H1|exact H2|exact H3|apply wf_initialize| | | |apply NoCut_initialize].
    - split; [simpl; lia|reflexivity].
    - intros H. elim H. reflexivity.
    - intros _ H. elim H. reflexivity.
  Qed.

  Lemma loop_sim : forall fuel mc, LInv mc ->
    snd (layer_loop st_eqb inp fuel (R mc)) = snd (layer_loop st_eqb inc fuel mc) /\
    match snd (layer_loop st_eqb inc fuel mc) with
    | LoopDone => FinRel (finalize_layers inp (fst (layer_loop st_eqb inp fuel (R mc))))
                         (finalize_layers inc (fst (layer_loop st_eqb inc fuel mc)))
    | _ => fst (layer_loop st_eqb inp fuel (R mc)) = R (fst (layer_loop st_eqb inc fuel mc))
    end.
  Proof.
    induction fuel as [|fuel IH]; intros mc HI; [split; reflexivity|].
    rewrite !layer_loop_body.
    pose proof (body_sim mc (li_seq _ HI) (li_nd _ HI)) as Hs. pose proof (LInv_body mc HI) as Hi.
    destruct (loop_body st_eqb inc mc) as [[m' e]|m'].
    - destruct Hs as (mp' & -> & Hrel). split; [reflexivity|]. destruct e; exact Hrel.
    - rewrite Hs. apply IH. exact Hi.
  Qed.

  Lemma K_loop : forall fuel m, LInv m ->
    Kinv (fst (layer_loop st_eqb inc fuel m)) /\ NoCut (fst (layer_loop st_eqb inc fuel m)).
  Proof.
    induction fuel as [|fuel IH]; intros m HI; [split; [apply (li_K _ HI)|apply (li_nc _ HI)]|].
    rewrite layer_loop_body. pose proof (LInv_body m HI) as Hi.
    destruct (loop_body st_eqb inc m) as [[m' e]|m']; [exact Hi|apply IH; exact Hi].
  Qed.

  Lemma HKloop fuel c ds polls :
    snd (layer_loop st_eqb inc fuel (initialize inc c ds polls)) = LoopDone -> ci_type inp = Relaxed ->
    m_lel (fst (layer_loop st_eqb inc fuel (initialize inc c ds polls))) <> None ->
    CutRdy inp (finalize_layers inc (fst (layer_loop st_eqb inc fuel (initialize inc c ds polls)))).
  Proof.
    intros _ Ht Hlel.
    destruct (K_loop fuel _ (LInv_initialize c ds polls)) as [HK HN].
    set (mf := fst (layer_loop st_eqb inc fuel (initialize inc c ds polls))) in *.
    destruct (HK Ht Hlel) as (M & eid & K1 & K2 & K3 & K4).
    unfold finalize_layers. cbn [is_pooled ci_flavour to_fc].
    assert (G : forall m', m_nodes m' = m_nodes mf -> m_edges m' = m_edges mf ->
              (exists k, m_layers m' = m_layers mf ++ k) -> CutRdy inp m').
    { intros m' Hn He (k & Hl). split; [eapply NoCut_same; [exact Hn|exact HN]|].
      exists M, eid. unfold exb, get_node, get_edge, bottom_up in *. rewrite Hn, He, Hl.
      split; [|auto]. rewrite rev_app_distr, concat_app. apply in_or_app. right.
      apply in_concat in K1. destruct K1 as (ids & Hi & HMi). apply in_concat. exists ids.
      split; [apply in_rev in Hi; exact Hi|exact HMi]. }
    destruct (m_next mf).
    - apply G; try reflexivity. exists nil. rewrite app_nil_r. reflexivity.
    - apply G; try reflexivity. eexists. reflexivity.
  Qed.

  Lemma fbn_sim tb tb2 mc ex ly :
    find_best_node inp tb tb2 (retag mc None ex 0 ly) = retag (find_best_node inc tb tb2 mc) None ex 0 ly.
  Proof. reflexivity. Qed.

  Lemma fex_sim m ly :
    finalize_exact inp (retag m None (isn (m_lel m)) 0 ly) = retag (finalize_exact inc m) None (isn (m_lel m)) 0 ly /\
    m_is_exact (finalize_exact inc m) = isn (m_lel m).
  Proof.
    unfold finalize_exact. rewrite Hpooled. cbn [is_pooled ci_flavour to_fc].
    change (ci_type inc) with (ci_type inp). change (has_exact_best_path inc) with (has_exact_best_path inp).
    change (m_nodes (retag m None (isn (m_lel m)) 0 ly)) with (m_nodes m).
    change (m_best (retag m None (isn (m_lel m)) 0 ly)) with (m_best m).
    rewrite hebp_retag. destruct (m_lel m); split; reflexivity.
  Qed.

  Definition all_exact (m : mddT) : Prop := forall id, fl_is_exact (n_flags (get_node inp m id)) = true.

  Lemma fc_on_all_exact ids : forall m push, all_exact m ->
    fc_on inp ids m push = fold_left (fun m id => upd_node m id (fun n => set_flags n (fl_set_above (n_flags n) true))) ids m.
  Proof.
    induction ids as [|id ids IH]; intros m push H; [reflexivity|].
    unfold fc_on. cbn [fold_left]. unfold fc_step at 2. cbv zeta. rewrite (H id).
    apply IH. intros x.
    rewrite (get_node_upd_node_proj inp (fun n => fl_is_exact (n_flags n))) by reflexivity. apply H.
  Qed.

  Lemma fc_on_all_exact_cutset ids m push : all_exact m -> m_cutset (fc_on inp ids m push) = m_cutset m.
  Proof. intros H. rewrite fc_on_all_exact by exact H. apply fold_left_proj. intros; reflexivity. Qed.

  Lemma fcs_sim m ly :
    m_is_exact m = isn (m_lel m) ->
    concat (rev ly) = bottom_up m ->
    (m_lel m = None -> all_exact m) ->
    finalize_cutset inp (retag m None (isn (m_lel m)) 0 ly) = retag (finalize_cutset inc m) None (isn (m_lel m)) 0 ly.
  Proof.
    intros Hex Hids Hall. unfold finalize_cutset. rewrite Hpooled. cbn [ci_flavour to_fc].
    change (ci_type inc) with (ci_type inp).
    change (m_is_exact (retag m None (isn (m_lel m)) 0 ly)) with (isn (m_lel m)).
    rewrite inc_frontier_cutset.
    rewrite !frontier_cutset_on.
    change (bottom_up (retag m None (isn (m_lel m)) 0 ly)) with (concat (rev ly)). rewrite Hids, r_fc_on.
    destruct (m_lel m) as [k|] eqn:El; cbn [isn negb]; rewrite Hex; cbn [isn].
    - destruct (_ || _); reflexivity.
    - rewrite orb_true_r.
      change (with_lel_exact m (Some (length (m_layers m))) true)
        with (retag m (Some (length (m_layers m))) true (m_layer_end m) (m_layers m)).
      change (bottom_up (retag m (Some (length (m_layers m))) true (m_layer_end m) (m_layers m))) with (bottom_up m).
      rewrite r_fc_on. rewrite !fc_on_all_exact by (apply Hall; reflexivity). reflexivity.
  Qed.

  Lemma fcs_facts m :
    m_is_exact m = isn (m_lel m) ->
    (m_lel m = None -> all_exact m) -> m_cutset m = [] ->
    (ci_type inp = Relaxed -> forall k, m_lel m = Some k -> k < length (m_layers m)) ->
    (ci_type inp = Relaxed -> m_lel m <> None -> CutRdy inp m) ->
    let m3 := finalize_cutset inc m in
    m_is_exact m3 = isn (m_lel m) /\ m_layers m3 = m_layers m /\
    (ci_type inp = Relaxed -> (0 <? length (m_cutset m3)) = (opt_default 0 (m_lel m3) <? length (m_layers m3))) /\
    (m_lel m = None -> (opt_default 0 (m_lel m3) <? length (m_layers m3)) = false).
  Proof.
    intros Hex Hall Hcs Hlt HK. cbv zeta. unfold finalize_cutset. cbn [ci_flavour to_fc].
    change (ci_type inc) with (ci_type inp). change (frontier_cutset inc) with (frontier_cutset inp).
    rewrite !frontier_cutset_on.
    destruct (m_lel m) as [k|] eqn:El; rewrite Hex; cbn [isn].
    - rewrite orb_false_r. destruct (is_relaxed_ct (ci_type inp)) eqn:Er.
      + rewrite (ins_fc_on inp (@m_is_exact St)), (ins_fc_on inp (@m_layers St)), (ins_fc_on inp (@m_lel St))
          by (repeat split).
        split; [exact Hex|]. split; [reflexivity|]. split; [|discriminate]. intros Ht. rewrite El. cbn [opt_default].
        pose proof (Hlt Ht k eq_refl) as Hk. apply Nat.ltb_lt in Hk. rewrite Hk.
        assert (Hne : m_cutset (fc_on inp (bottom_up m) m true) <> []).
        { apply (CutRdy_nonempty inp). apply HK; [exact Ht|discriminate]. }
        destruct (m_cutset (fc_on inp (bottom_up m) m true)); [congruence|reflexivity].
      + split; [exact Hex|]. split; [reflexivity|]. split; [|discriminate]. intros Ht. rewrite Ht in Er. discriminate.
    - rewrite orb_true_r.
      set (m' := with_lel_exact m (Some (length (m_layers m))) true).
      rewrite (ins_fc_on inp (@m_is_exact St)), (ins_fc_on inp (@m_layers St)), (ins_fc_on inp (@m_lel St))
        by (repeat split).
      split; [reflexivity|]. split; [reflexivity|].
      rewrite fc_on_all_exact_cutset by (intros id; apply (Hall eq_refl id)).
      cbn [m_cutset m_lel m_layers with_lel_exact m' opt_default]. rewrite Hcs, !Nat.ltb_irrefl. split; reflexivity.
  Qed.

  Lemma clb_sim m3 ex ly :
    (ci_type inp = Relaxed -> (0 <? length (m_cutset m3)) = (opt_default 0 (m_lel m3) <? length (m_layers m3))) ->
    concat (rev ly) = bottom_up m3 ->
    ((opt_default 0 (m_lel m3) <? length (m_layers m3)) = true -> last ly [] = last (m_layers m3) []) ->
    compute_local_bounds inp (retag m3 None ex 0 ly) = retag (compute_local_bounds inc m3) None ex 0 ly.
  Proof.
    intros Hgo Hids Hlast. rewrite !compute_local_bounds_on. rewrite Hpooled. cbn [is_pooled ci_flavour to_fc].
    change (ci_type inc) with (ci_type inp). rewrite inc_lb_on.
    change (m_cutset (retag m3 None ex 0 ly)) with (m_cutset m3).
    change (m_layers (retag m3 None ex 0 ly)) with ly.
    change (bottom_up (retag m3 None ex 0 ly)) with (concat (rev ly)).
    destruct (ci_type inp) eqn:Et; cbn [is_relaxed_ct]; rewrite ?andb_false_r; try reflexivity.
    rewrite (Hgo eq_refl), !andb_true_r. clear Hgo. destruct (_ <? _); [|reflexivity].
    rewrite Hids, (Hlast eq_refl). apply r_lb_on.
  Qed.

  Lemma cth_sim m4 ly :
    concat (rev ly) = bottom_up m4 ->
    compute_thresholds st_eqb inp (retag m4 None (m_is_exact m4) 0 ly) =
    retag (compute_thresholds st_eqb inc m4) None (m_is_exact m4) 0 ly.
  Proof.
    intros Hids. rewrite (compute_thresholds_on st_eqb inp) by (rewrite Hpooled; discriminate).
    rewrite (compute_thresholds_on st_eqb inc) by discriminate.
    change (ci_type inc) with (ci_type inp). rewrite inc_th_on.
    change (m_is_exact (retag m4 None (m_is_exact m4) 0 ly)) with (m_is_exact m4).
    change (bottom_up (retag m4 None (m_is_exact m4) 0 ly)) with (concat (rev ly)).
    destruct (_ || _); [|reflexivity]. rewrite Hids. apply r_th_on.
  Qed.

  Definition fin_tail (i : @cinput St) (tb tb2 : nat) (m : mddT) : mddT :=
    compute_thresholds st_eqb i (compute_local_bounds i (finalize_cutset i (finalize_exact i (find_best_node i tb tb2 m)))).
  Lemma finalize_tail i tb tb2 m : finalize st_eqb i tb tb2 m = fin_tail i tb tb2 (finalize_layers i m).
  Proof. reflexivity. Qed.

  Definition fin_head (i : @cinput St) (tb tb2 : nat) (m : mddT) : mddT :=
    finalize_cutset i (finalize_exact i (find_best_node i tb tb2 m)).

  Record ReadyC (mc : mddT) : Prop := {
    rc_all : m_lel mc = None -> all_exact mc;
    rc_cutset : m_cutset mc = [];
    rc_lt : ci_type inp = Relaxed -> forall k, m_lel mc = Some k -> k < length (m_layers mc);
    rc_K : ci_type inp = Relaxed -> m_lel mc <> None -> CutRdy inp mc }.

  (* up to _finalize_cutset, for any recorded layer list with the same bottom-up traversal *)
  Lemma fin_head_sim tb tb2 mc ly :
    ReadyC mc -> concat (rev ly) = bottom_up mc ->
    fin_head inp tb tb2 (retag mc None (isn (m_lel mc)) 0 ly) = retag (fin_head inc tb tb2 mc) None (isn (m_lel mc)) 0 ly /\
    m_is_exact (fin_head inc tb tb2 mc) = isn (m_lel mc) /\ m_layers (fin_head inc tb tb2 mc) = m_layers mc /\
    (ci_type inp = Relaxed -> (0 <? length (m_cutset (fin_head inc tb tb2 mc))) =
        (opt_default 0 (m_lel (fin_head inc tb tb2 mc)) <? length (m_layers (fin_head inc tb tb2 mc)))) /\
    (m_lel mc = None ->
        (opt_default 0 (m_lel (fin_head inc tb tb2 mc)) <? length (m_layers (fin_head inc tb tb2 mc))) = false).
  Proof.
    intros [Hall Hcs Hlt HK] Hids. unfold fin_head.
    set (m1 := find_best_node inc tb tb2 mc).
    rewrite fbn_sim. fold m1.
    destruct (fex_sim m1 ly) as [E2 X2]. change (m_lel m1) with (m_lel mc) in E2, X2.
    rewrite E2. set (m2 := finalize_exact inc m1) in *.
    assert (Hex2 : m_is_exact m2 = isn (m_lel m2)) by exact X2.
    assert (Hall2 : m_lel m2 = None -> all_exact m2) by exact Hall.
    pose proof (fcs_sim m2 ly Hex2 Hids Hall2) as E3. change (m_lel m2) with (m_lel mc) in E3.
    split; [exact E3|].
    apply (fcs_facts m2 Hex2 Hall2 Hcs Hlt).
    intros Ht Hn. eapply (CutRdy_same inp); [| | | |apply (HK Ht Hn)]; reflexivity.
  Qed.

  (* everything coincides when the two recorded layer lists have the same bottom-up traversal and, if local
     bounds are computed (Relaxed, something squashed), the same last layer *)
  Lemma fin_tail_sim tb tb2 mc ly :
    ReadyC mc -> concat (rev ly) = bottom_up mc ->
    (ci_type inp = Relaxed -> m_lel mc <> None -> last ly [] = last (m_layers mc) []) ->
    fin_tail inp tb tb2 (retag mc None (isn (m_lel mc)) 0 ly) = retag (fin_tail inc tb tb2 mc) None (isn (m_lel mc)) 0 ly /\
    m_is_exact (fin_tail inc tb tb2 mc) = isn (m_lel mc).
  Proof.
    intros HR Hids Hlast. destruct (fin_head_sim tb tb2 mc ly HR Hids) as (E3 & X3 & L3 & G3 & N3).
    unfold fin_tail. fold (fin_head inp tb tb2 (retag mc None (isn (m_lel mc)) 0 ly)). fold (fin_head inc tb tb2 mc).
    rewrite E3. set (m3 := fin_head inc tb tb2 mc) in *.
    assert (E4 : compute_local_bounds inp (retag m3 None (isn (m_lel mc)) 0 ly) =
                 retag (compute_local_bounds inc m3) None (isn (m_lel mc)) 0 ly).
    { destruct (ci_type inp) eqn:Et.
      - rewrite !compute_local_bounds_on. change (ci_type inc) with (ci_type inp). rewrite Et.
        cbn [is_relaxed_ct]. rewrite !andb_false_r. reflexivity.
      - apply clb_sim; [intros _; apply G3; reflexivity|unfold bottom_up; rewrite L3; exact Hids|].
        intros Hgo. rewrite L3. apply Hlast; [reflexivity|]. intros Hn. rewrite (N3 Hn) in Hgo. discriminate.
      - rewrite !compute_local_bounds_on. change (ci_type inc) with (ci_type inp). rewrite Et.
        cbn [is_relaxed_ct]. rewrite !andb_false_r. reflexivity. }
    rewrite E4.
    set (m4 := compute_local_bounds inc m3).
    assert (X4 : m_is_exact m4 = isn (m_lel mc)).
    { unfold m4. rewrite (ins_local_bounds inc (@m_is_exact St)) by (repeat split). exact X3. }
    assert (L4 : m_layers m4 = m_layers mc) by (unfold m4; rewrite compute_local_bounds_layers; exact L3).
    split.
    - rewrite <- X4. rewrite cth_sim by (unfold bottom_up; rewrite L4; exact Hids). reflexivity.
    - rewrite (ins_thresholds st_eqb inc (@m_is_exact St)); [exact X4|repeat split|right; repeat split].
  Qed.

  Lemma walk_up_retag fuel : forall (m : mddT) a b c d oe,
    walk_up inp fuel (retag m a b c d) oe = walk_up inc fuel m oe.
  Proof.
    change (walk_up inc) with (walk_up inp).
    induction fuel as [|fuel IH]; intros m a b c d oe; [reflexivity|]. cbn [walk_up].
    destruct oe as [eid|]; [|reflexivity]. rewrite ge_retag, gn_retag, IH. reflexivity.
  Qed.
  Lemma best_path_retag (m : mddT) a b c d id : best_path inp (retag m a b c d) id = best_path inc m id.
  Proof. unfold best_path. rewrite gn_retag. apply f_equal. apply walk_up_retag. Qed.
  Lemma drain_retag (m : mddT) a b c d : drain_cutset inp (retag m a b c d) = drain_cutset inc m.
  Proof.
    unfold drain_cutset. change (dd_best_value inp (retag m a b c d)) with (dd_best_value inc m).
    destruct (dd_best_value inc m); [|reflexivity]. apply flat_map_ext. intros id.
    rewrite gn_retag, best_path_retag. reflexivity.
  Qed.

  Lemma obs_of_retag (mp mc : mddT) o a c d :
    mp = retag mc a (m_is_exact mc) c d -> obs_eq inp inc (mp, o) (mc, o).
  Proof.
    intros ->. split; [split|..]; try reflexivity; cbn [fst snd]; intros _.
    - unfold dd_best_solution. change (m_best (retag mc a (m_is_exact mc) c d)) with (m_best mc).
      destruct (m_best mc); [|reflexivity]. cbn [option_map]. rewrite best_path_retag. reflexivity.
    - unfold dd_best_exact_solution. change (m_best_exact (retag mc a (m_is_exact mc) c d)) with (m_best_exact mc).
      destruct (m_best_exact mc); [|reflexivity]. cbn [option_map]. rewrite best_path_retag. reflexivity.
    - apply drain_retag.
  Qed.

  Lemma core_of_retag (mp mc : mddT) o a b c d :
    o <> Compiled -> mp = retag mc a b c d -> obs_eq inp inc (mp, o) (mc, o).
  Proof. intros Ho ->. split; [split|..]; try reflexivity; intros H; elim Ho; exact H. Qed.

  Lemma cc_head_inc tb tb2 (m : mddT) : cc (fin_head inc tb tb2 m) = cc m.
  Proof.
    unfold fin_head, finalize_cutset. cbn [ci_flavour to_fc]. rewrite !frontier_cutset_on.
    destruct (m_lel _); destruct (_ || _); rewrite ?(ins_fc_on inc cc) by apply insens_cc; reflexivity.
  Qed.
  Lemma hdr_head_best tb tb2 (m : mddT) :
    m_next m = [] -> m_best (fin_head inc tb tb2 m) = None /\ m_best_exact (fin_head inc tb tb2 m) = None /\
    m_next (fin_head inc tb tb2 m) = [] /\ m_polls (fin_head inc tb tb2 m) = m_polls m /\
    m_dom (fin_head inc tb tb2 m) = m_dom m.
  Proof.
    intros Hn. unfold fin_head, finalize_cutset. cbn [ci_flavour to_fc]. rewrite !frontier_cutset_on.
    assert (Hb : m_best (finalize_exact inc (find_best_node inc tb tb2 m)) = None).
    { cbn [m_best finalize_exact find_best_node with_best]. rewrite Hn. reflexivity. }
    assert (Hbe : m_best_exact (finalize_exact inc (find_best_node inc tb tb2 m)) = None).
    { cbn [m_best m_best_exact finalize_exact find_best_node with_best]. rewrite Hn. cbn. destruct (_ && _); reflexivity. }
    destruct (m_lel _); destruct (_ || _);
      rewrite ?(ins_fc_on inc (@m_best St)), ?(ins_fc_on inc (@m_best_exact St)), ?(ins_fc_on inc (@m_next St)),
              ?(ins_fc_on inc (@m_polls St)), ?(ins_fc_on inc (@m_dom St)) by (repeat split);
      (split; [exact Hb|split; [exact Hbe|split; [exact Hn|split; reflexivity]]]).
  Qed.

  (* _compute_local_bounds and _compute_thresholds leave an insensitive field alone, on both sides *)
  Lemma fin_tail_ins {X} (g : mddT -> X) tb tb2 mc ly :
    insens g -> ci_use_cache inp = false \/ cinsens g -> ReadyC mc -> concat (rev ly) = bottom_up mc ->
    g (fin_tail inp tb tb2 (retag mc None (isn (m_lel mc)) 0 ly)) =
      g (retag (fin_head inc tb tb2 mc) None (isn (m_lel mc)) 0 ly) /\
    g (fin_tail inc tb tb2 mc) = g (fin_head inc tb tb2 mc).
  Proof.
    intros Hg Hc HR Hids. destruct (fin_head_sim tb tb2 mc ly HR Hids) as (E3 & _). rewrite <- E3.
    split; [apply (ins_tail st_eqb inp g Hg Hc)|apply (ins_tail st_eqb inc g Hg Hc)].
  Qed.

  (* the dead end at the bottom: only the core observations, trivially (no terminal node at all) *)
  Lemma fin_tail_dead tb tb2 mc ly :
    ReadyC mc -> concat (rev ly) = bottom_up mc -> m_next mc = [] ->
    obs_core_eq inp inc (fin_tail inp tb tb2 (retag mc None (isn (m_lel mc)) 0 ly), Compiled)
                        (fin_tail inc tb tb2 mc, Compiled) /\
    (ci_use_cache inp = false ->
       cc (fin_tail inp tb tb2 (retag mc None (isn (m_lel mc)) 0 ly)) = cc (fin_tail inc tb tb2 mc)).
  Proof.
    intros HR Hids Hn.
    destruct (fin_head_sim tb tb2 mc ly HR Hids) as (_ & X3 & _).
    destruct (hdr_head_best tb tb2 mc Hn) as (B1 & B2 & B3 & B4 & B5).
    destruct (fin_tail_ins hdr tb tb2 mc ly insens_hdr (or_intror cinsens_hdr) HR Hids) as [Hp Hc].
    pose proof (fun H => fin_tail_ins cc tb tb2 mc ly insens_cc (or_introl H) HR Hids) as Hcc.
    set (mp := fin_tail inp tb tb2 (retag mc None (isn (m_lel mc)) 0 ly)) in *.
    set (mf := fin_tail inc tb tb2 mc) in *. set (m3 := fin_head inc tb tb2 mc) in *.
    unfold hdr in Hp, Hc. cbn [m_best m_best_exact m_is_exact m_has_ebp m_polls m_dom m_next m_path retag] in Hp.
    inversion Hp as [[P1 P2 P3 P4 P5 P6 P7 P8]]. inversion Hc as [[C1 C2 C3 C4 C5 C6 C7 C8]].
    split.
    - split; cbn [fst snd]; intros.
      + reflexivity.
      + congruence.
      + congruence.
      + rewrite P7, C7, B3. reflexivity.
      + rewrite P7, C7, B3. reflexivity.
      + unfold dd_is_exact. congruence.
      + unfold dd_best_value. rewrite P1, C1, B1. reflexivity.
      + unfold dd_best_exact_value. rewrite P2, C2, B2. reflexivity.
      + unfold dd_best_solution. rewrite P1, C1, B1. reflexivity.
      + unfold dd_best_exact_solution. rewrite P2, C2, B2. reflexivity.
      + unfold drain_cutset, dd_best_value. rewrite P1, C1, B1. reflexivity.
    - intros Hnc. destruct (Hcc Hnc) as [-> ->]. reflexivity.
  Qed.

  Lemma all_exact_of_Xs (m : mddT) : Xs inc m -> m_lel m = None -> all_exact m.
  Proof.
    intros HX Hn id. destruct (Nat.lt_ge_cases id (length (m_nodes m))) as [Hlt|Hge].
    - apply (X_lel_none _ _ _ HX Hn id Hlt).
    - unfold get_node. rewrite nth_overflow by exact Hge. reflexivity.
  Qed.

  Lemma finalize_layers_inc_fields (m : mddT) :
    m_nodes (finalize_layers inc m) = m_nodes m /\ m_edges (finalize_layers inc m) = m_edges m /\
    m_lel (finalize_layers inc m) = m_lel m /\ m_cutset (finalize_layers inc m) = m_cutset m /\
    m_next (finalize_layers inc m) = m_next m /\ m_log (finalize_layers inc m) = m_log m /\
    exists k, m_layers (finalize_layers inc m) = m_layers m ++ k.
  Proof.
    unfold finalize_layers. cbn [is_pooled ci_flavour to_fc].
    destruct (m_next m) eqn:E.
    - do 4 (split; [reflexivity|]). split; [exact E|]. split; [reflexivity|]. exists nil. rewrite app_nil_r. reflexivity.
    - do 4 (split; [reflexivity|]). split; [exact E|]. split; [reflexivity|]. eexists. reflexivity.
  Qed.

  Lemma ReadyC_finalize_layers fuel c ds polls :
    let r := layer_loop st_eqb inc fuel (initialize inc c ds polls) in
    snd r = LoopDone -> ReadyC (finalize_layers inc (fst r)).
  Proof.
    intros r Hd.
    destruct (MddExact.initialize_inv inc c ds polls) as (I1 & I2 & I3).
    destruct (layer_loop_inv st_eqb st_eqb_spec inc inc_clean fuel (initialize inc c ds polls) I1 I2 I3) as [HS HX].
    fold r in HS, HX.
    destruct (finalize_layers_inc_fields (fst r)) as (F1 & F2 & F3 & F4 & F5 & F6 & k & F7).
    split.
    - rewrite F3. intros Hn id. unfold get_node. rewrite F1. apply (all_exact_of_Xs _ HX Hn id).
    - rewrite F4. apply (X_cutset inc _ _ HX).
    - rewrite F3, F7, app_length. intros Ht j Hj. pose proof (X_lel_lt inc _ _ HX Ht j Hj). lia.
    - rewrite F3. intros Ht Hn. apply (HKloop fuel c ds polls Hd Ht Hn).
  Qed.

  Theorem pooled_is_frontier_gen tb tb2 c ds polls :
    let rp := compile st_eqb inp tb tb2 c ds polls in
    let rc := compile st_eqb inc tb tb2 c ds polls in
    obs_core_eq inp inc rp rc /\
    (dead_end_diff inc rc = false -> obs_eq inp inc rp rc) /\
    (ci_use_cache inp = false -> m_crash (fst rp) = m_crash (fst rc) /\ m_cache (fst rp) = m_cache (fst rc)).
  Proof.
    cbv zeta. unfold compile. cbv zeta.
    change (initialize inp c ds polls) with (R (initialize inc c ds polls)).
    change (nb_vars (ci_problem inc)) with (nb_vars (ci_problem inp)).
    set (fuel := S (S (nb_vars (ci_problem inp)))).
    pose proof (loop_sim fuel _ (LInv_initialize c ds polls)) as [He Hrel].
    pose proof (ReadyC_finalize_layers fuel c ds polls) as HR. cbv zeta in HR.
    destruct (layer_loop st_eqb inp fuel (R (initialize inc c ds polls))) as [mp ep].
    destruct (layer_loop st_eqb inc fuel (initialize inc c ds polls)) as [mc ec] eqn:Hloop.
    cbn [fst snd] in *. subst ep.
    assert (Hall : forall rp rc, obs_eq inp inc rp rc ->
              obs_core_eq inp inc rp rc /\ (dead_end_diff inc rc = false -> obs_eq inp inc rp rc) /\
              (ci_use_cache inp = false -> m_crash (fst rp) = m_crash (fst rc) /\ m_cache (fst rp) = m_cache (fst rc))).
    { intros rp rc Ho. split; [apply Ho|]. split; [intros _; exact Ho|]. intros _. split; apply Ho. }
    destruct ec.
    - (* the loop ran to its end *)
      specialize (HR eq_refl). rewrite !finalize_tail.
      set (mcl := finalize_layers inc mc) in *.
      assert (Hfull : forall ly, concat (rev ly) = bottom_up mcl ->
                (ci_type inp = Relaxed -> m_lel mcl <> None -> last ly [] = last (m_layers mcl) []) ->
                obs_eq inp inc (fin_tail inp tb tb2 (retag mcl None (isn (m_lel mcl)) 0 ly), Compiled)
                               (fin_tail inc tb tb2 mcl, Compiled)).
      { intros ly Hids Hlast. destruct (fin_tail_sim tb tb2 mcl ly HR Hids Hlast) as [E X].
        apply (obs_of_retag _ _ Compiled None 0 ly). rewrite X. exact E. }
      destruct Hrel as [Hrel|(Hrel & Hn & d & sts & k & Hlog)]; rewrite Hrel.
      + apply Hall, (Hfull (m_layers mcl) eq_refl (fun _ _ => eq_refl)).
      + assert (Hids : concat (rev (m_layers mcl ++ [[]])) = bottom_up mcl).
        { rewrite rev_app_distr. reflexivity. }
        destruct (fin_tail_dead tb tb2 mcl _ HR Hids Hn) as [Hcore Hcc].
        split; [exact Hcore|]. split.
        * intros Hdead.
          apply Hfull; [exact Hids|]. intros Ht Hlel. exfalso.
          (* this is the dead end *)
          destruct (fin_tail_sim tb tb2 mcl (m_layers mcl) HR eq_refl (fun _ _ => eq_refl)) as [_ X].
          unfold dead_end_diff, bottom_dead_end in Hdead. cbn [fst snd] in Hdead.
          change (ci_type inc) with (ci_type inp) in Hdead. rewrite Ht, X in Hdead.
          destruct (m_lel mcl); [|congruence]. cbn [is_relaxed_ct isn negb andb] in Hdead.
          assert (Hnx : m_next (fin_tail inc tb tb2 mcl) = []).
          { assert (Hi : insens (@m_next St) /\ cinsens (@m_next St)) by (repeat split).
            destruct (fin_tail_ins _ tb tb2 mcl _ (proj1 Hi) (or_intror (proj2 Hi)) HR Hids) as [_ ->].
            apply (hdr_head_best tb tb2 mcl Hn). }
          rewrite Hnx in Hdead.
          destruct (logext_finalize st_eqb inc tb tb2 mc) as (kf & Ekf & Fkf).
          rewrite finalize_tail in Ekf. fold mcl in Ekf.
          destruct (finalize_layers_inc_fields mc) as (_ & _ & _ & _ & _ & F6 & _). fold mcl in F6.
          rewrite Ekf, <- F6, Hlog, last_nv_res_app in Hdead; [discriminate|].
          eapply Forall_impl; [|exact Fkf]. intros ev [Hk|[]]. destruct ev; try exact I; discriminate.
        * intros Hnc. specialize (Hcc Hnc). unfold cc in Hcc. inversion Hcc. split; assumption.
    - apply Hall. eapply core_of_retag; [discriminate|exact Hrel].
    - apply Hall. eapply core_of_retag; [discriminate|exact Hrel].
  Qed.
End Sim.

Arguments to_fc {St} inp.
Arguments all_impacted {St} inp.

Section Main.
  Context {St : Type}.
  Variable st_eqb : St -> St -> bool.
  Hypothesis st_eqb_spec : forall a b, st_eqb a b = true <-> a = b.
  Variable inp : @cinput St.
  Hypothesis Hpooled : ci_flavour inp = Pooled.
  Hypothesis Himp : all_impacted inp.
  Hypothesis Hwidth : 1 <= ci_width inp.

  (* (i) what the solvers and the theorems read (everything but cache, crash flag, log) always coincides *)
  Theorem pooled_is_frontier_core tb tb2 c ds polls :
    obs_core_eq inp (to_fc inp) (compile st_eqb inp tb tb2 c ds polls) (compile st_eqb (to_fc inp) tb tb2 c ds polls).
  Proof. destruct (pooled_is_frontier_gen st_eqb st_eqb_spec inp Hpooled Himp Hwidth tb tb2 c ds polls) as (A & B & C). exact A. Qed.

  (* (ii) cache, crash flag and log coincide too, except for a Relaxed compilation in which a layer was squashed
     and next_variable answered None on an empty last layer *)
  Theorem pooled_is_frontier tb tb2 c ds polls :
    dead_end_diff (to_fc inp) (compile st_eqb (to_fc inp) tb tb2 c ds polls) = false ->
    obs_eq inp (to_fc inp) (compile st_eqb inp tb tb2 c ds polls) (compile st_eqb (to_fc inp) tb tb2 c ds polls).
  Proof. destruct (pooled_is_frontier_gen st_eqb st_eqb_spec inp Hpooled Himp Hwidth tb tb2 c ds polls) as (A & B & C). exact B. Qed.

  (* (iii) without a cache only the log may differ *)
  Theorem pooled_is_frontier_nocache tb tb2 c ds polls :
    ci_use_cache inp = false ->
    m_crash (fst (compile st_eqb inp tb tb2 c ds polls)) = m_crash (fst (compile st_eqb (to_fc inp) tb tb2 c ds polls)) /\
    m_cache (fst (compile st_eqb inp tb tb2 c ds polls)) = m_cache (fst (compile st_eqb (to_fc inp) tb tb2 c ds polls)).
  Proof. destruct (pooled_is_frontier_gen st_eqb st_eqb_spec inp Hpooled Himp Hwidth tb tb2 c ds polls) as (A & B & C). exact C. Qed.

  (* sufficient conditions for (ii) *)
  Corollary pooled_is_frontier_not_relaxed tb tb2 c ds polls :
    ci_type inp = Restricted \/ ci_type inp = Exact ->
    obs_eq inp (to_fc inp) (compile st_eqb inp tb tb2 c ds polls) (compile st_eqb (to_fc inp) tb tb2 c ds polls).
  Proof.
    intros Ht. apply pooled_is_frontier. unfold dead_end_diff. change (ci_type (to_fc inp)) with (ci_type inp).
    destruct Ht as [Ht|Ht]; rewrite Ht; reflexivity.
  Qed.
  Corollary pooled_is_frontier_live tb tb2 c ds polls :
    m_next (fst (compile st_eqb (to_fc inp) tb tb2 c ds polls)) <> [] ->
    obs_eq inp (to_fc inp) (compile st_eqb inp tb tb2 c ds polls) (compile st_eqb (to_fc inp) tb tb2 c ds polls).
  Proof.
    intros Hn. apply pooled_is_frontier. unfold dead_end_diff, bottom_dead_end.
    destruct (snd _); try apply andb_false_r.
    destruct (m_next _); [congruence|]. apply andb_false_r.
  Qed.
End Main.

Section SolverEq.
  Context {St : Type}.
  Variable st_eqb : St -> St -> bool.
  Hypothesis st_eqb_spec : forall a b, st_eqb a b = true <-> a = b.
  Variable cfg : @sconfig St.
  Hypothesis cfg_pooled : sc_flavour cfg = Pooled.
  Hypothesis cfg_imp : forall x s, is_impacted_by (sc_problem cfg) x s = true.
  Hypothesis cfg_width : 1 <= sc_width cfg.
  Hypothesis cfg_nocache : sc_use_cache cfg = false.

  (* the same solver configuration with the frontier-cut-set clean diagram *)
  Definition cfg_fc : @sconfig St :=
    {| sc_flavour := CleanFC; sc_problem := sc_problem cfg; sc_relax := sc_relax cfg; sc_ranking := sc_ranking cfg;
       sc_domcmp := sc_domcmp cfg; sc_domrule := sc_domrule cfg; sc_width := sc_width cfg;
       sc_use_cache := sc_use_cache cfg; sc_nodup := sc_nodup cfg; sc_cutoff := sc_cutoff cfg |}.

  Lemma mk_input_fc ct node lb : mk_input cfg_fc ct node lb = to_fc (mk_input cfg ct node lb).
  Proof. reflexivity. Qed.

  Lemma compile_eq ct node lb c ds polls :
    match compile st_eqb (mk_input cfg ct node lb) 0 0 c ds polls,
          compile st_eqb (mk_input cfg_fc ct node lb) 0 0 c ds polls with
    | (m1, o1), (m2, o2) =>
        o1 = o2 /\ m_cache m1 = m_cache m2 /\ m_dom m1 = m_dom m2 /\ m_polls m1 = m_polls m2 /\ m_crash m1 = m_crash m2 /\
        argmax_candidates (mk_input cfg ct node lb) m1 (m_next m1) =
          argmax_candidates (mk_input cfg_fc ct node lb) m2 (m_next m2) /\
        obs_core_eq (mk_input cfg ct node lb) (mk_input cfg_fc ct node lb) (m1, o1) (m2, o2)
    end.
  Proof.
    rewrite mk_input_fc. set (inp := mk_input cfg ct node lb).
    pose proof (pooled_is_frontier_core st_eqb st_eqb_spec inp cfg_pooled cfg_imp cfg_width 0 0 c ds polls) as Hc.
    destruct (pooled_is_frontier_nocache st_eqb st_eqb_spec inp cfg_pooled cfg_imp cfg_width 0 0 c ds polls cfg_nocache)
      as [Hcr Hca].
    destruct (compile st_eqb inp 0 0 c ds polls) as [m1 o1]. destruct (compile st_eqb (to_fc inp) 0 0 c ds polls) as [m2 o2].
    pose proof Hc as [H1 H2 H3 H4 _ _ _ _ _ _ _]. cbn [fst snd] in *. auto 10.
  Qed.

  Lemma run_compile_eq s ct node :
    match run_compile st_eqb cfg s ct node, run_compile st_eqb cfg_fc s ct node with
    | (s1, i1, m1, o1), (s2, i2, m2, o2) => s1 = s2 /\ o1 = o2 /\ obs_core_eq i1 i2 (m1, o1) (m2, o2)
    end.
  Proof.
    unfold run_compile. cbv zeta. pose proof (compile_eq ct node (s_lb s) (s_cache s) (s_dom s) (s_polls s)) as H.
    destruct (compile st_eqb (mk_input cfg ct node (s_lb s)) _ _ _ _ _) as [m1 o1].
    destruct (compile st_eqb (mk_input cfg_fc ct node (s_lb s)) _ _ _ _ _) as [m2 o2].
    destruct H as (<- & -> & -> & -> & -> & -> & C). auto.
  Qed.

  Lemma update_eq s (i1 : @cinput St) m1 i2 m2 :
    obs_core_eq i1 i2 (m1, Compiled) (m2, Compiled) ->
    maybe_update_best s i1 m1 = maybe_update_best s i2 m2 /\ dd_is_exact m1 = dd_is_exact m2 /\
    drain_cutset i1 m1 = drain_cutset i2 m2.
  Proof.
    intros [_ _ _ _ _ X _ V _ S D]. cbn [fst snd] in *. unfold maybe_update_best. rewrite (V eq_refl), (S eq_refl). auto.
  Qed.

  Lemma process_one_node_eq s node :
    process_one_node st_eqb cfg s node = process_one_node st_eqb cfg_fc s node.
  Proof.
    unfold process_one_node. cbv zeta. change (sc_use_cache cfg_fc) with (sc_use_cache cfg).
    destruct (_ <=? _)%Z; [reflexivity|].
    match goal with |- match ?e with _ => _ end = _ => destruct e as [[|]|] end; try reflexivity.
    pose proof (run_compile_eq s Restricted node) as H1.
    destruct (run_compile st_eqb cfg s Restricted node) as [[[s1 i1] m1] o1].
    destruct (run_compile st_eqb cfg_fc s Restricted node) as [[[s2 i2] m2] o2].
    destruct H1 as (<- & <- & C1). destruct o1; try reflexivity.
    destruct (update_eq s1 _ _ _ _ C1) as (-> & -> & _). destruct (dd_is_exact m2); [reflexivity|].
    pose proof (run_compile_eq (maybe_update_best s1 i2 m2) Relaxed node) as H2.
    destruct (run_compile st_eqb cfg (maybe_update_best s1 i2 m2) Relaxed node) as [[[s3 i3] m3] o3].
    destruct (run_compile st_eqb cfg_fc (maybe_update_best s1 i2 m2) Relaxed node) as [[[s4 i4] m4] o4].
    destruct H2 as (<- & <- & C2). destruct o3; try reflexivity.
    destruct (update_eq s3 _ _ _ _ C2) as (-> & -> & D2). destruct (dd_is_exact m4); [reflexivity|].
    unfold enqueue_cutset. rewrite D2. reflexivity.
  Qed.

  Lemma main_loop_eq : forall fuel s, main_loop st_eqb cfg fuel s = main_loop st_eqb cfg_fc fuel s.
  Proof.
    induction fuel as [|fuel IH]; intros s; [reflexivity|]. cbn [main_loop].
    destruct (s_crash s); [reflexivity|].
    change (get_workload st_eqb cfg_fc s) with (get_workload st_eqb cfg s).
    destruct (get_workload st_eqb cfg s) as [s1 w]. destruct w as [| |node]; try reflexivity.
    rewrite process_one_node_eq. destruct (process_one_node st_eqb cfg_fc s1 node) as [s2 err].
    destruct err; [reflexivity|apply IH].
  Qed.

  (* the pooled solver IS the frontier solver (no cache: see the finding about the dead end at the bottom) *)
  Theorem maximize_pooled_eq fuel primal : maximize st_eqb cfg fuel primal = maximize st_eqb cfg_fc fuel primal.
  Proof.
    unfold maximize.
    change (initialize_solver st_eqb cfg_fc) with (initialize_solver st_eqb cfg).
    change (init_sstate cfg_fc) with (init_sstate cfg).
    rewrite main_loop_eq. reflexivity.
  Qed.
End SolverEq.

(* the parallel solver (protocol model Par.v) *)
Section ParBlind.
  Context {St : Type}.
  Variable st_eqb : St -> St -> bool.
  Variable cfg : @sconfig St.
  Notation pstateT := (@Par.pstate St).

  Definition wk (s : pstateT) (ws : list (@Par.pc St)) : pstateT :=
    Par.mk (Par.p_simple s) (Par.p_nodup s) (Par.p_ongoing s) (Par.p_explored s) (Par.p_open s)
      (Par.p_ongoing_by_layer s) (Par.p_fal s) (Par.p_lb s) (Par.p_ub s) (Par.p_sol s) (Par.p_upper_bounds s)
      (Par.p_abort s) (Par.p_cache s) (Par.p_dom s) (Par.p_polls s) (Par.p_crash s) (Par.p_tie s) ws.
  Lemma wk_self s : wk s (Par.p_workers s) = s. Proof. destruct s; reflexivity. Qed.
  Lemma wk_wk s a b : wk (wk s a) b = wk s b. Proof. reflexivity. Qed.

  Lemma w_crashed s ws : Par.p_crashed (wk s ws) = wk (Par.p_crashed s) ws. Proof. reflexivity. Qed.
  Lemma w_pf_push s ws n : Par.pf_push st_eqb cfg (wk s ws) n = wk (Par.pf_push st_eqb cfg s n) ws.
  Proof. unfold Par.pf_push. destruct (sc_nodup cfg); [|reflexivity]. cbn [Par.p_nodup wk Par.mk]. destruct (k_push _ _ _ _); reflexivity. Qed.
  Lemma w_pf_pop s ws : Par.pf_pop st_eqb cfg (wk s ws) = (wk (fst (Par.pf_pop st_eqb cfg s)) ws, snd (Par.pf_pop st_eqb cfg s)).
  Proof.
    unfold Par.pf_pop. destruct (sc_nodup cfg).
    - cbn [Par.p_nodup wk Par.mk]. destruct (k_pop _ _ _) as [[f r]|]; reflexivity.
    - cbn [Par.p_simple wk Par.mk]. destruct (pq_pop cfg _) as [[x rest]|]; reflexivity.
  Qed.
  Lemma w_pf_len s ws : Par.pf_len cfg (wk s ws) = Par.pf_len cfg s. Proof. reflexivity. Qed.

  Lemma w_clean fuel : forall s ws, Par.p_clean_cache_loop cfg fuel (wk s ws) = wk (Par.p_clean_cache_loop cfg fuel s) ws.
  Proof.
    induction fuel as [|fuel IH]; intros s ws; [reflexivity|]. cbn [Par.p_clean_cache_loop].
    cbn [Par.p_fal Par.p_open Par.p_ongoing_by_layer Par.p_cache wk Par.mk].
    destruct (_ <? _); [|reflexivity].
    destruct (nth_error (Par.p_open s) (Par.p_fal s)); [|reflexivity].
    destruct (nth_error (Par.p_ongoing_by_layer s) (Par.p_fal s)); [|reflexivity].
    destruct (_ =? _); [|reflexivity].
    destruct (if sc_use_cache cfg then clear_layer (Par.p_cache s) (Par.p_fal s) else Some (Par.p_cache s)); [|reflexivity].
    apply (IH (Par.with_cache_fal s c (S (Par.p_fal s))) ws).
  Qed.

  Lemma w_gw_select fuel : forall s ws nn,
    Par.gw_select st_eqb cfg fuel (wk s ws) nn =
    (wk (fst (Par.gw_select st_eqb cfg fuel s nn)) ws, snd (Par.gw_select st_eqb cfg fuel s nn)).
  Proof.
    induction fuel as [|fuel IH]; intros s ws nn; [reflexivity|]. cbn [Par.gw_select].
    cbn [Par.p_lb Par.p_cache Par.p_open wk Par.mk].
    destruct (_ <=? _)%Z; [reflexivity|].
    destruct (if sc_use_cache cfg then must_explore st_eqb (Par.p_cache s) (sp_state nn) (sp_depth nn) (sp_value nn) else Some true) as [[|]|].
    - destruct (if sc_use_cache cfg then update_threshold st_eqb (Par.p_cache s) (sp_state nn) (sp_depth nn) (sp_value nn) true else Some (Par.p_cache s)); reflexivity.
    - destruct (nth_error (Par.p_open s) (sp_depth nn)) as [[|k]|]; try reflexivity.
      set (s1 := Par.with_open s (upd_nth (sp_depth nn) (fun _ => k) (Par.p_open s)) (Par.p_ongoing_by_layer s)).
      change (Par.with_open (wk s ws) (upd_nth (sp_depth nn) (fun _ => k) (Par.p_open s)) (Par.p_ongoing_by_layer (wk s ws)))
        with (wk s1 ws).
      rewrite w_pf_len. destruct (_ =? _); [reflexivity|].
      rewrite w_pf_pop. destruct (Par.pf_pop st_eqb cfg s1) as [s2 o]. cbn [fst snd].
      destruct o; [apply IH|reflexivity].
    - reflexivity.
  Qed.

  Lemma w_get_workload s ws w :
    Par.get_workload st_eqb cfg (wk s ws) w =
    (wk (fst (Par.get_workload st_eqb cfg s w)) ws, snd (Par.get_workload st_eqb cfg s w)).
  Proof.
    unfold Par.get_workload. cbv zeta. rewrite w_clean.
    set (s0 := Par.p_clean_cache_loop cfg (S (nb_vars (sc_problem cfg))) s).
    cbn [Par.p_crash Par.p_ongoing Par.p_abort wk Par.mk]. rewrite !w_pf_len.
    destruct (Par.p_crash s0); [reflexivity|].
    destruct (_ && _); [reflexivity|].
    destruct (Par.p_abort s0); [reflexivity|].
    destruct (_ =? _); [reflexivity|].
    rewrite w_pf_pop. destruct (Par.pf_pop st_eqb cfg s0) as [s1 o]. cbn [fst snd].
    destruct o as [nn|]; [|reflexivity].
    rewrite w_pf_len, w_gw_select.
    destruct (Par.gw_select st_eqb cfg (S (S (Par.pf_len cfg s1))) s1 nn) as [s2 r]. cbn [fst snd].
    destruct r; try reflexivity.
    cbn [Par.p_upper_bounds Par.p_open Par.p_ongoing_by_layer wk Par.mk].
    destruct (nth_error (Par.p_upper_bounds s2) w); [|reflexivity].
    destruct (nth_error (Par.p_open s2) (sp_depth n)) as [[|k]|]; try reflexivity.
    destruct (nth_error (Par.p_ongoing_by_layer s2) (sp_depth n)); reflexivity.
  Qed.

  Lemma w_p_compile s ws ct node lb :
    Par.p_compile st_eqb cfg (wk s ws) ct node lb =
    (let '(s', i, m, o) := Par.p_compile st_eqb cfg s ct node lb in (wk s' ws, i, m, o)).
  Proof.
    unfold Par.p_compile. cbv zeta. cbn [Par.p_cache Par.p_dom Par.p_polls wk Par.mk].
    destruct (compile st_eqb _ 0 0 _ _ _) as [m o]. reflexivity.
  Qed.
  Lemma w_maybe_update_best s ws i m :
    Par.p_maybe_update_best (wk s ws) i m = wk (Par.p_maybe_update_best s i m) ws.
  Proof. unfold Par.p_maybe_update_best. cbv zeta. cbn [Par.p_lb wk Par.mk]. destruct (_ >? _)%Z; reflexivity. Qed.
  Lemma w_fold {B} (f : pstateT -> B -> pstateT) (l : list B) :
    (forall s ws x, f (wk s ws) x = wk (f s x) ws) -> forall s ws, fold_left f l (wk s ws) = wk (fold_left f l s) ws.
  Proof. intros Hf. induction l as [|x l IH]; intros s ws; simpl; [reflexivity|]. rewrite Hf. apply IH. Qed.
  Lemma w_enqueue_cutset s ws i m ub :
    Par.p_enqueue_cutset st_eqb cfg (wk s ws) i m ub = wk (Par.p_enqueue_cutset st_eqb cfg s i m ub) ws.
  Proof.
    unfold Par.p_enqueue_cutset. cbv zeta. change (Par.p_lb (wk s ws)) with (Par.p_lb s).
    apply w_fold. intros a wa c. destruct (_ >? _)%Z; [|reflexivity].
    rewrite w_pf_push, !w_pf_len.
    set (a1 := Par.pf_push st_eqb cfg a _).
    cbn [Par.p_open wk Par.mk]. destruct (nth_error (Par.p_open a1) (sp_depth c)); reflexivity.
  Qed.
  Lemma w_workers_get_workload s w :
    Par.p_workers (fst (Par.get_workload st_eqb cfg s w)) = Par.p_workers s.
  Proof.
    pose proof (w_get_workload s (Par.p_workers s) w) as H. rewrite wk_self in H.
    rewrite H at 1. reflexivity.
  Qed.
  Lemma w_workers_enqueue s i m ub : Par.p_workers (Par.p_enqueue_cutset st_eqb cfg s i m ub) = Par.p_workers s.
  Proof.
    pose proof (w_enqueue_cutset s (Par.p_workers s) i m ub) as H. rewrite wk_self in H. rewrite H at 1. reflexivity.
  Qed.
  Lemma w_workers_pf_pop s : Par.p_workers (fst (Par.pf_pop st_eqb cfg s)) = Par.p_workers s.
  Proof. pose proof (w_pf_pop s (Par.p_workers s)) as H. rewrite wk_self in H. rewrite H at 1. reflexivity. Qed.
End ParBlind.

Section ParEq.
  Context {St : Type}.
  Variable st_eqb : St -> St -> bool.
  Hypothesis st_eqb_spec : forall a b, st_eqb a b = true <-> a = b.
  Variable cfg : @sconfig St.
  Hypothesis cfg_pooled : sc_flavour cfg = Pooled.
  Hypothesis cfg_imp : forall x s, is_impacted_by (sc_problem cfg) x s = true.
  Hypothesis cfg_width : 1 <= sc_width cfg.
  Hypothesis cfg_nocache : sc_use_cache cfg = false.
  Notation cfgc := (cfg_fc cfg).
  Notation pstateT := (@Par.pstate St).

  (* a worker holds the diagram it compiled: related workers hold diagrams with the same observations *)
  Definition dd_rel (i1 : @cinput St) (m1 : @mdd St) (i2 : @cinput St) (m2 : @mdd St) : Prop :=
    obs_core_eq i1 i2 (m1, Compiled) (m2, Compiled).
  Inductive pc_rel : @Par.pc St -> @Par.pc St -> Prop :=
  | pr_getwork : pc_rel Par.PGetWork Par.PGetWork
  | pr_parked : pc_rel Par.PParked Par.PParked
  | pr_readlb1 n : pc_rel (Par.PReadLb1 n) (Par.PReadLb1 n)
  | pr_update1 n i1 m1 i2 m2 : dd_rel i1 m1 i2 m2 -> pc_rel (Par.PUpdate1 n i1 m1) (Par.PUpdate1 n i2 m2)
  | pr_readlb2 n : pc_rel (Par.PReadLb2 n) (Par.PReadLb2 n)
  | pr_update2 n i1 m1 i2 m2 : dd_rel i1 m1 i2 m2 -> pc_rel (Par.PUpdate2 n i1 m1) (Par.PUpdate2 n i2 m2)
  | pr_enqueue n i1 m1 i2 m2 : dd_rel i1 m1 i2 m2 -> pc_rel (Par.PEnqueue n i1 m1) (Par.PEnqueue n i2 m2)
  | pr_abort n : pc_rel (Par.PAbort n) (Par.PAbort n)
  | pr_notify n b : pc_rel (Par.PNotify n b) (Par.PNotify n b)
  | pr_exited : pc_rel Par.PExited Par.PExited.
  Definition wrel := Forall2 pc_rel.

  (* same shared state, related worker tables *)
  Inductive prel : pstateT -> pstateT -> Prop :=
  | prel_intro sh ws1 ws2 : wrel ws1 ws2 -> prel (wk sh ws1) (wk sh ws2).

  Lemma prel_inv s1 s2 : prel s1 s2 -> s2 = wk s1 (Par.p_workers s2) /\ wrel (Par.p_workers s1) (Par.p_workers s2).
  Proof. intros [sh ws1 ws2 H]. split; [reflexivity|exact H]. Qed.

  Lemma wrel_nth l1 l2 w : wrel l1 l2 ->
    match nth_error l1 w, nth_error l2 w with
    | Some a, Some b => pc_rel a b | None, None => True | _, _ => False end.
  Proof. intros H. revert w. induction H as [|a b l1 l2 Hab _ IH]; intros [|w]; simpl; auto. apply IH. Qed.
  Lemma wrel_upd l1 l2 w a b : wrel l1 l2 -> pc_rel a b -> wrel (upd_nth w (fun _ => a) l1) (upd_nth w (fun _ => b) l2).
  Proof.
    intros H Hab. revert w. induction H as [|x y l1 l2 Hxy Ht IH]; intros [|w]; simpl.
    - constructor.
    - constructor.
    - constructor; assumption.
    - constructor; [assumption|apply IH].
  Qed.
  Lemma wrel_wake l1 l2 : wrel l1 l2 -> wrel (Par.wake_all l1) (Par.wake_all l2).
  Proof.
    intros H. induction H as [|x y l1 l2 Hxy _ IH]; simpl; constructor; [|exact IH].
    destruct Hxy; constructor; assumption.
  Qed.
  Lemma wrel_length l1 l2 : wrel l1 l2 -> length l1 = length l2.
  Proof. intros H. induction H; simpl; congruence. Qed.

  Lemma prel_mk a1 a2 a3 a4 a5 a6 a7 a8 a9 a10 a11 a12 a13 a14 a15 a16 a17 wa wb : wrel wa wb ->
    prel (Par.mk a1 a2 a3 a4 a5 a6 a7 a8 a9 a10 a11 a12 a13 a14 a15 a16 a17 wa)
         (Par.mk a1 a2 a3 a4 a5 a6 a7 a8 a9 a10 a11 a12 a13 a14 a15 a16 a17 wb).
  Proof. intros H. apply (prel_intro (Par.mk a1 a2 a3 a4 a5 a6 a7 a8 a9 a10 a11 a12 a13 a14 a15 a16 a17 []) wa wb H). Qed.
  Ltac pnorm :=
    cbn [wk Par.mk Par.pf_clear Par.with_fringe Par.p_simple Par.p_nodup Par.p_ongoing Par.p_explored Par.p_open
         Par.p_ongoing_by_layer Par.p_fal Par.p_lb Par.p_ub Par.p_sol Par.p_upper_bounds Par.p_abort Par.p_cache
         Par.p_dom Par.p_polls Par.p_crash Par.p_tie Par.p_workers].

  Lemma set_worker_wk (s : pstateT) w p : Par.set_worker s w p = wk s (upd_nth w (fun _ => p) (Par.p_workers s)).
  Proof. reflexivity. Qed.

  Lemma p_compile_eq s ct node lb :
    match Par.p_compile st_eqb cfg s ct node lb, Par.p_compile st_eqb cfgc s ct node lb with
    | (s1, i1, m1, o1), (s2, i2, m2, o2) => s1 = s2 /\ o1 = o2 /\ obs_core_eq i1 i2 (m1, o1) (m2, o2)
    end.
  Proof.
    unfold Par.p_compile. cbv zeta.
    pose proof (compile_eq st_eqb st_eqb_spec cfg cfg_pooled cfg_imp cfg_width cfg_nocache ct node lb
                  (Par.p_cache s) (Par.p_dom s) (Par.p_polls s)) as H.
    destruct (compile st_eqb (mk_input cfg ct node lb) _ _ _ _ _) as [m1 o1].
    destruct (compile st_eqb (mk_input cfgc ct node lb) _ _ _ _ _) as [m2 o2].
    destruct H as (<- & -> & -> & -> & -> & -> & C). auto.
  Qed.

  Lemma maybe_update_best_rel s i1 m1 i2 m2 : dd_rel i1 m1 i2 m2 ->
    Par.p_maybe_update_best s i1 m1 = Par.p_maybe_update_best s i2 m2.
  Proof.
    intros C. pose proof (oc_best_exact_value _ _ _ _ C eq_refl) as V. pose proof (oc_best_exact_solution _ _ _ _ C eq_refl) as S.
    cbn [fst snd] in V, S. unfold Par.p_maybe_update_best. rewrite V, S. reflexivity.
  Qed.

  Lemma prel_set_worker sh ws1 ws2 w p q :
    wrel ws1 ws2 -> pc_rel p q -> prel (Par.set_worker (wk sh ws1) w p) (Par.set_worker (wk sh ws2) w q).
  Proof. intros Hw Hpq. rewrite !set_worker_wk. apply (prel_intro sh). apply wrel_upd; assumption. Qed.

  Lemma par_step_sim s1 s2 w : prel s1 s2 ->
    match Par.par_step st_eqb cfg s1 w, Par.par_step st_eqb cfgc s2 w with
    | Some (a, t1), Some (b, t2) => prel a b /\ t1 = t2
    | None, None => True
    | _, _ => False
    end.
  Proof.
    intros [sh ws1 ws2 Hw]. unfold Par.par_step.
    change (Par.p_workers (wk sh ws1)) with ws1. change (Par.p_workers (wk sh ws2)) with ws2.
    pose proof (wrel_nth ws1 ws2 w Hw) as Hn.
    destruct (nth_error ws1 w) as [p|], (nth_error ws2 w) as [q|]; try contradiction; [|exact I].
    destruct Hn; try exact I.
    - (* PGetWork *)
      change (Par.get_workload st_eqb cfgc) with (Par.get_workload st_eqb cfg).
      rewrite !(w_get_workload st_eqb cfg sh _ w).
      destruct (Par.get_workload st_eqb cfg sh w) as [s' r]. cbn [fst snd]. split; [|reflexivity].
      destruct r; rewrite ?w_crashed; apply prel_set_worker; try exact Hw; constructor.
    - (* PReadLb1 *)
      change (Par.p_lb (wk sh ws1)) with (Par.p_lb sh). change (Par.p_lb (wk sh ws2)) with (Par.p_lb sh).
      split; [|reflexivity]. destruct (_ <=? _)%Z; [apply prel_set_worker; [exact Hw|constructor]|].
      rewrite !w_p_compile. pose proof (p_compile_eq sh Restricted n (Par.p_lb sh)) as Hc.
      destruct (Par.p_compile st_eqb cfg sh Restricted n (Par.p_lb sh)) as [[[sa i1] m1] o1].
      destruct (Par.p_compile st_eqb cfgc sh Restricted n (Par.p_lb sh)) as [[[sb i2] m2] o2].
      destruct Hc as (<- & <- & C). destruct o1; apply prel_set_worker; try exact Hw; constructor. exact C.
    - (* PUpdate1 *)
      split; [|reflexivity]. rewrite !w_maybe_update_best, (maybe_update_best_rel sh i1 m1 i2 m2 H).
      pose proof (oc_is_exact _ _ _ _ H eq_refl) as X. cbn [fst snd] in X. rewrite X.
      destruct (dd_is_exact m2); apply prel_set_worker; try exact Hw; constructor.
    - (* PReadLb2 *)
      change (Par.p_lb (wk sh ws1)) with (Par.p_lb sh). change (Par.p_lb (wk sh ws2)) with (Par.p_lb sh).
      rewrite !w_p_compile. pose proof (p_compile_eq sh Relaxed n (Par.p_lb sh)) as Hc.
      destruct (Par.p_compile st_eqb cfg sh Relaxed n (Par.p_lb sh)) as [[[sa i1] m1] o1].
      destruct (Par.p_compile st_eqb cfgc sh Relaxed n (Par.p_lb sh)) as [[[sb i2] m2] o2].
      destruct Hc as (<- & <- & C). split; [|reflexivity].
      destruct o1; apply prel_set_worker; try exact Hw; constructor. exact C.
    - (* PUpdate2 *)
      split; [|reflexivity]. rewrite !w_maybe_update_best, (maybe_update_best_rel sh i1 m1 i2 m2 H).
      pose proof (oc_is_exact _ _ _ _ H eq_refl) as X. cbn [fst snd] in X. rewrite X.
      destruct (dd_is_exact m2); apply prel_set_worker; try exact Hw; constructor. exact H.
    - (* PEnqueue *)
      split; [|reflexivity].
      change (Par.p_enqueue_cutset st_eqb cfgc) with (Par.p_enqueue_cutset st_eqb cfg).
      rewrite !w_enqueue_cutset.
      assert (E : Par.p_enqueue_cutset st_eqb cfg sh i1 m1 (sp_ub n) = Par.p_enqueue_cutset st_eqb cfg sh i2 m2 (sp_ub n)).
      { pose proof (oc_cutset _ _ _ _ H eq_refl) as D. cbn [fst snd] in D. unfold Par.p_enqueue_cutset. rewrite D. reflexivity. }
      rewrite E. apply prel_set_worker; [exact Hw|constructor].
    - (* PAbort *)
      change (Par.pf_pop st_eqb cfgc) with (Par.pf_pop st_eqb cfg).
      change (Par.p_upper_bounds (wk sh ws1)) with (Par.p_upper_bounds sh). change (Par.p_upper_bounds (wk sh ws2)) with (Par.p_upper_bounds sh).
      change (Par.p_lb (wk sh ws1)) with (Par.p_lb sh). change (Par.p_lb (wk sh ws2)) with (Par.p_lb sh).
      rewrite !w_pf_pop. destruct (Par.pf_pop st_eqb cfg sh) as [s' top]. cbn [fst snd].
      split; [|reflexivity]. rewrite !set_worker_wk.
      pnorm. apply prel_mk. apply wrel_upd; [exact Hw|constructor].
    - (* PNotify *)
      change (Par.p_ongoing (wk sh ws1)) with (Par.p_ongoing sh). change (Par.p_ongoing (wk sh ws2)) with (Par.p_ongoing sh).
      change (Par.p_ongoing_by_layer (wk sh ws1)) with (Par.p_ongoing_by_layer sh).
      change (Par.p_ongoing_by_layer (wk sh ws2)) with (Par.p_ongoing_by_layer sh).
      change (Par.p_upper_bounds (wk sh ws1)) with (Par.p_upper_bounds sh). change (Par.p_upper_bounds (wk sh ws2)) with (Par.p_upper_bounds sh).
      destruct (Par.p_ongoing sh) as [|k]; [|destruct (nth_error (Par.p_ongoing_by_layer sh) (sp_depth n)) as [[|j]|];
        [| destruct (nth_error (Par.p_upper_bounds sh) w) |]];
        (split; [|reflexivity]); rewrite ?w_crashed; try (apply prel_set_worker; [exact Hw|constructor]).
      rewrite !set_worker_wk. pnorm. apply prel_mk. apply wrel_upd; [apply wrel_wake; exact Hw|destruct b; constructor].
  Qed.

  Lemma pc_rel_enabled p q : pc_rel p q ->
    match p with Par.PParked | Par.PExited => false | _ => true end =
    match q with Par.PParked | Par.PExited => false | _ => true end.
  Proof. intros []; reflexivity. Qed.

  Lemma prel_enabled s1 s2 : prel s1 s2 -> Par.enabled s1 = Par.enabled s2.
  Proof.
    intros [sh ws1 ws2 Hw]. unfold Par.enabled.
    change (Par.p_workers (wk sh ws1)) with ws1. change (Par.p_workers (wk sh ws2)) with ws2.
    rewrite (wrel_length _ _ Hw). apply filter_ext. intros w.
    pose proof (wrel_nth ws1 ws2 w Hw) as Hn.
    destruct (nth_error ws1 w) as [p|], (nth_error ws2 w) as [q|]; try contradiction; [|reflexivity].
    destruct Hn; reflexivity.
  Qed.
  Lemma prel_all_exited s1 s2 : prel s1 s2 -> Par.all_exited s1 = Par.all_exited s2.
  Proof.
    intros [sh ws1 ws2 Hw]. unfold Par.all_exited.
    change (Par.p_workers (wk sh ws1)) with ws1. change (Par.p_workers (wk sh ws2)) with ws2.
    induction Hw as [|p q l1 l2 Hpq _ IH]; [reflexivity|]. cbn [forallb]. rewrite IH. destruct Hpq; reflexivity.
  Qed.

  Lemma par_run_sim : forall fuel s1 s2 sched last trace, prel s1 s2 ->
    match Par.par_run st_eqb cfg fuel s1 sched last trace, Par.par_run st_eqb cfgc fuel s2 sched last trace with
    | (a, t1, e1), (b, t2, e2) => prel a b /\ t1 = t2 /\ e1 = e2
    end.
  Proof.
    induction fuel as [|fuel IH]; intros s1 s2 sched last trace H; cbn [Par.par_run]; [auto|].
    rewrite <- (prel_all_exited _ _ H), <- (prel_enabled _ _ H).
    destruct (Par.all_exited s1); [auto|].
    destruct (Par.choose (Par.enabled s1) sched last) as [[w|] rest]; [|auto].
    pose proof (par_step_sim s1 s2 w H) as Hs.
    destruct (Par.par_step st_eqb cfg s1 w) as [[a t1]|], (Par.par_step st_eqb cfgc s2 w) as [[b t2]|]; try contradiction; [|auto].
    destruct Hs as [Hab <-]. apply IH. exact Hab.
  Qed.

  Lemma wrel_repeat n : wrel (repeat Par.PGetWork n) (repeat Par.PGetWork n).
  Proof. induction n; simpl; constructor; [constructor|assumption]. Qed.

  (* the pooled parallel solver is the frontier parallel solver under every schedule *)
  Theorem par_maximize_pooled_eq fuel ctor nthreads primal sched :
    Par.par_maximize st_eqb cfg fuel ctor nthreads primal sched = Par.par_maximize st_eqb cfgc fuel ctor nthreads primal sched.
  Proof.
    unfold Par.par_maximize.
    assert (Hi : prel (Par.init_pstate st_eqb cfg ctor nthreads primal) (Par.init_pstate st_eqb cfgc ctor nthreads primal)).
    { change (Par.init_pstate st_eqb cfgc ctor nthreads primal) with (Par.init_pstate st_eqb cfg ctor nthreads primal).
      rewrite <- (wk_self (Par.init_pstate st_eqb cfg ctor nthreads primal)). apply prel_intro.
      unfold Par.init_pstate.
      destruct (match primal with Some (v, s) => if (v >? IMIN)%Z then (v, Some s) else (IMIN, None) | None => (IMIN, None) end) as [lb sol].
      destruct (if sc_nodup cfg then _ else _) as [[simple nd] crash]. cbn [Par.p_workers Par.mk]. apply wrel_repeat. }
    pose proof (par_run_sim fuel _ _ sched None [] Hi) as Hr.
    destruct (Par.par_run st_eqb cfg fuel (Par.init_pstate st_eqb cfg ctor nthreads primal) sched None []) as [[a t1] e1].
    destruct (Par.par_run st_eqb cfgc fuel (Par.init_pstate st_eqb cfgc ctor nthreads primal) sched None []) as [[b t2] e2].
    destruct Hr as ([sh ws1 ws2 _] & <- & <-). reflexivity.
  Qed.
End ParEq.


(* corollaries: the diagram-level theorems *)
Section DiagramPooled.
  Context {St : Type}.
  Variable st_eqb : St -> St -> bool.
  Hypothesis st_eqb_spec : forall a b, st_eqb a b = true <-> a = b.
  Variable inp : @cinput St.
  Local Notation pb := (ci_problem inp).
  Local Notation rlx := (ci_relax inp).
  Local Notation root := (ci_root inp).
  Local Notation N := (nb_vars (ci_problem inp)).
  Hypothesis Hpooled : ci_flavour inp = Pooled.
  Hypothesis Himp : all_impacted inp.
  Hypothesis Hnocache : ci_use_cache inp = false.
  Hypothesis Hnodom : ci_domrule inp = None.
  Hypothesis Hwidth : 1 <= ci_width inp.
  Hypothesis Hrd : sp_depth root <= N.
  Hypothesis nv_static : forall k l1 l2, next_variable pb k l1 = next_variable pb k l2.
  Hypothesis nv_some : forall k l, k < N -> exists x, next_variable pb k l = Some x.
  Hypothesis nv_none : forall k l, N <= k -> next_variable pb k l = None.
  Variable B : Z.
  Hypothesis HB : (2 * B <= IMAX)%Z.
  Hypothesis Hguard : forall ds s' v',
    frun pb (sp_depth root) (sp_state root) (sp_value root) ds = Some (s', v') -> (- B <= v' <= B)%Z.

  (* a completed pooled compilation has a completed frontier twin with the same observations *)
  Lemma pooled_twin tb tb2 c ds polls m :
    compile st_eqb inp tb tb2 c ds polls = (m, Compiled) ->
    exists mc, compile st_eqb (to_fc inp) tb tb2 c ds polls = (mc, Compiled) /\
      dd_is_exact m = dd_is_exact mc /\ dd_best_value inp m = dd_best_value (to_fc inp) mc /\
      dd_best_exact_value inp m = dd_best_exact_value (to_fc inp) mc /\
      dd_best_solution inp m = dd_best_solution (to_fc inp) mc /\
      dd_best_exact_solution inp m = dd_best_exact_solution (to_fc inp) mc /\
      drain_cutset inp m = drain_cutset (to_fc inp) mc.
  Proof.
    intros Hc.
    pose proof (pooled_is_frontier_core st_eqb st_eqb_spec inp Hpooled Himp Hwidth tb tb2 c ds polls) as [H1 _ _ _ _ H5 H6 H7 H8 H9 H10].
    rewrite Hc in *. destruct (compile st_eqb (to_fc inp) tb tb2 c ds polls) as [mc oc]. cbn [fst snd] in *. subst oc.
    exists mc. split; [reflexivity|]. repeat split; auto.
  Qed.

  Theorem C07_restricted_value_is_feasible_pooled tb tb2 c ds polls m v :
    compile st_eqb inp tb tb2 c ds polls = (m, Compiled) ->
    ci_type inp = Restricted \/ ci_type inp = Exact ->
    dd_best_value inp m = Some v ->
    exists dl s', frun pb (sp_depth root) (sp_state root) (sp_value root) dl = Some (s', v) /\
                  length dl = N - sp_depth root /\
                  dd_best_solution inp m = Some (sp_path root ++ rev dl).
  Proof.
    intros Hc Ht Hv. destruct (pooled_twin _ _ _ _ _ _ Hc) as (mc & Hcc & _ & E2 & _ & E4 & _).
    rewrite E2 in Hv. rewrite E4.
    eapply (C07_restricted_value_is_feasible st_eqb st_eqb_spec (to_fc inp)); try eassumption. right; reflexivity.
  Qed.

  Theorem C07_restricted_lower_bound_pooled tb tb2 c ds polls m v :
    compile st_eqb inp tb tb2 c ds polls = (m, Compiled) ->
    ci_type inp = Restricted \/ ci_type inp = Exact ->
    dd_best_value inp m = Some v ->
    exists o, vstar inp = Some o /\ (v <= o)%Z.
  Proof.
    intros Hc Ht Hv. destruct (pooled_twin _ _ _ _ _ _ Hc) as (mc & Hcc & _ & E2 & _).
    rewrite E2 in Hv.
    eapply (C07_restricted_lower_bound st_eqb st_eqb_spec (to_fc inp)); try eassumption. right; reflexivity.
  Qed.

  Theorem C07_best_exact_value_is_feasible_pooled tb tb2 c ds polls m v :
    compile st_eqb inp tb tb2 c ds polls = (m, Compiled) ->
    dd_best_exact_value inp m = Some v ->
    exists dl s', frun pb (sp_depth root) (sp_state root) (sp_value root) dl = Some (s', v) /\
                  length dl = N - sp_depth root /\
                  dd_best_exact_solution inp m = Some (sp_path root ++ rev dl).
  Proof.
    intros Hc Hv. destruct (pooled_twin _ _ _ _ _ _ Hc) as (mc & Hcc & _ & _ & E3 & _ & E5 & _).
    rewrite E3 in Hv. rewrite E5.
    eapply (C07_best_exact_value_is_feasible st_eqb st_eqb_spec (to_fc inp)); try eassumption. right; reflexivity.
  Qed.

  (* the simulation theorems (relaxation premises as in Diagram.SimIsize) *)
  Hypothesis Hnocut : ci_cutoff inp = 0.
  Variable cov : St -> St -> Prop.
  Hypothesis cov_refl : forall s, cov s s.
  Hypothesis cov_sim : forall s s' x v, cov s s' -> In v (domain pb x s') ->
    let d := {| d_var := x; d_val := v |} in
    In v (domain pb x s) /\ cov (transition pb s d) (transition pb s' d) /\
    (transition_cost pb s' (transition pb s' d) d <= transition_cost pb s (transition pb s d) d)%Z.
  Hypothesis merge_cov : forall L s s', In s L -> cov s s' -> cov (merge rlx L) s'.
  Hypothesis rub_adm : forall k s s' h, cov s s' -> H pb k s' = Some h -> (h <= fast_upper_bound rlx s)%Z.
  Hypothesis cost_isize : forall s d, in_isize (transition_cost pb s (transition pb s d) d).
  Hypothesis relax_isize : forall src dst mg d c, in_isize c -> in_isize (relax rlx src dst mg d c).
  Hypothesis relax_ge_isize : forall src dst mg d c, in_isize c -> (c <= relax rlx src dst mg d c)%Z.

  Theorem S1_relaxed_upper_bound_isize_pooled tb tb2 c ds polls m o :
    compile st_eqb inp tb tb2 c ds polls = (m, Compiled) ->
    ci_type inp = Relaxed \/ ci_type inp = Exact ->
    vstar inp = Some o -> (o > ci_best_lb inp)%Z ->
    exists b, dd_best_value inp m = Some b /\ (o <= b)%Z.
  Proof.
    intros Hc Ht Hv Hlb. destruct (pooled_twin _ _ _ _ _ _ Hc) as (mc & Hcc & _ & E2 & _). rewrite E2.
    eapply (S1_relaxed_upper_bound_isize st_eqb st_eqb_spec (to_fc inp)); try eassumption. right; reflexivity.
  Qed.

  Theorem S2_exact_truthful_isize_pooled tb tb2 c ds polls m o :
    compile st_eqb inp tb tb2 c ds polls = (m, Compiled) ->
    dd_is_exact m = true -> vstar inp = Some o -> (o > ci_best_lb inp)%Z ->
    dd_best_exact_value inp m = Some o.
  Proof.
    intros Hc Hex Hv Hlb. destruct (pooled_twin _ _ _ _ _ _ Hc) as (mc & Hcc & E1 & _ & E3 & _). rewrite E3. rewrite E1 in Hex.
    eapply (S2_exact_truthful_isize st_eqb st_eqb_spec (to_fc inp)); try eassumption. right; reflexivity.
  Qed.

  Theorem S2_exact_mode_isize_pooled tb tb2 c ds polls m o :
    compile st_eqb inp tb tb2 c ds polls = (m, Compiled) ->
    ci_type inp = Exact -> vstar inp = Some o -> (o > ci_best_lb inp)%Z ->
    dd_best_value inp m = Some o.
  Proof.
    intros Hc Ht Hv Hlb. destruct (pooled_twin _ _ _ _ _ _ Hc) as (mc & Hcc & _ & E2 & _). rewrite E2.
    eapply (S2_exact_mode_isize st_eqb st_eqb_spec (to_fc inp)); try eassumption. right; reflexivity.
  Qed.

  Theorem S3_cutset_ub_isize_pooled tb tb2 c ds polls m sp o :
    compile st_eqb inp tb tb2 c ds polls = (m, Compiled) ->
    ci_type inp = Relaxed -> dd_is_exact m = false ->
    In sp (drain_cutset inp m) ->
    oadd (sp_value sp) (H pb (sp_depth sp) (sp_state sp)) = Some o -> (o > ci_best_lb inp)%Z ->
    (o <= sp_ub sp)%Z.
  Proof.
    intros Hc Ht Hnex Hsp Ho Hlb.
    destruct (pooled_twin _ _ _ _ _ _ Hc) as (mc & Hcc & E1 & _ & _ & _ & _ & E6). rewrite E1 in Hnex. rewrite E6 in Hsp.
    eapply (S3_cutset_ub_isize st_eqb st_eqb_spec (to_fc inp)); try eassumption. right; reflexivity.
  Qed.

  Theorem S4_cutset_covers_isize_pooled tb tb2 c ds polls m o :
    compile st_eqb inp tb tb2 c ds polls = (m, Compiled) ->
    ci_type inp = Relaxed -> dd_is_exact m = false -> vstar inp = Some o -> (o > ci_best_lb inp)%Z ->
    (forall e, dd_best_exact_value inp m = Some e -> (e < o)%Z) ->
    exists sp, In sp (drain_cutset inp m) /\
      oadd (sp_value sp) (H pb (sp_depth sp) (sp_state sp)) = Some o /\ (o <= sp_ub sp)%Z.
  Proof.
    intros Hc Ht Hnex Hv Hlb Hbe.
    destruct (pooled_twin _ _ _ _ _ _ Hc) as (mc & Hcc & E1 & _ & E3 & _ & _ & E6).
    rewrite E1 in Hnex. rewrite E3 in Hbe. rewrite E6.
    eapply (S4_cutset_covers_isize st_eqb st_eqb_spec (to_fc inp)); try eassumption. right; reflexivity.
  Qed.
End DiagramPooled.

(* corollary: C01 for the pooled sequential solver *)
Section SolverPooled.
  Context {St : Type}.
  Variable st_eqb : St -> St -> bool.
  Hypothesis st_eqb_spec : forall a b, st_eqb a b = true <-> a = b.
  Variable cfg : @sconfig St.
  Local Notation pb := (sc_problem cfg).
  Local Notation N := (nb_vars (sc_problem cfg)).
  Hypothesis cfg_pooled : sc_flavour cfg = Pooled.
  Hypothesis cfg_imp : forall x s, is_impacted_by pb x s = true.
  Hypothesis cfg_nocache : sc_use_cache cfg = false.
  Hypothesis cfg_nodom : sc_domrule cfg = None.
  Hypothesis cfg_nodup : sc_nodup cfg = false.
  Hypothesis cfg_width : 1 <= sc_width cfg.
  Hypothesis nv_static : forall k l1 l2, next_variable pb k l1 = next_variable pb k l2.
  Hypothesis nv_some : forall k l, k < N -> exists x, next_variable pb k l = Some x.
  Hypothesis nv_none : forall k l, N <= k -> next_variable pb k l = None.
  Hypothesis Hwf : wf_relaxation cfg.
  Variable D : nat.
  Hypothesis dom_bound : forall x s, length (domain pb x s) <= D.
  Variable B : Z.
  Hypothesis HB : (2 * B <= IMAX)%Z.
  Hypothesis guard0 : forall ds s' v', frun pb 0 (init_state pb) (init_value pb) ds = Some (s', v') -> (- B <= v' <= B)%Z.
  Hypothesis cfg_nocut : sc_cutoff cfg = 0.

  Theorem C01_sequential_optimal_pooled :
    exists f0, forall fuel, f0 <= fuel ->
      let r := maximize st_eqb cfg fuel None in
      r_crash r = false /\ r_outoffuel r = false /\ r_exact r = true /\ r_value r = opt_enum pb /\
      (forall v, opt_enum pb = Some v ->
         r_lb r = v /\ r_ub r = v /\
         exists sol, r_sol r = Some (sort_by dec_var_cmp sol) /\ MddProgress.feasible pb sol v) /\
      (opt_enum pb = None -> r_sol r = None /\ r_lb r = IMIN).
  Proof.
    destruct (C01_sequential_optimal st_eqb st_eqb_spec (cfg_fc cfg) (or_intror eq_refl) cfg_nocache cfg_nodom cfg_nodup
                cfg_width nv_static nv_some nv_none Hwf D dom_bound B HB guard0 cfg_nocut) as [f0 Hf].
    exists f0. intros fuel Hfuel.
    rewrite (maximize_pooled_eq st_eqb st_eqb_spec cfg cfg_pooled cfg_imp cfg_width cfg_nocache fuel None).
    exact (Hf fuel Hfuel).
  Qed.
End SolverPooled.

(* corollary: C03 / C04 for the pooled parallel solver *)
Section ParPooled.
  Context {St : Type}.
  Variable st_eqb : St -> St -> bool.
  Hypothesis st_eqb_spec : forall a b, st_eqb a b = true <-> a = b.
  Variable cfg : @sconfig St.
  Local Notation pb := (sc_problem cfg).
  Local Notation N := (nb_vars (sc_problem cfg)).
  Hypothesis cfg_pooled : sc_flavour cfg = Pooled.
  Hypothesis cfg_imp : forall x s, is_impacted_by pb x s = true.
  Hypothesis cfg_nocache : sc_use_cache cfg = false.
  Hypothesis cfg_nodom : sc_domrule cfg = None.
  Hypothesis cfg_nodup : sc_nodup cfg = false.
  Hypothesis cfg_width : 1 <= sc_width cfg.
  Hypothesis nv_static : forall k l1 l2, next_variable pb k l1 = next_variable pb k l2.
  Hypothesis nv_some : forall k l, k < N -> exists x, next_variable pb k l = Some x.
  Hypothesis nv_none : forall k l, N <= k -> next_variable pb k l = None.
  Hypothesis Hwf : wf_relaxation cfg.
  Variable D : nat.
  Hypothesis dom_bound : forall x s, length (domain pb x s) <= D.
  Variable B : Z.
  Hypothesis HB : (2 * B <= IMAX)%Z.
  Hypothesis guard0 : forall ds s' v', frun pb 0 (init_state pb) (init_value pb) ds = Some (s', v') -> (- B <= v' <= B)%Z.
  Hypothesis cfg_nocut : sc_cutoff cfg = 0.

  Theorem C03_parallel_optimal_pooled : forall T primal fuel sched,
    1 <= T -> ParProofs.primal_okP (sfeasible pb) primal -> ParProofs.fuelP cfg (Kbound cfg D) T <= fuel ->
    let r := Par.par_maximize st_eqb cfg fuel T T primal sched in
    Par.pr_end r = Par.PFinished /\
    Par.pr_crash r = false /\ Par.pr_exact r = true /\ Par.pr_value r = opt_enum pb /\
    (forall v, opt_enum pb = Some v ->
       Par.pr_lb r = v /\ Par.pr_ub r = v /\
       exists sol, Par.pr_sol r = Some (sort_by dec_var_cmp sol) /\ sfeasible pb sol v /\ MddProgress.feasible pb sol v) /\
    (opt_enum pb = None -> Par.pr_sol r = None /\ Par.pr_lb r = IMIN).
  Proof.
    intros T primal fuel sched HT Hp Hf.
    rewrite (par_maximize_pooled_eq st_eqb st_eqb_spec cfg cfg_pooled cfg_imp cfg_width cfg_nocache fuel T T primal sched).
    exact (C03_parallel_optimal st_eqb st_eqb_spec (cfg_fc cfg) (or_intror eq_refl) cfg_nocache cfg_nodom cfg_nodup
             cfg_width nv_static nv_some nv_none Hwf D dom_bound B HB guard0 cfg_nocut T primal fuel sched HT Hp Hf).
  Qed.
End ParPooled.

(* non-vacuity *)
(* all observations of a compilation result, as one tuple (for evaluation) *)
Definition obs_tuple {St} (i : @cinput St) (r : @mdd St * outcome) :=
  (snd r, m_crash (fst r), m_polls (fst r), m_cache (fst r), m_dom (fst r), m_log (fst r),
   (dd_is_exact (fst r), dd_best_value i (fst r), dd_best_exact_value i (fst r), dd_best_solution i (fst r),
    dd_best_exact_solution i (fst r), drain_cutset i (fst r)),
   argmax_candidates i (fst r) (m_next (fst r)),
   argmax_candidates i (fst r) (filter (fun id => fl_is_exact (n_flags (get_node i (fst r) id))) (m_next (fst r)))).

(* (a) MddStruct2.kp_pb: binary counter, every state impacted by every variable; Relaxed, width 1 *)
Definition kp_run (f : flavour) (ct : comptype) (w : nat) :=
  compile Z.eqb (kp_inp f ct w) 0 0 (init_cache 3) (init_dstore 3) 0.

Example kp_all_impacted : all_impacted (kp_inp Pooled Relaxed 1).
Proof. intros x s. reflexivity. Qed.

Example kp_to_fc ct w : to_fc (kp_inp Pooled ct w) = kp_inp CleanFC ct w.
Proof. reflexivity. Qed.

(* by the theorem ... *)
Example kp_pooled_is_frontier :
  obs_eq (kp_inp Pooled Relaxed 1) (to_fc (kp_inp Pooled Relaxed 1))
    (compile Z.eqb (kp_inp Pooled Relaxed 1) 0 0 (init_cache 3) (init_dstore 3) 0)
    (compile Z.eqb (to_fc (kp_inp Pooled Relaxed 1)) 0 0 (init_cache 3) (init_dstore 3) 0).
Proof.
  refine (pooled_is_frontier Z.eqb Z.eqb_eq (kp_inp Pooled Relaxed 1) eq_refl kp_all_impacted (le_n 1) 0 0 _ _ 0 _).
  vm_compute. reflexivity.
Qed.

(* ... and by evaluation: equal observations (log included), and they are not trivial: the diagram is not
   exact, its best value is 3, its cut-set has two nodes *)
Example kp_obs_computed :
  obs_tuple (kp_inp Pooled Relaxed 1) (kp_run Pooled Relaxed 1) = obs_tuple (kp_inp CleanFC Relaxed 1) (kp_run CleanFC Relaxed 1) /\
  dd_is_exact (fst (kp_run Pooled Relaxed 1)) = false /\
  dd_best_value (kp_inp Pooled Relaxed 1) (fst (kp_run Pooled Relaxed 1)) = Some 3%Z /\
  length (drain_cutset (kp_inp Pooled Relaxed 1) (fst (kp_run Pooled Relaxed 1))) = 2 /\
  length (m_log (fst (kp_run Pooled Relaxed 1))) = 45.
Proof. vm_compute. repeat split; reflexivity. Qed.

Example kp_obs_computed_other : forall ct w, In ct [Exact; Restricted; Relaxed] -> In w [1; 2; 3] ->
  obs_tuple (kp_inp Pooled ct w) (kp_run Pooled ct w) = obs_tuple (kp_inp CleanFC ct w) (kp_run CleanFC ct w).
Proof.
  intros ct w Hct Hw.
  destruct Hct as [<-|[<-|[<-|[]]]]; destruct Hw as [<-|[<-|[<-|[]]]]; vm_compute; reflexivity.
Qed.

(* (b) a 4-item knapsack (capacity 5, weights 2 3 4 1, profits 3 4 5 2): state = remaining capacity, every state
   declared impacted by every variable; the pooled sequential solver (width 1) explores 4 sub-problems, compiles 7
   diagrams and returns the optimum 7; it is the frontier solver *)
Definition kq_w (x : nat) : Z := nth x [2; 3; 4; 1]%Z 0%Z.
Definition kq_p (x : nat) : Z := nth x [3; 4; 5; 2]%Z 0%Z.
Definition kq_pb : problem Z := {|
  nb_vars := 4; init_state := 5%Z; init_value := 0%Z;
  transition := fun s d => (s - d_val d * kq_w (d_var d))%Z;
  transition_cost := fun _ _ d => (d_val d * kq_p (d_var d))%Z;
  next_variable := fun depth _ => if Nat.ltb depth 4 then Some depth else None;
  domain := fun x s => if (kq_w x <=? s)%Z then [1; 0]%Z else [0%Z];
  is_impacted_by := fun _ _ => true |}.
Definition kq_rlx : relaxation Z := {|
  merge := fun l => fold_right Z.max 0%Z l;
  relax := fun _ _ _ _ c => c;
  fast_upper_bound := fun _ => 100%Z |}.
Definition kq_cfg (f : flavour) (w : nat) (cache : bool) : @sconfig Z := {|
  sc_flavour := f; sc_problem := kq_pb; sc_relax := kq_rlx; sc_ranking := Zcmp;
  sc_domcmp := fun a va b vb => cmp_then (Zcmp va vb) (Zcmp a b); sc_domrule := None; sc_width := w;
  sc_use_cache := cache; sc_nodup := false; sc_cutoff := 0 |}.

Example kq_pooled_solver_optimal :
  let r := maximize Z.eqb (kq_cfg Pooled 1 false) 100 None in
  r_value r = opt_enum kq_pb /\ r_value r = Some 7%Z /\ r_exact r = true /\ r_crash r = false /\ r_outoffuel r = false /\
  r_explored r = 4 /\ r_compiles r = 7 /\
  r_sol r = Some [{| d_var := 0; d_val := 1 |}; {| d_var := 1; d_val := 1 |}; {| d_var := 2; d_val := 0 |}; {| d_var := 3; d_val := 0 |}]%Z.
Proof. vm_compute. repeat split; reflexivity. Qed.

(* by the theorem (no cache) ... *)
Example kq_pooled_solver_is_frontier fuel :
  maximize Z.eqb (kq_cfg Pooled 1 false) fuel None = maximize Z.eqb (kq_cfg CleanFC 1 false) fuel None.
Proof.
  exact (maximize_pooled_eq Z.eqb Z.eqb_eq (kq_cfg Pooled 1 false) eq_refl (fun _ _ => eq_refl) (le_n 1) eq_refl fuel None).
Qed.
(* ... and by evaluation, with the cache too (no dead end at the bottom occurs in these runs) *)
Example kq_pooled_solver_is_frontier_cache :
  maximize Z.eqb (kq_cfg Pooled 1 true) 100 None = maximize Z.eqb (kq_cfg CleanFC 1 true) 100 None /\
  maximize Z.eqb (kq_cfg Pooled 2 true) 100 None = maximize Z.eqb (kq_cfg CleanFC 2 true) 100 None /\
  r_value (maximize Z.eqb (kq_cfg Pooled 2 true) 100 None) = Some 7%Z.
Proof. vm_compute. repeat split; reflexivity. Qed.

(* the parallel protocol model, 2 workers, some interleaving: same result record (trace included) as the frontier
   solver, optimum 7 *)
Example kq_pooled_par_solver :
  let r := Par.par_maximize Z.eqb (kq_cfg Pooled 1 false) 400 2 2 None [1; 0; 1; 1; 0; 0; 1; 0; 1; 1; 1; 0] in
  r = Par.par_maximize Z.eqb (kq_cfg CleanFC 1 false) 400 2 2 None [1; 0; 1; 1; 0; 0; 1; 0; 1; 1; 1; 0] /\
  Par.pr_end r = Par.PFinished /\ Par.pr_value r = Some 7%Z /\ Par.pr_exact r = true /\ Par.pr_crash r = false.
Proof. vm_compute. repeat split; reflexivity. Qed.
Example kq_pooled_par_solver_is_frontier fuel T sched :
  Par.par_maximize Z.eqb (kq_cfg Pooled 1 false) fuel T T None sched =
  Par.par_maximize Z.eqb (kq_cfg CleanFC 1 false) fuel T T None sched.
Proof.
  exact (par_maximize_pooled_eq Z.eqb Z.eqb_eq (kq_cfg Pooled 1 false) eq_refl (fun _ _ => eq_refl) (le_n 1) eq_refl fuel T T None sched).
Qed.

(* (c) the premise all_impacted cannot be dropped: MddStruct2.kp_pb' (4 variables, variable 1 impacts nothing):
   the pooled diagram carries the pool over variable 1 (long arcs): one decision less, another best value, cut-set
   nodes of another depth *)
Definition kp_run' (f : flavour) := compile Z.eqb (kp_inp' f 1) 0 0 (init_cache 4) (init_dstore 4) 0.
Example kp_premise_needed_obs :
  dd_best_value (kp_inp' Pooled 1) (fst (kp_run' Pooled)) = Some 3%Z /\
  dd_best_value (kp_inp' CleanFC 1) (fst (kp_run' CleanFC)) = Some 4%Z /\
  map (@sp_depth Z) (drain_cutset (kp_inp' Pooled 1) (fst (kp_run' Pooled))) = [2; 2] /\
  map (@sp_depth Z) (drain_cutset (kp_inp' CleanFC 1) (fst (kp_run' CleanFC))) = [1; 1] /\
  ~ obs_core_eq (kp_inp' Pooled 1) (kp_inp' CleanFC 1) (kp_run' Pooled) (kp_run' CleanFC).
Proof.
  assert (H1 : dd_best_value (kp_inp' Pooled 1) (fst (kp_run' Pooled)) = Some 3%Z) by (vm_compute; reflexivity).
  assert (H2 : dd_best_value (kp_inp' CleanFC 1) (fst (kp_run' CleanFC)) = Some 4%Z) by (vm_compute; reflexivity).
  split; [exact H1|]. split; [exact H2|]. split; [vm_compute; reflexivity|]. split; [vm_compute; reflexivity|].
  intros [_ _ _ _ _ _ Hv _ _ _ _].
  assert (Hc : snd (kp_run' CleanFC) = Compiled) by (vm_compute; reflexivity).
  specialize (Hv Hc). rewrite H1, H2 in Hv. discriminate Hv.
Qed.

(* (d) FINDING: the dead end at the bottom.  Binary counter on two variables, nothing can be decided for the third
   (empty domains), width 1, best_lb 0: the third layer is squashed, its merged node has no child, next_variable answers
   None on the empty layer.  pooled.rs records the empty layer and initialises the local bounds from it (nothing), clean.rs
   does not record it and initialises them from the last NON-empty layer: the thresholds of the two cut-set nodes and of
   the root differ (IMAX, IMAX, IMAX - 1 against 0, 1, 0), hence the cache left to the next compilation and the call log
   differ.  Every other observation coincides (pooled_is_frontier_core). *)
Definition de_pb : problem Z := {|
  nb_vars := 3; init_state := 0%Z; init_value := 0%Z;
  transition := fun s d => (2 * s + d_val d)%Z;
  transition_cost := fun _ _ d => d_val d;
  next_variable := fun depth _ => if Nat.ltb depth 3 then Some depth else None;
  domain := fun x _ => if Nat.ltb x 2 then [0; 1]%Z else [];
  is_impacted_by := fun _ _ => true |}.
Definition de_inp (f : flavour) (cache : bool) : @cinput Z := {|
  ci_flavour := f; ci_type := Relaxed; ci_problem := de_pb; ci_relax := kp_rlx;
  ci_ranking := Zcmp; ci_domcmp := fun a va b vb => cmp_then (Zcmp va vb) (Zcmp a b);
  ci_width := 1;
  ci_root := {| sp_state := 0%Z; sp_value := 0%Z; sp_path := []; sp_ub := IMAX; sp_depth := 0 |};
  ci_best_lb := 0%Z; ci_use_cache := cache; ci_domrule := None; ci_cutoff := 0 |}.
Definition de_run (f : flavour) (cache : bool) := compile Z.eqb (de_inp f cache) 0 0 (init_cache 3) (init_dstore 3) 0.

Example dead_end_finding :
  all_impacted (de_inp Pooled true) /\
  dead_end_diff (de_inp CleanFC true) (de_run CleanFC true) = true /\
  m_cache (fst (de_run Pooled true)) =
    [[(0, {| th_value := IMAX - 1; th_explored := true |})];
     [(0, {| th_value := IMAX; th_explored := false |}); (1, {| th_value := IMAX; th_explored := false |})]; []; []]%Z /\
  m_cache (fst (de_run CleanFC true)) =
    [[(0, {| th_value := 0; th_explored := true |})];
     [(0, {| th_value := 0; th_explored := false |}); (1, {| th_value := 1; th_explored := false |})]; []; []]%Z /\
  m_layers (fst (de_run Pooled true)) = [[0]; [1; 2]; [3; 4; 5; 6; 7]; []] /\
  m_layers (fst (de_run CleanFC true)) = [[0]; [1; 2]; [3; 4; 5; 6; 7]] /\
  firstn 3 (m_log (fst (de_run Pooled false))) =
    [EvCacheUpd 0 0 (IMAX - 1) true; EvCacheUpd 1 1 IMAX false; EvCacheUpd 0 1 IMAX false]%Z /\
  firstn 3 (m_log (fst (de_run CleanFC false))) =
    [EvCacheUpd 0 0 0 true; EvCacheUpd 1 1 1 false; EvCacheUpd 0 1 0 false]%Z /\
  ~ obs_eq (de_inp Pooled true) (de_inp CleanFC true) (de_run Pooled true) (de_run CleanFC true) /\
  obs_core_eq (de_inp Pooled true) (to_fc (de_inp Pooled true))
    (compile Z.eqb (de_inp Pooled true) 0 0 (init_cache 3) (init_dstore 3) 0)
    (compile Z.eqb (to_fc (de_inp Pooled true)) 0 0 (init_cache 3) (init_dstore 3) 0).
Proof.
  split; [intros x s; reflexivity|].
  split; [vm_compute; reflexivity|].
  assert (C1 : m_cache (fst (de_run Pooled true)) =
    [[(0, {| th_value := IMAX - 1; th_explored := true |})];
     [(0, {| th_value := IMAX; th_explored := false |}); (1, {| th_value := IMAX; th_explored := false |})]; []; []]%Z)
    by (vm_compute; reflexivity).
  assert (C2 : m_cache (fst (de_run CleanFC true)) =
    [[(0, {| th_value := 0; th_explored := true |})];
     [(0, {| th_value := 0; th_explored := false |}); (1, {| th_value := 1; th_explored := false |})]; []; []]%Z)
    by (vm_compute; reflexivity).
  split; [exact C1|]. split; [exact C2|].
  split; [vm_compute; reflexivity|]. split; [vm_compute; reflexivity|].
  split; [vm_compute; reflexivity|]. split; [vm_compute; reflexivity|].
  split.
  - intros [_ _ Hc _]. rewrite C1, C2 in Hc. discriminate Hc.
  - refine (pooled_is_frontier_core Z.eqb Z.eqb_eq (de_inp Pooled true) eq_refl (fun _ _ => eq_refl) (le_n 1) 0 0 _ _ 0).
Qed.

(* Summary
   to_fc inp            = inp with ci_flavour := CleanFC;   cfg_fc cfg = cfg with sc_flavour := CleanFC.
   all_impacted inp     = forall x s, is_impacted_by (ci_problem inp) x s = true.

   Premises of the equivalence: st_eqb decides equality, ci_flavour inp = Pooled, all_impacted inp, 1 <= ci_width inp.
   No premise on the variable order, on the root depth, on the cache, on the dominance rule, on the cutoff.
   (1 <= width: with width 0 a Relaxed squash "crashes" without creating a merged node; then the clean flavour computes
   local bounds although the frontier cut-set is empty and the two node tables differ.)

   pooled_is_frontier_core     obs_core_eq: outcome, m_polls, m_dom, the two tie-break candidate lists
                               (argmax_candidates over m_next, resp. over its exact members) always; for a Compiled
                               outcome dd_is_exact, dd_best_value, dd_best_exact_value, dd_best_solution,
                               dd_best_exact_solution, drain_cutset (equal LISTS, same order).
   pooled_is_frontier          obs_eq = obs_core_eq + m_crash + m_cache + m_log (equal lists), provided
                               dead_end_diff (to_fc inp) (frontier result) = false.
   pooled_is_frontier_nocache  ci_use_cache inp = false: m_crash and m_cache coincide whatever happens.
   pooled_is_frontier_not_relaxed / pooled_is_frontier_live: obs_eq for Restricted and Exact compilations, and whenever the
                               compilation ends with a non-empty last layer (some terminal node exists).
   FINDING (dead_end_finding, by vm_compute): dead_end_diff = Relaxed /\ some layer was squashed /\ the last
   next_variable call answered None while the next layer was empty.  Then pooled.rs has recorded the empty layer and
   initialises the local bounds from it (nothing is marked), clean.rs initialises them from the last non-empty layer;
   the thresholds differ, so do the cache updates (m_cache, EvCacheUpd events of m_log).  Everything else coincides
   (both diagrams have no terminal node: no best value, empty drained cut-set).
   Not observed (internal): m_nodes / m_edges / m_layers / m_cutset / m_best .. themselves.  Outside the dead end they
   coincide too (the proof shows  pooled diagram = retag frontier_diagram None is_exact 0 layers, i.e. equality of all
   fields but m_lel, m_layer_end); the recorded layer LISTS differ by the trailing [] in the dead end only (Viz).
   For a CutoffOccurred / OutOfFuel outcome m_is_exact differs (pooled has already cleared it at the first squash, clean
   derives it from m_lel in _finalize): dd_is_exact is compared for Compiled outcomes only, as the solvers read it.

   Method: retag m lel ex le ly replaces the four fields in which the flavours differ; every function of the layer
   loop and of _finalize other than note_squash / the two _move_to_next_layer / _finalize_layers / _finalize_exact /
   _finalize_cutset / the go-condition of _compute_local_bounds commutes with retag (the lemmas named r_xxx), and is the same
   function for both flavours (the equations inc_xxx).  R mc is the pooled state that corresponds to the frontier state
   mc; the X_sim lemmas say  X inp (R m) = R (X inc m).  The loop is walked one iteration at a time (loop_body):
   body_sim is the simulation of one iteration, LInv_body the invariant of the frontier side (MddExact's Dinv / Xinv /
   next_depth, the open layer is the index range [m_layer_end, |nodes|), Kinv, NoCut); loop_sim and K_loop are the
   inductions over the fuel.
   fin_tail_sim: through _finalize; the go-conditions of _compute_local_bounds agree because a squashed Relaxed
   diagram has a non-empty frontier cut-set (K_loop, relax_body_merged, CutRdy_nonempty: the merged node of the first
   squash is inexact, recorded in a layer, and has an inbound edge from an exact node; no node carries the cut-set
   flag before _finalize_cutset: NoCut).

   Corollaries (premises of the clean originals, with Pooled + all_impacted instead of the clean flavour):
     C07_restricted_value_is_feasible_pooled, C07_restricted_lower_bound_pooled, C07_best_exact_value_is_feasible_pooled,
     S1_relaxed_upper_bound_isize_pooled, S2_exact_truthful_isize_pooled, S2_exact_mode_isize_pooled,
     S3_cutset_ub_isize_pooled, S4_cutset_covers_isize_pooled,
     maximize_pooled_eq (sc_use_cache = false: Solver.maximize with flavour Pooled = with flavour CleanFC, equal sresult
     records), C01_sequential_optimal_pooled;
     par_maximize_pooled_eq (the same for the parallel protocol model Par.par_maximize, every schedule, every thread
     count: equal presult records, trace included; proof: simulation [prel] = same shared state, worker tables related
     pointwise, a worker holding a compiled diagram is related to a worker holding a diagram with the same core
     observations), C03_parallel_optimal_pooled (termination + optimality, i.e. C03 + C04).
   Non-vacuity: kp_pooled_is_frontier / kp_obs_computed (MddStruct2.kp_pb, Relaxed width 1), kq_pooled_solver_optimal
   (a 4-item knapsack: 4 explored sub-problems, 7 compilations, optimum 7), kp_premise_needed_obs (without
   all_impacted the flavours differ: best value 3 against 4). *)
Check @to_fc.
Check @all_impacted.
Check @obs_core_eq.
Check @obs_eq.
Check @dead_end_diff.
Check @pooled_is_frontier_core.
Check @pooled_is_frontier.
Check @pooled_is_frontier_nocache.
Check @pooled_is_frontier_not_relaxed.
Check @pooled_is_frontier_live.
Check @maximize_pooled_eq.
Check @C01_sequential_optimal_pooled.
Check @par_maximize_pooled_eq.
Check @C03_parallel_optimal_pooled.
Check @S1_relaxed_upper_bound_isize_pooled.
Check @S2_exact_truthful_isize_pooled.
Check @S2_exact_mode_isize_pooled.
Check @S3_cutset_ub_isize_pooled.
Check @S4_cutset_covers_isize_pooled.
Check @C07_restricted_value_is_feasible_pooled.
Check @C07_restricted_lower_bound_pooled.
Check @C07_best_exact_value_is_feasible_pooled.
Print Assumptions pooled_is_frontier_core.
Print Assumptions pooled_is_frontier.
Print Assumptions pooled_is_frontier_nocache.
Print Assumptions pooled_is_frontier_not_relaxed.
Print Assumptions pooled_is_frontier_live.
Print Assumptions maximize_pooled_eq.
Print Assumptions C01_sequential_optimal_pooled.
Print Assumptions par_maximize_pooled_eq.
Print Assumptions C03_parallel_optimal_pooled.
Print Assumptions kq_pooled_par_solver.
Print Assumptions kq_pooled_par_solver_is_frontier.
Print Assumptions S1_relaxed_upper_bound_isize_pooled.
Print Assumptions S2_exact_truthful_isize_pooled.
Print Assumptions S2_exact_mode_isize_pooled.
Print Assumptions S3_cutset_ub_isize_pooled.
Print Assumptions S4_cutset_covers_isize_pooled.
Print Assumptions C07_restricted_value_is_feasible_pooled.
Print Assumptions C07_restricted_lower_bound_pooled.
Print Assumptions C07_best_exact_value_is_feasible_pooled.
Print Assumptions kp_pooled_is_frontier.
Print Assumptions kp_obs_computed.
Print Assumptions kp_obs_computed_other.
Print Assumptions kq_pooled_solver_optimal.
Print Assumptions kq_pooled_solver_is_frontier.
Print Assumptions kq_pooled_solver_is_frontier_cache.
Print Assumptions kp_premise_needed_obs.
Print Assumptions dead_end_finding.
