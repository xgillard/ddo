(* CacheSearch.v — C09, search level: the SEQUENTIAL solver with the threshold cache ON returns the optimum.

   Part I   (sections 1-4)   the solver: invariant of the search (value-based: Wit / ComplC / CacheInv), the solver theorem
                             from the per-compilation contracts KC0..KCW (seq_cache_solver_correct), an executable audit of
                             the invariant and of the contracts' conclusions, the packaged contracts KC_struct / KC_cache,
                             C09_from_contracts.
   Part II  (sections 5-7)   the contracts for Mdd.compile started from ANY cache with a layer per depth:
                             progress (KC_struct_holds); the semantic part is Thresholds.v sections 2 and 4-7 (loop invariant
                             TIc / FSc with nodes dropped by the cache, static argument GA / GB with runs lost to old entries,
                             bridgeC, C_root_run, C_ub_run, C_cache_run, C_exact_best); and the twin
                             "a restricted compilation that never restricts is the relaxed one" (restricted_exact_twin).
   Part III (sections 8-11)  KC_cache_holds, C09_sequential_cache_optimal, C09_cache_does_not_change_the_answer,
                             the table family (C09_table_instances) and an instance on which the cache prunes (the c9_ examples).

   Hypotheses of C09_sequential_cache_optimal = those of Assembly.C01_sequential_optimal with sc_use_cache cfg = true and the
   arithmetic guard strengthened from 2*B <= IMAX to 3*B <= IMAX (a threshold below IMIN + 2B says nothing; the state of a
   cache entry is reached by a feasible run of value >= -B, which bounds a critical threshold from below by -B). *)
Require Import DDO.Base DDO.Fringe DDO.DP DDO.Cache DDO.Dom DDO.Mdd DDO.MddStruct DDO.MddExact DDO.Solver DDO.SolverProofs.
Require Import DDO.MddProgress DDO.MddSim DDO.Assembly DDO.Table DDO.Run DDO.TableWf DDO.Thresholds.
From Coq Require Import Lia List Arith ZArith Bool Permutation.
Import ListNotations.
Local Open Scope Z_scope.

(* ================================================================== 1. the cache, seen through [cget] *)
Section CacheFacts.
  Context {St : Type}.
  Variable eqb : St -> St -> bool.
  Hypothesis eqb_spec : forall a b, eqb a b = true <-> a = b.

  (* the threshold currently recorded for (state s0, depth d) *)
  Definition entry (c : @cache St) (d : nat) (s0 : St) (th : threshold) : Prop := cget eqb c s0 d = Some th.

  Lemma entry_fun c d s0 th th' : entry c d s0 th -> entry c d s0 th' -> th = th'.
  Proof. unfold entry. intros H1 H2. congruence. Qed.

  Lemma entry_clear_layer c d c' d' s0 th :
    clear_layer c d = Some c' -> entry c' d' s0 th -> entry c d' s0 th.
  Proof.
    unfold clear_layer, entry, cget. destruct (nth_error c d) as [l0|] eqn:E; [|discriminate].
    intros [= <-].
    destruct (Nat.eq_dec d d') as [->|Hne].
    - rewrite (nth_error_upd_nth_same _ _ _ _ E). simpl. discriminate.
    - rewrite nth_error_upd_nth_other by exact Hne. auto.
  Qed.

  Lemma clear_layer_length (c : @cache St) d c' : clear_layer c d = Some c' -> length c' = length c.
  Proof.
    unfold clear_layer. destruct (nth_error c d); [|discriminate]. intros H; inversion H. apply upd_nth_length.
  Qed.

  Lemma clear_layer_some (c : @cache St) d : (d < length c)%nat -> exists c', clear_layer c d = Some c'.
  Proof.
    intros H. unfold clear_layer. destruct (nth_error c d) eqn:E; [eauto|]. apply nth_error_None in E. lia.
  Qed.

  Lemma must_explore_some c s d v : (d < length c)%nat -> exists b, must_explore eqb c s d v = Some b.
  Proof.
    intros H. unfold must_explore, get_threshold. destruct (nth_error c d) eqn:E; [simpl; eauto|].
    apply nth_error_None in E. lia.
  Qed.

  Lemma must_explore_false c s d v : must_explore eqb c s d v = Some false ->
    exists th, entry c d s th /\ must_explore_th (Some th) v = false.
  Proof.
    unfold must_explore, get_threshold, entry, cget. destruct (nth_error c d) as [l|]; [|discriminate].
    simpl. destruct (lget eqb l s) as [th|]; simpl; intros H; [|discriminate].
    exists th. split; [reflexivity|]. inversion H. reflexivity.
  Qed.

  Lemma must_explore_th_false th v : must_explore_th (Some th) v = false -> v <= th_value th.
  Proof.
    simpl. intros H. apply orb_false_iff in H. destruct H as [H _].
    rewrite Z.gtb_ltb in H. apply Z.ltb_ge in H. exact H.
  Qed.

  Lemma lget_In (l : @layer St) s th : lget eqb l s = Some th -> In (s, th) l.
  Proof.
    induction l as [|[k t] l IH]; simpl; [discriminate|].
    destruct (eqb k s) eqn:E.
    - intros H; inversion H; subst. apply eqb_spec in E. subst. left; reflexivity.
    - intros H. right. apply IH; exact H.
  Qed.

  Lemma entry_In c d s0 th : entry c d s0 th -> exists l, nth_error c d = Some l /\ In (s0, th) l.
  Proof.
    unfold entry, cget. destruct (nth_error c d) as [l|]; [|discriminate]. intros H. exists l. split; [reflexivity|].
    apply lget_In; exact H.
  Qed.
End CacheFacts.

(* ================================================================== 2. the solver-level argument, from per-compilation contracts *)
Section CacheSolver.
  Context {St : Type}.
  Variable st_eqb : St -> St -> bool.
  Hypothesis st_eqb_spec : forall a b, st_eqb a b = true <-> a = b.
  Variable cfg : @sconfig St.
  Let pb := sc_problem cfg.
  Let N := nb_vars pb.

  Hypothesis cfg_cache : sc_use_cache cfg = true.
  Hypothesis cfg_nodup : sc_nodup cfg = false.

  (* ---------------- abstract semantics (as in SolverProofs.v; [best] is the concrete value + Bellman value) *)
  Variable good : @subproblem St -> Prop.
  Variable feasible : list decision -> Z -> Prop.
  Notation best := (MddSim.best cfg).
  Notation OPT := (SolverProofs.OPT cfg (MddSim.best cfg)).
  Notation entry := (entry st_eqb).

  Hypothesis good_root : good (root_node cfg).
  Hypothesis feasible_le_opt : forall sol v, feasible sol v -> exists o, OPT = Some o /\ v <= o.
  Hypothesis opt_in_isize : forall o, OPT = Some o -> IMIN < o <= IMAX.
  Hypothesis best_le_opt : forall n v o, good n -> best n = Some v -> OPT = Some o -> v <= o.
  Hypothesis good_set_ub : forall c u, good c -> good (set_ub c u).

  Lemma best_set_ub (c : @subproblem St) u : best (set_ub c u) = best c.
  Proof. reflexivity. Qed.

  (* ---------------- the vocabulary of the contracts *)
  (* the entry (s0, d) -> t is CRITICAL for the value o: arriving in s0 at depth d with value t could still reach o *)
  Definition crit (o : Z) (d : nat) (s0 : St) (t : Z) : Prop := exists h, H pb d s0 = Some h /\ o <= t + h.
  Definition antitone (P : nat -> Prop) : Prop := forall d d', (d' <= d)%nat -> P d -> P d'.
  (* the cache c is sound below depth k w.r.t. the value o: every critical entry deeper than k is vouched for by P *)
  Definition CS (k : nat) (c : @cache St) (o : Z) (P : nat -> Prop) : Prop :=
    forall d s0 th, (k < d)%nat -> entry c d s0 th -> crit o d s0 (th_value th) -> P d.

  Variable M : nat.

  Hypothesis KC0 : forall ct n lb c ds polls m out,
    dd_ct ct -> good n -> (sp_depth n <= N)%nat -> length c = S N ->
    compile st_eqb (mk_input cfg ct n lb) 0 0 c ds polls = (m, out) ->
    out = Compiled /\ m_crash m = false /\ length (m_cache m) = S N.
  Hypothesis KC1 : forall ct n lb c ds polls m out,
    dd_ct ct -> good n -> (sp_depth n <= N)%nat -> length c = S N ->
    compile st_eqb (mk_input cfg ct n lb) 0 0 c ds polls = (m, out) ->
    forall v, dd_best_exact_value (mk_input cfg ct n lb) m = Some v ->
    exists sol, dd_best_exact_solution (mk_input cfg ct n lb) m = Some sol /\ feasible sol v.
  Hypothesis KC2 : forall ct n lb c ds polls m out,
    dd_ct ct -> good n -> (sp_depth n <= N)%nat -> length c = S N ->
    compile st_eqb (mk_input cfg ct n lb) 0 0 c ds polls = (m, out) ->
    dd_is_exact m = true ->
    forall o P, OPT = Some o -> antitone P -> best n = Some o -> o > lb -> CS (sp_depth n) c o P ->
    (exists e, dd_best_exact_value (mk_input cfg ct n lb) m = Some e /\ o <= e) \/ P (S (sp_depth n)).
  Hypothesis KC3_good : forall n lb c ds polls m out,
    good n -> (sp_depth n <= N)%nat -> length c = S N ->
    compile st_eqb (mk_input cfg Relaxed n lb) 0 0 c ds polls = (m, out) ->
    dd_is_exact m = false ->
    forall x, In x (drain_cutset (mk_input cfg Relaxed n lb) m) -> good x.
  Hypothesis KC3_depth : forall n lb c ds polls m out,
    good n -> (sp_depth n <= N)%nat -> length c = S N ->
    compile st_eqb (mk_input cfg Relaxed n lb) 0 0 c ds polls = (m, out) ->
    dd_is_exact m = false ->
    forall x, In x (drain_cutset (mk_input cfg Relaxed n lb) m) -> (sp_depth n < sp_depth x <= N)%nat.
  Hypothesis KC3_ub : forall n lb c ds polls m out,
    good n -> (sp_depth n <= N)%nat -> length c = S N ->
    compile st_eqb (mk_input cfg Relaxed n lb) 0 0 c ds polls = (m, out) ->
    dd_is_exact m = false ->
    forall x, In x (drain_cutset (mk_input cfg Relaxed n lb) m) ->
    forall o P, OPT = Some o -> antitone P -> best x = Some o -> o > lb -> CS (sp_depth n) c o P ->
    o <= sp_ub x \/ P (S (sp_depth x)).
  Hypothesis KC4 : forall n lb c ds polls m out,
    good n -> (sp_depth n <= N)%nat -> length c = S N ->
    compile st_eqb (mk_input cfg Relaxed n lb) 0 0 c ds polls = (m, out) ->
    dd_is_exact m = false ->
    forall o P, OPT = Some o -> antitone P -> best n = Some o -> o > lb -> CS (sp_depth n) c o P ->
    (exists e, dd_best_exact_value (mk_input cfg Relaxed n lb) m = Some e /\ o <= e) \/
    (exists x ox, In x (drain_cutset (mk_input cfg Relaxed n lb) m) /\ best x = Some ox /\ o <= ox) \/
    P (S (sp_depth n)).
  Hypothesis KC5 : forall n lb c ds polls m out,
    good n -> (sp_depth n <= N)%nat -> length c = S N ->
    compile st_eqb (mk_input cfg Relaxed n lb) 0 0 c ds polls = (m, out) ->
    dd_is_exact m = false ->
    (length (drain_cutset (mk_input cfg Relaxed n lb) m) <= M)%nat.
  (* what the compilation leaves in the cache: every critical entry is an old one, or hopeless (o <= best known), or vouched
     for by P strictly deeper, or (relaxed, inexact diagram) covered by a sub-problem of the cut-set that it does not reject *)
  Hypothesis KCW : forall ct n lb c ds polls m out,
    dd_ct ct -> good n -> (sp_depth n <= N)%nat -> length c = S N ->
    compile st_eqb (mk_input cfg ct n lb) 0 0 c ds polls = (m, out) ->
    forall o P, OPT = Some o -> antitone P -> CS (sp_depth n) c o P ->
    forall d s0 th, entry (m_cache m) d s0 th -> crit o d s0 (th_value th) ->
      entry c d s0 th \/ o <= bk_of (mk_input cfg ct n lb) m \/ P (S d) \/
      (ct = Relaxed /\ dd_is_exact m = false /\
       exists x ox, In x (drain_cutset (mk_input cfg ct n lb) m) /\ best x = Some ox /\ o <= ox /\
         ((d < sp_depth x)%nat \/
          (sp_depth x = d /\ sp_state x = s0 /\ must_explore_th (Some th) (sp_value x) = true))).

  Lemma fr_len_simpleC s : fr_len cfg s = length (s_simple s).
  Proof. unfold fr_len. rewrite cfg_nodup. reflexivity. Qed.

  Lemma fr_push_simpleC s n :
    fr_push st_eqb cfg s n =
    upd_s s (n :: s_simple s) (s_nodup s) (s_explored s) (s_open s) (s_fal s) (s_lb s) (s_ub s) (s_sol s) (s_abort s)
          (s_cache s) (s_dom s) (s_polls s) (s_crash s) (s_tie s) (s_compiles s).
  Proof. unfold fr_push. rewrite cfg_nodup. reflexivity. Qed.

  Lemma fr_pop_simpleC s :
    fr_pop st_eqb cfg s =
    match pq_pop cfg (s_simple s) with
    | None => (s, None)
    | Some (x, rest) => (upd_s s rest (s_nodup s) (s_explored s) (s_open s) (s_fal s) (s_lb s) (s_ub s) (s_sol s)
                         (s_abort s) (s_cache s) (s_dom s) (s_polls s) (s_crash s) (s_tie s) (s_compiles s), Some x)
    end.
  Proof. unfold fr_pop. rewrite cfg_nodup. reflexivity. Qed.

  (* the abstract priority queue pops an element whose upper bound is maximal (MaxUB compares sp_ub first) *)
  Lemma pq_pop_maxC l x rest : pq_pop cfg l = Some (x, rest) -> forall y, In y l -> sp_ub y <= sp_ub x.
  Proof.
    revert x rest; induction l as [|z l IH]; intros x rest Hp; [discriminate|].
    cbn [pq_pop] in Hp. destruct (pq_pop cfg l) as [[y r]|] eqn:E.
    - specialize (IH _ _ eq_refl).
      destruct (is_gt (maxub_cmp (sc_ranking cfg) z y)) eqn:G; injection Hp as <- <-; intros u [Hu|Hu]; subst.
      + lia.
      + specialize (IH _ Hu). unfold maxub_cmp, cmp_then, Zcmp in G.
        destruct (sp_ub z ?= sp_ub y) eqn:C; try discriminate.
        * apply Z.compare_eq in C. lia.
        * apply Z.compare_gt_iff in C. lia.
      + unfold maxub_cmp, cmp_then, Zcmp in G.
        destruct (sp_ub u ?= sp_ub y) eqn:C.
        * apply Z.compare_eq in C. lia.
        * assert (sp_ub u < sp_ub y) by exact C. lia.
        * discriminate.
      + apply IH. exact Hu.
    - injection Hp as <- <-. apply pq_pop_none in E. subst l. intros u [Hu|[]]. subst. lia.
  Qed.

  Notation Core := (SolverProofs.Core cfg good feasible).
  Notation wt := (SolverProofs.wt cfg M).
  Notation Phi := (SolverProofs.Phi cfg M).

  (* y is an open sub-problem that still holds the optimum o, with an upper bound that does not hide it *)
  Definition Wit (o : Z) (l : list (@subproblem St)) (y : @subproblem St) : Prop :=
    In y l /\ best y = Some o /\ o <= sp_ub y.
  Definition Below (o : Z) (l : list (@subproblem St)) (d : nat) : Prop :=
    exists y, Wit o l y /\ (d <= sp_depth y)%nat.
  (* the critical entry (s0, d) -> th is justified: a witness strictly deeper, or at the same (state, depth) and NOT rejected *)
  Definition Just (o : Z) (l : list (@subproblem St)) (d : nat) (s0 : St) (th : threshold) : Prop :=
    exists y, Wit o l y /\
      ((d < sp_depth y)%nat \/ (sp_depth y = d /\ sp_state y = s0 /\ must_explore_th (Some th) (sp_value y) = true)).

  Definition ComplC (lb : Z) (l : list (@subproblem St)) : Prop :=
    forall o, OPT = Some o -> o <= lb \/ exists y, Wit o l y.
  Definition CacheInv (c : @cache St) (lb : Z) (l : list (@subproblem St)) : Prop :=
    forall o, OPT = Some o -> lb < o ->
    forall d s0 th, entry c d s0 th -> crit o d s0 (th_value th) -> Just o l d s0 th.

  Definition InvC (s : @sstate St) : Prop :=
    Core s /\ length (s_cache s) = S N /\ ComplC (s_lb s) (s_simple s) /\ CacheInv (s_cache s) (s_lb s) (s_simple s).

  Lemma Below_antitone o l : antitone (Below o l).
  Proof. intros d d' Hle (y & Hy & Hd). exists y. split; [exact Hy|lia]. Qed.

  Lemma Below_Just o l d s0 th : Below o l (S d) -> Just o l d s0 th.
  Proof. intros (y & Hy & Hd). exists y. split; [exact Hy|left; lia]. Qed.

  Lemma Wit_incl o l l' y : incl l l' -> Wit o l y -> Wit o l' y.
  Proof. intros Hi (H1 & H2 & H3). split; [apply Hi; exact H1|auto]. Qed.

  Lemma Below_incl o l l' d : incl l l' -> Below o l d -> Below o l' d.
  Proof. intros Hi (y & Hy & Hd). exists y. split; [eapply Wit_incl; eauto|exact Hd]. Qed.

  Lemma Just_incl o l l' d s0 th : incl l l' -> Just o l d s0 th -> Just o l' d s0 th.
  Proof. intros Hi (y & Hy & Hd). exists y. split; [eapply Wit_incl; eauto|exact Hd]. Qed.

  (* the node n leaves the fringe; whatever it held is now held strictly deeper *)
  Lemma Just_transfer o l l2 n d s0 th :
    incl l l2 -> (best n = Some o -> o <= sp_ub n -> Below o l2 (S (sp_depth n))) ->
    Just o (n :: l) d s0 th -> Just o l2 d s0 th.
  Proof.
    intros Hi Hn (y & (Hy1 & Hy2 & Hy3) & Hd). destruct Hy1 as [<-|Hy1].
    - destruct (Hn Hy2 Hy3) as (y' & Hy' & Hd'). exists y'. split; [exact Hy'|]. left.
      destruct Hd as [Hd|(Hd & _)]; lia.
    - exists y. split; [split; [apply Hi; exact Hy1|auto]|exact Hd].
  Qed.

  Lemma Compl_transfer lb lb2 l l2 n :
    incl l l2 -> lb <= lb2 ->
    (forall o, OPT = Some o -> lb2 < o -> best n = Some o -> o <= sp_ub n -> Below o l2 (S (sp_depth n))) ->
    ComplC lb (n :: l) -> ComplC lb2 l2.
  Proof.
    intros Hi Hlb Hn HC o Ho. destruct (Z_le_gt_dec o lb2) as [Hle|Hgt]; [left; exact Hle|].
    destruct (HC o Ho) as [Hle|(y & (Hy1 & Hy2 & Hy3))]; [lia|]. right.
    destruct Hy1 as [<-|Hy1].
    - destruct (Hn o Ho ltac:(lia) Hy2 Hy3) as (y' & Hy' & _). exists y'. exact Hy'.
    - exists y. split; [apply Hi; exact Hy1|auto].
  Qed.

  (* the node n has been dealt with: whatever it held is held strictly deeper in the new fringe l2 (NewW), and every
     critical entry of the new cache c2 is an entry of the old one or is justified in l2 *)
  Lemma node_done lb lb2 l l2 n c c2 :
    incl l l2 -> lb <= lb2 ->
    (forall o, OPT = Some o -> lb2 < o -> best n = Some o -> o <= sp_ub n -> Below o l2 (S (sp_depth n))) ->
    (forall o, OPT = Some o -> lb2 < o -> forall d s0 th, entry c2 d s0 th -> crit o d s0 (th_value th) ->
       entry c d s0 th \/ Just o l2 d s0 th) ->
    ComplC lb (n :: l) -> CacheInv c lb (n :: l) -> ComplC lb2 l2 /\ CacheInv c2 lb2 l2.
  Proof.
    intros Hi Hlb NewW HJ HCompl HCI. split; [exact (Compl_transfer lb lb2 l l2 n Hi Hlb NewW HCompl)|].
    intros o Ho Hlt d s0 th He Hc. destruct (HJ o Ho Hlt d s0 th He Hc) as [H1|H1]; [|exact H1].
    apply (Just_transfer o l l2 n d s0 th Hi (NewW o Ho Hlt)). exact (HCI o Ho ltac:(lia) d s0 th H1 Hc).
  Qed.

  (* ------------------------------------------------------------------ the observable part of a state, cache included *)
  Definition viewC (s : @sstate St) :=
    (s_simple s, s_open s, s_lb s, s_sol s, s_abort s, s_crash s).

  Lemma viewC_inv s s' : viewC s' = viewC s ->
    s_simple s' = s_simple s /\ s_open s' = s_open s /\ s_lb s' = s_lb s /\ s_sol s' = s_sol s /\
    s_abort s' = s_abort s /\ s_crash s' = s_crash s.
  Proof. unfold viewC; intros H; inversion H; auto 10. Qed.

  Lemma clean_cache_loop_spec fuel : forall s,
    (forall d, (d <= N)%nat -> exists k, nth_error (s_open s) d = Some k) -> length (s_cache s) = S N ->
    viewC (clean_cache_loop cfg fuel s) = viewC s /\ length (s_cache (clean_cache_loop cfg fuel s)) = S N /\
    (forall d s0 th, entry (s_cache (clean_cache_loop cfg fuel s)) d s0 th -> entry (s_cache s) d s0 th).
  Proof.
    induction fuel as [|fuel IH]; intros s Hop Hlen; cbn [clean_cache_loop]; [auto|].
    destruct (Nat.ltb (s_fal s) (nb_vars (sc_problem cfg))) eqn:E; [|auto].
    apply Nat.ltb_lt in E. destruct (Hop (s_fal s)) as [k Hk]; [unfold N, pb; lia|].
    rewrite Hk. destruct k; [|auto]. rewrite cfg_cache.
    destruct (clear_layer_some (s_cache s) (s_fal s)) as [c' Hc']; [rewrite Hlen; unfold N, pb; lia|].
    rewrite Hc'.
    match goal with |- context [clean_cache_loop cfg fuel ?s1] => destruct (IH s1) as (I1 & I2 & I3) end.
    - exact Hop.
    - cbn [s_cache upd_s]. rewrite (clear_layer_length _ _ _ Hc'). exact Hlen.
    - split; [rewrite I1; reflexivity|]. split; [exact I2|].
      intros d s0 th He. apply I3 in He. cbn [s_cache upd_s] in He. eapply entry_clear_layer; eauto.
  Qed.

  Lemma get_workload_specC s : Core s -> length (s_cache s) = S N ->
    (s_simple s = [] /\ exists s1, get_workload st_eqb cfg s = (s1, WComplete) /\
       s_simple s1 = [] /\ s_crash s1 = false /\ s_abort s1 = false /\ s_lb s1 = s_lb s /\
       s_sol s1 = s_sol s /\ s_ub s1 = s_lb s)
    \/ (exists x rest s1, get_workload st_eqb cfg s = (s1, WItem x) /\ Permutation (s_simple s) (x :: rest) /\
         s_simple s1 = rest /\ Core s1 /\ s_lb s1 = s_lb s /\ length (s_cache s1) = S N /\
         (forall d s0 th, entry (s_cache s1) d s0 th -> entry (s_cache s) d s0 th) /\
         (forall y, In y (s_simple s) -> sp_ub y <= sp_ub x)).
  Proof.
    intros (Hcr & Hab & Hinc & Hfr & Hop) Hlen.
    unfold get_workload.
    set (sc := clean_cache_loop cfg (S (nb_vars (sc_problem cfg))) s).
    destruct (clean_cache_loop_spec (S (nb_vars (sc_problem cfg))) s) as (Hv & Hlc & Hent).
    { intros d Hd. eexists. apply Hop. exact Hd. }
    { exact Hlen. }
    fold sc in Hv, Hlc, Hent.
    apply viewC_inv in Hv. destruct Hv as (V1 & V2 & V3 & V4 & V5 & V6).
    rewrite fr_len_simpleC, V1.
    destruct (s_simple s) as [|y l] eqn:El.
    - left. split; [reflexivity|]. eexists. split; [reflexivity|].
      cbn [s_simple s_crash s_abort s_lb s_sol s_ub upd_s]. rewrite V3, V4, V5, V6. auto 10.
    - right. cbn [length Nat.eqb]. rewrite V5, Hab. rewrite fr_pop_simpleC, V1.
      destruct (pq_pop cfg (y :: l)) as [[x rest]|] eqn:Ep; [|apply pq_pop_none in Ep; discriminate].
      pose proof (pq_pop_perm _ _ _ _ Ep) as Hperm.
      assert (Hx : In x (y :: l)). { eapply Permutation_in; [apply Permutation_sym; exact Hperm|]. left; reflexivity. }
      destruct (Hfr x Hx) as [Hgx Hdx].
      cbn [s_open upd_s]. rewrite V2, (Hop _ Hdx).
      rewrite (cnt_perm _ _ _ Hperm), cnt_cons_same.
      exists x, rest. eexists. split; [reflexivity|]. split; [exact Hperm|].
      cbn [s_simple s_lb s_cache upd_s]. split; [reflexivity|].
      split; [|split; [exact V3|split; [exact Hlc|split; [exact Hent|exact (pq_pop_maxC _ _ _ Ep)]]]].
      unfold SolverProofs.Core. cbn [s_simple s_crash s_abort s_lb s_sol s_open upd_s].
      rewrite ?V2, ?V3, ?V4, ?V5, ?V6. split; [exact Hcr|]. split; [exact Hab|]. split; [exact Hinc|]. split.
      + intros n Hn. apply Hfr. eapply Permutation_in; [apply Permutation_sym; exact Hperm|]. right; exact Hn.
      + intros d Hd. destruct (Nat.eq_dec (sp_depth x) d) as [Heq|Hne].
        * subst d. erewrite nth_error_upd_nth_same; [reflexivity|]. rewrite (Hop _ Hd).
          rewrite (cnt_perm _ _ _ Hperm), cnt_cons_same. reflexivity.
        * rewrite nth_error_upd_nth_other by exact Hne. rewrite (Hop _ Hd).
          rewrite (cnt_perm _ _ _ Hperm), cnt_cons_other by exact Hne. reflexivity.
  Qed.

  (* ------------------------------------------------------------------ compilation + incumbent update *)
  Lemma run_compile_specC s ct n s' inp m o :
    run_compile st_eqb cfg s ct n = (s', inp, m, o) ->
    inp = mk_input cfg ct n (s_lb s) /\
    compile st_eqb (mk_input cfg ct n (s_lb s)) 0 0 (s_cache s) (s_dom s) (s_polls s) = (m, o) /\
    s_simple s' = s_simple s /\ s_open s' = s_open s /\ s_lb s' = s_lb s /\ s_sol s' = s_sol s /\
    s_abort s' = s_abort s /\ s_crash s' = (s_crash s || m_crash m)%bool /\ s_cache s' = m_cache m.
  Proof.
    unfold run_compile.
    destruct (compile st_eqb (mk_input cfg ct n (s_lb s)) 0 0 (s_cache s) (s_dom s) (s_polls s)) as [m0 o0] eqn:E.
    intros H; inversion H; subst. cbn [s_simple s_open s_lb s_sol s_abort s_crash s_cache upd_s]. auto 10.
  Qed.

  Lemma mub_cache (s : @sstate St) inp m : s_cache (maybe_update_best s inp m) = s_cache s.
  Proof. unfold maybe_update_best. destruct (_ >? _); reflexivity. Qed.

  Lemma bk_of_le (inp : @cinput St) (m : @mdd St) z :
    ci_best_lb inp <= z -> (forall e, dd_best_exact_value inp m = Some e -> e <= z) -> bk_of inp m <= z.
  Proof.
    intros H1 H2. unfold bk_of. unfold dd_best_exact_value in H2.
    destruct (m_best_exact m) as [be|]; [|exact H1].
    specialize (H2 _ eq_refl). lia.
  Qed.

  Lemma phaseC s ct n s' inp m o :
    Core s -> length (s_cache s) = S N -> dd_ct ct -> good n -> (sp_depth n <= N)%nat ->
    run_compile st_eqb cfg s ct n = (s', inp, m, o) ->
    o = Compiled /\ inp = mk_input cfg ct n (s_lb s) /\
    compile st_eqb (mk_input cfg ct n (s_lb s)) 0 0 (s_cache s) (s_dom s) (s_polls s) = (m, Compiled) /\
    Core (maybe_update_best s' inp m) /\ s_simple (maybe_update_best s' inp m) = s_simple s /\
    s_cache (maybe_update_best s' inp m) = m_cache m /\ length (m_cache m) = S N /\
    s_lb s <= s_lb (maybe_update_best s' inp m) /\
    (forall e, dd_best_exact_value inp m = Some e -> e <= s_lb (maybe_update_best s' inp m)) /\
    bk_of inp m <= s_lb (maybe_update_best s' inp m).
  Proof.
    intros (Hcr & Hab & Hinc & Hfr & Hop) Hlen Hct Hg Hd Hrc.
    apply run_compile_specC in Hrc. destruct Hrc as (Hinp & Hc & R1 & R2 & R3 & R4 & R5 & R6 & R7).
    destruct (KC0 _ _ _ _ _ _ _ _ Hct Hg Hd Hlen Hc) as (Ho & Hmc & Hlm). subst o.
    assert (Hlb' : IMIN <= s_lb s') by (rewrite R3; apply Hinc).
    pose proof (mub_spec cfg s' inp m Hlb') as Hm. cbv zeta in Hm.
    destruct Hm as (U1 & U2 & U3 & U4 & U5).
    split; [reflexivity|]. split; [exact Hinp|]. split; [exact Hc|].
    assert (Hcore_rest : s_crash (maybe_update_best s' inp m) = false /\ s_abort (maybe_update_best s' inp m) = false /\
              FringeOK cfg good (s_simple (maybe_update_best s' inp m)) /\
              OpenOK cfg (s_open (maybe_update_best s' inp m)) (s_simple (maybe_update_best s' inp m))).
    { rewrite U4, U3, U2, U1, R6, R5, R2, R1, Hcr, Hmc, Hab. auto. }
    destruct Hcore_rest as (C1 & C2 & C4 & C5).
    assert (Hbk : forall z, s_lb s <= z -> (forall e, dd_best_exact_value inp m = Some e -> e <= z) -> bk_of inp m <= z).
    { intros z Hz1 Hz2. apply bk_of_le; [rewrite Hinp; exact Hz1|exact Hz2]. }
    destruct U5 as [(L1 & L2 & L3) | (v & Hv & Hgt & L1 & L2)].
    - split; [|split; [rewrite U1, R1; reflexivity|split; [rewrite mub_cache; exact R7|split; [exact Hlm|]]]].
      + unfold SolverProofs.Core. rewrite L1, L2, R3, R4. auto.
      + assert (A1 : s_lb s <= s_lb (maybe_update_best s' inp m)) by (rewrite L1, R3; lia).
        assert (A2 : forall e, dd_best_exact_value inp m = Some e -> e <= s_lb (maybe_update_best s' inp m)) by (rewrite L1; exact L3).
        split; [exact A1|]. split; [exact A2|]. apply Hbk; assumption.
    - subst inp. destruct (KC1 _ _ _ _ _ _ _ _ Hct Hg Hd Hlen Hc v Hv) as (sol & Hsol & Hfeas).
      split; [|split; [rewrite U1, R1; reflexivity|split; [rewrite mub_cache; exact R7|split; [exact Hlm|]]]].
      + unfold SolverProofs.Core. split; [exact C1|]. split; [exact C2|]. split; [|split; [exact C4|exact C5]].
        rewrite L1, L2. split; [rewrite R3 in Hgt; destruct Hinc; lia|].
        right. exists sol. split; [exact Hsol|exact Hfeas].
      + assert (A1 : s_lb s <= s_lb (maybe_update_best s' (mk_input cfg ct n (s_lb s)) m)) by (rewrite L1; rewrite R3 in Hgt; lia).
        assert (A2 : forall e, dd_best_exact_value (mk_input cfg ct n (s_lb s)) m = Some e ->
                      e <= s_lb (maybe_update_best s' (mk_input cfg ct n (s_lb s)) m)).
        { intros e He. rewrite Hv in He. assert (e = v) by congruence. rewrite L1. lia. }
        split; [exact A1|]. split; [exact A2|]. apply Hbk; assumption.
  Qed.

  Notation enq_step := (SolverProofs.enq_step st_eqb cfg).

  Lemma enq_step_specC lb ub s c :
    (sp_depth c <= N)%nat -> OpenOK cfg (s_open s) (s_simple s) ->
    s_lb (enq_step lb ub s c) = s_lb s /\ s_sol (enq_step lb ub s c) = s_sol s /\
    s_abort (enq_step lb ub s c) = s_abort s /\ s_crash (enq_step lb ub s c) = s_crash s /\
    s_cache (enq_step lb ub s c) = s_cache s /\
    s_simple (enq_step lb ub s c) =
      (if Z.min ub (sp_ub c) >? lb then [set_ub c (Z.min ub (sp_ub c))] else []) ++ s_simple s /\
    OpenOK cfg (s_open (enq_step lb ub s c)) (s_simple (enq_step lb ub s c)).
  Proof.
    intros Hd Hop. unfold SolverProofs.enq_step.
    destruct (Z.min ub (sp_ub c) >? lb) eqn:E; [|cbn [app]; auto 10].
    rewrite fr_push_simpleC, !fr_len_simpleC. cbn [s_simple s_open s_lb s_sol s_abort s_crash s_cache upd_s length].
    rewrite (Hop _ Hd). cbn [s_simple s_open s_lb s_sol s_abort s_crash s_cache upd_s app].
    repeat (split; [reflexivity|]).
    replace (S (length (s_simple s)) - length (s_simple s))%nat with 1%nat by lia.
    fold (set_ub c (Z.min ub (sp_ub c))).
    intros d Hd'. destruct (Nat.eq_dec (sp_depth c) d) as [Heq|Hne].
    - subst d. erewrite nth_error_upd_nth_same; [|apply Hop; exact Hd].
      change (sp_depth c) with (sp_depth (set_ub c (Z.min ub (sp_ub c)))) at 2.
      rewrite cnt_cons_same. f_equal. cbn [set_ub sp_depth]. lia.
    - rewrite nth_error_upd_nth_other by exact Hne. rewrite (Hop _ Hd').
      rewrite cnt_cons_other; [reflexivity|exact Hne].
  Qed.

  Lemma enq_fold_specC lb ub cs : forall s,
    (forall c, In c cs -> (sp_depth c <= N)%nat) -> OpenOK cfg (s_open s) (s_simple s) ->
    s_lb (fold_left (enq_step lb ub) cs s) = s_lb s /\ s_sol (fold_left (enq_step lb ub) cs s) = s_sol s /\
    s_abort (fold_left (enq_step lb ub) cs s) = s_abort s /\ s_crash (fold_left (enq_step lb ub) cs s) = s_crash s /\
    s_cache (fold_left (enq_step lb ub) cs s) = s_cache s /\
    OpenOK cfg (s_open (fold_left (enq_step lb ub) cs s)) (s_simple (fold_left (enq_step lb ub) cs s)) /\
    (forall x, In x (s_simple (fold_left (enq_step lb ub) cs s)) <->
       In x (s_simple s) \/ exists c, In c cs /\ Z.min ub (sp_ub c) > lb /\ x = set_ub c (Z.min ub (sp_ub c))) /\
    (Phi (s_simple (fold_left (enq_step lb ub) cs s)) <= Phi (s_simple s) + sumf wt cs)%nat.
  Proof.
    induction cs as [|c cs IH]; intros s Hd Hop; cbn [fold_left].
    - repeat (split; [reflexivity|]). split; [exact Hop|]. split.
      + intros x; split; [auto|]. intros [H|(c & [] & _)]; exact H.
      + simpl. lia.
    - assert (Hdc : (sp_depth c <= N)%nat) by (apply Hd; left; reflexivity).
      destruct (enq_step_specC lb ub s c Hdc Hop) as (E1 & E2 & E3 & E4 & E4c & E5 & E6).
      destruct (IH (enq_step lb ub s c)) as (F1 & F2 & F3 & F4 & F4c & F5 & F6 & F7);
        [intros c' Hc'; apply Hd; right; exact Hc'|exact E6|].
      rewrite F1, F2, F3, F4, F4c, E1, E2, E3, E4, E4c. repeat (split; [reflexivity|]). split; [exact F5|]. split.
      + intros x. rewrite F6, E5. destruct (Z.min ub (sp_ub c) >? lb) eqn:E.
        * rewrite Z.gtb_ltb in E. apply Z.ltb_lt in E. cbn [app In]. split.
          -- intros [[Hx|Hx]|(c' & Hc' & Hgt & Hx)].
             ++ right. exists c. split; [left; reflexivity|]. split; [lia|auto].
             ++ left; exact Hx.
             ++ right. exists c'. split; [right; exact Hc'|auto].
          -- intros [Hx|(c' & [Hc'|Hc'] & Hgt & Hx)].
             ++ left; right; exact Hx.
             ++ subst c'. left; left; auto.
             ++ right. exists c'. auto.
        * rewrite Z.gtb_ltb in E. apply Z.ltb_ge in E. cbn [app In]. split.
          -- intros [Hx|(c' & Hc' & Hgt & Hx)]; [left; exact Hx|]. right. exists c'. split; [right; exact Hc'|auto].
          -- intros [Hx|(c' & [Hc'|Hc'] & Hgt & Hx)]; [left; exact Hx| subst c'; lia |]. right. exists c'. auto.
      + eapply Nat.le_trans; [exact F7|]. rewrite E5. cbn [sumf].
        destruct (Z.min ub (sp_ub c) >? lb); cbn [app]; unfold SolverProofs.Phi; cbn [sumf].
        * change (wt (set_ub c (Z.min ub (sp_ub c)))) with (wt c). lia.
        * lia.
  Qed.

  Lemma best_crit (n : @subproblem St) o t : best n = Some o -> sp_value n <= t -> crit o (sp_depth n) (sp_state n) t.
  Proof.
    unfold MddSim.best, oadd. intros Hb Hv.
    destruct (H (sc_problem cfg) (sp_depth n) (sp_state n)) as [h|] eqn:Eh; [|discriminate].
    simpl in Hb. inversion Hb. exists h. split; [exact Eh|lia].
  Qed.

  Lemma process_specC s n s2 err :
    Core s -> length (s_cache s) = S N -> good n -> (sp_depth n <= N)%nat ->
    (forall y, In y (s_simple s) -> sp_ub y <= sp_ub n) ->
    ComplC (s_lb s) (n :: s_simple s) -> CacheInv (s_cache s) (s_lb s) (n :: s_simple s) ->
    process_one_node st_eqb cfg s n = (s2, err) ->
    err = false /\ Core s2 /\ length (s_cache s2) = S N /\ ComplC (s_lb s2) (s_simple s2) /\
    CacheInv (s_cache s2) (s_lb s2) (s_simple s2) /\ (Phi (s_simple s2) < Phi (s_simple s) + wt n)%nat.
  Proof.
    intros HCore Hlen Hg Hd Hmax HCompl HCI. unfold process_one_node.
    set (l := s_simple s) in *.
    (* --- pruned by its upper bound *)
    destruct (sp_ub n <=? s_lb s) eqn:Eub.
    { apply Z.leb_le in Eub. intros Hr; inversion Hr; subst s2 err. split; [reflexivity|]. split; [exact HCore|].
      split; [exact Hlen|].
      destruct (node_done (s_lb s) (s_lb s) l l n (s_cache s) (s_cache s)) as [R1 R2]; auto using incl_refl, Z.le_refl.
      { intros o _ Hlt _ Hu. exfalso. lia. }
      split; [exact R1|]. split; [exact R2|]. pose proof (wt_pos cfg M n). fold l. lia. }
    rewrite cfg_cache.
    destruct (must_explore_some st_eqb (s_cache s) (sp_state n) (sp_depth n) (sp_value n)) as [b Hb]; [rewrite Hlen; lia|].
    rewrite Hb. destruct b.
    2:{ (* --- skipped: the cache holds a threshold that rejects it *)
      intros Hr; inversion Hr; subst s2 err. split; [reflexivity|]. split; [exact HCore|]. split; [exact Hlen|].
      destruct (must_explore_false st_eqb _ _ _ _ Hb) as (th & He & Hrej).
      assert (Key : forall o, OPT = Some o -> s_lb s < o -> best n = Some o -> o <= sp_ub n ->
                exists y, Wit o l y /\
                  ((sp_depth n < sp_depth y)%nat \/
                   (sp_depth y = sp_depth n /\ sp_state y = sp_state n /\ must_explore_th (Some th) (sp_value y) = true))).
      { intros o Ho Hlt Hbn Hun.
        assert (Hc : crit o (sp_depth n) (sp_state n) (th_value th)).
        { apply best_crit; [exact Hbn|]. apply (must_explore_th_false th). exact Hrej. }
        destruct (HCI o Ho Hlt _ _ _ He Hc) as (y & (Hy1 & Hy2 & Hy3) & Hcond).
        destruct Hy1 as [<-|Hy1].
        - exfalso. destruct Hcond as [Hcond|(_ & _ & Hcond)]; [lia|]. rewrite Hcond in Hrej. discriminate.
        - exists y. split; [split; [exact Hy1|auto]|exact Hcond]. }
      split; [|split].
      - intros o Ho. destruct (Z_le_gt_dec o (s_lb s)) as [Hle|Hgt]; [left; exact Hle|]. right.
        destruct (HCompl o Ho) as [Hle|(y & (Hy1 & Hy2 & Hy3))]; [lia|].
        destruct Hy1 as [<-|Hy1].
        + destruct (Key o Ho ltac:(lia) Hy2 Hy3) as (y' & Hy' & _). exists y'. exact Hy'.
        + exists y. split; [exact Hy1|auto].
      - intros o Ho Hlt d s0 th0 He0 Hc0.
        destruct (HCI o Ho Hlt d s0 th0 He0 Hc0) as (y & (Hy1 & Hy2 & Hy3) & Hcond).
        destruct Hy1 as [<-|Hy1].
        + destruct (Key o Ho Hlt Hy2 Hy3) as (y' & Hy' & Hcond').
          destruct Hcond as [Hcond|(E1 & E2 & E3)].
          * exists y'. split; [exact Hy'|]. left. destruct Hcond' as [Hc'|(Hc' & _)]; lia.
          * exfalso. subst d s0. rewrite (entry_fun st_eqb _ _ _ _ _ He0 He) in E3. rewrite E3 in Hrej. discriminate.
        + exists y. split; [split; [exact Hy1|auto]|exact Hcond].
      - pose proof (wt_pos cfg M n). fold l. lia. }
    (* --- explored: restricted, then relaxed compilation *)
    assert (UBn : forall o, OPT = Some o -> s_lb s < o -> o <= sp_ub n).
    { intros o Ho Hlt. destruct (HCompl o Ho) as [Hle|(y & (Hy1 & Hy2 & Hy3))]; [lia|].
      destruct Hy1 as [<-|Hy1]; [exact Hy3|]. specialize (Hmax y Hy1). lia. }
    assert (CS1 : forall o, OPT = Some o -> s_lb s < o -> CS (sp_depth n) (s_cache s) o (Below o l)).
    { intros o Ho Hlt d s0 th Hdd He Hc.
      destruct (HCI o Ho Hlt d s0 th He Hc) as (y & (Hy1 & Hy2 & Hy3) & Hcond).
      destruct Hy1 as [<-|Hy1]; [exfalso; destruct Hcond as [Hcond|(Hcond & _)]; lia|].
      exists y. split; [split; [exact Hy1|auto]|]. destruct Hcond as [Hcond|(Hcond & _)]; lia. }
    destruct (run_compile st_eqb cfg s Restricted n) as [[[sa0 inpa] ma] oa] eqn:Ea.
    destruct (phaseC _ _ _ _ _ _ _ HCore Hlen (or_introl eq_refl) Hg Hd Ea)
      as (-> & Hinpa & Hca & HCa & Hsa & Hcca & Hlma & Hlba & Heva & Hbka).
    cbv beta iota zeta.
    set (sa := maybe_update_best sa0 inpa ma) in HCa, Hsa, Hcca, Hlba, Heva, Hbka |- *.
    fold l in Hsa. subst inpa.
    (* entries left by the restricted compilation *)
    assert (JA : forall o, OPT = Some o -> s_lb sa < o -> forall d s0 th, entry (m_cache ma) d s0 th ->
               crit o d s0 (th_value th) -> entry (s_cache s) d s0 th \/ Below o l (S d)).
    { intros o Ho Hlt d s0 th He Hc.
      destruct (KCW _ _ _ _ _ _ _ _ (or_introl eq_refl) Hg Hd Hlen Hca o (Below o l) Ho (Below_antitone o l)
                  (CS1 o Ho ltac:(lia)) d s0 th He Hc) as [H1|[H1|[H1|(H1 & _)]]].
      - left; exact H1.
      - exfalso. lia.
      - right; exact H1.
      - discriminate. }
    destruct (dd_is_exact ma) eqn:Eexa.
    { intros Hr; inversion Hr; subst s2 err. split; [reflexivity|]. split; [exact HCa|].
      split; [rewrite Hcca; exact Hlma|].
      assert (NewW : forall o, OPT = Some o -> s_lb sa < o -> best n = Some o -> o <= sp_ub n -> Below o l (S (sp_depth n))).
      { intros o Ho Hlt Hbn _.
        destruct (KC2 _ _ _ _ _ _ _ _ (or_introl eq_refl) Hg Hd Hlen Hca Eexa o (Below o l) Ho (Below_antitone o l) Hbn
                    ltac:(lia) (CS1 o Ho ltac:(lia))) as [(e & He & Hoe)|H1]; [|exact H1].
        exfalso. specialize (Heva e He). lia. }
      rewrite Hsa, Hcca.
      destruct (node_done (s_lb s) (s_lb sa) l l n (s_cache s) (m_cache ma) (incl_refl l) Hlba NewW) as [R1 R2]; auto.
      { intros o Ho Hlt d s0 th He Hc. destruct (JA o Ho Hlt d s0 th He Hc) as [H1|H1]; [left; exact H1|right; apply Below_Just; exact H1]. }
      split; [exact R1|]. split; [exact R2|]. pose proof (wt_pos cfg M n). lia. }
    assert (Hlena : length (s_cache sa) = S N) by (rewrite Hcca; exact Hlma).
    assert (CSa : forall o, OPT = Some o -> s_lb sa < o -> CS (sp_depth n) (s_cache sa) o (Below o l)).
    { intros o Ho Hlt d s0 th Hdd He Hc. rewrite Hcca in He.
      destruct (JA o Ho Hlt d s0 th He Hc) as [H1|H1].
      - exact (CS1 o Ho ltac:(lia) d s0 th Hdd H1 Hc).
      - apply (Below_antitone o l (S d)); [lia|exact H1]. }
    destruct (run_compile st_eqb cfg sa Relaxed n) as [[[sb0 inpb] mb] ob] eqn:Eb.
    destruct (phaseC _ _ _ _ _ _ _ HCa Hlena (or_intror eq_refl) Hg Hd Eb)
      as (-> & Hinpb & Hcb & HCb & Hsb & Hccb & Hlmb & Hlbb & Hevb & Hbkb).
    cbv beta iota zeta.
    set (sb := maybe_update_best sb0 inpb mb) in HCb, Hsb, Hccb, Hlbb, Hevb, Hbkb |- *.
    rewrite Hsa in Hsb. subst inpb.
    (* entries left by the relaxed compilation, except those covered by its cut-set *)
    assert (JB : forall o, OPT = Some o -> s_lb sb < o -> forall d s0 th, entry (m_cache mb) d s0 th ->
               crit o d s0 (th_value th) ->
               entry (s_cache s) d s0 th \/ Below o l (S d) \/
               (dd_is_exact mb = false /\
                exists x ox, In x (drain_cutset (mk_input cfg Relaxed n (s_lb sa)) mb) /\ best x = Some ox /\ o <= ox /\
                  ((d < sp_depth x)%nat \/
                   (sp_depth x = d /\ sp_state x = s0 /\ must_explore_th (Some th) (sp_value x) = true)))).
    { intros o Ho Hlt d s0 th He Hc.
      destruct (KCW _ _ _ _ _ _ _ _ (or_intror eq_refl) Hg Hd Hlena Hcb o (Below o l) Ho (Below_antitone o l)
                  (CSa o Ho ltac:(lia)) d s0 th He Hc) as [H1|[H1|[H1|(_ & H1 & H2)]]].
      - rewrite Hcca in H1. destruct (JA o Ho ltac:(lia) d s0 th H1 Hc) as [H3|H3]; [left; exact H3|right; left; exact H3].
      - exfalso. lia.
      - right; left; exact H1.
      - right; right. split; [exact H1|exact H2]. }
    destruct (dd_is_exact mb) eqn:Eexb.
    { intros Hr; inversion Hr; subst s2 err. split; [reflexivity|]. split; [exact HCb|].
      split; [rewrite Hccb; exact Hlmb|].
      assert (NewW : forall o, OPT = Some o -> s_lb sb < o -> best n = Some o -> o <= sp_ub n -> Below o l (S (sp_depth n))).
      { intros o Ho Hlt Hbn _.
        destruct (KC2 _ _ _ _ _ _ _ _ (or_intror eq_refl) Hg Hd Hlena Hcb Eexb o (Below o l) Ho (Below_antitone o l) Hbn
                    ltac:(lia) (CSa o Ho ltac:(lia))) as [(e & He & Hoe)|H1]; [|exact H1].
        exfalso. specialize (Hevb e He). lia. }
      rewrite Hsb, Hccb.
      destruct (node_done (s_lb s) (s_lb sb) l l n (s_cache s) (m_cache mb) (incl_refl l) ltac:(lia) NewW) as [R1 R2]; auto.
      { intros o Ho Hlt d s0 th He Hc.
        destruct (JB o Ho Hlt d s0 th He Hc) as [H1|[H1|(H1 & _)]]; [left; exact H1|right; apply Below_Just; exact H1|discriminate]. }
      split; [exact R1|]. split; [exact R2|]. pose proof (wt_pos cfg M n). lia. }
    (* --- the cut-set is enqueued *)
    intros Hr; inversion Hr; subst s2 err. clear Hr. split; [reflexivity|].
    rewrite enqueue_cutset_fold.
    set (cs := drain_cutset (mk_input cfg Relaxed n (s_lb sa)) mb) in *.
    assert (Hdep : forall c, In c cs -> (sp_depth n < sp_depth c <= N)%nat).
    { intros c Hc. exact (KC3_depth _ _ _ _ _ _ _ Hg Hd Hlena Hcb Eexb c Hc). }
    destruct HCb as (B1 & B2 & B3 & B4 & B5).
    destruct (enq_fold_specC (s_lb sb) (sp_ub n) cs sb) as (F1 & F2 & F3 & F4 & F4c & F5 & F6 & F7);
      [intros c Hc; apply Hdep in Hc; lia|exact B5|].
    set (s2 := fold_left (enq_step (s_lb sb) (sp_ub n)) cs sb) in *.
    assert (Hincl : incl l (s_simple s2)).
    { intros y Hy. apply F6. left. rewrite Hsb. exact Hy. }
    (* a sub-problem of the cut-set that holds the optimum is represented in the new fringe *)
    assert (CutWit : forall o, OPT = Some o -> s_lb sb < o -> forall x ox, In x cs -> best x = Some ox -> o <= ox ->
              exists y, Wit o (s_simple s2) y /\
                ((sp_depth x < sp_depth y)%nat \/
                 (sp_depth y = sp_depth x /\ sp_state y = sp_state x /\ sp_value y = sp_value x))).
    { intros o Ho Hlt x ox Hx Hbx Hox.
      assert (Hgx : good x) by exact (KC3_good _ _ _ _ _ _ _ Hg Hd Hlena Hcb Eexb x Hx).
      pose proof (best_le_opt x ox o Hgx Hbx Ho) as Hle. assert (ox = o) by lia. subst ox.
      destruct (KC3_ub _ _ _ _ _ _ _ Hg Hd Hlena Hcb Eexb x Hx o (Below o l) Ho (Below_antitone o l) Hbx ltac:(lia)
                  (CSa o Ho ltac:(lia))) as [H1|(y & Hy & Hdy)].
      - exists (set_ub x (Z.min (sp_ub n) (sp_ub x))). split.
        + pose proof (UBn o Ho ltac:(lia)) as Hun. split; [|split].
          * apply F6. right. exists x. split; [exact Hx|]. split; [lia|reflexivity].
          * rewrite best_set_ub. exact Hbx.
          * cbn [set_ub sp_ub]. lia.
        + right. cbn [set_ub sp_depth sp_state sp_value]. auto.
      - exists y. split; [eapply Wit_incl; eauto|]. left. lia. }
    assert (NewW : forall o, OPT = Some o -> s_lb sb < o -> best n = Some o -> o <= sp_ub n ->
              Below o (s_simple s2) (S (sp_depth n))).
    { intros o Ho Hlt Hbn _.
      destruct (KC4 _ _ _ _ _ _ _ Hg Hd Hlena Hcb Eexb o (Below o l) Ho (Below_antitone o l) Hbn ltac:(lia)
                  (CSa o Ho ltac:(lia))) as [(e & He & Hoe)|[(x & ox & Hx & Hbx & Hox)|H1]].
      - exfalso. specialize (Hevb e He). lia.
      - destruct (CutWit o Ho Hlt x ox Hx Hbx Hox) as (y & Hy & Hcond). exists y. split; [exact Hy|].
        pose proof (Hdep x Hx). destruct Hcond as [Hcond|(Hcond & _)]; lia.
      - eapply Below_incl; eauto. }
    assert (R12 : ComplC (s_lb sb) (s_simple s2) /\ CacheInv (m_cache mb) (s_lb sb) (s_simple s2)).
    { apply (node_done (s_lb s) (s_lb sb) l (s_simple s2) n (s_cache s) (m_cache mb) Hincl ltac:(lia) NewW); auto.
      intros o Ho Hlt d s0 th He Hc.
      destruct (JB o Ho Hlt d s0 th He Hc) as [H1|[H1|(_ & x & ox & Hx & Hbx & Hox & Hcond)]]; [left; exact H1|right|right].
      - apply Below_Just. eapply Below_incl; eauto.
      - destruct (CutWit o Ho Hlt x ox Hx Hbx Hox) as (y & Hy & Hcy). exists y. split; [exact Hy|].
        destruct Hcy as [Hcy|(E1 & E2 & E3)].
        + left. destruct Hcond as [Hcond|(Hcond & _)]; lia.
        + destruct Hcond as [Hcond|(C1 & C2 & C3)]; [left; lia|]. right. rewrite E1, E2, E3. auto. }
    split; [|split; [|split; [|split]]].
    - unfold SolverProofs.Core. rewrite F1, F2, F3, F4. split; [exact B1|]. split; [exact B2|]. split; [exact B3|].
      split; [|exact F5]. intros x Hx. apply F6 in Hx. destruct Hx as [Hx|(c & Hc & _ & ->)].
      + apply B4; exact Hx.
      + split; [apply good_set_ub; exact (KC3_good _ _ _ _ _ _ _ Hg Hd Hlena Hcb Eexb c Hc)|]. cbn [set_ub sp_depth]. apply Hdep in Hc. unfold N, pb in Hc. lia.
    - rewrite F4c, Hccb. exact Hlmb.
    - rewrite F1. apply R12.
    - rewrite F1, F4c, Hccb. apply R12.
    - eapply Nat.le_lt_trans; [exact F7|]. rewrite Hsb.
      apply Nat.add_lt_mono_l. apply kids_weight; [|exact Hdep].
      exact (KC5 _ _ _ _ _ _ _ Hg Hd Hlena Hcb Eexb).
  Qed.

  Notation Final := (SolverProofs.Final cfg (MddSim.best cfg) feasible).

  Lemma pop_inv s x rest s1 :
    InvC s -> Permutation (s_simple s) (x :: rest) -> s_simple s1 = rest -> s_lb s1 = s_lb s ->
    (forall d s0 th, entry (s_cache s1) d s0 th -> entry (s_cache s) d s0 th) ->
    (forall y, In y (s_simple s) -> sp_ub y <= sp_ub x) ->
    (forall y, In y (s_simple s1) -> sp_ub y <= sp_ub x) /\
    ComplC (s_lb s1) (x :: s_simple s1) /\ CacheInv (s_cache s1) (s_lb s1) (x :: s_simple s1).
  Proof.
    intros (_ & _ & HCompl & HCI) Hperm W1 W2 Hent Hmax. rewrite W1, W2.
    assert (Hi : incl (s_simple s) (x :: rest)) by (intros y Hy; eapply Permutation_in; eauto).
    split; [|split].
    - intros y Hy. apply Hmax. eapply Permutation_in; [apply Permutation_sym; exact Hperm|]. right; exact Hy.
    - intros o Ho. destruct (HCompl o Ho) as [Hle|(y & Hy)]; [left; exact Hle|right]. exists y. eapply Wit_incl; eauto.
    - intros o Ho Hlt d s0 th He Hc. eapply Just_incl; [exact Hi|]. apply (HCI o Ho Hlt d s0 th); [apply Hent; exact He|exact Hc].
  Qed.

  Lemma loop_stepC s : InvC s ->
    (exists s1, get_workload st_eqb cfg s = (s1, WComplete) /\ Final s1) \/
    (exists x s1 s2, get_workload st_eqb cfg s = (s1, WItem x) /\ process_one_node st_eqb cfg s1 x = (s2, false) /\
       InvC s2 /\ (Phi (s_simple s2) < Phi (s_simple s))%nat).
  Proof.
    intros HI. pose proof HI as (HCore & Hlen & HCompl & HCI).
    destruct (get_workload_specC s HCore Hlen) as [(Hemp & s1 & Hgw & W1 & W2 & W3 & W4 & W5 & W6)
                                            |(x & rest & s1 & Hgw & Hperm & W1 & HC1 & W2 & W3 & W4 & W5)].
    - left. exists s1. split; [exact Hgw|]. unfold SolverProofs.Final. rewrite W6, W5, W4. split; [exact W2|]. split; [exact W3|].
      split; [reflexivity|]. split; [apply HCore|]. intros o Ho.
      destruct (HCompl o Ho) as [Hle|(y & Hy & _)]; [exact Hle|]. rewrite Hemp in Hy. destruct Hy.
    - right. destruct (process_one_node st_eqb cfg s1 x) as [s2 err] eqn:Ep.
      assert (Hx : In x (s_simple s)).
      { eapply Permutation_in; [apply Permutation_sym; exact Hperm|]. left; reflexivity. }
      destruct HCore as (_ & _ & _ & Hfr & _). destruct (Hfr x Hx) as [Hgx Hdx].
      destruct (pop_inv s x rest s1 HI Hperm W1 W2 W4 W5) as (P1 & P2 & P3).
      destruct (process_specC s1 x s2 err HC1 W3 Hgx Hdx P1 P2 P3 Ep) as (-> & HC2 & Hl2 & HCompl2 & HCI2 & HPhi).
      exists x, s1, s2. split; [exact Hgw|]. split; [exact Ep|]. split; [split; [exact HC2|split; [exact Hl2|split; assumption]]|].
      rewrite (Phi_perm _ _ _ _ Hperm). unfold SolverProofs.Phi in HPhi |- *. cbn [sumf]. rewrite W1 in HPhi. lia.
  Qed.

  Lemma main_loop_specC : forall fuel s, InvC s -> (Phi (s_simple s) < fuel)%nat ->
    exists s', main_loop st_eqb cfg fuel s = (s', Finished) /\ Final s'.
  Proof.
    induction fuel as [|fuel IH]; intros s HI Hfuel; [lia|].
    cbn [main_loop]. rewrite (proj1 (proj1 HI)).
    destruct (loop_stepC s HI) as [(s1 & -> & HF)|(x & s1 & s2 & -> & -> & HI2 & HPhi)]; [eauto|].
    apply IH; [exact HI2|lia].
  Qed.

  Lemma main_loop_partialC : forall fuel s s', InvC s ->
    main_loop st_eqb cfg fuel s = (s', Finished) -> Final s'.
  Proof.
    induction fuel as [|fuel IH]; intros s s' HI; [cbn [main_loop]; discriminate|].
    cbn [main_loop]. rewrite (proj1 (proj1 HI)).
    destruct (loop_stepC s HI) as [(s1 & -> & HF)|(x & s1 & s2 & -> & -> & HI2 & _)].
    - intros Hr; inversion Hr; subst s'. exact HF.
    - apply IH. exact HI2.
  Qed.

  Lemma start_state_cache primal : s_cache (start_state cfg primal) = init_cache N.
  Proof.
    unfold start_state. destruct primal as [[pv psol]|].
    - unfold set_primal. destruct (_ >? _); cbn [s_cache upd_s init_sstate]; rewrite cfg_cache; reflexivity.
    - cbn [s_cache init_sstate]. rewrite cfg_cache. reflexivity.
  Qed.

  Lemma initialize_invC s0 :
    s_simple s0 = [] -> s_open s0 = repeat O (S N) -> s_crash s0 = false -> s_abort s0 = false ->
    Incumbent feasible (s_lb s0) (s_sol s0) -> s_cache s0 = init_cache N ->
    InvC (initialize_solver st_eqb cfg s0) /\ s_simple (initialize_solver st_eqb cfg s0) = [root_node cfg].
  Proof.
    intros H1 H2 H3 H4 H5 H6. unfold initialize_solver. rewrite fr_push_simpleC.
    cbn [s_simple s_open s_lb s_sol s_abort s_crash s_cache upd_s]. rewrite H1. split; [|reflexivity].
    split; [|split; [|split]].
    - unfold SolverProofs.Core. cbn [s_simple s_open s_lb s_sol s_abort s_crash upd_s].
      split; [exact H3|]. split; [exact H4|]. split; [exact H5|]. split.
      + intros n [<-|[]]. split; [exact good_root|]. cbn [root_node sp_depth]. lia.
      + intros d Hd. rewrite H2. destruct d as [|d].
        * reflexivity.
        * cbn [repeat upd_nth nth_error]. unfold N, pb. rewrite nth_error_repeat by lia.
          rewrite cnt_cons_other by (cbn [root_node sp_depth]; lia). reflexivity.
    - cbn [s_cache upd_s]. rewrite H6. unfold init_cache. apply repeat_length.
    - cbn [s_simple s_lb upd_s]. intros o Ho. right. exists (root_node cfg). split; [left; reflexivity|].
      split; [exact Ho|]. cbn [root_node sp_ub]. apply opt_in_isize. exact Ho.
    - cbn [s_simple s_lb s_cache upd_s]. rewrite H6. intros o Ho Hlt d s0' th He _. exfalso.
      unfold CacheSearch.entry in He. rewrite cget_init in He. discriminate.
  Qed.

  Theorem maximize_correctC primal : primal_ok feasible primal ->
    forall fuel, (fuel0 cfg M <= fuel)%nat -> result_ok cfg (MddSim.best cfg) feasible (maximize st_eqb cfg fuel primal).
  Proof.
    intros Hp fuel Hfuel.
    destruct (start_state_ok cfg feasible primal Hp) as (S1 & S2 & S3 & S4 & S5).
    destruct (initialize_invC _ S1 S2 S3 S4 S5 (start_state_cache primal)) as [HInv Hsimple].
    destruct (main_loop_specC fuel _ HInv) as (s' & Hml & HF).
    { rewrite Hsimple. unfold SolverProofs.Phi, SolverProofs.wt. cbn [sumf root_node sp_depth]. rewrite Nat.sub_0_r.
      unfold fuel0 in Hfuel. lia. }
    eapply maximize_of_final; eassumption.
  Qed.

  Theorem seq_cache_partial_correct primal : primal_ok feasible primal ->
    forall fuel, r_outoffuel (maximize st_eqb cfg fuel primal) = false ->
    result_ok cfg (MddSim.best cfg) feasible (maximize st_eqb cfg fuel primal).
  Proof.
    intros Hp fuel Hnf.
    destruct (start_state_ok cfg feasible primal Hp) as (S1 & S2 & S3 & S4 & S5).
    destruct (initialize_invC _ S1 S2 S3 S4 S5 (start_state_cache primal)) as [HInv _].
    destruct (main_loop st_eqb cfg fuel (initialize_solver st_eqb cfg (start_state cfg primal))) as [s' e] eqn:Hml.
    assert (He : e = Finished).
    { unfold maximize in Hnf. fold (start_state cfg primal) in Hnf. rewrite Hml in Hnf.
      cbn [r_outoffuel] in Hnf. destruct e; [reflexivity|discriminate]. }
    subst e. eapply maximize_of_final; [exact feasible_le_opt|exact opt_in_isize|exact Hml|].
    eapply main_loop_partialC; eassumption.
  Qed.

  Theorem seq_cache_solver_correct :
    exists f0, forall fuel, (f0 <= fuel)%nat ->
      let r := maximize st_eqb cfg fuel None in
      r_crash r = false /\ r_outoffuel r = false /\ r_exact r = true /\ r_value r = OPT /\
      (forall v, OPT = Some v ->
         r_lb r = v /\ r_ub r = v /\ exists sol, r_sol r = Some (sort_by dec_var_cmp sol) /\ feasible sol v) /\
      (OPT = None -> r_sol r = None /\ r_lb r = IMIN).
  Proof.
    exists (fuel0 cfg M). intros fuel Hfuel. apply (maximize_correctC None); [|exact Hfuel].
    intros pv psol H; discriminate.
  Qed.

End CacheSolver.

(* ================================================================== 3. the contracts and the invariant as EXECUTABLE checks
   (used to validate their statements on examples: [audit] replays the solver and evaluates, at every iteration, the
   invariant InvC and, at every compilation, the conclusions of KC0, KC2, KC3_ub, KC4, KCW with P := Below o fringe) *)
Section Audit.
  Context {St : Type}.
  Variable st_eqb : St -> St -> bool.
  Variable cfg : @sconfig St.
  Let pb := sc_problem cfg.

  Definition entries (c : @cache St) : list (nat * St * threshold) :=
    flat_map (fun d => match nth_error c d with
                       | Some l => flat_map (fun '(s0, th) =>
                                     match lget st_eqb l s0 with
                                     | Some th' => if (th_value th' =? th_value th) && Bool.eqb (th_explored th') (th_explored th)
                                                   then [(d, s0, th)] else []
                                     | None => [] end) l
                       | None => [] end) (seq 0 (length c)).
  Definition critb (o : Z) (d : nat) (s0 : St) (t : Z) : bool :=
    match H pb d s0 with Some h => o <=? t + h | None => false end.
  Definition witb (o : Z) (y : @subproblem St) : bool :=
    match MddSim.best cfg y with Some v => (v =? o) && (o <=? sp_ub y) | None => false end.
  Definition belowb (o : Z) (l : list (@subproblem St)) (d : nat) : bool :=
    existsb (fun y => witb o y && Nat.leb d (sp_depth y)) l.
  Definition justb (o : Z) (l : list (@subproblem St)) (d : nat) (s0 : St) (th : threshold) : bool :=
    existsb (fun y => witb o y &&
      (Nat.ltb d (sp_depth y) ||
       (Nat.eqb (sp_depth y) d && st_eqb (sp_state y) s0 && must_explore_th (Some th) (sp_value y)))) l.
  Definition csb (k : nat) (c : @cache St) (o : Z) (l : list (@subproblem St)) : bool :=
    forallb (fun '(d, s0, th) => implb (Nat.ltb k d && critb o d s0 (th_value th)) (belowb o l d)) (entries c).
  Definition complb (o lb : Z) (l : list (@subproblem St)) : bool := (o <=? lb) || existsb (witb o) l.
  Definition cacheinvb (o lb : Z) (c : @cache St) (l : list (@subproblem St)) : bool :=
    implb (lb <? o)
      (forallb (fun '(d, s0, th) => implb (critb o d s0 (th_value th)) (justb o l d s0 th)) (entries c)).
  Definition entryb (c : @cache St) (d : nat) (s0 : St) (th : threshold) : bool :=
    match cget st_eqb c s0 d with
    | Some th' => (th_value th' =? th_value th) && Bool.eqb (th_explored th') (th_explored th)
    | None => false end.
  Definition besteq (x : @subproblem St) (o : Z) : bool :=
    match MddSim.best cfg x with Some v => v =? o | None => false end.
  Definition bestge (x : @subproblem St) (o : Z) : bool :=
    match MddSim.best cfg x with Some v => o <=? v | None => false end.
  Definition bevge (inp : @cinput St) (m : @mdd St) (o : Z) : bool :=
    match dd_best_exact_value inp m with Some e => o <=? e | None => false end.

  (* the conclusions of the contracts for one compilation; the second component tells whether the cache premise CS held *)
  Definition kc_check (ct : comptype) (n : @subproblem St) (lb : Z) (c : @cache St) (ds : @dstore St Z) (polls : nat)
      (l : list (@subproblem St)) (o : Z) : bool * bool :=
    let inp := mk_input cfg ct n lb in
    let '(m, out) := compile st_eqb inp 0 0 c ds polls in
    let dn := sp_depth n in
    let cut := drain_cutset inp m in
    let k0 := match out with Compiled => true | _ => false end && negb (m_crash m) && Nat.eqb (length (m_cache m)) (length c) in
    let k2 := implb (dd_is_exact m && besteq n o && (o >? lb)) (bevge inp m o || belowb o l (S dn)) in
    let rx := match ct with Relaxed => negb (dd_is_exact m) | _ => false end in
    let k3 := implb rx (forallb (fun x => implb (besteq x o && (o >? lb)) ((o <=? sp_ub x) || belowb o l (S (sp_depth x)))) cut) in
    let k4 := implb (rx && besteq n o && (o >? lb))
                (bevge inp m o || existsb (fun x => bestge x o) cut || belowb o l (S dn)) in
    let kw := forallb (fun '(d, s0, th) =>
                implb (critb o d s0 (th_value th))
                  (entryb c d s0 th || (o <=? bk_of inp m) || belowb o l (S d) ||
                   (rx && existsb (fun x => bestge x o &&
                      (Nat.ltb d (sp_depth x) ||
                       (Nat.eqb (sp_depth x) d && st_eqb (sp_state x) s0 && must_explore_th (Some th) (sp_value x)))) cut)))
                (entries (m_cache m)) in
    (k0 && implb (csb dn c o l) (k2 && k3 && k4 && kw), implb (lb <? o) (csb dn c o l)).

  (* replay of main_loop; returns (everything checked held, number of compilations whose CS premise held, iterations) *)
  Fixpoint audit_loop (fuel : nat) (s : @sstate St) (o : Z) (acc : bool * nat * nat) : bool * nat * nat :=
    match fuel with
    | O => acc
    | S fuel' =>
        let '(ok, nk, it) := acc in
        if s_crash s then (false, nk, it) else
        let ok := ok && complb o (s_lb s) (s_simple s) && cacheinvb o (s_lb s) (s_cache s) (s_simple s) in
        let '(s1, w) := get_workload st_eqb cfg s in
        match w with
        | WItem x =>
            let l := s_simple s1 in
            let explore :=
              negb (sp_ub x <=? s_lb s1) &&
              match must_explore st_eqb (s_cache s1) (sp_state x) (sp_depth x) (sp_value x) with Some b => b | None => false end in
            let '(ok, nk) :=
              if explore then
                let '(ka, pa) := kc_check Restricted x (s_lb s1) (s_cache s1) (s_dom s1) (s_polls s1) l o in
                let '(sa0, inpa, ma, _) := run_compile st_eqb cfg s1 Restricted x in
                let sa := maybe_update_best sa0 inpa ma in
                if dd_is_exact ma then (ok && ka && pa, S nk)
                else
                  let '(kb, pb') := kc_check Relaxed x (s_lb sa) (s_cache sa) (s_dom sa) (s_polls sa) l o in
                  (ok && ka && pa && kb && pb', S (S nk))
              else (ok, nk) in
            let '(s2, err) := process_one_node st_eqb cfg s1 x in
            if err then (false, nk, it) else audit_loop fuel' s2 o (ok, nk, S it)
        | _ => (ok, nk, it)
        end
    end.

  Definition audit (fuel : nat) : option (bool * nat * nat) :=
    match opt_enum pb with
    | Some o => Some (audit_loop fuel (initialize_solver st_eqb cfg (init_sstate cfg)) o (true, O, O))
    | None => None
    end.
End Audit.

(* ================================================================== 4. the contracts, packaged for the concrete semantics of Assembly.v
   good := sgood pb (reached from the initial state by a feasible run), feasible := sfeasible pb, best := value + Bellman value *)
Section Contract.
  Context {St : Type}.
  Variable st_eqb : St -> St -> bool.
  Variable cfg : @sconfig St.
  Local Notation pb := (sc_problem cfg).
  Local Notation N := (nb_vars (sc_problem cfg)).
  Local Notation good := (sgood (sc_problem cfg)).
  Local Notation feas := (sfeasible (sc_problem cfg)).
  Local Notation bst := (MddSim.best cfg).
  Local Notation OPTo := (opt_enum (sc_problem cfg)).

  (* KC_struct: what a compilation started from ANY cache with a layer per depth does to the structures
     (the counterparts of K0, K1, K3_good, K3_depth, K5) *)
  Definition KC_struct (M : nat) : Prop :=
    (forall ct n lb c ds polls m out,
       dd_ct ct -> good n -> (sp_depth n <= N)%nat -> length c = S N ->
       compile st_eqb (mk_input cfg ct n lb) 0 0 c ds polls = (m, out) ->
       out = Compiled /\ m_crash m = false /\ length (m_cache m) = S N) /\
    (forall ct n lb c ds polls m out,
       dd_ct ct -> good n -> (sp_depth n <= N)%nat -> length c = S N ->
       compile st_eqb (mk_input cfg ct n lb) 0 0 c ds polls = (m, out) ->
       forall v, dd_best_exact_value (mk_input cfg ct n lb) m = Some v ->
       exists sol, dd_best_exact_solution (mk_input cfg ct n lb) m = Some sol /\ feas sol v) /\
    (forall n lb c ds polls m out,
       good n -> (sp_depth n <= N)%nat -> length c = S N ->
       compile st_eqb (mk_input cfg Relaxed n lb) 0 0 c ds polls = (m, out) ->
       dd_is_exact m = false ->
       forall x, In x (drain_cutset (mk_input cfg Relaxed n lb) m) -> good x /\ (sp_depth n < sp_depth x <= N)%nat) /\
    (forall n lb c ds polls m out,
       good n -> (sp_depth n <= N)%nat -> length c = S N ->
       compile st_eqb (mk_input cfg Relaxed n lb) 0 0 c ds polls = (m, out) ->
       dd_is_exact m = false ->
       (length (drain_cutset (mk_input cfg Relaxed n lb) m) <= M)%nat).

  (* KC_cache: the semantic contract.  o is the optimum; [P d] stands for "an open sub-problem of depth >= d still holds o";
     [CS k c o P]: every entry of the initial cache c deeper than k that could reject a run of value o is vouched for by P.
     (a) exact diagram: the optimum of the sub-problem, if it is o, is found or was handed over to P strictly deeper;
     (b) the upper bound of a cut-set node that holds o does not hide it, or o was handed over to P deeper than the node;
     (c) inexact relaxed diagram: o is found, or held by a cut-set node, or handed over to P;
     (d) every critical entry of the final cache is an old one, or o <= best known, or vouched for by P strictly deeper,
         or (inexact relaxed diagram) covered by a cut-set node that the entry does not reject. *)
  Definition KC_cache : Prop :=
    (forall ct n lb c ds polls m out,
       dd_ct ct -> good n -> (sp_depth n <= N)%nat -> length c = S N ->
       compile st_eqb (mk_input cfg ct n lb) 0 0 c ds polls = (m, out) ->
       dd_is_exact m = true ->
       forall o P, OPTo = Some o -> antitone P -> bst n = Some o -> o > lb -> CS st_eqb cfg (sp_depth n) c o P ->
       (exists e, dd_best_exact_value (mk_input cfg ct n lb) m = Some e /\ o <= e) \/ P (S (sp_depth n))) /\
    (forall n lb c ds polls m out,
       good n -> (sp_depth n <= N)%nat -> length c = S N ->
       compile st_eqb (mk_input cfg Relaxed n lb) 0 0 c ds polls = (m, out) ->
       dd_is_exact m = false ->
       forall x, In x (drain_cutset (mk_input cfg Relaxed n lb) m) ->
       forall o P, OPTo = Some o -> antitone P -> bst x = Some o -> o > lb -> CS st_eqb cfg (sp_depth n) c o P ->
       o <= sp_ub x \/ P (S (sp_depth x))) /\
    (forall n lb c ds polls m out,
       good n -> (sp_depth n <= N)%nat -> length c = S N ->
       compile st_eqb (mk_input cfg Relaxed n lb) 0 0 c ds polls = (m, out) ->
       dd_is_exact m = false ->
       forall o P, OPTo = Some o -> antitone P -> bst n = Some o -> o > lb -> CS st_eqb cfg (sp_depth n) c o P ->
       (exists e, dd_best_exact_value (mk_input cfg Relaxed n lb) m = Some e /\ o <= e) \/
       (exists x ox, In x (drain_cutset (mk_input cfg Relaxed n lb) m) /\ bst x = Some ox /\ o <= ox) \/
       P (S (sp_depth n))) /\
    (forall ct n lb c ds polls m out,
       dd_ct ct -> good n -> (sp_depth n <= N)%nat -> length c = S N ->
       compile st_eqb (mk_input cfg ct n lb) 0 0 c ds polls = (m, out) ->
       forall o P, OPTo = Some o -> antitone P -> CS st_eqb cfg (sp_depth n) c o P ->
       forall d s0 th, entry st_eqb (m_cache m) d s0 th -> crit cfg o d s0 (th_value th) ->
         entry st_eqb c d s0 th \/ o <= bk_of (mk_input cfg ct n lb) m \/ P (S d) \/
         (ct = Relaxed /\ dd_is_exact m = false /\
          exists x ox, In x (drain_cutset (mk_input cfg ct n lb) m) /\ bst x = Some ox /\ o <= ox /\
            ((d < sp_depth x)%nat \/
             (sp_depth x = d /\ sp_state x = s0 /\ must_explore_th (Some th) (sp_value x) = true)))).
End Contract.

Section FromContracts.
  Context {St : Type}.
  Variable st_eqb : St -> St -> bool.
  Variable cfg : @sconfig St.
  Local Notation pb := (sc_problem cfg).
  Local Notation N := (nb_vars (sc_problem cfg)).
  Local Notation good := (sgood (sc_problem cfg)).
  Local Notation feas := (sfeasible (sc_problem cfg)).
  Local Notation bst := (MddSim.best cfg).

  Hypothesis cfg_cache : sc_use_cache cfg = true.
  Hypothesis cfg_nodup : sc_nodup cfg = false.
  Hypothesis nv_static : forall k l1 l2, next_variable pb k l1 = next_variable pb k l2.
  Hypothesis nv_some : forall k l, (k < N)%nat -> exists x, next_variable pb k l = Some x.
  Hypothesis nv_none : forall k l, (N <= k)%nat -> next_variable pb k l = None.
  Variable B : Z.
  Hypothesis HB : 2 * B <= IMAX.
  Hypothesis guard0 : forall ds s' v', frun pb 0 (init_state pb) (init_value pb) ds = Some (s', v') -> - B <= v' <= B.

  Lemma OPT_enum : SolverProofs.OPT cfg bst = opt_enum pb.
  Proof. apply OPT_is_opt_enum. Qed.

  Lemma opt_isize o : SolverProofs.OPT cfg bst = Some o -> IMIN < o <= IMAX.
  Proof.
    unfold SolverProofs.OPT, MddSim.best. cbn [root_node sp_value sp_depth sp_state].
    destruct (H pb 0 (init_state pb)) as [h|] eqn:Eh; [|discriminate]. simpl. intros E. inversion E; subst o.
    destruct (H_attained pb nv_static nv_some nv_none (N - 0) 0%nat (init_state pb) (init_value pb) h eq_refl
                ltac:(lia) Eh) as (ds & s' & Hr & _).
    pose proof (guard0 ds s' _ Hr). unfold IMIN, IMAX in *. lia.
  Qed.

  Lemma sbest_le_opt n v o : good n -> bst n = Some v -> SolverProofs.OPT cfg bst = Some o -> v <= o.
  Proof.
    intros (Hd & ds0 & H1 & _ & H3) Hb Ho.
    unfold MddSim.best, oadd in Hb.
    destruct (H pb (sp_depth n) (sp_state n)) as [h|] eqn:Eh; [|discriminate]. simpl in Hb. inversion Hb; subst v.
    destruct (H_attained pb nv_static nv_some nv_none (N - sp_depth n) (sp_depth n) (sp_state n) (sp_value n) h eq_refl Hd Eh)
      as (ds & s' & Hr & Hl).
    assert (Hfull : frun pb 0 (init_state pb) (init_value pb) (ds0 ++ ds) = Some (s', sp_value n + h)).
    { rewrite frun_app, H3, H1. exact Hr. }
    destruct (frun_le_H pb nv_static nv_none (ds0 ++ ds) 0%nat _ _ s' _ ltac:(rewrite app_length; lia) Hfull) as (h0 & Hh0 & Hle).
    unfold SolverProofs.OPT, MddSim.best in Ho. cbn [root_node sp_value sp_depth sp_state] in Ho.
    rewrite Hh0 in Ho. simpl in Ho. inversion Ho; subst o. exact Hle.
  Qed.

  Variable M : nat.
  Hypothesis HKS : KC_struct st_eqb cfg M.
  Hypothesis HKC : KC_cache st_eqb cfg.

  Theorem C09_from_contracts_run :
    exists f0, forall fuel, (f0 <= fuel)%nat ->
      let r := maximize st_eqb cfg fuel None in
      r_crash r = false /\ r_outoffuel r = false /\ r_exact r = true /\ r_value r = opt_enum pb /\
      (forall v, opt_enum pb = Some v ->
         r_lb r = v /\ r_ub r = v /\ exists sol, r_sol r = Some (sort_by dec_var_cmp sol) /\ feas sol v) /\
      (opt_enum pb = None -> r_sol r = None /\ r_lb r = IMIN).
  Proof.
    destruct HKS as (S0 & S1 & S3 & S5). destruct HKC as (C2 & C3 & C4 & CW).
    rewrite <- OPT_enum.
    apply (seq_cache_solver_correct st_eqb cfg cfg_cache cfg_nodup good feas (Assembly.good_root cfg)
             (Assembly.feasible_le_opt cfg nv_static nv_none) opt_isize sbest_le_opt
             (fun c u => sgood_set_ub pb c u) M); rewrite ?OPT_enum.
    - exact S0.
    - exact S1.
    - exact C2.
    - intros n lb c ds polls m out Hg Hd Hl Hc He x Hx. exact (proj1 (S3 n lb c ds polls m out Hg Hd Hl Hc He x Hx)).
    - intros n lb c ds polls m out Hg Hd Hl Hc He x Hx. exact (proj2 (S3 n lb c ds polls m out Hg Hd Hl Hc He x Hx)).
    - exact C3.
    - exact C4.
    - exact S5.
    - exact CW.
  Qed.

  Theorem C09_from_contracts :
    exists f0, forall fuel, (f0 <= fuel)%nat ->
      let r := maximize st_eqb cfg fuel None in
      r_crash r = false /\ r_outoffuel r = false /\ r_exact r = true /\ r_value r = opt_enum pb /\
      (forall v, opt_enum pb = Some v ->
         r_lb r = v /\ r_ub r = v /\
         exists sol, r_sol r = Some (sort_by dec_var_cmp sol) /\ MddProgress.feasible pb sol v) /\
      (opt_enum pb = None -> r_sol r = None /\ r_lb r = IMIN).
  Proof.
    destruct C09_from_contracts_run as [f0 Hf]. exists f0. intros fuel Hfuel.
    destruct (Hf fuel Hfuel) as (A1 & A2 & A3 & A4 & A5 & A6).
    split; [exact A1|]. split; [exact A2|]. split; [exact A3|]. split; [exact A4|]. split; [|exact A6].
    intros v Hv. destruct (A5 v Hv) as (E1 & E2 & sol & S1 & S2). split; [exact E1|]. split; [exact E2|].
    exists sol. split; [exact S1|]. apply (sfeasible_feasible pb B HB guard0). exact S2.
  Qed.
End FromContracts.

Check @C09_from_contracts.
Print Assumptions C09_from_contracts.

Local Open Scope Z_scope.

(* ================================================================== 5. structural facts about a compilation started from ANY cache
   The layer loop is MddProgress.v's traversal at the store condition [fitC]; in _finalize the writes to the cache do not
   crash because every node depth lies inside the cache (ct_facts). *)
Local Open Scope nat_scope.

Lemma len_lt {A} (c : list A) n : length c = S n -> n < length c.
Proof. intros ->. apply Nat.lt_succ_diag_r. Qed.

Section ProgressC.
  Context {St : Type}.
  Variable st_eqb : St -> St -> bool.
  Hypothesis st_eqb_spec : forall a b, st_eqb a b = true <-> a = b.
  Variable inp : @cinput St.

  Notation mdd := (@mdd St).
  Notation node := (@node St).
  Notation gn := (get_node inp).
  Notation pb := (ci_problem inp).
  Notation root := (ci_root inp).
  Notation N := (nb_vars (ci_problem inp)).
  Notation d0 := (sp_depth (ci_root inp)).
  Notation W := (ci_width inp).
  Notation Pinv := (MddProgress.Pinv inp).
  Notation keep := (MddProgress.keep inp).
  Notation PLinv := (MddProgress.Linv inp).
  Notation PMinv := (MddProgress.Minv inp).
  Notation PPost := (MddProgress.Post inp).
  Notation Finv := (MddProgress.Finv inp).

  Hypothesis Hclean : ci_flavour inp = CleanLEL \/ ci_flavour inp = CleanFC.
  Hypothesis Hnodom : ci_domrule inp = None.
  Hypothesis Hnocut : ci_cutoff inp = 0.
  Hypothesis Hwidth : 1 <= ci_width inp.
  Hypothesis nv_some : forall k l, k < N -> exists x, next_variable pb k l = Some x.
  Hypothesis nv_none : forall k l, N <= k -> next_variable pb k l = None.
  Hypothesis Hroot_depth : d0 <= N.

  (* ---------------------------------------------------------------- the cache filter does not crash while the depths lie inside the cache *)
  Lemma gn_depth_upd_theta_flags (m : mdd) id (f : node -> node) x :
    (forall n, n_depth (f n) = n_depth n) -> n_depth (gn (upd_node m id f) x) = n_depth (gn m x).
  Proof. intros Hf. apply (get_node_upd_node_proj inp (fun n => n_depth n)). exact Hf. Qed.

  Lemma fwc_crash l : forall (m : mdd),
    (forall id, n_depth (gn m id) < length (m_cache m)) ->
    m_crash (fst (filter_with_cache st_eqb inp m l)) = m_crash m.
  Proof.
    induction l as [|id l IH]; intros m Hd; cbn [filter_with_cache]; [reflexivity|]. cbv zeta.
    destruct (cache_get_facts st_eqb inp m (n_state (gn m id)) (n_depth (gn m id))) as (G1 & G2 & G3 & _).
    specialize (G3 (Hd id)).
    destruct (cache_get st_eqb inp m (n_state (gn m id)) (n_depth (gn m id))) as [m1 th]. cbn [fst] in G1, G2, G3.
    assert (Hg1 : forall k, gn m1 k = gn m k) by (intros k; apply gn_nodes_eq; exact G1).
    assert (Hd1 : forall k, n_depth (gn m1 k) < length (m_cache m1)) by (intros k; rewrite Hg1, G2; apply Hd).
    destruct th as [t|].
    - destruct (n_vtop (gn m id) >? th_value t)%Z.
      + specialize (IH m1 Hd1). destruct (filter_with_cache st_eqb inp m1 l) as [m2 r]. cbn [fst] in *. congruence.
      + match goal with |- context [filter_with_cache st_eqb inp ?mm l] => specialize (IH mm) end.
        rewrite IH; [exact G3|]. intros k. rewrite gn_depth_upd_theta_flags by (intros n; reflexivity). apply Hd1.
    - specialize (IH m1 Hd1). destruct (filter_with_cache st_eqb inp m1 l) as [m2 r]. cbn [fst] in *. congruence.
  Qed.

  Lemma Pinv_depth_all dn (m : mdd) : Pinv dn m -> forall id, n_depth (gn m id) <= dn.
  Proof.
    intros HP id. destruct (Nat.lt_ge_cases id (length (m_nodes m))) as [Hlt|Hge].
    - apply (MddProgress.P_depth _ _ _ HP id Hlt).
    - rewrite (gn_out_of_range inp m id Hge). simpl. lia.
  Qed.

  (* the cache has a layer for every depth up to N, so that no lookup on the open layer leaves it *)
  Definition fitC (m : mdd) : Prop := N < length (m_cache m).

  Lemma fitC_stores (m m' : mdd) : m_cache m' = m_cache m -> m_dom m' = m_dom m -> fitC m -> fitC m'.
  Proof. unfold fitC. intros -> _ H. exact H. Qed.

  Lemma fitC_filters dn (m : mdd) l m1 l1 m2 l2 :
    prefilter st_eqb inp m l = (m1, l1) -> filter_with_dominance inp m1 l1 = (m2, l2) ->
    Pinv dn m -> dn <= N -> MddProgress.in_open m l -> fitC m -> m_crash m2 = m_crash m /\ fitC m2.
  Proof.
    unfold fitC. intros H1 H2 HP Hdn _ Hf.
    assert (A : m_crash m1 = m_crash m /\ m_cache m1 = m_cache m).
    { unfold prefilter in H1. destruct (Nat.ltb 0 _); [|inversion H1; split; reflexivity].
      pose proof (fwc_crash l m) as C. pose proof (mc_filter_with_cache st_eqb inp l m) as E.
      rewrite H1 in C, E. split; [apply C|exact E].
      intros id. pose proof (Pinv_depth_all dn m HP id). lia. }
    pose proof (MddProgress.dom_retain_crash inp Hnodom (sort_by (dom_order inp m1) l1) m1) as C2.
    pose proof (mc_dom_retain inp (sort_by (dom_order inp m1) l1) m1) as E2.
    change (dom_retain inp m1 _) with (filter_with_dominance inp m1 l1) in C2, E2. rewrite H2 in C2, E2.
    cbn [fst] in C2, E2. destruct A as [A1 A2]. rewrite C2, E2, A1, A2. split; [reflexivity|exact Hf].
  Qed.

  (* ---------------------------------------------------------------- _compute_thresholds: crash flag and cache length *)
  Lemma cache_update_facts (m : mdd) s d v e :
    m_nodes (cache_update st_eqb inp m s d v e) = m_nodes m /\
    (d < length (m_cache m) ->
     m_crash (cache_update st_eqb inp m s d v e) = m_crash m /\
     length (m_cache (cache_update st_eqb inp m s d v e)) = length (m_cache m)).
  Proof.
    unfold cache_update. destruct (ci_use_cache inp); [|split; [reflexivity|intros _; split; reflexivity]].
    cbn [m_cache add_log]. unfold update_threshold.
    destruct (nth_error (m_cache m) d) as [l|] eqn:E.
    - split; [reflexivity|]. intros _. split; [reflexivity|]. cbn [m_cache with_cache]. apply upd_nth_length.
    - split; [reflexivity|]. intros Hlt. apply nth_error_None in E. lia.
  Qed.

  Definition CQ (m a : mdd) : Prop :=
    m_crash a = m_crash m /\ length (m_cache a) = length (m_cache m) /\ forall x, n_depth (gn a x) = n_depth (gn m x).

  Lemma CQ_refl m : CQ m m. Proof. repeat split. Qed.
  Lemma CQ_upd_theta (m a : mdd) k (t : node -> option Z) : CQ m a -> CQ m (upd_node a k (fun n => set_theta n (t n))).
  Proof.
    intros (Q1 & Q2 & Q3). split; [exact Q1|]. split; [exact Q2|]. intros x.
    rewrite gn_depth_upd_theta_flags by (intros n; reflexivity). apply Q3.
  Qed.

  Lemma CQ_th_step (m : mdd) bk (a : mdd) id :
    (forall x, n_depth (gn m x) < length (m_cache m)) -> CQ m a -> CQ m (th_step st_eqb inp bk a id).
  Proof.
    intros Hd HQ. unfold th_step. destruct (f_deleted _); [exact HQ|].
    assert (H1 : CQ m (th_own st_eqb inp bk a id)).
    { unfold th_own. cbv zeta. destruct (negb _); [|exact HQ].
      match goal with |- CQ m (maybe_update_cache st_eqb inp ?mm id) => set (m1 := mm); assert (HQ1 : CQ m m1) end.
      { unfold m1. repeat match goal with |- context [if ?c then _ else _] => destruct c end;
          try exact HQ; apply (CQ_upd_theta m a id); exact HQ. }
      unfold maybe_update_cache. destruct (n_theta (gn m1 id)) as [t|]; [|exact HQ1].
      destruct (f_above _); [|exact HQ1].
      destruct HQ1 as (Q1 & Q2 & Q3).
      destruct (cache_update_facts m1 (n_state (gn m1 id)) (n_depth (gn m1 id)) t (negb (f_cutset (n_flags (gn m1 id))))) as (U1 & U2).
      destruct U2 as (U2 & U3); [rewrite Q3, Q2; apply Hd|].
      split; [congruence|]. split; [congruence|]. intros x.
      rewrite (gn_nodes_eq inp m1 _ x U1). apply Q3. }
    unfold th_prop. destruct (n_theta _); [|exact H1].
    apply (MddExact.fold_left_inv (CQ m)); [exact H1|]. intros b eid _ Hb. unfold prop_step. cbv zeta.
    apply (CQ_upd_theta m b _ (fun p => Some (Z.min (opt_default IMAX (n_theta p)) (sat_sub z (e_cost (get_edge b eid)))))). exact Hb.
  Qed.

  Lemma ct_facts (m : mdd) :
    (forall x, n_depth (gn m x) < length (m_cache m)) ->
    m_crash (compute_thresholds st_eqb inp m) = m_crash m /\
    length (m_cache (compute_thresholds st_eqb inp m)) = length (m_cache m).
  Proof.
    intros Hd. assert (HQ : CQ m (compute_thresholds st_eqb inp m)).
    { rewrite compute_thresholds_unfold. destruct (_ || _); [|apply CQ_refl].
      destruct (m_best_exact m) as [be|].
      - cbv zeta. set (bk := Z.max (ci_best_lb inp) (n_vtop (gn m be))).
        assert (HP : CQ m (th_preset inp bk m)).
        { unfold th_preset. apply (MddExact.fold_left_inv (CQ m)); [apply CQ_refl|]. intros a id _ Ha.
          match goal with |- context [if ?c then _ else _] => destruct c end; [|exact Ha].
          apply (CQ_upd_theta m a id (fun _ => Some bk)). exact Ha. }
        apply (MddExact.fold_left_inv (CQ m)); [exact HP|]. intros a id _ Ha. apply CQ_th_step; assumption.
      - apply (MddExact.fold_left_inv (CQ m)); [apply CQ_refl|]. intros a id _ Ha. apply CQ_th_step; assumption. }
    destruct HQ as (Q1 & Q2 & _). auto.
  Qed.

  Lemma insens_cache : MddProgress.insens (fun a : mdd => m_cache a).
  Proof. repeat split. Qed.

  Lemma finalize_factsC tb tb2 (ml : mdd) :
    PPost ml -> Sinv inp ml -> Xs inp ml -> N < length (m_cache ml) ->
    let m := finalize st_eqb inp tb tb2 ml in
    m_crash m = false /\
    length (m_nodes m) = length (m_nodes ml) /\
    (forall id, id < length (m_nodes m) -> d0 <= n_depth (gn m id) <= N) /\
    MddProgress.layers_ok inp m /\
    length (m_layers m) <= S N /\
    (forall id, In id (m_next m) -> n_depth (gn m id) = N) /\
    (forall b, m_best m = Some b -> In b (m_next m)) /\
    (forall b, m_best_exact m = Some b -> In b (m_next m)) /\
    NoDup (m_cutset m) /\
    (ci_type inp = Relaxed -> forall id, In id (m_cutset m) -> id < length (m_nodes m) /\ d0 < n_depth (gn m id)) /\
    length (m_cache m) = length (m_cache ml).
  Proof.
    intros HPost HS HX Hcl.
    destruct (finalize_spec st_eqb inp Hclean tb tb2 ml HS HX) as (Pl6 & Nl6 & _).
    pose proof (finalize_layers_eq st_eqb inp tb tb2 ml) as Hlayers.
    pose proof (MddProgress.finalize_layers_Finv inp Hclean Hnocut Hwidth Hroot_depth ml HPost) as HF1.
    destruct (MddProgress.finalize_layers_same inp Hclean ml) as (S1 & S2 & S3 & S4 & S5).
    unfold finalize in *.
    set (m1 := finalize_layers inp ml) in *.
    set (m2 := find_best_node inp tb tb2 m1) in *.
    set (m3 := finalize_exact inp m2) in *.
    set (m4 := finalize_cutset inp m3) in *.
    pose proof (compute_local_bounds_keq inp Hclean m4) as K5.
    set (m5 := compute_local_bounds inp m4) in *.
    pose proof (compute_thresholds_keq st_eqb inp m5) as K6.
    set (m6 := compute_thresholds st_eqb inp m5) in *.
    cbv zeta.
    assert (P1l : peq inp ml m1) by (apply peq_same_nodes; auto).
    assert (P16 : peq inp m1 m6) by (eapply peq_trans; [apply peq_sym; exact P1l|exact Pl6]).
    pose proof P16 as (_ & _ & Len16 & C16).
    assert (Hd : forall k, n_depth (gn m6 k) = n_depth (gn m1 k)).
    { intros k. destruct (C16 k) as (_ & _ & _ & _ & _ & _ & c7). congruence. }
    assert (HF3 : Finv m3) by (apply (MddProgress.Finv_same inp m1); auto; reflexivity).
    assert (Hc3 : m_cutset m3 = []).
    { change (m_cutset m3) with (m_cutset m1). rewrite S5. apply (X_cutset _ _ _ HX). }
    destruct (MddProgress.finalize_cutset_facts inp Hclean Hnocut Hwidth Hroot_depth m3 HF3 Hc3) as [Cnd Cdep].
    destruct K5 as (_ & N5 & B5 & BE5 & Cs5). destruct K6 as (_ & N6 & B6 & BE6 & Cs6).
    assert (Hc5 : m_cache m5 = m_cache ml).
    { unfold m5. rewrite (MddProgress.ins_compute_local_bounds inp _ insens_cache). unfold m4.
      rewrite (MddProgress.ins_finalize_cutset inp Hclean _ insens_cache) by reflexivity.
      unfold m3, m2, m1, finalize_exact, find_best_node, finalize_layers. cbv zeta. rewrite (MddProgress.not_pooled' inp Hclean).
      destruct (m_next ml); reflexivity. }
    assert (Hcr5 : m_crash m5 = false).
    { unfold m5. rewrite (MddProgress.ins_compute_local_bounds inp _ (MddProgress.insens_crash)). unfold m4.
      rewrite (MddProgress.ins_finalize_cutset inp Hclean _ (MddProgress.insens_crash)) by reflexivity.
      apply (MddProgress.F_crash _ _ HF1). }
    assert (Hd5 : forall x, n_depth (gn m5 x) < length (m_cache m5)).
    { intros x. rewrite Hc5. destruct (Nat.lt_ge_cases x (length (m_nodes m5))) as [Hlt|Hge].
      - 
        assert (Hdx : n_depth (gn m5 x) = n_depth (gn m1 x)).
        { pose proof (compute_thresholds_keq st_eqb inp m5) as ((_ & _ & _ & C56) & _).
          destruct (C56 x) as (_ & _ & _ & _ & _ & _ & c7). fold m6 in c7. rewrite c7. apply Hd. }
        rewrite Hdx.
        assert (Hx1 : x < length (m_nodes m1)).
        { pose proof (compute_thresholds_keq st_eqb inp m5) as ((_ & _ & L56 & _) & _). fold m6 in L56. lia. }
        pose proof (MddProgress.F_depth _ _ HF1 x Hx1). lia.
      - rewrite (gn_out_of_range inp m5 x Hge). simpl. lia. }
    destruct (ct_facts m5 Hd5) as (Hcr6 & Hlc6). fold m6 in Hcr6, Hlc6.
    assert (Hcr : m_crash m6 = false) by (rewrite Hcr6; exact Hcr5).
    assert (Hb4 : m_best m4 = m_best m3) by (apply (MddProgress.ins_finalize_cutset inp Hclean _ MddProgress.insens_best); reflexivity).
    assert (Hbe4 : m_best_exact m4 = m_best_exact m3) by (apply (MddProgress.ins_finalize_cutset inp Hclean _ MddProgress.insens_best_exact); reflexivity).
    assert (Hn6 : m_next m6 = m_next m1) by (rewrite Nl6, S4; reflexivity).
    assert (Hbest2 : forall b, m_best m2 = Some b -> In b (m_next m1)).
    { intros b Hb. unfold m2, find_best_node in Hb. msimpl_in Hb.
      apply MddExact.pick_In in Hb. apply (argmax_candidates_In inp Hclean) in Hb. exact Hb. }
    split; [exact Hcr|]. split; [rewrite Len16, S1; reflexivity|].
    split; [|split; [|split; [|split; [|split; [|split; [|split; [|split]]]]]]].
    - intros id Hid. rewrite Hd. apply (MddProgress.F_depth _ _ HF1). lia.
    - intros i ids id H1 H2. rewrite Hlayers in H1. destruct (MddProgress.F_layers _ _ HF1 i ids id H1 H2) as [a b].
      rewrite Hd. split; [lia|exact b].
    - rewrite Hlayers. apply (MddProgress.F_nlayers _ _ HF1).
    - intros id Hid. rewrite Hn6 in Hid. rewrite Hd. apply (MddProgress.F_next _ _ HF1); exact Hid.
    - intros b Hb. rewrite Hn6. rewrite B6, B5, Hb4 in Hb. apply Hbest2. exact Hb.
    - intros b Hb. rewrite Hn6. rewrite BE6, BE5, Hbe4 in Hb.
      unfold m3, finalize_exact in Hb. cbv zeta in Hb. msimpl_in Hb.
      destruct (is_relaxed_ct (ci_type inp) && has_exact_best_path inp (S (length (m_nodes m2))) m2 (m_best m2)).
      + apply Hbest2; exact Hb.
      + unfold m2, find_best_node in Hb. msimpl_in Hb.
        apply MddExact.pick_In in Hb. apply (argmax_candidates_In inp Hclean) in Hb. apply filter_In in Hb. tauto.
    - rewrite Cs6, Cs5. exact Cnd.
    - intros Hr id Hid. rewrite Cs6, Cs5 in Hid. destruct (Cdep Hr id Hid) as [a b].
      change (m_nodes m3) with (m_nodes m1) in a. change (gn m3 id) with (gn m1 id) in b.
      rewrite Hd. split; [lia|exact b].
    - rewrite Hlc6, Hc5. reflexivity.
  Qed.

  Lemma compile_unfoldC tb tb2 c ds polls : N < length c ->
    exists ml, layer_loop st_eqb inp (S (S N)) (initialize inp c ds polls) = (ml, LoopDone) /\
               PPost ml /\ Sinv inp ml /\ Xs inp ml /\ m_cache ml = c /\
               compile st_eqb inp tb tb2 c ds polls = (finalize st_eqb inp tb tb2 ml, Compiled).
  Proof.
    intros Hc.
    destruct (MddProgress.compile_unfold_gen st_eqb st_eqb_spec inp Hclean Hnocut Hwidth nv_some nv_none Hroot_depth
                fitC fitC_stores fitC_filters tb tb2 c ds polls Hc) as (ml & Hl & HP & HS & HX & Hcomp).
    pose proof (mc_layer_loop st_eqb inp Hclean Hwidth (S (S N)) (initialize inp c ds polls)) as Hmc. rewrite Hl in Hmc.
    exists ml. auto 7.
  Qed.

  Theorem compile_completesC tb tb2 c ds polls (m : mdd) out : N < length c ->
    compile st_eqb inp tb tb2 c ds polls = (m, out) ->
    out = Compiled /\ m_crash m = false /\ length (m_cache m) = length c.
  Proof.
    intros Hcl H. destruct (compile_unfoldC tb tb2 c ds polls Hcl) as (ml & _ & HP & HS & HX & Hmc & Hc).
    rewrite Hc in H. inversion H; subst. split; [reflexivity|].
    destruct (finalize_factsC tb tb2 ml HP HS HX Hcl) as (F1 & _ & _ & _ & _ & _ & _ & _ & _ & _ & F11). auto.
  Qed.

  Theorem compile_node_depthC tb tb2 c ds polls (m : mdd) out id : N < length c ->
    compile st_eqb inp tb tb2 c ds polls = (m, out) ->
    id < length (m_nodes m) -> d0 <= n_depth (gn m id) <= N.
  Proof.
    intros Hcl H. destruct (compile_unfoldC tb tb2 c ds polls Hcl) as (ml & _ & HP & HS & HX & Hmc & Hc).
    rewrite Hc in H. inversion H; subst.
    destruct (finalize_factsC tb tb2 ml HP HS HX Hcl) as (_ & _ & F & _). apply F.
  Qed.

  Theorem compile_layer_depthC tb tb2 c ds polls (m : mdd) out i ids id : N < length c ->
    compile st_eqb inp tb tb2 c ds polls = (m, out) ->
    nth_error (m_layers m) i = Some ids -> In id ids ->
    id < length (m_nodes m) /\ n_depth (gn m id) = d0 + i.
  Proof.
    intros Hcl H. destruct (compile_unfoldC tb tb2 c ds polls Hcl) as (ml & _ & HP & HS & HX & Hmc & Hc).
    rewrite Hc in H. inversion H; subst.
    destruct (finalize_factsC tb tb2 ml HP HS HX Hcl) as (_ & _ & _ & F & _). apply F.
  Qed.

  Theorem compile_best_depthC tb tb2 c ds polls (m : mdd) out b : N < length c ->
    compile st_eqb inp tb tb2 c ds polls = (m, out) ->
    m_best m = Some b \/ m_best_exact m = Some b -> n_depth (gn m b) = N.
  Proof.
    intros Hcl H Hb. destruct (compile_unfoldC tb tb2 c ds polls Hcl) as (ml & _ & HP & HS & HX & Hmc & Hc).
    rewrite Hc in H. inversion H; subst.
    destruct (finalize_factsC tb tb2 ml HP HS HX Hcl) as (_ & _ & _ & _ & _ & F & G1 & G2 & _).
    apply F. destruct Hb as [Hb|Hb]; [apply G1|apply G2]; exact Hb.
  Qed.

  Theorem cutset_depthC tb tb2 c ds polls (m : mdd) out sp : N < length c ->
    ci_type inp = Relaxed ->
    compile st_eqb inp tb tb2 c ds polls = (m, out) ->
    In sp (drain_cutset inp m) -> d0 < sp_depth sp <= N.
  Proof.
    intros Hcl Hr H Hin. destruct (compile_unfoldC tb tb2 c ds polls Hcl) as (ml & _ & HP & HS & HX & Hmc & Hc).
    rewrite Hc in H. inversion H; subst.
    destruct (finalize_factsC tb tb2 ml HP HS HX Hcl) as (_ & _ & Fd & _ & _ & _ & _ & _ & _ & Fc & _).
    destruct (MddProgress.drain_cutset_In inp _ sp Hin) as (id & Hid & ->).
    destruct (Fc Hr id Hid) as [a b]. specialize (Fd id a). lia.
  Qed.

  Variable D : nat.
  Hypothesis dom_bound : forall x s, length (domain pb x s) <= D.
  Notation Mbound := (MddProgress.Mbound inp D).

  Theorem cutset_size_boundC tb tb2 c ds polls (m : mdd) out : N < length c ->
    ci_type inp = Relaxed ->
    compile st_eqb inp tb tb2 c ds polls = (m, out) -> length (drain_cutset inp m) <= Mbound.
  Proof.
    intros Hcl Ht H.
    destruct (compile_unfoldC tb tb2 c ds polls Hcl) as (ml & Hl & HP & HS & HX & Hmc & Hc).
    rewrite Hc in H. inversion H; subst. clear H.
    destruct (finalize_factsC tb tb2 ml HP HS HX Hcl) as (_ & Hlen & _ & _ & _ & _ & _ & _ & Fnd & Fc & _).
    assert (Hn : length (m_nodes ml) <= Mbound).
    { eapply (MddProgress.layer_loop_count_gen st_eqb inp Hclean Hnocut Hwidth nv_none Hroot_depth D dom_bound
                fitC fitC_stores fitC_filters);
        [exact Ht|apply (MddProgress.Linv_initialize inp Hclean Hnocut Hwidth Hroot_depth)|exact Hcl| |exact Hl].
      split; [|split]; simpl; intros; try discriminate; lia. }
    set (m := finalize st_eqb inp tb tb2 ml) in *.
    assert (H1 : length (drain_cutset inp m) <= length (m_cutset m)).
    { unfold drain_cutset. destruct (dd_best_value inp m); [|simpl; lia].
      apply MddProgress.flat_map_length_le. intros id. destruct (f_marked _); simpl; lia. }
    assert (H2 : length (m_cutset m) <= length (m_nodes m)).
    { apply MddProgress.NoDup_bounded_length; [exact Fnd|]. intros id Hid. apply (Fc Ht id Hid). }
    lia.
  Qed.
End ProgressC.

Local Open Scope Z_scope.

Section StructHolds.
  Context {St : Type}.
  Variable st_eqb : St -> St -> bool.
  Hypothesis st_eqb_spec : forall a b, st_eqb a b = true <-> a = b.
  Variable cfg : @sconfig St.
  Local Notation pb := (sc_problem cfg).
  Local Notation N := (nb_vars (sc_problem cfg)).
  Hypothesis cfg_clean : sc_flavour cfg = CleanLEL \/ sc_flavour cfg = CleanFC.
  Hypothesis cfg_nodom : sc_domrule cfg = None.
  Hypothesis cfg_nocut : sc_cutoff cfg = 0%nat.
  Hypothesis cfg_width : (1 <= sc_width cfg)%nat.
  Hypothesis nv_static : forall k l1 l2, next_variable pb k l1 = next_variable pb k l2.
  Hypothesis nv_some : forall k l, (k < N)%nat -> exists x, next_variable pb k l = Some x.
  Hypothesis nv_none : forall k l, (N <= k)%nat -> next_variable pb k l = None.
  Variable D : nat.
  Hypothesis dom_bound : forall x s, (length (domain pb x s) <= D)%nat.
  Variable B : Z.
  Hypothesis HB : 2 * B <= IMAX.
  Hypothesis guard0 : forall ds s' v', frun pb 0 (init_state pb) (init_value pb) ds = Some (s', v') -> - B <= v' <= B.

  Local Notation good := (sgood (sc_problem cfg)).
  Local Notation feas := (sfeasible (sc_problem cfg)).

  Lemma KC0_holds ct n lb c ds polls m out : (sp_depth n <= N)%nat -> length c = S N ->
    compile st_eqb (mk_input cfg ct n lb) 0 0 c ds polls = (m, out) ->
    out = Compiled /\ m_crash m = false /\ length (m_cache m) = S N.
  Proof.
    intros Hd Hl Hc.
    destruct (compile_completesC st_eqb st_eqb_spec (mk_input cfg ct n lb) cfg_clean cfg_nodom cfg_nocut cfg_width
                nv_some nv_none Hd 0%nat 0%nat c ds polls m out (len_lt c _ Hl) Hc) as (A1 & A2 & A3).
    rewrite A3. auto.
  Qed.

  Theorem KC_struct_holds : KC_struct st_eqb cfg (Kbound cfg D).
  Proof.
    split; [|split; [|split]].
    - intros ct n lb c ds polls m out _ _. apply KC0_holds.
    - intros ct n lb c ds polls m out _ Hg Hd Hl Hc v Hv.
      destruct (KC0_holds ct n lb c ds polls m out Hd Hl Hc) as (-> & _ & _).
      unfold dd_best_exact_value in Hv. unfold dd_best_exact_solution.
      destruct (m_best_exact m) as [b|] eqn:Eb; [|discriminate]. simpl in Hv. inversion Hv; subst v. simpl.
      destruct (best_exact_solution_genuine st_eqb st_eqb_spec (mk_input cfg ct n lb) cfg_clean 0%nat 0%nat c ds polls m b Hc Eb)
        as (Hlt & Hcc & _ & Hpath & Hlen).
      pose proof (Assembly.clean_chain_frun st_eqb st_eqb_spec (mk_input cfg ct n lb) cfg_clean nv_static B HB (Assembly.gguard cfg B guard0 n Hg)
                    0%nat 0%nat c ds polls m b Hc Hcc Hlt) as Hrun.
      pose proof (compile_best_depthC st_eqb st_eqb_spec (mk_input cfg ct n lb) cfg_clean cfg_nodom cfg_nocut cfg_width
                    nv_some nv_none Hd 0%nat 0%nat c ds polls m Compiled b (len_lt c _ Hl) Hc (or_intror Eb)) as HdN.
      destruct Hg as (_ & ds0 & G1 & G2 & G3).
      eexists. split; [reflexivity|].
      exists (ds0 ++ rev (chain (mk_input cfg ct n lb) m b)), (n_state (get_node (mk_input cfg ct n lb) m b)).
      split; [|split].
      + rewrite app_length, rev_length, G1, Hlen, HdN. cbn [mk_input ci_root ci_problem]. lia.
      + rewrite Hpath. apply Permutation_app; [exact G2|]. apply Permutation_sym, Permutation_rev.
      + rewrite frun_app, G3, G1. exact Hrun.
    - intros n lb c ds polls m out Hg Hd Hl Hc _ x Hx.
      destruct (KC0_holds Relaxed n lb c ds polls m out Hd Hl Hc) as (-> & _ & _).
      pose proof (cutset_depthC st_eqb st_eqb_spec (mk_input cfg Relaxed n lb) cfg_clean cfg_nodom cfg_nocut cfg_width
                    nv_some nv_none Hd 0%nat 0%nat c ds polls m Compiled x (len_lt c _ Hl) eq_refl Hc Hx) as Hdx.
      cbn [mk_input ci_root ci_problem] in Hdx. split; [|exact Hdx].
      destruct (cutset_nodes_exact st_eqb st_eqb_spec (mk_input cfg Relaxed n lb) cfg_clean 0%nat 0%nat c ds polls m x Hc Hx)
        as (id & _ & Hlt & _ & Hcc & Hpath & Hst & Hval & _ & _ & Hlen).
      pose proof (Assembly.clean_chain_frun st_eqb st_eqb_spec (mk_input cfg Relaxed n lb) cfg_clean nv_static B HB (Assembly.gguard cfg B guard0 n Hg)
                    0%nat 0%nat c ds polls m id Hc Hcc Hlt) as Hrun.
      destruct Hg as (_ & ds0 & G1 & G2 & G3).
      split; [apply Hdx|].
      exists (ds0 ++ rev (chain (mk_input cfg Relaxed n lb) m id)). split; [|split].
      + rewrite app_length, rev_length, G1, Hlen. reflexivity.
      + rewrite Hpath. apply Permutation_app; [exact G2|]. apply Permutation_sym, Permutation_rev.
      + rewrite frun_app, G3, G1, Hst, Hval. exact Hrun.
    - intros n lb c ds polls m out Hg Hd Hl Hc _.
      exact (cutset_size_boundC st_eqb st_eqb_spec (mk_input cfg Relaxed n lb) cfg_clean cfg_nodom cfg_nocut cfg_width
               nv_some nv_none Hd D dom_bound 0%nat 0%nat c ds polls m out (len_lt c _ Hl) eq_refl Hc).
  Qed.
End StructHolds.

Local Open Scope nat_scope.

(* ================================================================== 6. the loop invariant and the capture predicate, as this file's statements read them
   [FSc], its node predicate and [CaptD] are those of Thresholds.v (sections 4 and 2), spelled out here word for word: they
   convert to their namesakes there (FSc_thr). *)
Section LoopC.
  Context {St : Type}.
  Variable st_eqb : St -> St -> bool.
  Variable inp : @cinput St.
  Let pb := ci_problem inp.
  Let root := ci_root inp.
  Let N := nb_vars pb.
  Let rd := sp_depth root.
  Variable cov : St -> St -> Prop.
  Notation mdd := (@mdd St).
  Notation node := (@node St).
  Notation gn := (get_node inp).
  Notation del := (Thresholds.del inp).

  Definition fcache (m : mdd) (x : nat) : bool := f_cache (n_flags (gn m x)).
  Definition PnC (n : node) : Prop :=
    f_above (n_flags n) = false /\ (f_cache (n_flags n) = false -> n_theta n = None).
  Definition NinvC (m : mdd) : Prop := Forall PnC (m_nodes m).

  Notation SCr := (Thresholds.SCr inp cov).

  Record FSc (c : @cache St) (ml : mdd) (lay : nat -> list nat) : Prop := {
    Fc_einv : forall id eid, id < length (m_nodes ml) -> In eid (n_inb (gn ml id)) ->
      eid < length (m_edges ml) /\
      (sat_add (n_vtop (gn ml (e_from (get_edge ml eid)))) (e_cost (get_edge ml eid)) <= n_vtop (gn ml id))%Z /\
      (is_ex inp ml id = true ->
         is_ex inp ml (e_from (get_edge ml eid)) = true /\
         n_state (gn ml id) = transition pb (n_state (gn ml (e_from (get_edge ml eid)))) (e_dec (get_edge ml eid)));
    Fc_range : forall j x, In x (lay j) -> x < length (m_nodes ml);
    Fc_ord1 : forall j j' x y, j < j' -> In x (lay j) -> In y (lay j') -> x < y;
    Fc_ord2 : forall j, NoDup (lay j);
    Fc_ord3 : forall j x eid y, In x (lay j) -> In eid (n_inb (gn ml x)) -> In y (lay j) -> e_from (get_edge ml eid) < y;
    Fc_dep : forall j x, In x (lay j) -> del ml x = false -> n_depth (gn ml x) = rd + j;
    Fc_exp : forall j x, In x (lay j) -> del ml x = false -> fcache ml x = false -> SCr ml lay j x;
    Fc_lel : forall k, m_lel ml = Some k -> forall j x, j <= k -> In x (lay j) -> is_ex inp ml x = true;
    Fc_last : forall j x, In x (lay j) -> rd + j = N ->
      In x (m_next ml) /\ m_layer_end ml <= x < length (m_nodes ml) /\ length (m_layers ml) = j /\ fcache ml x = false;
    Fc_nc : NinvC ml;
    Fc_cached : forall j x, In x (lay j) -> del ml x = false -> fcache ml x = true ->
       exists th, ci_use_cache inp = true /\ cget st_eqb c (n_state (gn ml x)) (n_depth (gn ml x)) = Some th /\
         (n_vtop (gn ml x) <= th_value th)%Z /\ n_theta (gn ml x) = Some (th_value th);
    Fc_mc : m_cache ml = c;
    Fc_src : forall x, MddSim.Src ml x -> fcache ml x = false;
    Fc_srcl : forall x, MddSim.Src ml x -> del ml x = false /\ exists j, In x (lay j);
    Fc_root : In 0 (lay 0) /\ del ml 0 = false /\ fcache ml 0 = false;
    Fc_open : forall x, In x (m_next ml) -> fcache ml x = false }.

  Lemma FSc_thr c ml lay : FSc c ml lay -> Thresholds.FSc st_eqb inp cov c ml lay.
  Proof.
    intros [a1 a2 a3 a4 a5 a6 a7 a8 a9 a10 a11 a12 a13 a14 a15 a16].
    exact (Thresholds.Build_FSc st_eqb inp cov c ml lay a1 a2 a3 a4 a5 a6 a7 a8 a9 a10 a11 a12 a13 a14 a15 a16).
  Qed.
End LoopC.

Local Open Scope Z_scope.
Section StaticC.
  Context {St : Type}.
  Variable inp : @cinput St.
  Let pb := ci_problem inp.
  Let rd := sp_depth (ci_root inp).
  Variable m0 : @mdd St.
  Variable Drained : nat -> Prop.
  Notation gn := (get_node inp).
  Notation lay := (Thresholds.lay m0).
  Notation st := (Thresholds.st inp m0).
  Notation vt := (Thresholds.vt inp m0).

  (* capture by a drained cut-set node; with e = true the node is met strictly deeper than the starting point *)
  Definition CaptD (e : bool) (j : nat) (s : St) (w : Z) (ds : list decision) : Prop :=
    exists ds1 ds2 y s1 w1, ds = ds1 ++ ds2 /\ frun pb (rd + j) s w ds1 = Some (s1, w1) /\
      Drained y /\ st y = s1 /\ n_depth (gn m0 y) = (rd + j + length ds1)%nat /\ w1 <= vt y /\ (e = true -> ds1 <> []).

  Lemma CaptD_weaken e j s w ds : CaptD e j s w ds -> CaptD false j s w ds.
  Proof. exact (Thresholds.CaptD_weaken inp m0 Drained e j s w ds). Qed.

  Lemma lay_bu j x : lay j x -> In x (bottom_up m0).
  Proof. apply Thresholds.lay_bu. Qed.
End StaticC.

Local Open Scope nat_scope.
Section FinalC.
  Context {St : Type}.
  Variable st_eqb : St -> St -> bool.
  Variable inp : @cinput St.
  Let pb := ci_problem inp.
  Let root := ci_root inp.
  Let N := nb_vars pb.
  Let rd := sp_depth root.
  Hypothesis Hclean : ci_flavour inp = CleanLEL \/ ci_flavour inp = CleanFC.
  Hypothesis Hnocut : ci_cutoff inp = 0.
  Hypothesis Hwidth : 1 <= ci_width inp.
  Hypothesis Hrel : ci_type inp = Relaxed.
  Hypothesis Hrd : rd <= N.
  Variable cov : St -> St -> Prop.
  Variable c0 : @cache St.
  Notation mdd := (@mdd St).
  Notation gn := (get_node inp).
  Notation LF := (Thresholds.LF inp).
  Notation FSc := (FSc st_eqb inp cov c0).
  Variables (tb tb2 : nat) (ml : mdd).
  Hypothesis HFS : FSc ml (fun j => nth j (LF ml) []).
  Hypothesis HS : Sinv inp ml.
  Hypothesis HX : Xs inp ml.
  Hypothesis HN : MddSim.Ninv inp ml.

  Let m3' := finalize_exact inp (find_best_node inp tb tb2 (finalize_layers inp ml)).
  Let m4 := finalize_cutset inp m3'.
  Let m5 := compute_local_bounds inp m4.
  Let mf := finalize st_eqb inp tb tb2 ml.
  Notation lyf j := (nth j (LF ml) []).

  Lemma mf_eqC : mf = compute_thresholds st_eqb inp m5.
  Proof. reflexivity. Qed.

  Lemma above_in_layerC x : f_above (n_flags (gn m4 x)) = true -> exists j, In x (lyf j).
  Proof.
    exact (Thresholds.above_in_layerC st_eqb inp Hclean Hnocut Hwidth Hrel Hrd cov c0 tb tb2 ml (FSc_thr st_eqb inp cov c0 ml _ HFS) HS HX HN x).
  Qed.
End FinalC.

Local Open Scope nat_scope.

(* ================================================================== 7. a restricted compilation that never restricts is the relaxed one *)
Definition rx {St} (i : @cinput St) : @cinput St :=
  {| ci_flavour := ci_flavour i; ci_type := Relaxed; ci_problem := ci_problem i; ci_relax := ci_relax i;
     ci_ranking := ci_ranking i; ci_domcmp := ci_domcmp i; ci_width := ci_width i; ci_root := ci_root i;
     ci_best_lb := ci_best_lb i; ci_use_cache := ci_use_cache i; ci_domrule := ci_domrule i; ci_cutoff := ci_cutoff i |}.

Definition with_ebp {St} (m : @mdd St) (b : bool) : @mdd St :=
  {| m_nodes := m_nodes m; m_edges := m_edges m; m_layers := m_layers m; m_layer_end := m_layer_end m; m_next := m_next m;
     m_curr_depth := m_curr_depth m; m_path := m_path m; m_lel := m_lel m; m_cutset := m_cutset m; m_best := m_best m;
     m_best_exact := m_best_exact m; m_is_exact := m_is_exact m; m_has_ebp := b;
     m_cache := m_cache m; m_dom := m_dom m; m_log := m_log m; m_polls := m_polls m; m_crash := m_crash m |}.

Lemma filter_all {A} (f : A -> bool) (l : list A) : (forall x, In x l -> f x = true) -> filter f l = l.
Proof.
  induction l as [|x l IH]; intros H; [reflexivity|]. cbn [filter]. rewrite (H x (or_introl eq_refl)). f_equal.
  apply IH. intros y Hy. apply H. right; exact Hy.
Qed.

Section TypeTwin.
  Context {St : Type}.
  Variable st_eqb : St -> St -> bool.
  Hypothesis st_eqb_spec : forall a b, st_eqb a b = true <-> a = b.
  Variable inp : @cinput St.
  Hypothesis Hclean : ci_flavour inp = CleanLEL \/ ci_flavour inp = CleanFC.
  Hypothesis Hres : ci_type inp = Restricted.
  Notation inpR := (rx inp).
  Notation mdd := (@mdd St).
  Notation gn := (get_node inp).

  Lemma HcleanR : ci_flavour inpR = CleanLEL \/ ci_flavour inpR = CleanFC.
  Proof. exact Hclean. Qed.

  Lemma tw_prefilter (m : mdd) l : prefilter st_eqb inpR m l = prefilter st_eqb inp m l.
  Proof. reflexivity. Qed.
  Lemma tw_fwd (m : mdd) l : filter_with_dominance inpR m l = filter_with_dominance inp m l.
  Proof. reflexivity. Qed.
  (* the two sides differ only in projections of the input; rewriting with the three functions that take the input
     keeps the kernel from unfolding [branch_on] on both sides *)
  Lemma tw_expand var (m : mdd) id : expand_node st_eqb inpR var m id = expand_node st_eqb inp var m id.
  Proof.
    assert (E1 : get_node inpR = get_node inp) by reflexivity.
    assert (E2 : append_edge inpR = append_edge inp) by reflexivity.
    assert (E3 : find_next st_eqb inpR = find_next st_eqb inp) by reflexivity.
    unfold expand_node, branch_on. rewrite E1, E2, E3. reflexivity.
  Qed.

  Lemma mark_deleted_lel (m : mdd) l : m_lel (mark_deleted m l) = m_lel m.
  Proof. unfold mark_deleted. apply (fold_left_proj (fun a : mdd => m_lel a)). intros; reflexivity. Qed.

  Lemma note_squash_some (m : mdd) : m_lel (note_squash inp m) <> None.
  Proof.
    unfold note_squash. rewrite (not_pooled inp Hclean). destruct (m_lel m) eqn:E; [rewrite E; discriminate|].
    cbn [m_lel with_lel_exact]. discriminate.
  Qed.

  Lemma restrict_some (m : mdd) l : m_lel (fst (restrict_layer inp m l)) <> None.
  Proof. unfold restrict_layer. cbv zeta. cbn [fst]. rewrite mark_deleted_lel. apply note_squash_some. Qed.

  Lemma squash_res (m : mdd) l :
    squash_if_needed st_eqb inp m l = if Nat.ltb (ci_width inp) (length l) then restrict_layer inp m l else (m, l).
  Proof. unfold squash_if_needed. rewrite Hres. reflexivity. Qed.

  Lemma squash_lel_some (m : mdd) l : m_lel m <> None -> m_lel (fst (squash_if_needed st_eqb inp m l)) <> None.
  Proof. intros H. rewrite squash_res. destruct (Nat.ltb _ _); [apply restrict_some|exact H]. Qed.

  Lemma squash_twin (m : mdd) l : m_lel (fst (squash_if_needed st_eqb inp m l)) = None ->
    squash_if_needed st_eqb inpR m l = squash_if_needed st_eqb inp m l.
  Proof.
    intros H. rewrite squash_res in H |- *. unfold squash_if_needed. cbn [rx ci_type ci_width].
    destruct (Nat.ltb (ci_width inp) (length l)) eqn:E.
    - exfalso. apply (restrict_some m l). exact H.
    - reflexivity.
  Qed.

  Lemma prefilter_lel (m : mdd) l : m_lel (fst (prefilter st_eqb inp m l)) = m_lel m.
  Proof. destruct (prefilter_ceq st_eqb inp Hclean m l) as [(_ & _ & _ & _ & E & _) _]. exact E. Qed.
  Lemma fwd_lel (m : mdd) l : m_lel (fst (filter_with_dominance inp m l)) = m_lel m.
  Proof. destruct (filter_with_dominance_ceq inp m l) as [(_ & _ & _ & _ & E & _) _]. exact E. Qed.

  Lemma move_lel_some (m : mdd) : m_lel m <> None -> m_lel (fst (move_to_next_layer_clean st_eqb inp m)) <> None.
  Proof.
    intros H. rewrite move_clean_unfold. destruct (m_next m) as [|c0 cs]; [exact H|].
    pose proof (prefilter_lel (with_next m []) (c0 :: cs)) as H1.
    destruct (prefilter st_eqb inp (with_next m []) (c0 :: cs)) as [m1 l1]. cbn [fst] in H1.
    pose proof (fwd_lel m1 l1) as H2. destruct (filter_with_dominance inp m1 l1) as [m2 l2]. cbn [fst] in H2.
    pose proof (squash_lel_some m2 l2) as H3. destruct (squash_if_needed st_eqb inp m2 l2) as [m3 l3]. cbn [fst] in *.
    cbn [m_lel push_layer]. apply H3. rewrite H2, H1. exact H.
  Qed.

  Lemma move_twin (m : mdd) : m_lel (fst (move_to_next_layer_clean st_eqb inp m)) = None ->
    move_to_next_layer_clean st_eqb inpR m = move_to_next_layer_clean st_eqb inp m.
  Proof.
    intros H. rewrite (move_clean_unfold st_eqb inpR). rewrite (move_clean_unfold st_eqb inp) in H |- *.
    destruct (m_next m) as [|c0 cs]; [reflexivity|].
    rewrite tw_prefilter. destruct (prefilter st_eqb inp (with_next m []) (c0 :: cs)) as [m1 l1].
    rewrite tw_fwd. destruct (filter_with_dominance inp m1 l1) as [m2 l2].
    rewrite (squash_twin m2 l2); [reflexivity|].
    destruct (squash_if_needed st_eqb inp m2 l2) as [m3 l3]. cbn [fst] in H |- *. exact H.
  Qed.

  Lemma loop_lel_some : forall fuel (m : mdd), m_lel m <> None -> m_lel (fst (layer_loop st_eqb inp fuel m)) <> None.
  Proof.
    induction fuel as [|fuel IH]; intros m H; [exact H|].
    rewrite layer_loop_iteration. cbv zeta.
    destruct (next_variable _ _ _) as [var|]; [|exact H].
    destruct (_ && _); [exact H|].
    unfold loop_move. rewrite (not_pooled inp Hclean).
    match goal with |- context [move_to_next_layer_clean st_eqb inp ?mm] =>
      pose proof (move_lel_some mm H) as Hmv; destruct (move_to_next_layer_clean st_eqb inp mm) as [m2 ol] end.
    cbn [fst] in Hmv. destruct ol as [l|]; [|exact Hmv].
    apply IH. cbn [m_lel with_depth]. rewrite MddSim.expand_layer_lel. exact Hmv.
  Qed.

  Lemma loop_twin : forall fuel (m : mdd), m_lel (fst (layer_loop st_eqb inp fuel m)) = None ->
    layer_loop st_eqb inpR fuel m = layer_loop st_eqb inp fuel m.
  Proof.
    induction fuel as [|fuel IH]; intros m H; [reflexivity|].
    rewrite (layer_loop_iteration st_eqb inpR). rewrite (layer_loop_iteration st_eqb inp) in H |- *. cbv zeta in H |- *.
    unfold loop_move in H |- *. rewrite (not_pooled inp Hclean) in H |- *. rewrite (not_pooled inpR HcleanR).
    change (ci_problem inpR) with (ci_problem inp). change (ci_cutoff inpR) with (ci_cutoff inp).
    change (get_node inpR) with (get_node inp).
    match goal with |- context [next_variable ?p ?d ?s] => destruct (next_variable p d s) as [var|] end; [|reflexivity].
    match goal with |- context [if ?c then _ else _] => destruct c end; [reflexivity|].
    match goal with |- context [move_to_next_layer_clean st_eqb inp ?mm] => set (m1 := mm) in * end.
    assert (Hm : m_lel (fst (move_to_next_layer_clean st_eqb inp m1)) = None).
    { destruct (move_to_next_layer_clean st_eqb inp m1) as [m2 [l|]]; cbn [fst] in H |- *; [|exact H].
      destruct (m_lel m2) as [k|] eqn:E2; [exfalso|reflexivity].
      apply (loop_lel_some fuel (with_depth (fold_left (expand_node st_eqb inp var) l m2)
                                   (S (m_curr_depth (fold_left (expand_node st_eqb inp var) l m2))))); [|exact H].
      cbn [m_lel with_depth]. rewrite MddSim.expand_layer_lel, E2. discriminate. }
    rewrite (move_twin m1 Hm). destruct (move_to_next_layer_clean st_eqb inp m1) as [m2 [l|]]; [|reflexivity].
    rewrite (fold_left_ext _ _ _ (tw_expand var)). apply IH. exact H.
  Qed.
  (* ---------------------------------------------------------------- _finalize: the only difference is the has_exact_best_path flag *)
  Lemma fold_ebp {A} (f : mdd -> A -> mdd) b : (forall a x, f (with_ebp a b) x = with_ebp (f a x) b) ->
    forall l (m : mdd), fold_left f l (with_ebp m b) = with_ebp (fold_left f l m) b.
  Proof. intros Hf l. induction l as [|x l IH]; intros m; [reflexivity|]. cbn [fold_left]. rewrite Hf. apply IH. Qed.

  Lemma gn_ebp (m : mdd) b x : gn (with_ebp m b) x = gn m x.
  Proof. reflexivity. Qed.
  Lemma ge_ebp (m : mdd) b k : get_edge (with_ebp m b) k = get_edge m k.
  Proof. reflexivity. Qed.
  Lemma upd_ebp (m : mdd) b id f : upd_node (with_ebp m b) id f = with_ebp (upd_node m id f) b.
  Proof. reflexivity. Qed.
  Lemma wle_ebp (m : mdd) b l e : with_lel_exact (with_ebp m b) l e = with_ebp (with_lel_exact m l e) b.
  Proof. reflexivity. Qed.
  Lemma wcs_ebp (m : mdd) b cs : with_cutset (with_ebp m b) cs = with_ebp (with_cutset m cs) b.
  Proof. reflexivity. Qed.

  Lemma lel_cutset_ebp (m : mdd) k b : lel_cutset (with_ebp m b) k = with_ebp (lel_cutset m k) b.
  Proof.
    unfold lel_cutset. cbv zeta. change (m_layers (with_ebp m b)) with (m_layers m).
    destruct (nth_error (m_layers m) k) as [ids|].
    - rewrite (fold_ebp _ b) by (intros; apply upd_ebp).
      match goal with |- context [with_cutset (with_ebp ?X b) ?cs] =>
        change (with_cutset (with_ebp X b) cs) with (with_ebp (with_cutset X (m_cutset X ++ ids)) b) end.
      match goal with |- fold_left ?f (concat (rev (firstn k (m_layers (with_ebp ?X b))))) _ = _ =>
        change (m_layers (with_ebp X b)) with (m_layers X) end.
      apply fold_ebp. intros; apply upd_ebp.
    - change (m_layers (with_ebp m b)) with (m_layers m). apply fold_ebp. intros; apply upd_ebp.
  Qed.

  Lemma frontier_cutset_ebp (m : mdd) b : frontier_cutset inp (with_ebp m b) true = with_ebp (frontier_cutset inp m true) b.
  Proof.
    unfold frontier_cutset. change (bottom_up (with_ebp m b)) with (bottom_up m).
    apply fold_ebp. intros a id. cbv zeta. rewrite gn_ebp.
    destruct (fl_is_exact (n_flags (gn a id))); [apply upd_ebp|].
    apply fold_ebp. intros a' eid. cbv zeta. rewrite ge_ebp, gn_ebp.
    destruct (_ && _); reflexivity.
  Qed.

  Lemma lel_cutset_keeps (m : mdd) k :
    m_lel (lel_cutset m k) = m_lel m /\ m_layers (lel_cutset m k) = m_layers m /\ m_is_exact (lel_cutset m k) = m_is_exact m.
  Proof.
    unfold lel_cutset. cbv zeta.
    rewrite !(fold_left_proj (fun a : mdd => m_lel a)), !(fold_left_proj (fun a : mdd => m_layers a)),
      !(fold_left_proj (fun a : mdd => m_is_exact a)) by (intros; reflexivity).
    destruct (nth_error (m_layers m) k); [|repeat split].
    cbn [m_lel m_layers m_is_exact with_cutset].
    rewrite !(fold_left_proj (fun a : mdd => m_lel a)), !(fold_left_proj (fun a : mdd => m_layers a)),
      !(fold_left_proj (fun a : mdd => m_is_exact a)) by (intros; reflexivity).
    repeat split.
  Qed.

  Lemma frontier_cutset_keeps (m : mdd) :
    m_lel (frontier_cutset inp m true) = m_lel m /\ m_layers (frontier_cutset inp m true) = m_layers m /\
    m_is_exact (frontier_cutset inp m true) = m_is_exact m.
  Proof.
    assert (G : forall (X : Type) (g : mdd -> X), (forall a k f, g (upd_node a k f) = g a) -> (forall a cs, g (with_cutset a cs) = g a) ->
                g (frontier_cutset inp m true) = g m).
    { intros X g G1 G2. unfold frontier_cutset. apply (fold_left_proj g). intros a id. cbv zeta.
      destruct (fl_is_exact _); [apply G1|].
      apply (fold_left_proj g). intros a' eid. cbv zeta. destruct (_ && _); [|reflexivity]. rewrite G1, G2. reflexivity. }
    split; [|split]; apply G; intros; reflexivity.
  Qed.

  Lemma fc_twin (m : mdd) b : m_is_exact m = true -> m_lel m = None ->
    finalize_cutset inpR (with_ebp m b) = with_ebp (finalize_cutset inp m) b /\
    m_lel (finalize_cutset inp m) = Some (length (m_layers m)) /\ m_layers (finalize_cutset inp m) = m_layers m /\
    m_is_exact (finalize_cutset inp m) = true.
  Proof.
    intros Hex Hlel. unfold finalize_cutset. cbv zeta.
    change (ci_flavour inpR) with (ci_flavour inp). change (ci_type inpR) with Relaxed.
    change (m_is_exact (with_ebp m b)) with (m_is_exact m). change (m_lel (with_ebp m b)) with (m_lel m).
    change (m_layers (with_ebp m b)) with (m_layers m).
    rewrite Hres, Hex, Hlel. cbn [is_relaxed_ct orb]. rewrite wle_ebp.
    destruct Hclean as [Hf|Hf]; rewrite Hf.
    - change (m_lel (with_ebp (with_lel_exact m (Some (length (m_layers m))) true) b))
        with (m_lel (with_lel_exact m (Some (length (m_layers m))) true)).
      split; [apply lel_cutset_ebp|].
      destruct (lel_cutset_keeps (with_lel_exact m (Some (length (m_layers m))) true)
                  (opt_default 0 (m_lel (with_lel_exact m (Some (length (m_layers m))) true)))) as (K1 & K2 & K3).
      rewrite K1, K2, K3. repeat split.
    - split; [apply frontier_cutset_ebp|].
      destruct (frontier_cutset_keeps (with_lel_exact m (Some (length (m_layers m))) true)) as (K1 & K2 & K3).
      rewrite K1, K2, K3. repeat split.
  Qed.

  Lemma clb_inp (m : mdd) : compute_local_bounds inp m = m.
  Proof. unfold compute_local_bounds. cbv zeta. rewrite Hres. cbn [is_relaxed_ct]. rewrite andb_false_r. reflexivity. Qed.

  Lemma clb_inpR (m : mdd) : Nat.ltb (opt_default 0 (m_lel m)) (length (m_layers m)) = false -> compute_local_bounds inpR m = m.
  Proof.
    intros H. unfold compute_local_bounds. cbv zeta. change (ci_flavour inpR) with (ci_flavour inp).
    rewrite (not_pooled inp Hclean), H. reflexivity.
  Qed.

  Lemma th_preset_ebp bk (m : mdd) b : th_preset inp bk (with_ebp m b) = with_ebp (th_preset inp bk m) b.
  Proof.
    unfold th_preset. change (m_next (with_ebp m b)) with (m_next m). apply fold_ebp. intros a id. cbv zeta.
    change (m_is_exact (with_ebp a b)) with (m_is_exact a). rewrite gn_ebp.
    match goal with |- context [if ?c then _ else _] => destruct c end; reflexivity.
  Qed.

  Lemma cache_update_ebp (m : mdd) b s d v e : cache_update st_eqb inp (with_ebp m b) s d v e = with_ebp (cache_update st_eqb inp m s d v e) b.
  Proof.
    unfold cache_update. cbv zeta. destruct (ci_use_cache inp); [|reflexivity].
    change (m_cache (add_log (with_ebp m b) (EvCacheUpd s d v e))) with (m_cache (add_log m (EvCacheUpd s d v e))).
    destruct (update_threshold _ _ _ _ _ _); reflexivity.
  Qed.

  Lemma muc_ebp (m : mdd) b id : maybe_update_cache st_eqb inp (with_ebp m b) id = with_ebp (maybe_update_cache st_eqb inp m id) b.
  Proof.
    unfold maybe_update_cache. cbv zeta. rewrite gn_ebp. destruct (n_theta (gn m id)); [|reflexivity].
    destruct (f_above _); [apply cache_update_ebp|reflexivity].
  Qed.

  Lemma th_own_ebp bk (a : mdd) b id : th_own st_eqb inp bk (with_ebp a b) id = with_ebp (th_own st_eqb inp bk a id) b.
  Proof.
    unfold th_own. cbv zeta. rewrite gn_ebp. destruct (negb _); [|reflexivity].
    repeat match goal with |- context [if ?c then _ else _] => destruct c end; rewrite ?upd_ebp; apply muc_ebp.
  Qed.

  Lemma th_prop_ebp (a : mdd) b id : th_prop inp (with_ebp a b) id = with_ebp (th_prop inp a id) b.
  Proof.
    unfold th_prop. rewrite gn_ebp. destruct (n_theta (gn a id)); [|reflexivity].
    apply fold_ebp. intros a' eid. unfold prop_step. cbv zeta. rewrite ge_ebp. reflexivity.
  Qed.

  Lemma th_step_ebp bk (a : mdd) b id : th_step st_eqb inp bk (with_ebp a b) id = with_ebp (th_step st_eqb inp bk a id) b.
  Proof.
    unfold th_step. rewrite gn_ebp. destruct (f_deleted _); [reflexivity|]. rewrite th_own_ebp. apply th_prop_ebp.
  Qed.

  Lemma ct_twin (m : mdd) b : m_is_exact m = true ->
    compute_thresholds st_eqb inpR (with_ebp m b) = with_ebp (compute_thresholds st_eqb inp m) b.
  Proof.
    intros Hex. rewrite (Thresholds.compute_thresholds_unfold st_eqb inpR), (Thresholds.compute_thresholds_unfold st_eqb inp).
    change (ci_type inpR) with Relaxed. change (m_is_exact (with_ebp m b)) with (m_is_exact m).
    change (m_best_exact (with_ebp m b)) with (m_best_exact m).
    rewrite Hres, Hex. cbn [is_relaxed_ct orb].
    change (ci_best_lb inpR) with (ci_best_lb inp).
    change (th_preset inpR) with (th_preset inp). change (get_node inpR) with (get_node inp).
    (* as for tw_expand: rewriting, not conversion, takes th_step from inpR to inp *)
    assert (Es : forall bk a id, th_step st_eqb inpR bk a id = th_step st_eqb inp bk a id).
    { assert (Eg : get_node inpR = get_node inp) by reflexivity.
      assert (Ec : cache_update st_eqb inpR = cache_update st_eqb inp) by reflexivity.
      intros. unfold th_step, th_prop, th_own, maybe_update_cache. rewrite Eg, Ec. reflexivity. }
    destruct (m_best_exact m) as [be|].
    - cbv zeta. rewrite (fold_left_ext _ _ _ (Es _)), gn_ebp, th_preset_ebp.
      match goal with |- context [bottom_up (with_ebp ?X b)] => change (bottom_up (with_ebp X b)) with (bottom_up X) end.
      apply fold_ebp. intros; apply th_step_ebp.
    - rewrite (fold_left_ext _ _ _ (Es _)). change (bottom_up (with_ebp m b)) with (bottom_up m). apply fold_ebp. intros; apply th_step_ebp.
  Qed.

  Lemma finalize_twin tb (ml : mdd) : Sinv inp ml -> Xs inp ml -> m_lel ml = None ->
    exists e, finalize st_eqb inpR tb tb ml = with_ebp (finalize st_eqb inp tb tb ml) e.
  Proof.
    intros HS HX Hlel. unfold finalize.
    change (finalize_layers inpR ml) with (finalize_layers inp ml).
    change (find_best_node inpR tb tb (finalize_layers inp ml)) with (find_best_node inp tb tb (finalize_layers inp ml)).
    set (m1 := finalize_layers inp ml).
    set (m2 := find_best_node inp tb tb m1).
    destruct (finalize_layers_fields inp Hclean ml) as (F1 & F2 & F3 & F4 & F5). fold m1 in F1, F2, F3, F4, F5.
    (* the best node and the best exact node coincide *)
    assert (Hbest : m_best m2 = m_best_exact m2).
    { unfold m2, find_best_node. cbv zeta. cbn [m_best m_best_exact with_best]. f_equal. f_equal.
      symmetry. apply filter_all. intros x Hx. rewrite F2 in Hx.
      assert (Hlt : x < length (m_nodes ml)) by (apply (S_next _ _ HS); exact Hx).
      pose proof (X_lel_none _ _ _ HX Hlel x Hlt) as Hxx. unfold is_ex in Hxx.
      rewrite (gn_nodes_eq inp ml m1 x F1). exact Hxx. }
    set (e := has_exact_best_path inp (S (length (m_nodes m2))) m2 (m_best m2)).
    assert (E3 : finalize_exact inpR m2 = with_ebp (finalize_exact inp m2) e).
    { unfold finalize_exact. change (ci_flavour inpR) with (ci_flavour inp). change (ci_type inpR) with Relaxed.
      change (has_exact_best_path inpR) with (has_exact_best_path inp).
      rewrite Hres. cbn [is_relaxed_ct andb]. fold e. unfold with_ebp.
      cbn [m_nodes m_edges m_layers m_layer_end m_next m_curr_depth m_path m_lel m_cutset m_best m_best_exact m_is_exact
           m_has_ebp m_cache m_dom m_log m_polls m_crash].
      destruct e; [rewrite Hbest|]; reflexivity. }
    rewrite E3. set (m3 := finalize_exact inp m2).
    assert (Hlel3 : m_lel m3 = None).
    { unfold m3, finalize_exact. cbn [m_lel]. unfold m2, find_best_node. cbn [m_lel with_best]. rewrite F3. exact Hlel. }
    assert (Hex3 : m_is_exact m3 = true).
    { unfold m3, finalize_exact. cbv zeta. cbn [m_is_exact]. rewrite (not_pooled inp Hclean).
      change (m_lel m2) with (m_lel m1). rewrite F3, Hlel. reflexivity. }
    destruct (fc_twin m3 e Hex3 Hlel3) as (T1 & T2 & T3 & T4). rewrite T1.
    rewrite clb_inp. rewrite clb_inpR.
    - exists e. apply ct_twin. exact T4.
    - change (m_lel (with_ebp (finalize_cutset inp m3) e)) with (m_lel (finalize_cutset inp m3)).
      change (m_layers (with_ebp (finalize_cutset inp m3) e)) with (m_layers (finalize_cutset inp m3)).
      rewrite T2, T3. cbn [opt_default]. apply Nat.ltb_irrefl.
  Qed.

  Theorem restricted_exact_twin tb c ds polls (m : mdd) :
    compile st_eqb inp tb tb c ds polls = (m, Compiled) -> m_is_exact m = true ->
    exists e, compile st_eqb inpR tb tb c ds polls = (with_ebp m e, Compiled).
  Proof.
    intros Hc Hex. unfold compile in Hc |- *. cbv zeta in Hc |- *.
    change (initialize inpR c ds polls) with (initialize inp c ds polls).
    change (ci_problem inpR) with (ci_problem inp).
    set (fuel := S (S (nb_vars (ci_problem inp)))) in *.
    destruct (layer_loop_Sinv st_eqb st_eqb_spec inp Hclean fuel c ds polls) as [HS HX].
    destruct (layer_loop st_eqb inp fuel (initialize inp c ds polls)) as [ml e] eqn:El.
    destruct e; [|discriminate|discriminate]. inversion Hc; subst m. clear Hc. cbn [fst] in HS, HX.
    destruct (finalize_hdrC st_eqb inp Hclean tb tb ml) as (H1 & _). cbv zeta in H1. rewrite Hex in H1.
    destruct (m_lel ml) as [k|] eqn:Elel; [discriminate|].
    rewrite loop_twin by (rewrite El; exact Elel). rewrite El.
    destruct (finalize_twin tb ml HS HX Elel) as [e He]. exists e. rewrite He. reflexivity.
  Qed.
End TypeTwin.

Section RestrictedInexact.
  Context {St : Type}.
  Variable st_eqb : St -> St -> bool.
  Hypothesis st_eqb_spec : forall a b, st_eqb a b = true <-> a = b.
  Variable inp : @cinput St.
  Let pb := ci_problem inp.
  Let N := nb_vars pb.
  Hypothesis Hclean : ci_flavour inp = CleanLEL \/ ci_flavour inp = CleanFC.
  Hypothesis Hnodom : ci_domrule inp = None.
  Hypothesis Hnocut : ci_cutoff inp = 0.
  Hypothesis Hwidth : 1 <= ci_width inp.
  Hypothesis Hres : ci_type inp = Restricted.
  Hypothesis Hrd : sp_depth (ci_root inp) <= N.
  Hypothesis nv_some : forall k l, k < N -> exists x, next_variable pb k l = Some x.
  Hypothesis nv_none : forall k l, N <= k -> next_variable pb k l = None.
  Notation mdd := (@mdd St).

  (* a restricted compilation that did restrict leaves the cache alone; it never claims an exact best path *)
  Theorem restricted_facts tb tb2 c ds polls (m : mdd) : N < length c ->
    compile st_eqb inp tb tb2 c ds polls = (m, Compiled) ->
    m_has_ebp m = false /\ (m_is_exact m = false -> m_cache m = c).
  Proof.
    intros Hcl Hc.
    destruct (compile_unfoldC st_eqb st_eqb_spec inp Hclean Hnodom Hnocut Hwidth nv_some nv_none Hrd tb tb2 c ds polls Hcl)
      as (ml & El & _ & HS & HX & Hcml & Ecomp).
    rewrite Ecomp in Hc. inversion Hc as [Em]. clear Hc.
    destruct (finalize_hdrC st_eqb inp Hclean tb tb2 ml) as (_ & H2 & _). cbv zeta in H2.
    split.
    - destruct (m_has_ebp (finalize st_eqb inp tb tb2 ml)) eqn:E; [|reflexivity].
      rewrite (H2 eq_refl) in Hres. discriminate.
    - intros Hne.
      set (m5 := compute_local_bounds inp (finalize_cutset inp (finalize_exact inp
                   (find_best_node inp tb tb2 (finalize_layers inp ml))))).
      assert (EM0 : finalize st_eqb inp tb tb2 ml = compute_thresholds st_eqb inp m5) by reflexivity.
      assert (Hex5 : m_is_exact m5 = false).
      { rewrite <- Hne, EM0. symmetry.
        apply (proj_compute_thresholdsC st_eqb inp (fun a : mdd => m_is_exact a)); intros; reflexivity. }
      rewrite EM0, Thresholds.compute_thresholds_unfold, Hres, Hex5. cbn [is_relaxed_ct orb].
      assert (Hins : MddProgress.insens (fun a : mdd => m_cache a)) by (repeat split).
      rewrite <- Hcml. unfold m5.
      rewrite (MddProgress.ins_compute_local_bounds inp _ Hins).
      rewrite (MddProgress.ins_finalize_cutset inp Hclean _ Hins) by (intros; reflexivity).
      unfold finalize_exact, find_best_node, finalize_layers. cbv zeta. rewrite (not_pooled inp Hclean).
      destruct (m_next ml); reflexivity.
  Qed.
End RestrictedInexact.

Local Open Scope Z_scope.

(* ================================================================== 8. the semantic contract, for one relaxed compilation *)
Section KRel.
  Context {St : Type}.
  Variable st_eqb : St -> St -> bool.
  Hypothesis st_eqb_spec : forall a b, st_eqb a b = true <-> a = b.
  Variable inp : @cinput St.
  Let pb := ci_problem inp.
  Let rlx := ci_relax inp.
  Let root := ci_root inp.
  Let lb := ci_best_lb inp.
  Let N := nb_vars pb.
  Let rd := sp_depth root.
  Let rs := sp_state root.
  Let rv := sp_value root.
  Hypothesis Hclean : ci_flavour inp = CleanLEL \/ ci_flavour inp = CleanFC.
  Hypothesis Hnodom : ci_domrule inp = None.
  Hypothesis Hnocut : ci_cutoff inp = 0%nat.
  Hypothesis Hwidth : (1 <= ci_width inp)%nat.
  Hypothesis Hrel : ci_type inp = Relaxed.
  Hypothesis Hrd : (rd <= N)%nat.
  Hypothesis nv_static : forall k l1 l2, next_variable pb k l1 = next_variable pb k l2.
  Hypothesis nv_some : forall k l, (k < N)%nat -> exists x, next_variable pb k l = Some x.
  Hypothesis nv_none : forall k l, (N <= k)%nat -> next_variable pb k l = None.
  Variable cov : St -> St -> Prop.
  Hypothesis cov_refl : forall s, cov s s.
  Hypothesis cov_sim : forall s s' x v, cov s s' -> In v (domain pb x s') ->
    let d := {| d_var := x; d_val := v |} in
    In v (domain pb x s) /\ cov (transition pb s d) (transition pb s' d) /\
    (transition_cost pb s' (transition pb s' d) d <= transition_cost pb s (transition pb s d) d)%Z.
  Hypothesis merge_cov : forall L s s', In s L -> cov s s' -> cov (merge rlx L) s'.
  Hypothesis relax_ge : forall src dst mg d c, (c <= relax rlx src dst mg d c)%Z.
  Hypothesis rub_adm : forall k s s' h, cov s s' -> H pb k s' = Some h -> (h <= fast_upper_bound rlx s)%Z.
  Variable B : Z.
  Hypothesis HB3 : 3 * B <= IMAX.
  Hypothesis HB0 : 0 <= B.
  Hypothesis Hguard : forall ds s' v', frun pb rd rs rv ds = Some (s', v') -> - B <= v' <= B.

  Variables (tb tb2 : nat) (c : @cache St) (ds : @dstore St Z) (polls : nat) (m : @mdd St).
  Hypothesis Hcl : (N < length c)%nat.
  Hypothesis Hc : compile st_eqb inp tb tb2 c ds polls = (m, Compiled).

  (* o bounds every complete run through the root of this compilation (it is the global optimum) *)
  Variable o : Z.
  Hypothesis Hopt : forall ds' s' v', frun pb rd rs rv ds' = Some (s', v') -> (rd + length ds' = N)%nat -> v' <= o.
  Hypothesis Hlb : lb < o.
  Variable P : nat -> Prop.
  Hypothesis Hanti : forall d d', (d' <= d)%nat -> P d -> P d'.
  Hypothesis HCS : forall d s0 th, (rd < d)%nat -> cget st_eqb c s0 d = Some th ->
    (exists h, H pb d s0 = Some h /\ o <= th_value th + h) -> P d.

  Definition bestv (sp : @subproblem St) : option Z := oadd (sp_value sp) (H pb (sp_depth sp) (sp_state sp)).

  Lemma HB2 : 2 * B <= IMAX.
  Proof. lia. Qed.

  Lemma lost_P dmin v : (rd < dmin)%nat -> o <= v -> LostC st_eqb inp c dmin v -> P dmin.
  Proof.
    intros Hd Hv (d & s0 & th & h & L1 & L2 & L3 & L4). apply (Hanti d dmin L1).
    apply (HCS d s0 th); [lia|exact L2|]. exists h. split; [exact L3|lia].
  Qed.

  Lemma capt_best e d s w ds' s' v' : CaptC inp m e d s w ds' -> frun pb d s w ds' = Some (s', v') -> (d + length ds' = N)%nat ->
    exists sp ox (ds1 : list decision), In sp (drain_cutset inp m) /\ bestv sp = Some ox /\ v' <= ox /\ sp_depth sp = (d + length ds1)%nat /\
      (ds1 = [] -> sp_state sp = s /\ w <= sp_value sp) /\ (e = true -> ds1 <> []).
  Proof.
    intros (sp & ds1 & ds2 & s1 & w1 & C1 & -> & C3 & C4 & C5 & C6 & C7) Hr Hlen.
    fold pb in C3. rewrite frun_app, C3 in Hr. rewrite app_length in Hlen.
    destruct (frun_le_H pb nv_static nv_none ds2 (d + length ds1) s1 w1 s' v' ltac:(lia) Hr) as (h & Hh & Hle).
    exists sp, (sp_value sp + h), ds1. split; [exact C1|].
    split; [unfold bestv; rewrite C5, C4, Hh; reflexivity|]. split; [lia|]. split; [exact C5|]. split; [|exact C7].
    intros ->. cbn [frun] in C3. inversion C3; subst. split; [reflexivity|lia].
  Qed.

  Lemma bk_ge_lb : lb <= bk_of inp m.
  Proof. unfold bk_of, lb. destruct (m_best_exact m); lia. Qed.

  Lemma bk_bev e : dd_best_exact_value inp m = Some e -> e <= bk_of inp m.
  Proof. unfold dd_best_exact_value, bk_of. destruct (m_best_exact m); [|discriminate]. cbn [option_map]. intros E; inversion E. lia. Qed.

  Lemma le_bk_bev : o <= bk_of inp m -> exists e, dd_best_exact_value inp m = Some e /\ o <= e.
  Proof.
    unfold dd_best_exact_value, bk_of. fold lb. destruct (m_best_exact m) as [be|]; [|lia].
    intros Hle. exists (n_vtop (get_node inp m be)). split; [reflexivity|lia].
  Qed.

  Lemma drain_depth x : In x (drain_cutset inp m) -> (rd < sp_depth x <= N)%nat.
  Proof.
    intros Hx. exact (cutset_depthC st_eqb st_eqb_spec inp Hclean Hnodom Hnocut Hwidth nv_some nv_none Hrd
                        tb tb2 c ds polls m Compiled x Hcl Hrel Hc Hx).
  Qed.

  (* (c) a sub-problem that holds o *)
  Theorem R4 : oadd rv (H pb rd rs) = Some o ->
    (exists e, dd_best_exact_value inp m = Some e /\ o <= e) \/
    (exists x ox, In x (drain_cutset inp m) /\ bestv x = Some ox /\ o <= ox) \/ P (S rd).
  Proof.
    intros Hb. destruct (H pb rd rs) as [h|] eqn:Eh; [|discriminate]. cbn [oadd option_map] in Hb. assert (Eo : rv + h = o) by congruence.
    destruct (H_attained pb nv_static nv_some nv_none (N - rd) rd rs rv h eq_refl Hrd Eh) as (ds' & s' & Hr & Hl).
    destruct (C_root_run st_eqb st_eqb_spec inp Hclean Hnodom Hnocut Hwidth Hrel Hrd nv_static nv_some nv_none
                cov cov_refl cov_sim merge_cov relax_ge rub_adm B HB2 Hguard tb tb2 c ds polls m Hcl Hc ds' s' (rv + h) Hr Hl)
      as [H1|[H1|H1]].
    - left. apply le_bk_bev. lia.
    - right; left. destruct (capt_best false rd rs rv ds' s' (rv + h) H1 Hr Hl) as (sp & ox & ds1 & A1 & A2 & A3 & _).
      exists sp, ox. split; [exact A1|]. split; [exact A2|lia].
    - right; right. apply (lost_P (S rd) (rv + h)); [lia|lia|exact H1].
  Qed.

  (* (b) the upper bound of a cut-set node that holds at least o *)
  Theorem R3 x ox : In x (drain_cutset inp m) -> bestv x = Some ox -> o <= ox -> ox <= sp_ub x \/ P (S (sp_depth x)).
  Proof.
    intros Hx Hb Hle. destruct (drain_depth x Hx) as [D1 D2].
    unfold bestv in Hb. destruct (H pb (sp_depth x) (sp_state x)) as [h|] eqn:Eh; [|discriminate].
    cbn [oadd option_map] in Hb. assert (Eo : sp_value x + h = ox) by congruence.
    destruct (H_attained pb nv_static nv_some nv_none (N - sp_depth x) (sp_depth x) (sp_state x) (sp_value x) h eq_refl D2 Eh)
      as (ds' & s' & Hr & Hl).
    destruct (C_ub_run st_eqb st_eqb_spec inp Hclean Hnodom Hnocut Hwidth Hrel Hrd nv_static nv_some nv_none
                cov cov_refl cov_sim merge_cov relax_ge rub_adm B HB2 Hguard tb tb2 c ds polls m Hcl Hc x ds' s' _ Hx Hr Hl)
      as [H1|[H1|H1]].
    - exfalso. fold lb in H1. lia.
    - right. apply (lost_P (S (sp_depth x)) (sp_value x + h)); [lia|lia|exact H1].
    - left. lia.
  Qed.

  Lemma exact_ub x : dd_is_exact m = true -> In x (drain_cutset inp m) ->
    exists e, dd_best_exact_value inp m = Some e /\ sp_ub x <= e.
  Proof.
    intros Hex Hx. destruct (drain_ub_le_best inp m x Hx) as (bv & Hbv & Hle).
    destruct (C_exact_best st_eqb st_eqb_spec inp Hclean Hnocut Hwidth Hrd tb tb2 c ds polls m Hcl Hc Hex bv Hbv)
      as (e & He & Hle2).
    exists e. split; [exact He|lia].
  Qed.

  (* (a) an exact diagram *)
  Theorem R2 : dd_is_exact m = true -> oadd rv (H pb rd rs) = Some o ->
    (exists e, dd_best_exact_value inp m = Some e /\ o <= e) \/ P (S rd).
  Proof.
    intros Hex Hb. destruct (R4 Hb) as [H1|[(x & ox & X1 & X2 & X3)|H1]]; [left; exact H1| |right; exact H1].
    destruct (R3 x ox X1 X2 X3) as [H2|H2].
    - left. destruct (exact_ub x Hex X1) as (e & He & Hle). exists e. split; [exact He|lia].
    - right. destruct (drain_depth x X1) as [D1 _]. apply (Hanti (S (sp_depth x))); [lia|exact H2].
  Qed.

  (* (d) the entries of the final cache *)
  Theorem RW d s0 th : cget st_eqb (m_cache m) s0 d = Some th ->
    (exists h, H pb d s0 = Some h /\ o <= th_value th + h) ->
    cget st_eqb c s0 d = Some th \/ o <= bk_of inp m \/ P (S d) \/
    (dd_is_exact m = false /\
     exists x ox, In x (drain_cutset inp m) /\ bestv x = Some ox /\ o <= ox /\
       ((d < sp_depth x)%nat \/ (sp_depth x = d /\ sp_state x = s0 /\ must_explore_th (Some th) (sp_value x) = true))).
  Proof.
    intros Hg (h & Hh & Hle).
    destruct (C_cache_run st_eqb st_eqb_spec inp Hclean Hnodom Hnocut Hwidth Hrel Hrd nv_static nv_some nv_none
                cov cov_refl cov_sim merge_cov relax_ge rub_adm B HB2 Hguard tb tb2 c ds polls m Hcl Hc d s0 th Hg)
      as [H1|(j & Ed & (pre & r & Hpre & Hlen) & Hall)]; [left; exact H1|right].
    assert (Ed' : d = (rd + j)%nat) by exact Ed. clear Ed.
    assert (Hpre' : frun pb rd rs rv pre = Some (s0, r)) by exact Hpre. clear Hpre.
    assert (Hall' : forall v ds' s' v', IMIN + 2 * B < v -> v <= th_value th -> frun pb d s0 v ds' = Some (s', v') ->
              (d + length ds' = N)%nat ->
              v' <= bk_of inp m \/ CaptC inp m (th_explored th) d s0 v ds' \/ LostC st_eqb inp c (S d) v') by exact Hall.
    clear Hall. rename Ed' into Ed. rename Hpre' into Hpre. rename Hall' into Hall.
    assert (HdN : (d <= N)%nat).
    { assert (Hl : (rd + length pre <= N)%nat) by exact (MddSim.frun_len_le inp Hnocut Hwidth Hrd nv_none pre rd rs rv _ Hpre Hrd). lia. }
    (* the state of the entry is reachable: its best completion is a run through the root *)
    destruct (H_attained pb nv_static nv_some nv_none (N - d) d s0 r h eq_refl HdN Hh) as (ds1 & s1 & Hr1 & Hl1).
    assert (Hfull : frun pb rd rs rv (pre ++ ds1) = Some (s1, r + h)).
    { rewrite frun_app, Hpre, Hlen, <- Ed. exact Hr1. }
    pose proof (Hopt _ _ _ Hfull ltac:(rewrite app_length; lia)) as Ho.
    destruct (Hguard _ _ _ Hpre) as [Gr _].
    set (t := th_value th) in *.
    assert (Ht : IMIN + 2 * B < t) by (unfold IMIN, IMAX in *; lia).
    destruct (H_attained pb nv_static nv_some nv_none (N - d) d s0 t h eq_refl HdN Hh) as (ds2 & s2 & Hr2 & Hl2).
    destruct (Hall t ds2 s2 (t + h) Ht (Z.le_refl _) Hr2 Hl2) as [H1|[H1|H1]].
    - left. lia.
    - destruct (capt_best (th_explored th) d s0 t ds2 s2 (t + h) H1 Hr2 Hl2) as (sp & ox & dsa & A1 & A2 & A3 & A4 & A5 & A6).
      destruct (dd_is_exact m) eqn:Eex.
      + destruct (R3 sp ox A1 A2 ltac:(lia)) as [H2|H2].
        * left. destruct (exact_ub sp Eex A1) as (e & He & Hle2). pose proof (bk_bev e He). lia.
        * right; left. apply (Hanti (S (sp_depth sp))); [lia|exact H2].
      + right; right. split; [reflexivity|]. exists sp, ox. split; [exact A1|]. split; [exact A2|]. split; [lia|].
        destruct dsa as [|da dsa].
        * right. destruct (A5 eq_refl) as [E1 E2]. split; [rewrite A4; simpl; lia|]. split; [exact E1|].
          unfold must_explore_th. fold t.
          destruct (th_explored th) eqn:Ee; [exfalso; apply (A6 eq_refl); reflexivity|].
          destruct (Z.gtb_spec (sp_value sp) t) as [Hgt|Hng]; [reflexivity|].
          assert (E : sp_value sp = t) by lia. rewrite E, Z.eqb_refl. reflexivity.
        * left. rewrite A4. simpl. lia.
    - right; left. apply (lost_P (S d) (t + h)); [lia|lia|exact H1].
  Qed.
End KRel.

(* ================================================================== 9. KC_cache holds for Mdd.compile *)
Section CacheHolds.
  Context {St : Type}.
  Variable st_eqb : St -> St -> bool.
  Hypothesis st_eqb_spec : forall a b, st_eqb a b = true <-> a = b.
  Variable cfg : @sconfig St.
  Local Notation pb := (sc_problem cfg).
  Local Notation rlx := (sc_relax cfg).
  Local Notation N := (nb_vars (sc_problem cfg)).
  Hypothesis cfg_clean : sc_flavour cfg = CleanLEL \/ sc_flavour cfg = CleanFC.
  Hypothesis cfg_nodom : sc_domrule cfg = None.
  Hypothesis cfg_nocut : sc_cutoff cfg = 0%nat.
  Hypothesis cfg_width : (1 <= sc_width cfg)%nat.
  Hypothesis nv_static : forall k l1 l2, next_variable pb k l1 = next_variable pb k l2.
  Hypothesis nv_some : forall k l, (k < N)%nat -> exists x, next_variable pb k l = Some x.
  Hypothesis nv_none : forall k l, (N <= k)%nat -> next_variable pb k l = None.
  Variable cov : St -> St -> Prop.
  Hypothesis cov_refl : forall s, cov s s.
  Hypothesis cov_sim : forall s s' x v, cov s s' -> In v (domain pb x s') ->
    let d := {| d_var := x; d_val := v |} in
    In v (domain pb x s) /\ cov (transition pb s d) (transition pb s' d) /\
    (transition_cost pb s' (transition pb s' d) d <= transition_cost pb s (transition pb s d) d)%Z.
  Hypothesis merge_cov : forall L s s', In s L -> cov s s' -> cov (merge rlx L) s'.
  Hypothesis relax_ge : forall src dst mg d c, (c <= relax rlx src dst mg d c)%Z.
  Hypothesis rub_adm : forall k s s' h, cov s s' -> H pb k s' = Some h -> (h <= fast_upper_bound rlx s)%Z.
  Variable B : Z.
  Hypothesis HB3 : 3 * B <= IMAX.
  Hypothesis guard0 : forall ds s' v', frun pb 0 (init_state pb) (init_value pb) ds = Some (s', v') -> - B <= v' <= B.

  Local Notation good := (sgood (sc_problem cfg)).
  Local Notation bst := (MddSim.best cfg).

  Lemma B_nonneg : 0 <= B.
  Proof. pose proof (guard0 [] (init_state pb) (init_value pb) eq_refl). lia. Qed.

  Lemma good_opt n o : good n -> opt_enum pb = Some o -> forall ds' s' v',
    frun pb (sp_depth n) (sp_state n) (sp_value n) ds' = Some (s', v') -> (sp_depth n + length ds' = N)%nat -> v' <= o.
  Proof.
    intros (Hd & ds0 & G1 & _ & G3) Ho ds' s' v' Hr Hl.
    assert (Hfull : frun pb 0 (init_state pb) (init_value pb) (ds0 ++ ds') = Some (s', v')).
    { rewrite frun_app, G3, G1. exact Hr. }
    destruct (frun_le_H pb nv_static nv_none (ds0 ++ ds') 0%nat _ _ s' v' ltac:(rewrite app_length; lia) Hfull) as (h & Hh & Hle).
    unfold opt_enum in Ho. rewrite opt_enum_from_H, Hh in Ho. cbn [oadd option_map] in Ho. inversion Ho. lia.
  Qed.

  Lemma compiled ct n lb c ds polls m out : (sp_depth n <= N)%nat -> length c = S N ->
    compile st_eqb (mk_input cfg ct n lb) 0 0 c ds polls = (m, out) -> out = Compiled.
  Proof.
    intros Hd Hl Hc.
    exact (proj1 (KC0_holds st_eqb st_eqb_spec cfg cfg_clean cfg_nodom cfg_nocut cfg_width nv_some nv_none
                    ct n lb c ds polls m out Hd Hl Hc)).
  Qed.

  Section Rel.
    Variables (n : @subproblem St) (lb : Z) (c : @cache St) (ds : @dstore St Z) (polls : nat) (m : @mdd St).
    Hypothesis Hg : good n.
    Hypothesis Hd : (sp_depth n <= N)%nat.
    Hypothesis Hl : length c = S N.
    Hypothesis Hc : compile st_eqb (mk_input cfg Relaxed n lb) 0 0 c ds polls = (m, Compiled).
    Variables (o : Z) (P : nat -> Prop).
    Hypothesis Ho : opt_enum pb = Some o.
    Hypothesis Hanti : antitone P.
    Hypothesis HCS : CS st_eqb cfg (sp_depth n) c o P.
    Local Notation inp := (mk_input cfg Relaxed n lb).

    Lemma HCS' : forall d s0 th, (sp_depth n < d)%nat -> cget st_eqb c s0 d = Some th ->
      (exists h, H pb d s0 = Some h /\ o <= th_value th + h) -> P d.
    Proof. intros d s0 th H1 H2 H3. exact (HCS d s0 th H1 H2 H3). Qed.

    Lemma rel4 : lb < o -> bst n = Some o ->
      (exists e, dd_best_exact_value inp m = Some e /\ o <= e) \/
      (exists x ox, In x (drain_cutset inp m) /\ bst x = Some ox /\ o <= ox) \/ P (S (sp_depth n)).
    Proof.
      intros Hlb Hb.
      exact (R4 st_eqb st_eqb_spec inp cfg_clean cfg_nodom cfg_nocut cfg_width eq_refl Hd nv_static nv_some nv_none
               cov cov_refl cov_sim merge_cov relax_ge rub_adm B HB3 B_nonneg (Assembly.gguard cfg B guard0 n Hg) 0%nat 0%nat c ds polls m (len_lt c _ Hl) Hc
               o Hlb P Hanti HCS' Hb).
    Qed.

    Lemma rel3 x ox : lb < o -> In x (drain_cutset inp m) -> bst x = Some ox -> o <= ox -> ox <= sp_ub x \/ P (S (sp_depth x)).
    Proof.
      intros Hlb Hx Hb Hle.
      exact (R3 st_eqb st_eqb_spec inp cfg_clean cfg_nodom cfg_nocut cfg_width eq_refl Hd nv_static nv_some nv_none
               cov cov_refl cov_sim merge_cov relax_ge rub_adm B HB3 B_nonneg (Assembly.gguard cfg B guard0 n Hg) 0%nat 0%nat c ds polls m (len_lt c _ Hl) Hc
               o Hlb P Hanti HCS' x ox Hx Hb Hle).
    Qed.

    Lemma rel2 : lb < o -> dd_is_exact m = true -> bst n = Some o ->
      (exists e, dd_best_exact_value inp m = Some e /\ o <= e) \/ P (S (sp_depth n)).
    Proof.
      intros Hlb Hex Hb.
      exact (R2 st_eqb st_eqb_spec inp cfg_clean cfg_nodom cfg_nocut cfg_width eq_refl Hd nv_static nv_some nv_none
               cov cov_refl cov_sim merge_cov relax_ge rub_adm B HB3 B_nonneg (Assembly.gguard cfg B guard0 n Hg) 0%nat 0%nat c ds polls m (len_lt c _ Hl) Hc
               o Hlb P Hanti HCS' Hex Hb).
    Qed.

    Lemma relW d s0 th : entry st_eqb (m_cache m) d s0 th -> crit cfg o d s0 (th_value th) ->
      entry st_eqb c d s0 th \/ o <= bk_of inp m \/ P (S d) \/
      (dd_is_exact m = false /\
       exists x ox, In x (drain_cutset inp m) /\ bst x = Some ox /\ o <= ox /\
         ((d < sp_depth x)%nat \/ (sp_depth x = d /\ sp_state x = s0 /\ must_explore_th (Some th) (sp_value x) = true))).
    Proof.
      intros He Hcr.
      destruct (Z_lt_le_dec lb o) as [Hlb|Hge].
      - exact (RW st_eqb st_eqb_spec inp cfg_clean cfg_nodom cfg_nocut cfg_width eq_refl Hd nv_static nv_some nv_none
                 cov cov_refl cov_sim merge_cov relax_ge rub_adm B HB3 B_nonneg (Assembly.gguard cfg B guard0 n Hg) 0%nat 0%nat c ds polls m (len_lt c _ Hl) Hc
                 o (good_opt n o Hg Ho) Hlb P Hanti HCS' d s0 th He Hcr).
      - right; left. unfold bk_of. cbn [mk_input ci_best_lb]. destruct (m_best_exact m); lia.
    Qed.
  End Rel.
  Lemma rx_mk n lb : rx (mk_input cfg Restricted n lb) = mk_input cfg Relaxed n lb.
  Proof. reflexivity. Qed.

  Theorem KC_cache_strong : KC_cache st_eqb cfg.
  Proof.
    split; [|split; [|split]].
    - (* exact diagrams *)
      intros ct n lb c ds polls m out Hct Hg Hd Hl Hc Hex o P Ho Hanti Hb Hlb HCS.
      pose proof (compiled ct n lb c ds polls m out Hd Hl Hc) as ->.
      destruct Hct as [->| ->].
      + destruct (restricted_facts st_eqb st_eqb_spec (mk_input cfg Restricted n lb) cfg_clean cfg_nodom cfg_nocut cfg_width
                    eq_refl Hd nv_some nv_none 0%nat 0%nat c ds polls m (len_lt c _ Hl) Hc) as [Hebp _].
        assert (Hme : m_is_exact m = true).
        { unfold dd_is_exact in Hex. rewrite Hebp, orb_false_r in Hex. exact Hex. }
        destruct (restricted_exact_twin st_eqb st_eqb_spec (mk_input cfg Restricted n lb) cfg_clean eq_refl 0%nat c ds polls m Hc Hme)
          as [e Ht].
        rewrite rx_mk in Ht.
        assert (Hex' : dd_is_exact (with_ebp m e) = true).
        { unfold dd_is_exact. cbn [with_ebp m_is_exact m_has_ebp]. rewrite Hme. reflexivity. }
        pose proof (rel2 n lb c ds polls (with_ebp m e) Hg Hd Hl Ht o P) as R.
        assert (R' : (exists e0, dd_best_exact_value (mk_input cfg Relaxed n lb) (with_ebp m e) = Some e0 /\ o <= e0) \/ P (S (sp_depth n)))
          by (apply R; auto; lia).
        destruct R' as [H1|H1]; [left; exact H1|right; exact H1].
      + pose proof (rel2 n lb c ds polls m Hg Hd Hl Hc o P) as R. apply R; auto. lia.
    - (* upper bounds of the cut-set *)
      intros n lb c ds polls m out Hg Hd Hl Hc Hex x Hx o P Ho Hanti Hb Hlb HCS.
      pose proof (compiled Relaxed n lb c ds polls m out Hd Hl Hc) as ->.
      pose proof (rel3 n lb c ds polls m Hg Hd Hl Hc o P) as R.
      apply (R Hanti HCS x o); auto; lia.
    - (* inexact relaxed diagrams *)
      intros n lb c ds polls m out Hg Hd Hl Hc Hex o P Ho Hanti Hb Hlb HCS.
      pose proof (compiled Relaxed n lb c ds polls m out Hd Hl Hc) as ->.
      pose proof (rel4 n lb c ds polls m Hg Hd Hl Hc o P) as R. apply R; auto. lia.
    - (* the cache *)
      intros ct n lb c ds polls m out Hct Hg Hd Hl Hc o P Ho Hanti HCS d s0 th He Hcr.
      pose proof (compiled ct n lb c ds polls m out Hd Hl Hc) as ->.
      destruct Hct as [->| ->].
      + destruct (restricted_facts st_eqb st_eqb_spec (mk_input cfg Restricted n lb) cfg_clean cfg_nodom cfg_nocut cfg_width
                    eq_refl Hd nv_some nv_none 0%nat 0%nat c ds polls m (len_lt c _ Hl) Hc) as [Hebp Hcache].
        destruct (m_is_exact m) eqn:Eme.
        * destruct (restricted_exact_twin st_eqb st_eqb_spec (mk_input cfg Restricted n lb) cfg_clean eq_refl 0%nat c ds polls m Hc Eme)
            as [e Ht].
          rewrite rx_mk in Ht.
          pose proof (relW n lb c ds polls (with_ebp m e) Hg Hd Hl Ht o P Ho Hanti HCS d s0 th He Hcr) as R.
          destruct R as [H1|[H1|[H1|(Hnex & _)]]].
          -- left. exact H1.
          -- right; left. exact H1.
          -- right; right; left. exact H1.
          -- exfalso. unfold dd_is_exact in Hnex. cbn [with_ebp m_is_exact m_has_ebp] in Hnex. rewrite Eme in Hnex. discriminate.
        * left. unfold entry in He |- *. rewrite (Hcache eq_refl) in He. exact He.
      + pose proof (relW n lb c ds polls m Hg Hd Hl Hc o P Ho Hanti HCS d s0 th He Hcr) as R.
        destruct R as [H1|[H1|[H1|(Hnex & Hx)]]]; auto.
        right; right; right. split; [reflexivity|]. split; [exact Hnex|exact Hx].
  Qed.
End CacheHolds.

(* ================================================================== 10. the theorems *)
Definition cache_off {St} (cfg : @sconfig St) : @sconfig St :=
  {| sc_flavour := sc_flavour cfg; sc_problem := sc_problem cfg; sc_relax := sc_relax cfg;
     sc_ranking := sc_ranking cfg; sc_domcmp := sc_domcmp cfg; sc_domrule := sc_domrule cfg; sc_width := sc_width cfg;
     sc_use_cache := false; sc_nodup := sc_nodup cfg; sc_cutoff := sc_cutoff cfg |}.

Section C09.
  Context {St : Type}.
  Variable st_eqb : St -> St -> bool.
  Hypothesis st_eqb_spec : forall a b, st_eqb a b = true <-> a = b.
  Variable cfg : @sconfig St.
  Local Notation pb := (sc_problem cfg).
  Local Notation rlx := (sc_relax cfg).
  Local Notation N := (nb_vars (sc_problem cfg)).
  (* ---- configuration: clean flavour, THE CACHE ON, no dominance rule, SimpleFringe, width >= 1, no cutoff *)
  Hypothesis cfg_clean : sc_flavour cfg = CleanLEL \/ sc_flavour cfg = CleanFC.
  Hypothesis cfg_cache : sc_use_cache cfg = true.
  Hypothesis cfg_nodom : sc_domrule cfg = None.
  Hypothesis cfg_nodup : sc_nodup cfg = false.
  Hypothesis cfg_width : (1 <= sc_width cfg)%nat.
  Hypothesis cfg_nocut : sc_cutoff cfg = 0%nat.
  (* ---- the user's model *)
  Hypothesis nv_static : forall k l1 l2, next_variable pb k l1 = next_variable pb k l2.
  Hypothesis nv_some : forall k l, (k < N)%nat -> exists x, next_variable pb k l = Some x.
  Hypothesis nv_none : forall k l, (N <= k)%nat -> next_variable pb k l = None.
  Hypothesis Hwf : wf_relaxation cfg.
  Variable D : nat.
  Hypothesis dom_bound : forall x s, (length (domain pb x s) <= D)%nat.
  Variable B : Z.
  Hypothesis HB3 : 3 * B <= IMAX.
  Hypothesis guard0 : forall ds s' v', frun pb 0 (init_state pb) (init_value pb) ds = Some (s', v') -> - B <= v' <= B.

  Lemma HB2' : 2 * B <= IMAX.
  Proof. pose proof (guard0 [] _ _ eq_refl). lia. Qed.

  (* the semantic contract, for a relaxation whose relax returns machine integers, through the clipped relaxation *)
  Lemma KC_cache_clip :
    (forall s d, in_isize (transition_cost pb s (transition pb s d) d)) ->
    (forall src dst mg d c, in_isize c -> in_isize (relax rlx src dst mg d c)) ->
    KC_cache st_eqb (clip_cfg cfg) -> KC_cache st_eqb cfg.
  Proof.
    intros cost_isize relax_isize (C2 & C3 & C4 & CW).
    pose proof (clip_compile_cfg st_eqb cfg cfg_clean cost_isize relax_isize) as Hclip.
    split; [|split; [|split]].
    - intros ct n lb c ds polls m out Hct Hg Hd Hl Hc. rewrite <- Hclip in Hc.
      exact (C2 ct n lb c ds polls m out Hct Hg Hd Hl Hc).
    - intros n lb c ds polls m out Hg Hd Hl Hc. rewrite <- Hclip in Hc.
      exact (C3 n lb c ds polls m out Hg Hd Hl Hc).
    - intros n lb c ds polls m out Hg Hd Hl Hc. rewrite <- Hclip in Hc.
      exact (C4 n lb c ds polls m out Hg Hd Hl Hc).
    - intros ct n lb c ds polls m out Hct Hg Hd Hl Hc. rewrite <- Hclip in Hc.
      exact (CW ct n lb c ds polls m out Hct Hg Hd Hl Hc).
  Qed.

  Theorem KC_cache_holds : KC_cache st_eqb cfg.
  Proof.
    destruct Hwf as (cov & [((W1 & W2 & W3 & W4) & W5) | ((W1 & W2 & W3 & W4) & W5 & W6 & W7)]).
    - exact (KC_cache_strong st_eqb st_eqb_spec cfg cfg_clean cfg_nodom cfg_nocut cfg_width nv_static nv_some nv_none
               cov W1 W2 W3 W5 W4 B HB3 guard0).
    - apply (KC_cache_clip W5 W6).
      exact (KC_cache_strong st_eqb st_eqb_spec (clip_cfg cfg) cfg_clean cfg_nodom cfg_nocut cfg_width nv_static nv_some nv_none
               cov W1 W2 W3 (clip_relax_ge cfg cfg_width W7) W4 B HB3 guard0).
  Qed.

  (* C09 at search level: the sequential solver with the threshold cache returns the optimum, with a feasible solution *)
  Theorem C09_sequential_cache_optimal :
    exists f0, forall fuel, (f0 <= fuel)%nat ->
      let r := maximize st_eqb cfg fuel None in
      r_crash r = false /\ r_outoffuel r = false /\ r_exact r = true /\ r_value r = opt_enum pb /\
      (forall v, opt_enum pb = Some v ->
         r_lb r = v /\ r_ub r = v /\
         exists sol, r_sol r = Some (sort_by dec_var_cmp sol) /\ MddProgress.feasible pb sol v) /\
      (opt_enum pb = None -> r_sol r = None /\ r_lb r = IMIN).
  Proof.
    exact (C09_from_contracts st_eqb cfg cfg_cache cfg_nodup nv_static nv_some nv_none B HB2' guard0 (Kbound cfg D)
             (KC_struct_holds st_eqb st_eqb_spec cfg cfg_clean cfg_nodom cfg_nocut cfg_width nv_static nv_some nv_none
                D dom_bound B HB2' guard0)
             KC_cache_holds).
  Qed.

  (* ... hence the cache does not change the answer *)
  Theorem C09_cache_does_not_change_the_answer :
    exists f0, forall fuel, (f0 <= fuel)%nat ->
      r_value (maximize st_eqb cfg fuel None) = r_value (maximize st_eqb (cache_off cfg) fuel None) /\
      r_lb (maximize st_eqb cfg fuel None) = r_lb (maximize st_eqb (cache_off cfg) fuel None) /\
      r_exact (maximize st_eqb cfg fuel None) = true /\ r_exact (maximize st_eqb (cache_off cfg) fuel None) = true.
  Proof.
    destruct C09_sequential_cache_optimal as [f1 H1].
    destruct (C01_sequential_optimal st_eqb st_eqb_spec (cache_off cfg) cfg_clean eq_refl cfg_nodom cfg_nodup cfg_width
                nv_static nv_some nv_none Hwf D dom_bound B HB2' guard0 cfg_nocut) as [f2 H2].
    exists (Nat.max f1 f2). intros fuel Hf.
    destruct (H1 fuel ltac:(lia)) as (_ & _ & A3 & A4 & A5 & A6).
    destruct (H2 fuel ltac:(lia)) as (_ & _ & B3 & B4 & B5 & B6).
    cbv zeta in *. cbn [cache_off sc_problem] in B4, B5, B6.
    split; [rewrite A4, B4; reflexivity|]. split; [|split; assumption].
    destruct (opt_enum pb) as [v|] eqn:Ev.
    - destruct (A5 v eq_refl) as (-> & _). destruct (B5 v eq_refl) as (-> & _). reflexivity.
    - destruct (A6 eq_refl) as (_ & ->). destruct (B6 eq_refl) as (_ & ->). reflexivity.
  Qed.
End C09.

Local Open Scope Z_scope.

(* ================================================================== 11. non-vacuity: the table family of TableWf.v, cache on *)
Section TableC09.
  Variable ti : tinst.
  Variable C : Z.
  Hypothesis Hwf : t_wf ti C.
  Variable flv : flavour.
  Hypothesis Hflv : flv = CleanLEL \/ flv = CleanFC.
  Variable width : nat.
  Hypothesis Hwidth : (1 <= width)%nat.
  Hypothesis HB3 : 3 * tB ti C <= IMAX.

  (* tb_sconfig ti flv (cache := TRUE) (nodup := false) (dominance := false) width 0 *)
  Theorem C09_table_instances :
    exists f0, forall fuel, (f0 <= fuel)%nat ->
      let r := maximize tstate_eqb (tb_sconfig ti flv true false false width 0) fuel None in
      r_crash r = false /\ r_outoffuel r = false /\ r_exact r = true /\ r_value r = opt_enum (t_problem ti) /\
      (forall v, opt_enum (t_problem ti) = Some v ->
         r_lb r = v /\ r_ub r = v /\
         exists sol, r_sol r = Some (sort_by dec_var_cmp sol) /\ MddProgress.feasible (t_problem ti) sol v) /\
      (opt_enum (t_problem ti) = None -> r_sol r = None /\ r_lb r = IMIN).
  Proof.
    destruct (table_premises ti C Hwf flv Hflv width Hwidth 0%nat)
      as (P1 & P2 & P3 & P4 & P5 & P6 & P7 & P8 & P9 & P10 & P11 & P12 & P13).
    exact (C09_sequential_cache_optimal tstate_eqb P1 (tb_sconfig ti flv true false false width 0) P2 eq_refl P4 P5 P6 eq_refl
             P7 P8 P9 P10 (length (t_trans ti)) P11 (tB ti C) HB3 P13).
  Qed.

  Theorem C09_table_cache_does_not_change_the_answer :
    exists f0, forall fuel, (f0 <= fuel)%nat ->
      r_value (maximize tstate_eqb (tb_sconfig ti flv true false false width 0) fuel None) =
      r_value (maximize tstate_eqb (tb_sconfig ti flv false false false width 0) fuel None).
  Proof.
    destruct (table_premises ti C Hwf flv Hflv width Hwidth 0%nat)
      as (P1 & P2 & P3 & P4 & P5 & P6 & P7 & P8 & P9 & P10 & P11 & P12 & P13).
    destruct (C09_cache_does_not_change_the_answer tstate_eqb P1 (tb_sconfig ti flv true false false width 0) P2 eq_refl P4 P5 P6 eq_refl
                P7 P8 P9 P10 (length (t_trans ti)) P11 (tB ti C) HB3 P13) as [f0 Hf].
    exists f0. intros fuel Hfuel. exact (proj1 (Hf fuel Hfuel)).
  Qed.
End TableC09.

(* an instance on which the cache does prune: 5 variables, 2 base states, width 1, last-exact-layer cut-sets *)
Definition c9_ti : tinst := {|
  t_nvars := 5; t_nbase := 2; t_init := 0; t_initval := 1; t_slack := 0; t_rubkind := 0; t_domkind := 0;
  t_usevalue := false; t_ncoord := 0; t_order := [0; 1; 2; 3; 4]%nat;
  t_trans := [ (0%nat,0,0,1,2); (0%nat,0,1,0,7); (0%nat,1,0,1,-4); (1%nat,0,1,0,-3); (1%nat,1,1,1,8);
               (2%nat,0,0,1,-2); (2%nat,0,0,0,0); (2%nat,0,1,1,1); (2%nat,1,0,1,4);
               (3%nat,0,0,1,0); (3%nat,0,0,0,-2); (4%nat,0,0,1,-1); (4%nat,0,0,0,-3); (4%nat,1,1,1,7) ];
  t_notimp := []; t_rub := []; t_key := []; t_coords := []; t_mergekind := 0; t_pos := []; t_up := [] |}.

Example c9_wf : t_wf c9_ti 8.
Proof. apply t_wfb_spec. vm_compute. reflexivity. Qed.

Example c9_opt : opt_enum (t_problem c9_ti) = Some 12.
Proof. vm_compute. reflexivity. Qed.

Example c9_guard : 3 * tB c9_ti 8 <= IMAX.
Proof. vm_compute. intros H. discriminate H. Qed.

(* by the theorem ... *)
Example c9_C09 :
  exists f0, forall fuel, (f0 <= fuel)%nat ->
    let r := maximize tstate_eqb (tb_sconfig c9_ti CleanLEL true false false 1 0) fuel None in
    r_crash r = false /\ r_outoffuel r = false /\ r_exact r = true /\
    r_value r = Some 12 /\ r_lb r = 12 /\ r_ub r = 12 /\
    r_value r = r_value (maximize tstate_eqb (tb_sconfig c9_ti CleanLEL false false false 1 0) fuel None).
Proof.
  destruct (C09_table_instances c9_ti 8 c9_wf CleanLEL (or_introl eq_refl) 1 (le_n 1) c9_guard) as [f1 H1].
  destruct (C09_table_cache_does_not_change_the_answer c9_ti 8 c9_wf CleanLEL (or_introl eq_refl) 1 (le_n 1) c9_guard) as [f2 H2].
  exists (Nat.max f1 f2). intros fuel Hfuel.
  destruct (H1 fuel ltac:(lia)) as (A1 & A2 & A3 & A4 & A5 & _).
  rewrite c9_opt in A4. destruct (A5 12 c9_opt) as (B1 & B2 & _). cbv zeta.
  split; [exact A1|]. split; [exact A2|]. split; [exact A3|]. split; [exact A4|]. split; [exact B1|]. split; [exact B2|].
  exact (H2 fuel ltac:(lia)).
Qed.

(* ... and by running the executable model: the same optimum, the cache prunes (3 sub-problems explored instead of 4),
   and the executable audit of section 3 (invariant of the search + conclusions of the contracts on the 4 compilations) passes *)
Example c9_run :
  (let r := maximize tstate_eqb (tb_sconfig c9_ti CleanLEL true false false 1 0) 60 None in
   (r_crash r, r_outoffuel r, r_exact r, r_value r, r_lb r, r_ub r, r_explored r),
   let r := maximize tstate_eqb (tb_sconfig c9_ti CleanLEL false false false 1 0) 60 None in
   (r_crash r, r_outoffuel r, r_exact r, r_value r, r_lb r, r_ub r, r_explored r),
   audit tstate_eqb (tb_sconfig c9_ti CleanLEL true false false 1 0) 60)
  = ((false, false, true, Some 12, 12, 12, 3%nat), (false, false, true, Some 12, 12, 12, 4%nat), Some (true, 4%nat, 3%nat)).
Proof. vm_compute. reflexivity. Qed.

Example c9_cache_prunes :
  (r_explored (maximize tstate_eqb (tb_sconfig c9_ti CleanLEL true false false 1 0) 60 None) <
   r_explored (maximize tstate_eqb (tb_sconfig c9_ti CleanLEL false false false 1 0) 60 None))%nat.
Proof.
  assert (G : forall {T U} (a1 a2 b1 b2 : T) (n1 n2 : nat) (u u' : U),
            ((a1, n1), (a2, n2), u) = ((b1, 3%nat), (b2, 4%nat), u') -> (n1 < n2)%nat).
  { intros T U a1 a2 b1 b2 n1 n2 u u' E. injection E as _ -> _ -> _. apply Nat.lt_succ_diag_r. }
  exact (G _ _ _ _ _ _ _ _ _ _ c9_run).
Qed.

Check @seq_cache_solver_correct.
Check @C09_from_contracts.
Check @KC_struct_holds.
Check @KC_cache_holds.
Check @C09_sequential_cache_optimal.
Check @C09_cache_does_not_change_the_answer.
Check @C09_table_instances.
Print Assumptions C09_from_contracts.
Print Assumptions KC_struct_holds.
Print Assumptions KC_cache_holds.
Print Assumptions C09_sequential_cache_optimal.
Print Assumptions C09_cache_does_not_change_the_answer.
Print Assumptions C09_table_instances.
Print Assumptions c9_C09.
