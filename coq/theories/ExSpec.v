(* ExSpec.v — independent specifications of the twelve example problems shipped with ddo (property C16).

   Every [*_opt] function below defines the optimum objective value of the underlying combinatorial problem
   by EXHAUSTIVE ENUMERATION of the candidate solutions (all subsets / permutations / assignments / schedules),
   a feasibility filter, an objective evaluation of one candidate, and min / max over the survivors.
   None of them is a dynamic program and none of them looks at the example's DP model (states, transitions,
   merge, bounds): they only fix the meaning of the instance data.  [None] means "no feasible solution".

   The functions are extracted (ExtractEx.v) and used as the oracle of the end-to-end check
   tools/check_examples.py.  Only the Coq standard library is used; there is no axiom. *)
Require Import ZArith List Bool Arith Lia.
Import ListNotations.
Open Scope Z_scope.

(** * Enumerators *)

(** all sub-sequences (= subsets by position) of a list: 2^n of them *)
Fixpoint sublists {A} (l : list A) : list (list A) :=
  match l with
  | [] => [[]]
  | x :: r => let s := sublists r in map (cons x) s ++ s
  end.

(** all ways to insert [x] into [l] *)
Fixpoint inserts {A} (x : A) (l : list A) : list (list A) :=
  match l with
  | [] => [[x]]
  | y :: r => (x :: y :: r) :: map (cons y) (inserts x r)
  end.

(** all permutations of a list: n! of them *)
Fixpoint perms {A} (l : list A) : list (list A) :=
  match l with
  | [] => [[]]
  | x :: r => flat_map (inserts x) (perms r)
  end.

(** all words of length n over an alphabet: |alphabet|^n of them *)
Fixpoint tuples {A} (alphabet : list A) (n : nat) : list (list A) :=
  match n with
  | O => [[]]
  | S k => flat_map (fun t => map (fun a => a :: t) alphabet) (tuples alphabet k)
  end.

(** all sub-sequences of length exactly k *)
Fixpoint subsets_k {A} (l : list A) (k : nat) : list (list A) :=
  match l with
  | [] => match k with O => [[]] | S _ => [] end
  | x :: r => match k with
              | O => [[]]
              | S k' => map (cons x) (subsets_k r k') ++ subsets_k r k
              end
  end.

(** * Optimum of a list of candidate values *)

Definition zsum (l : list Z) : Z := fold_left Z.add l 0.

Definition pick (better : Z -> Z -> bool) (acc : option Z) (x : option Z) : option Z :=
  match acc, x with
  | None, _ => x
  | _, None => acc
  | Some a, Some b => if better b a then Some b else Some a
  end.

(** largest / smallest defined value of a list of optional values *)
Definition zmax_opt (l : list (option Z)) : option Z := fold_left (pick Z.gtb) l None.
Definition zmin_opt (l : list (option Z)) : option Z := fold_left (pick Z.ltb) l None.
Definition zmax_list (l : list Z) : option Z := zmax_opt (map Some l).
Definition zmin_list (l : list Z) : option Z := zmin_opt (map Some l).

Definition mget (m : list (list Z)) (i j : nat) : Z := nth j (nth i m []) 0.

(** * 1. knapsack: items = (profit, weight); choose a subset of total weight <= capacity, maximise total profit *)

Definition ks_profit (s : list (Z * Z)) : Z := zsum (map fst s).
Definition ks_weight (s : list (Z * Z)) : Z := zsum (map snd s).

Definition knapsack_opt (capacity : Z) (items : list (Z * Z)) : option Z :=
  zmax_list (map ks_profit (filter (fun s => ks_weight s <=? capacity) (sublists items))).

(** * 2. misp: vertices 0..n-1 with weights, undirected edges; maximise the weight of a vertex set containing
      no edge (the empty set is a candidate, so the optimum is >= 0 even with negative weights) *)

Definition memb (x : nat) (s : list nat) : bool := existsb (Nat.eqb x) s.

Definition misp_independent (edges : list (nat * nat)) (s : list nat) : bool :=
  forallb (fun e => negb (memb (fst e) s && memb (snd e) s)) edges.

Definition misp_opt (weights : list Z) (edges : list (nat * nat)) : option Z :=
  zmax_list (map (fun s => zsum (map (fun v => nth v weights 0) s))
                 (filter (misp_independent edges) (sublists (seq 0 (length weights))))).

(** * 3. max2sat: clauses (weight, lit1, lit2), literals are non-zero integers +-(1..n) (a unit clause has
      lit1 = lit2); maximise, over all 2^n truth assignments, the total weight of the satisfied clauses.
      A clause that occurs twice counts twice. *)

Definition lit_true (a : list bool) (l : Z) : bool :=
  if 0 <? l then nth (Z.to_nat (l - 1)) a false else negb (nth (Z.to_nat (- l - 1)) a false).

Definition clause_value (a : list bool) (c : Z * (Z * Z)) : Z :=
  let '(w, (x, y)) := c in if lit_true a x || lit_true a y then w else 0.

Definition max2sat_opt (n : nat) (clauses : list (Z * (Z * Z))) : option Z :=
  zmax_list (map (fun a => zsum (map (clause_value a) clauses)) (tuples [true; false] n)).

(** * 4. mcp (max cut): edges (u, v, w) over vertices 0..n-1; maximise, over all 2^n side assignments, the
      total weight of the edges whose end points are on different sides (weights may be negative; the cut
      with everything on one side has weight 0) *)

Definition cut_value (a : list bool) (e : nat * nat * Z) : Z :=
  let '(u, v, w) := e in if Bool.eqb (nth u a false) (nth v a false) then 0 else w.

Definition mcp_opt (n : nat) (edges : list (nat * nat * Z)) : option Z :=
  zmax_list (map (fun a => zsum (map (cut_value a) edges)) (tuples [true; false] n)).

(** * 5. lcs: the largest length of a string that is a sub-sequence of every given string *)

(** [is_subseq s t]: s can be obtained from t by deleting characters *)
Fixpoint is_subseq (s t : list nat) : bool :=
  match t with
  | [] => match s with [] => true | _ :: _ => false end
  | y :: t' => match s with
               | [] => true
               | x :: s' => if Nat.eqb x y then is_subseq s' t' else is_subseq s t'
               end
  end.

Definition lcs_opt (strings : list (list nat)) : option Z :=
  match strings with
  | [] => None
  | s0 :: rest =>
      zmax_list (map (fun s => Z.of_nat (length s))
                     (filter (fun s => forallb (is_subseq s) rest) (sublists s0)))
  end.

(** * 6. golomb: the smallest length L of a ruler with n marks 0 = m1 < ... < mn = L whose pairwise
      differences are all distinct.  The search over L is bounded by 2^(n-1) - 1, the length of the ruler
      0,1,3,7,... which is a Golomb ruler. *)

Fixpoint diffs (m : list nat) : list nat :=      (* m increasing *)
  match m with
  | [] => []
  | x :: r => map (fun y => (y - x)%nat) r ++ diffs r
  end.

Fixpoint nodupb (l : list nat) : bool :=
  match l with
  | [] => true
  | x :: r => negb (memb x r) && nodupb r
  end.

Definition golomb_ok (marks : list nat) : bool := nodupb (diffs marks).

Definition golomb_exists (n L : nat) : bool :=
  match n with
  | O => false
  | S O => Nat.eqb L 0
  | S (S k) => Nat.leb 1 L && existsb (fun mid => golomb_ok (O :: mid ++ [L])) (subsets_k (seq 1 (L - 1)) k)
  end.

Definition golomb_opt (n : nat) : option Z :=
  option_map Z.of_nat (find (golomb_exists n) (seq 0 (2 ^ (n - 1)))).

(** * 7. sop: n nodes, matrix d; d i j = -1 means "j must come before i".  Minimise the length of a path
      0, (a permutation of 1..n-2), n-1 that respects every precedence. *)

Fixpoint index_of (x : nat) (l : list nat) : nat :=
  match l with
  | [] => O
  | y :: r => if Nat.eqb x y then O else S (index_of x r)
  end.

Definition sop_respects (d : list (list Z)) (n : nat) (path : list nat) : bool :=
  forallb (fun i => forallb (fun j => if mget d i j =? -1 then Nat.ltb (index_of j path) (index_of i path) else true)
                            (seq 0 n)) (seq 0 n).

Fixpoint path_cost (d : list (list Z)) (path : list nat) : Z :=
  match path with
  | a :: r => match r with
              | b :: _ => mget d a b + path_cost d r
              | [] => 0
              end
  | [] => 0
  end.

Definition sop_opt (d : list (list Z)) : option Z :=
  let n := length d in
  match n with
  | O => None
  | S O => Some 0
  | _ => zmin_list (map (path_cost d)
                        (filter (sop_respects d n)
                                (map (fun p => O :: p ++ [(n - 1)%nat]) (perms (seq 1 (n - 2))))))
  end.

(** * 8. tsptw: n nodes, travel times d, time windows (earliest, latest).  A tour leaves the depot 0 at time 0,
      visits every other node once and returns to the depot.  Arriving at j at time a is allowed iff
      a <= latest j; the visit then starts at max a (earliest j) (waiting is allowed).  Minimise the time at
      which the tour is back at the depot (= travel + waiting time). *)

Fixpoint tsptw_run (d : list (list Z)) (tw : list (Z * Z)) (cur : nat) (t : Z) (rest : list nat) : option Z :=
  match rest with
  | [] => Some t
  | j :: r =>
      let arr := t + mget d cur j in
      let '(e, l) := nth j tw (0, 0) in
      if arr <=? l then tsptw_run d tw j (Z.max arr e) r else None
  end.

Definition tsptw_opt (d : list (list Z)) (tw : list (Z * Z)) : option Z :=
  let n := length d in
  zmin_opt (map (fun p => tsptw_run d tw O 0 (p ++ [O])) (perms (seq 1 (n - 1)))).

(** * 9. srflp: departments with lengths placed side by side on a row; flow c a b between departments
      (symmetric; the upper triangle is read).  Minimise sum_{a<b} c a b * (distance between the centres).
      The function returns TWICE the objective (so it stays an integer). *)

Definition flow (flows : list (list Z)) (a b : nat) : Z := mget flows (Nat.min a b) (Nat.max a b).

(** a is placed; [gap2] = twice the total length strictly between a and the head of [rest] *)
Fixpoint srflp_from (lens : list Z) (flows : list (list Z)) (a : nat) (gap2 : Z) (rest : list nat) : Z :=
  match rest with
  | [] => 0
  | b :: r => flow flows a b * (nth a lens 0 + gap2 + nth b lens 0)
              + srflp_from lens flows a (gap2 + 2 * nth b lens 0) r
  end.

Fixpoint srflp_cost2 (lens : list Z) (flows : list (list Z)) (p : list nat) : Z :=
  match p with
  | [] => 0
  | a :: r => srflp_from lens flows a 0 r + srflp_cost2 lens flows r
  end.

Definition srflp_opt2 (lens : list Z) (flows : list (list Z)) : option Z :=
  zmin_list (map (srflp_cost2 lens flows) (perms (seq 0 (length lens)))).

(** * 10. talentsched: scenes with durations, actors with a daily cost and the set of scenes they play in.
      For an order of the scenes an actor is paid for every scene from her first to her last one (inclusive).
      Minimise the total pay over all orders of the scenes. *)

Fixpoint drop_absent (present : nat -> bool) (p : list nat) : list nat :=
  match p with
  | [] => []
  | s :: r => if present s then p else drop_absent present r
  end.

(** the scenes during which the actor is on location: from her first to her last scene *)
Definition on_location (present : nat -> bool) (p : list nat) : list nat :=
  rev (drop_absent present (rev (drop_absent present p))).

Definition talent_cost (dur : list Z) (actors : list (Z * list bool)) (p : list nat) : Z :=
  zsum (map (fun a => fst a * zsum (map (fun s => nth s dur 0) (on_location (fun s => nth s (snd a) false) p))) actors).

Definition talent_opt (dur : list Z) (actors : list (Z * list bool)) : option Z :=
  zmin_list (map (talent_cost dur actors) (perms (seq 0 (length dur)))).

(** * 11. psp (pigment sequencing / discrete lot sizing): T periods, one machine producing at most one unit of
      one item per period; demand i t in {0,1} is due at the end of period t.  A schedule assigns an item or
      idle to every period.  It is feasible iff the inventory of every item (produced so far - demanded so
      far) is never negative and is 0 at the end.  Cost = sum over items and periods of stocking i * inventory
      + changeover a b for every two consecutive productions a, b (idle periods skipped).  Minimise. *)

Definition produced (sched : list (option nat)) (i : nat) (t : nat) : Z :=
  Z.of_nat (length (filter (fun x => match x with Some j => Nat.eqb i j | None => false end) (firstn (S t) sched))).

Definition demanded (dem : list (list Z)) (i : nat) (t : nat) : Z := zsum (firstn (S t) (nth i dem [])).

Definition inventory (dem : list (list Z)) (sched : list (option nat)) (i t : nat) : Z :=
  produced sched i t - demanded dem i t.

Definition psp_feasible (T nitems : nat) (dem : list (list Z)) (sched : list (option nat)) : bool :=
  forallb (fun i => forallb (fun t => 0 <=? inventory dem sched i t) (seq 0 T)
                    && (match T with O => true | S t => inventory dem sched i t =? 0 end)) (seq 0 nitems).

Fixpoint productions (sched : list (option nat)) : list nat :=
  match sched with
  | [] => []
  | Some i :: r => i :: productions r
  | None :: r => productions r
  end.

Definition psp_cost (T nitems : nat) (change : list (list Z)) (stock : list Z) (dem : list (list Z))
           (sched : list (option nat)) : Z :=
  zsum (map (fun i => nth i stock 0 * zsum (map (inventory dem sched i) (seq 0 T))) (seq 0 nitems))
  + path_cost change (productions sched).

Definition psp_opt (T nitems : nat) (change : list (list Z)) (stock : list Z) (dem : list (list Z)) : option Z :=
  zmin_list (map (psp_cost T nitems change stock dem)
                 (filter (psp_feasible T nitems dem) (tuples (None :: map Some (seq 0 nitems)) T))).

(** * 12. alp (aircraft landing): aircraft a has (target, latest, class); R runways; sep c1 c2 = minimum time
      between a landing of class c1 and a LATER landing of class c2 on the same runway.  A solution gives
      every aircraft a runway and a landing time x with target <= x <= latest such that the separations hold
      between every two aircraft of one runway; minimise sum (x - target).
      Enumeration: every global landing order (n! permutations) x every runway assignment (R^n); for a given
      order and assignment every aircraft lands as early as the aircraft before it on its runway allow
      (delays only hurt: landing earlier never invalidates a later landing). *)

Definition alp_time (ac : list (Z * Z * nat)) (sep : list (list Z)) (landed : list (nat * nat * Z)) (a r : nat) : Z :=
  let '(tgt, _, ca) := nth a ac (0, 0, O) in
  fold_left (fun acc l => let '(b, rb, xb) := l in
                          let '(_, _, cb) := nth b ac (0, 0, O) in
                          if Nat.eqb rb r then Z.max acc (xb + mget sep cb ca) else acc) landed tgt.

Fixpoint alp_run (ac : list (Z * Z * nat)) (sep : list (list Z)) (order : list (nat * nat))
         (landed : list (nat * nat * Z)) (cost : Z) : option Z :=
  match order with
  | [] => Some cost
  | (a, r) :: rest =>
      let '(tgt, lat, _) := nth a ac (0, 0, O) in
      let x := alp_time ac sep landed a r in
      if x <=? lat then alp_run ac sep rest ((a, r, x) :: landed) (cost + (x - tgt)) else None
  end.

Definition alp_opt (nrunways : nat) (ac : list (Z * Z * nat)) (sep : list (list Z)) : option Z :=
  let n := length ac in
  zmin_opt (flat_map (fun p => map (fun rs => alp_run ac sep (combine p rs) [] 0) (tuples (seq 0 nrunways) n))
                     (perms (seq 0 n))).

(** * Sanity checks (instances of /repo/resources with the optima asserted by the examples' tests.rs) *)

Example enum_sizes :
  (length (sublists [1;2;3;4]), length (perms [1;2;3;4]), length (tuples [1;2;3] 3), length (subsets_k [1;2;3;4;5] 2))
  = (16, 24, 27, 10)%nat.
Proof. vm_compute. reflexivity. Qed.

(* resources/knapsack/f4_l-d_kp_4_11 : 23,  f3_l-d_kp_4_20 : 35 *)
Example knapsack_f4 : knapsack_opt 11 [(6,2); (10,4); (12,6); (13,7)] = Some 23.
Proof. vm_compute. reflexivity. Qed.
Example knapsack_f3 : knapsack_opt 20 [(9,6); (11,5); (13,9); (15,7)] = Some 35.
Proof. vm_compute. reflexivity. Qed.

(* a triangle with a pendant vertex, one negative weight *)
Example misp_small : misp_opt [3; 4; -2; 5] [(0,1); (1,2); (0,2); (2,3)]%nat = Some 9.
Proof. vm_compute. reflexivity. Qed.

(* resources/max2sat/debug2.wcnf : 13, negative_wt.wcnf : 4258, tautology.wcnf : 7, unit.wcnf : 6 *)
Example max2sat_debug2 : max2sat_opt 3 [(2,(-1,-1)); (4,(-2,1)); (4,(2,3)); (3,(1,3))] = Some 13.
Proof. vm_compute. reflexivity. Qed.
Example max2sat_negative_wt : max2sat_opt 2 [(-2842,(-1,-1)); (4258,(-2,-1))] = Some 4258.
Proof. vm_compute. reflexivity. Qed.
Example max2sat_tautology : max2sat_opt 2 [(2,(-2,-1)); (2,(-1,1)); (1,(-1,2)); (2,(1,2))] = Some 7.
Proof. vm_compute. reflexivity. Qed.
Example max2sat_unit : max2sat_opt 2 [(2,(-2,-2)); (2,(-2,1)); (0,(-1,1)); (2,(-2,-1))] = Some 6.
Proof. vm_compute. reflexivity. Qed.

(* a 4-cycle with one negative chord *)
Example mcp_small : mcp_opt 4 [(0,1,3%Z); (1,2,2%Z); (2,3,4%Z); (3,0,1%Z); (0,2,(-5)%Z)]%nat = Some 10.
Proof. vm_compute. reflexivity. Qed.
Example mcp_all_negative : mcp_opt 3 [(0,1,(-1)%Z); (1,2,(-1)%Z)]%nat = Some 0.
Proof. vm_compute. reflexivity. Qed.

(* "abcbdab" / "bdcaba" : 4 *)
Example lcs_small : lcs_opt [[0;1;2;1;3;0;1]; [1;3;2;0;1;0]]%nat = Some 4.
Proof. vm_compute. reflexivity. Qed.

(* examples/golomb/tests.rs : 1, 3, 6, 11, 17 *)
Example golomb_2_6 : map golomb_opt [1; 2; 3; 4; 5; 6]%nat = [Some 0; Some 1; Some 3; Some 6; Some 11; Some 17].
Proof. vm_compute. reflexivity. Qed.

(* a path respects the matrix iff each of its precedence pairs (i after j) is in order *)
Definition sop_precs (d : list (list Z)) (n : nat) : list (nat * nat) :=
  flat_map (fun i => map (pair i) (filter (fun j => mget d i j =? -1) (seq 0 n))) (seq 0 n).

Lemma forallb_pairs {A B} (c f : A -> B -> bool) L R :
  forallb (fun i => forallb (fun j => if c i j then f i j else true) R) L =
  forallb (fun ij => f (fst ij) (snd ij)) (flat_map (fun i => map (pair i) (filter (c i) R)) L).
Proof.
  induction L as [|i L IH]; cbn [forallb flat_map]; [reflexivity|].
  rewrite forallb_app, IH. f_equal. clear IH.
  induction R as [|j R IHR]; cbn [forallb filter]; [reflexivity|].
  rewrite IHR. destruct (c i j); reflexivity.
Qed.

Lemma sop_respects_precs d n path :
  sop_respects d n path = forallb (fun ij => Nat.ltb (index_of (snd ij) path) (index_of (fst ij) path)) (sop_precs d n).
Proof. exact (forallb_pairs (fun i j => mget d i j =? -1) (fun i j => Nat.ltb (index_of j path) (index_of i path)) _ _). Qed.

(* resources/sop/ESC07.sop : 2125 *)
Example sop_esc07 : sop_opt
  [[0; 0; 0; 0; 0; 0; 0; 0; 1000000];
   [-1; 0; 100; 200; 75; 0; 300; 100; 0];
   [-1; 400; 0; 500; 325; 400; 600; 0; 0];
   [-1; 700; 800; 0; 550; 700; 900; 800; 0];
   [-1; -1; 250; 225; 0; 275; 525; 250; 0];
   [-1; -1; 100; 200; -1; 0; -1; -1; 0];
   [-1; -1; 1100; 1200; 1075; 1000; 0; 1100; 0];
   [-1; -1; 0; 500; 325; 400; 600; 0; 0];
   [-1; -1; -1; -1; -1; -1; -1; -1; 0]] = Some 2125.
Proof.
  (* 5040 paths: the matrix is read once, into its 25 precedence pairs, not once per path *)
  unfold sop_opt. cbn [length]. rewrite (filter_ext _ _ (sop_respects_precs _ _)).
  set (ps := sop_precs _ _). vm_compute in ps. subst ps. vm_compute. reflexivity.
Qed.

(* a 3-node tour where waiting is needed, and an infeasible variant *)
Example tsptw_small : tsptw_opt [[0; 2; 5]; [2; 0; 1]; [5; 1; 0]] [(0, 100); (10, 20); (0, 4)] = None.
Proof. vm_compute. reflexivity. Qed.
Example tsptw_small2 : tsptw_opt [[0; 2; 5]; [2; 0; 1]; [5; 1; 0]] [(0, 100); (10, 20); (0, 5)] = Some 12.
Proof. vm_compute. reflexivity. Qed.

(* resources/srflp/Cl5 (lengths + 10 for the clearance) : 1100 *)
Example srflp_cl5 : srflp_opt2 [50; 30; 60; 40; 20]
  [[0;5;2;4;1]; [5;0;3;0;2]; [2;3;0;0;0]; [4;0;0;0;5]; [1;2;0;5;0]] = Some 2200.
Proof. vm_compute. reflexivity. Qed.

(* resources/talentsched/tiny : 29, tiny2 : 9 *)
Example talent_tiny : talent_opt [1; 2; 3; 1]
  [(1, [true; false; true; false]); (2, [true; true; false; true]); (3, [false; true; true; false])] = Some 29.
Proof. vm_compute. reflexivity. Qed.
Example talent_tiny2 : talent_opt [1; 1; 1; 1; 1]
  [(1, [true; true; false; true; false]); (1, [false; true; true; false; true]); (1, [false; false; true; true; false])] = Some 9.
Proof. vm_compute. reflexivity. Qed.

(* resources/psp/instancesWith2items/1 : 13 *)
Example psp_2items_1 : psp_opt 4 2 [[0; 10]; [5; 0]] [5; 2] [[0; 0; 1; 1]; [0; 0; 1; 1]] = Some 13.
Proof. vm_compute. reflexivity. Qed.
Example psp_infeasible : psp_opt 2 2 [[0; 1]; [1; 0]] [1; 1] [[1; 0]; [1; 0]] = None.
Proof. vm_compute. reflexivity. Qed.

(* one runway, two aircraft of one class with separation 10: the second is delayed by 7 *)
Example alp_small : alp_opt 1 [(0, 50, 0%nat); (3, 50, 0%nat)] [[10]] = Some 7.
Proof. vm_compute. reflexivity. Qed.
Example alp_small_two_runways : alp_opt 2 [(0, 50, 0%nat); (3, 50, 0%nat)] [[10]] = Some 0.
Proof. vm_compute. reflexivity. Qed.
Example alp_small_infeasible : alp_opt 1 [(0, 5, 0%nat); (3, 6, 0%nat)] [[10]] = None.
Proof. vm_compute. reflexivity. Qed.
