(* DomSpec.v — executable (boolean) form of the Pareto-front specification used as the property oracle
   of C10/C18 by the correspondence check, with its reflection lemma. *)
Require Import DDO.Base DDO.Dom DDO.DomProofs.
Open Scope Z_scope.

Section DomSpec.
  Context {St Key : Type}.
  Variable get_key : St -> option Key.
  Variable nd : nat.
  Variable coord : St -> nat -> Z.
  Variable use_value : bool.

  Definition le_allb (a : St) (va : Z) (b : St) (vb : Z) : bool :=
    forallb (fun i => coord a i <=? coord b i) (seq 0 nd) && (negb use_value || (va <=? vb)).

  Lemma le_allb_spec a va b vb : le_allb a va b vb = true <-> le_all nd coord use_value a va b vb.
  Proof.
    unfold le_allb. rewrite le_all_seq, andb_true_iff, forallb_forall.
    split; intros [H1 H2]; (split; [intros i Hi; apply Z.leb_le; exact (H1 i Hi)|]).
    - intros Hu. rewrite Hu in H2. apply Z.leb_le. exact H2.
    - destruct use_value; [apply Z.leb_le; exact (H2 eq_refl) | reflexivity].
  Qed.

  (* (s', v') strictly dominates (s, v) *)
  Definition strictly_dominatedb (s : St) (v : Z) (e : St * Z) : bool :=
    le_allb s v (fst e) (snd e) && negb (le_allb (fst e) (snd e) s v).

  (* the specification of the verdict: some previously presented query strictly dominates the new one *)
  Definition spec_dominated (history : list (St * Z)) (s : St) (v : Z) : bool :=
    existsb (strictly_dominatedb s v) history.

  Lemma strictly_dominatedb_spec s v e :
    strictly_dominatedb s v e = true <->
    le_all nd coord use_value s v (fst e) (snd e) /\ ~ le_all nd coord use_value (fst e) (snd e) s v.
  Proof.
    unfold strictly_dominatedb.
    rewrite andb_true_iff, negb_true_iff, <- not_true_iff_false, !le_allb_spec. reflexivity.
  Qed.

  Theorem spec_dominated_correct history s v :
    spec_dominated history s v = dc_dominated (snd (bucket_query nd coord use_value s v (bucket_after nd coord use_value history))).
  Proof.
    apply eq_true_iff_eq. rewrite (pareto_front_history get_key). unfold spec_dominated.
    rewrite existsb_exists. split.
    - intros [[s' v'] [Hin Hd]]. exists s', v'. split; [exact Hin|].
      exact (proj1 (strictly_dominatedb_spec s v (s', v')) Hd).
    - intros [s' [v' [Hin Hd]]]. exists (s', v'). split; [exact Hin|].
      apply strictly_dominatedb_spec. exact Hd.
  Qed.
End DomSpec.
