(* Base.v — machine integers (isize as a window of Z), saturating arithmetic,
   Rust's Ordering, small list utilities used by every model file.
   Stdlib only. No proofs about the modelled code live here. *)
From Coq Require Export ZArith List Bool Lia.
Export ListNotations.
Open Scope Z_scope.

Definition IMAX : Z := 9223372036854775807.
Definition IMIN : Z := -9223372036854775808.

Definition clampZ (z : Z) : Z :=
  if z >? IMAX then IMAX else if z <? IMIN then IMIN else z.

(* isize::saturating_add / saturating_sub *)
Definition sat_add (a b : Z) : Z := clampZ (a + b).
Definition sat_sub (a b : Z) : Z := clampZ (a - b).

Definition in_isize (z : Z) : Prop := IMIN <= z <= IMAX.

Lemma clampZ_id z : in_isize z -> clampZ z = z.
Proof.
  unfold in_isize, clampZ; intros [H1 H2].
  destruct (z >? IMAX) eqn:E1; [apply Z.gtb_lt in E1; lia|].
  destruct (z <? IMIN) eqn:E2; [apply Z.ltb_lt in E2; lia|]. reflexivity.
Qed.

Lemma clampZ_range z : in_isize (clampZ z).
Proof.
  unfold in_isize, clampZ.
  destruct (z >? IMAX) eqn:E1; [unfold IMAX, IMIN; lia|].
  destruct (z <? IMIN) eqn:E2; [unfold IMAX, IMIN; lia|].
  rewrite Z.gtb_ltb in E1. apply Z.ltb_ge in E1. apply Z.ltb_ge in E2. lia.
Qed.

Lemma clampZ_mono a b : a <= b -> clampZ a <= clampZ b.
Proof.
  unfold clampZ; intros H.
  destruct (a >? IMAX) eqn:A1; destruct (b >? IMAX) eqn:B1;
  destruct (a <? IMIN) eqn:A2; destruct (b <? IMIN) eqn:B2;
  rewrite ?Z.gtb_ltb in *;
  repeat match goal with
  | H : (_ <? _) = true |- _ => apply Z.ltb_lt in H
  | H : (_ <? _) = false |- _ => apply Z.ltb_ge in H
  end; unfold IMAX, IMIN in *; lia.
Qed.

(* Rust's std::cmp::Ordering is Coq's [comparison]: Lt = Less, Eq = Equal, Gt = Greater *)
Definition cmp_rev (c : comparison) : comparison := CompOpp c.
Definition cmp_then (c : comparison) (d : comparison) : comparison :=
  match c with Eq => d | _ => c end.
Definition Zcmp (a b : Z) : comparison := Z.compare a b.
Definition Ncmp (a b : nat) : comparison := Nat.compare a b.
Definition is_gt (c : comparison) : bool := match c with Gt => true | _ => false end.
Definition is_lt (c : comparison) : bool := match c with Lt => true | _ => false end.
Definition is_eq (c : comparison) : bool := match c with Eq => true | _ => false end.

Fixpoint lex_cmp {A} (cmp : A -> A -> comparison) (a b : list A) : comparison :=
  match a, b with
  | [], [] => Eq
  | [], _ :: _ => Lt
  | _ :: _, [] => Gt
  | x :: a', y :: b' => cmp_then (cmp x y) (lex_cmp cmp a' b')
  end.

Fixpoint upd_nth {A} (n : nat) (f : A -> A) (l : list A) : list A :=
  match l, n with
  | [], _ => []
  | x :: l', O => f x :: l'
  | x :: l', S n' => x :: upd_nth n' f l'
  end.

Lemma upd_nth_length {A} n f (l : list A) : length (upd_nth n f l) = length l.
Proof. revert n; induction l as [|x l IH]; intros [|n]; simpl; auto. Qed.

Lemma nth_error_upd_nth_same {A} n f (l : list A) x :
  nth_error l n = Some x -> nth_error (upd_nth n f l) n = Some (f x).
Proof.
  revert n; induction l as [|y l IH]; intros [|n]; simpl; try discriminate.
  - intros H; inversion H; reflexivity.
  - apply IH.
Qed.

Lemma nth_error_upd_nth_other {A} n m f (l : list A) :
  n <> m -> nth_error (upd_nth n f l) m = nth_error l m.
Proof.
  revert n m; induction l as [|y l IH]; intros [|n] [|m] H; simpl; auto; try congruence.
Qed.

Lemma nth_error_Some_lt {A} (l : list A) n x : nth_error l n = Some x -> (n < length l)%nat.
Proof. intros H. apply nth_error_Some. congruence. Qed.

Lemma nth_error_lt_Some {A} (l : list A) n : (n < length l)%nat -> exists x, nth_error l n = Some x.
Proof. intros H. destruct (nth_error l n) eqn:E; eauto. apply nth_error_None in E. lia. Qed.

Lemma filter_all_true {A} (f : A -> bool) (l : list A) :
  (forall x, In x l -> f x = true) -> filter f l = l.
Proof.
  induction l as [|x l IH]; intros H; [reflexivity|].
  cbn [filter]. rewrite (H x (or_introl eq_refl)). f_equal. apply IH.
  intros y Hy. apply H. right; exact Hy.
Qed.

(* stable insertion sort by a comparator: the result is ascending for [cmp] *)
Fixpoint insert_by {A} (cmp : A -> A -> comparison) (x : A) (l : list A) : list A :=
  match l with
  | [] => [x]
  | y :: l' => if is_gt (cmp x y) then y :: insert_by cmp x l' else x :: l
  end.
Definition sort_by {A} (cmp : A -> A -> comparison) (l : list A) : list A :=
  fold_right (insert_by cmp) [] l.

Lemma insert_by_length {A} cmp (x : A) l : length (insert_by cmp x l) = S (length l).
Proof. induction l as [|y l IH]; simpl; auto. destruct (is_gt _); simpl; auto. Qed.
Lemma sort_by_length {A} cmp (l : list A) : length (sort_by cmp l) = length l.
Proof. induction l as [|y l IH]; simpl; auto. rewrite insert_by_length; auto. Qed.

Lemma insert_by_In {A} cmp (x y : A) l : In y (insert_by cmp x l) <-> y = x \/ In y l.
Proof.
  induction l as [|z l IH]; simpl.
  - intuition.
  - destruct (is_gt _); simpl; rewrite ?IH; intuition.
Qed.
Lemma sort_by_In {A} cmp (y : A) l : In y (sort_by cmp l) <-> In y l.
Proof.
  induction l as [|z l IH]; simpl; [tauto|]. rewrite insert_by_In, IH. intuition.
Qed.

Fixpoint find_index {A} (p : A -> bool) (l : list A) : option nat :=
  match l with
  | [] => None
  | x :: l' => if p x then Some O else option_map S (find_index p l')
  end.

Definition opt_default {A} (d : A) (o : option A) : A := match o with Some x => x | None => d end.

Fixpoint zmax_list (l : list Z) : option Z :=
  match l with
  | [] => None
  | x :: l' => match zmax_list l' with None => Some x | Some m => Some (Z.max x m) end
  end.

(* option-Z with None = -infinity *)
Definition omax (a b : option Z) : option Z :=
  match a, b with
  | None, _ => b | _, None => a | Some x, Some y => Some (Z.max x y) end.
Definition oadd (c : Z) (a : option Z) : option Z := option_map (Z.add c) a.
Definition ole (a b : option Z) : Prop :=
  match a, b with None, _ => True | Some _, None => False | Some x, Some y => x <= y end.

Lemma zmax_list_spec l m : zmax_list l = Some m -> In m l /\ forall x, In x l -> x <= m.
Proof.
  revert m. induction l as [|y l IH]; intros m H; simpl in H; [discriminate|].
  destruct (zmax_list l) as [m'|] eqn:E.
  - inversion H; subst m. destruct (IH m' eq_refl) as [I1 I2]. split.
    + destruct (Z.max_spec y m') as [[_ ->]|[_ ->]]; [right; exact I1|left; reflexivity].
    + intros x [<-|Hx]; [lia|]. specialize (I2 x Hx). lia.
  - inversion H; subst m. destruct l; [|simpl in E; destruct (zmax_list l); discriminate].
    split; [left; reflexivity|]. intros x [<-|[]]. lia.
Qed.

Lemma zmax_list_app l1 l2 : zmax_list (l1 ++ l2) = omax (zmax_list l1) (zmax_list l2).
Proof.
  induction l1 as [|x l1 IH]; simpl; [destruct (zmax_list l2); reflexivity|].
  rewrite IH. destruct (zmax_list l1) as [a|]; destruct (zmax_list l2) as [b|]; simpl; auto.
  f_equal. lia.
Qed.

Lemma fold_left_ext {A X} (f g : A -> X -> A) l : (forall a x, f a x = g a x) ->
  forall a, fold_left f l a = fold_left g l a.
Proof. intros H. induction l as [|x l IH]; intros a; simpl; [reflexivity|]. rewrite H. apply IH. Qed.
