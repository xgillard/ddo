(* MddExact.v — properties C07 / C08(i) / C06 / C02 for the CLEAN flavours (CleanLEL, CleanFC) of Mdd.v:
   in a compiled diagram, every node whose best chain up to the root only traverses non-merged
   nodes has (state, value) equal to what replaying its best path through the user's model gives
   (with the saturating isize accumulation the code performs).

   Definitions
     replay_sat pb ds s v   DP.replay with sat_add accumulation  (replay_sat_eq_replay: equal to DP.replay
                            when no partial sum overflows; replay_sat_feasible: same states in any case)
     chain m id             walk_up (S (length nodes)) m (n_best (node id)), deepest decision first
     clean_chain m id       inductive: id and all nodes met walking the best edges are not F_RELAXED,
                            and the walk ends in node 0
     Sinv m                 static invariant of a diagram (node_ok / root_ok / ranges / edge_var_ok)
     Dinv m, Xinv m         dynamic invariants carried through the compilation loop

   Main results (all for ci_flavour inp = CleanLEL \/ CleanFC, st_eqb deciding equality)
     finalize_preserves_paths, finalize_spec
     T1  exact_flag_implies_clean_chain            (+ _loop version for the state after layer_loop)
     T2  has_exact_best_path_implies_clean_chain   (+ _loop)
     T3  clean_chain_replays (+ _loop), clean_chain_variables, clean_chain_feasible
     C1  restricted_solution_feasible, restricted_best_solution_replays
     C2  cutset_nodes_exact      (both cut-set kinds: last exact layer and frontier)
     C3  best_exact_solution_genuine (no hypothesis on the type / dd_is_exact needed),
         relaxed_exact_solution_genuine (C06 clause (a) with the hypotheses the property gives)
     compile_Sinv_any: the static invariant holds whatever the outcome (so Sinv_* lemmas apply to
     diagrams returned with CutoffOccurred too). *)
Require Import DDO.Base DDO.Fringe DDO.DP DDO.Cache DDO.Dom DDO.Mdd DDO.MddStruct.
Local Open Scope nat_scope.

Lemma upd_nth_out {A} (n : nat) (f : A -> A) (l : list A) :
  length l <= n -> upd_nth n f l = l.
Proof. apply upd_nth_oob. Qed.

Lemma In_firstn {A} (n : nat) (l : list A) (x : A) : In x (firstn n l) -> In x l.
Proof. intros H. rewrite <- (firstn_skipn n l). apply in_or_app. left; exact H. Qed.

Lemma In_skipn {A} (n : nat) (l : list A) (x : A) : In x (skipn n l) -> In x l.
Proof. intros H. rewrite <- (firstn_skipn n l). apply in_or_app. right; exact H. Qed.

Lemma find_In {A} (p : A -> bool) (l : list A) (x : A) : find p l = Some x -> In x l /\ p x = true.
Proof. apply find_some. Qed.

Lemma fold_left_inv {A B} (P : A -> Prop) (f : A -> B -> A) (l : list B) (a : A) :
  P a -> (forall a x, In x l -> P a -> P (f a x)) -> P (fold_left f l a).
Proof. intros Ha Hstep. apply MddStruct.fold_left_inv; assumption. Qed.

(* [msimpl] / [nsimpl] compute the projections of the record-update helpers of Mdd.v (diagram fields /
   node, flag and edge fields) and nothing else: [simpl] would also unfold get_node and the folds. *)
Ltac msimpl :=
  cbn [m_nodes m_edges m_layers m_layer_end m_next m_curr_depth m_path m_lel m_cutset m_best
       m_best_exact m_is_exact m_has_ebp m_cache m_dom m_log m_polls m_crash
       with_nodes upd_node add_log set_crash with_next with_cache with_dom with_lel_exact
       push_layer with_depth with_polls with_best with_cutset append_edge].
Ltac msimpl_in H :=
  cbn [m_nodes m_edges m_layers m_layer_end m_next m_curr_depth m_path m_lel m_cutset m_best
       m_best_exact m_is_exact m_has_ebp m_cache m_dom m_log m_polls m_crash
       with_nodes upd_node add_log set_crash with_next with_cache with_dom with_lel_exact
       push_layer with_depth with_polls with_best with_cutset append_edge] in H.
Ltac nsimpl :=
  cbn [n_state n_vtop n_vbot n_best n_inb n_rub n_theta n_flags n_depth
       set_flags set_theta set_vbot set_rub set_depth
       f_exact f_relaxed f_marked f_cutset f_deleted f_cache f_above
       fl_set_exact fl_set_relaxed fl_set_marked fl_set_cutset fl_set_deleted fl_set_cache fl_set_above
       fl_new_exact fl_new_relaxed e_from e_to e_dec e_cost].
Ltac nsimpl_in H :=
  cbn [n_state n_vtop n_vbot n_best n_inb n_rub n_theta n_flags n_depth
       set_flags set_theta set_vbot set_rub set_depth
       f_exact f_relaxed f_marked f_cutset f_deleted f_cache f_above
       fl_set_exact fl_set_relaxed fl_set_marked fl_set_cutset fl_set_deleted fl_set_cache fl_set_above
       fl_new_exact fl_new_relaxed e_from e_to e_dec e_cost] in H.

Section ReplaySat.
  Context {St : Type}.
  Variable pb : problem St.

  (* what the code computes: the accumulation saturates at the isize bounds *)
  Fixpoint replay_sat (ds : list decision) (s : St) (v : Z) : option (St * Z) :=
    match ds with
    | [] => Some (s, v)
    | d :: ds' =>
        if in_domain pb s d then
          let s' := transition pb s d in
          replay_sat ds' s' (sat_add v (transition_cost pb s s' d))
        else None
    end.

  (* "clampZ never fired": every exact partial sum along the path is an isize *)
  Fixpoint no_overflow (ds : list decision) (s : St) (v : Z) : Prop :=
    match ds with
    | [] => True
    | d :: ds' =>
        let s' := transition pb s d in
        let v' := (v + transition_cost pb s s' d)%Z in
        in_isize v' /\ no_overflow ds' s' v'
    end.

  Lemma replay_sat_eq_replay ds : forall s v,
    no_overflow ds s v -> replay_sat ds s v = replay pb ds s v.
  Proof.
    induction ds as [|d ds IH]; intros s v Hno; simpl; auto.
    destruct Hno as [Hin Hno].
    destruct (in_domain pb s d); auto.
    unfold step. unfold sat_add. rewrite clampZ_id by exact Hin. apply IH; exact Hno.
  Qed.

  Lemma replay_sat_app ds1 : forall ds2 s v,
    replay_sat (ds1 ++ ds2) s v =
    match replay_sat ds1 s v with Some (s', v') => replay_sat ds2 s' v' | None => None end.
  Proof.
    induction ds1 as [|d ds1 IH]; intros ds2 s v; simpl; auto.
    destruct (in_domain pb s d); auto.
  Qed.

  (* what a successful replay_sat means, decision by decision: each decision is in the domain of its
     variable at the state reached by the preceding ones, states follow [transition], values follow
     the saturated sum of [transition_cost] *)
  Lemma replay_sat_snoc ds d s v s1 v1 :
    replay_sat ds s v = Some (s1, v1) ->
    replay_sat (ds ++ [d]) s v =
      if in_domain pb s1 d then
        Some (transition pb s1 d, sat_add v1 (transition_cost pb s1 (transition pb s1 d) d))
      else None.
  Proof. intros H. rewrite replay_sat_app, H. reflexivity. Qed.

  Lemma replay_sat_prefix ds1 ds2 s v r :
    replay_sat (ds1 ++ ds2) s v = Some r -> exists r1, replay_sat ds1 s v = Some r1.
  Proof.
    rewrite replay_sat_app. destruct (replay_sat ds1 s v) as [[s1 v1]|]; [|discriminate].
    intros _. eexists; reflexivity.
  Qed.

  (* feasibility does not depend on the saturation: the same decisions replay through DP.replay,
     reaching the same state (the value may differ only if an isize overflow was clamped) *)
  Lemma replay_sat_feasible ds : forall s v s' v' w,
    replay_sat ds s v = Some (s', v') -> exists w', replay pb ds s w = Some (s', w').
  Proof.
    induction ds as [|d ds IH]; intros s v s' v' w H; simpl in *.
    - inversion H; subst. eexists; reflexivity.
    - destruct (in_domain pb s d); [|discriminate]. unfold step. eapply IH; eauto.
  Qed.

End ReplaySat.

Section Exact.
  Context {St : Type}.
  Variable st_eqb : St -> St -> bool.
  Hypothesis st_eqb_spec : forall a b, st_eqb a b = true <-> a = b.
  Variable inp : @cinput St.
  Hypothesis Hclean : ci_flavour inp = CleanLEL \/ ci_flavour inp = CleanFC.
  Let pb := ci_problem inp.
  Let root := ci_root inp.
  Notation mdd := (@mdd St).
  Notation node := (@node St).
  Notation gn := (get_node inp).

  Lemma not_pooled : is_pooled (ci_flavour inp) = false.
  Proof. destruct Hclean as [H|H]; rewrite H; reflexivity. Qed.

  (* which fields each record-update helper changes (all by computation) *)
  Lemma with_nodes_proj (m : mdd) ns :
    m_nodes (with_nodes m ns) = ns /\ m_edges (with_nodes m ns) = m_edges m /\
    m_layers (with_nodes m ns) = m_layers m /\ m_layer_end (with_nodes m ns) = m_layer_end m /\
    m_next (with_nodes m ns) = m_next m /\ m_path (with_nodes m ns) = m_path m /\
    m_lel (with_nodes m ns) = m_lel m /\ m_cutset (with_nodes m ns) = m_cutset m /\
    m_best (with_nodes m ns) = m_best m /\ m_best_exact (with_nodes m ns) = m_best_exact m /\
    m_is_exact (with_nodes m ns) = m_is_exact m /\ m_curr_depth (with_nodes m ns) = m_curr_depth m.
  Proof. repeat split. Qed.

  Lemma upd_node_proj (m : mdd) id f :
    m_nodes (upd_node m id f) = upd_nth id f (m_nodes m) /\ m_edges (upd_node m id f) = m_edges m /\
    m_layers (upd_node m id f) = m_layers m /\ m_layer_end (upd_node m id f) = m_layer_end m /\
    m_next (upd_node m id f) = m_next m /\ m_path (upd_node m id f) = m_path m /\
    m_lel (upd_node m id f) = m_lel m /\ m_cutset (upd_node m id f) = m_cutset m /\
    m_best (upd_node m id f) = m_best m /\ m_best_exact (upd_node m id f) = m_best_exact m /\
    m_is_exact (upd_node m id f) = m_is_exact m /\ m_curr_depth (upd_node m id f) = m_curr_depth m.
  Proof. repeat split. Qed.

  Lemma add_log_proj (m : mdd) e :
    m_nodes (add_log m e) = m_nodes m /\ m_edges (add_log m e) = m_edges m /\
    m_layers (add_log m e) = m_layers m /\ m_layer_end (add_log m e) = m_layer_end m /\
    m_next (add_log m e) = m_next m /\ m_path (add_log m e) = m_path m /\
    m_lel (add_log m e) = m_lel m /\ m_cutset (add_log m e) = m_cutset m /\
    m_best (add_log m e) = m_best m /\ m_best_exact (add_log m e) = m_best_exact m /\
    m_is_exact (add_log m e) = m_is_exact m /\ m_curr_depth (add_log m e) = m_curr_depth m /\
    m_log (add_log m e) = e :: m_log m.
  Proof. repeat split. Qed.

  Lemma with_next_proj (m : mdd) nx :
    m_nodes (with_next m nx) = m_nodes m /\ m_edges (with_next m nx) = m_edges m /\
    m_layers (with_next m nx) = m_layers m /\ m_layer_end (with_next m nx) = m_layer_end m /\
    m_next (with_next m nx) = nx /\ m_path (with_next m nx) = m_path m /\
    m_lel (with_next m nx) = m_lel m /\ m_cutset (with_next m nx) = m_cutset m /\
    m_best (with_next m nx) = m_best m /\ m_best_exact (with_next m nx) = m_best_exact m /\
    m_is_exact (with_next m nx) = m_is_exact m /\ m_curr_depth (with_next m nx) = m_curr_depth m.
  Proof. repeat split. Qed.

  Lemma with_cache_proj (m : mdd) c :
    m_nodes (with_cache m c) = m_nodes m /\ m_edges (with_cache m c) = m_edges m /\
    m_layers (with_cache m c) = m_layers m /\ m_layer_end (with_cache m c) = m_layer_end m /\
    m_next (with_cache m c) = m_next m /\ m_path (with_cache m c) = m_path m /\
    m_lel (with_cache m c) = m_lel m /\ m_cutset (with_cache m c) = m_cutset m /\
    m_best (with_cache m c) = m_best m /\ m_best_exact (with_cache m c) = m_best_exact m /\
    m_is_exact (with_cache m c) = m_is_exact m /\ m_curr_depth (with_cache m c) = m_curr_depth m /\
    m_cache (with_cache m c) = c.
  Proof. repeat split. Qed.

  Lemma with_dom_proj (m : mdd) c :
    m_nodes (with_dom m c) = m_nodes m /\ m_edges (with_dom m c) = m_edges m /\
    m_layers (with_dom m c) = m_layers m /\ m_layer_end (with_dom m c) = m_layer_end m /\
    m_next (with_dom m c) = m_next m /\ m_path (with_dom m c) = m_path m /\
    m_lel (with_dom m c) = m_lel m /\ m_cutset (with_dom m c) = m_cutset m /\
    m_best (with_dom m c) = m_best m /\ m_best_exact (with_dom m c) = m_best_exact m /\
    m_is_exact (with_dom m c) = m_is_exact m /\ m_curr_depth (with_dom m c) = m_curr_depth m /\
    m_dom (with_dom m c) = c.
  Proof. repeat split. Qed.

  Lemma set_crash_proj (m : mdd) :
    m_nodes (set_crash m) = m_nodes m /\ m_edges (set_crash m) = m_edges m /\
    m_layers (set_crash m) = m_layers m /\ m_layer_end (set_crash m) = m_layer_end m /\
    m_next (set_crash m) = m_next m /\ m_path (set_crash m) = m_path m /\
    m_lel (set_crash m) = m_lel m /\ m_cutset (set_crash m) = m_cutset m /\
    m_best (set_crash m) = m_best m /\ m_best_exact (set_crash m) = m_best_exact m /\
    m_is_exact (set_crash m) = m_is_exact m /\ m_curr_depth (set_crash m) = m_curr_depth m /\
    m_crash (set_crash m) = true.
  Proof. repeat split. Qed.

  Lemma push_layer_proj (m : mdd) ids e :
    m_nodes (push_layer m ids e) = m_nodes m /\ m_edges (push_layer m ids e) = m_edges m /\
    m_layers (push_layer m ids e) = m_layers m ++ [ids] /\ m_layer_end (push_layer m ids e) = e /\
    m_next (push_layer m ids e) = m_next m /\ m_path (push_layer m ids e) = m_path m /\
    m_lel (push_layer m ids e) = m_lel m /\ m_cutset (push_layer m ids e) = m_cutset m /\
    m_best (push_layer m ids e) = m_best m /\ m_best_exact (push_layer m ids e) = m_best_exact m /\
    m_is_exact (push_layer m ids e) = m_is_exact m /\ m_curr_depth (push_layer m ids e) = m_curr_depth m.
  Proof. repeat split. Qed.

  Lemma with_lel_exact_proj (m : mdd) l x :
    m_nodes (with_lel_exact m l x) = m_nodes m /\ m_edges (with_lel_exact m l x) = m_edges m /\
    m_layers (with_lel_exact m l x) = m_layers m /\ m_layer_end (with_lel_exact m l x) = m_layer_end m /\
    m_next (with_lel_exact m l x) = m_next m /\ m_path (with_lel_exact m l x) = m_path m /\
    m_lel (with_lel_exact m l x) = l /\ m_cutset (with_lel_exact m l x) = m_cutset m /\
    m_best (with_lel_exact m l x) = m_best m /\ m_best_exact (with_lel_exact m l x) = m_best_exact m /\
    m_is_exact (with_lel_exact m l x) = x /\ m_curr_depth (with_lel_exact m l x) = m_curr_depth m.
  Proof. repeat split. Qed.

  Lemma with_depth_proj (m : mdd) d :
    m_nodes (with_depth m d) = m_nodes m /\ m_edges (with_depth m d) = m_edges m /\
    m_layers (with_depth m d) = m_layers m /\ m_layer_end (with_depth m d) = m_layer_end m /\
    m_next (with_depth m d) = m_next m /\ m_path (with_depth m d) = m_path m /\
    m_lel (with_depth m d) = m_lel m /\ m_cutset (with_depth m d) = m_cutset m /\
    m_best (with_depth m d) = m_best m /\ m_best_exact (with_depth m d) = m_best_exact m /\
    m_is_exact (with_depth m d) = m_is_exact m /\ m_curr_depth (with_depth m d) = d.
  Proof. repeat split. Qed.

  Lemma with_polls_proj (m : mdd) p :
    m_nodes (with_polls m p) = m_nodes m /\ m_edges (with_polls m p) = m_edges m /\
    m_layers (with_polls m p) = m_layers m /\ m_layer_end (with_polls m p) = m_layer_end m /\
    m_next (with_polls m p) = m_next m /\ m_path (with_polls m p) = m_path m /\
    m_lel (with_polls m p) = m_lel m /\ m_cutset (with_polls m p) = m_cutset m /\
    m_best (with_polls m p) = m_best m /\ m_best_exact (with_polls m p) = m_best_exact m /\
    m_is_exact (with_polls m p) = m_is_exact m /\ m_curr_depth (with_polls m p) = m_curr_depth m /\
    m_polls (with_polls m p) = p.
  Proof. repeat split. Qed.

  Lemma with_best_proj (m : mdd) b be :
    m_nodes (with_best m b be) = m_nodes m /\ m_edges (with_best m b be) = m_edges m /\
    m_layers (with_best m b be) = m_layers m /\ m_layer_end (with_best m b be) = m_layer_end m /\
    m_next (with_best m b be) = m_next m /\ m_path (with_best m b be) = m_path m /\
    m_lel (with_best m b be) = m_lel m /\ m_cutset (with_best m b be) = m_cutset m /\
    m_best (with_best m b be) = b /\ m_best_exact (with_best m b be) = be /\
    m_is_exact (with_best m b be) = m_is_exact m /\ m_curr_depth (with_best m b be) = m_curr_depth m.
  Proof. repeat split. Qed.

  Lemma with_cutset_proj (m : mdd) cs :
    m_nodes (with_cutset m cs) = m_nodes m /\ m_edges (with_cutset m cs) = m_edges m /\
    m_layers (with_cutset m cs) = m_layers m /\ m_layer_end (with_cutset m cs) = m_layer_end m /\
    m_next (with_cutset m cs) = m_next m /\ m_path (with_cutset m cs) = m_path m /\
    m_lel (with_cutset m cs) = m_lel m /\ m_cutset (with_cutset m cs) = cs /\
    m_best (with_cutset m cs) = m_best m /\ m_best_exact (with_cutset m cs) = m_best_exact m /\
    m_is_exact (with_cutset m cs) = m_is_exact m /\ m_curr_depth (with_cutset m cs) = m_curr_depth m.
  Proof. repeat split. Qed.

  Lemma gn_upd_same (m : mdd) id f :
    id < length (m_nodes m) -> gn (upd_node m id f) id = f (gn m id).
  Proof. intros H. unfold get_node. msimpl. apply nth_upd_nth_same; exact H. Qed.

  Lemma gn_upd_other (m : mdd) id f k : id <> k -> gn (upd_node m id f) k = gn m k.
  Proof. intros H. unfold get_node. msimpl. apply nth_upd_nth_other; exact H. Qed.

  Lemma gn_upd_out (m : mdd) id f k : length (m_nodes m) <= id -> gn (upd_node m id f) k = gn m k.
  Proof. intros H. unfold get_node. msimpl. rewrite upd_nth_out by exact H. reflexivity. Qed.

  Lemma gn_nodes_eq (m m' : mdd) k : m_nodes m' = m_nodes m -> gn m' k = gn m k.
  Proof. intros H. unfold get_node. rewrite H. reflexivity. Qed.

  Lemma ge_edges_eq (m m' : mdd) k : m_edges m' = m_edges m -> get_edge m' k = get_edge m k.
  Proof. intros H. unfold get_edge. rewrite H. reflexivity. Qed.

  Lemma ge_snoc_old (m m' : mdd) e k :
    m_edges m' = m_edges m ++ [e] -> k < length (m_edges m) -> get_edge m' k = get_edge m k.
  Proof. intros H Hk. unfold get_edge. rewrite H. apply app_nth1; exact Hk. Qed.

  Lemma ge_snoc_new (m m' : mdd) e :
    m_edges m' = m_edges m ++ [e] -> get_edge m' (length (m_edges m)) = e.
  Proof. intros H. unfold get_edge. rewrite H. apply nth_middle. Qed.

  Definition chain (m : mdd) (id : nat) : list decision :=
    walk_up inp (S (length (m_nodes m))) m (n_best (gn m id)).

  Lemma best_path_chain (m : mdd) id : best_path inp m id = m_path m ++ chain m id.
  Proof. reflexivity. Qed.

  (* [id] and every node met walking the best edges up to a node without best edge are
     not merged nodes, and that last node is node 0 (the root) *)
  Inductive clean_chain (m : mdd) : nat -> Prop :=
  | cc_root : f_relaxed (n_flags (gn m 0)) = false -> n_best (gn m 0) = None -> clean_chain m 0
  | cc_step : forall id eid,
      f_relaxed (n_flags (gn m id)) = false -> n_best (gn m id) = Some eid ->
      clean_chain m (e_from (get_edge m eid)) -> clean_chain m id.

  (* The core of a node: the fields that [node_ok], [clean_chain] and the replay of a best path read.  The
     filters, the writes of the deleted, marked, cut-set and above flags and all of _finalize leave it alone; rough
     upper bound, bottom-up value, threshold and those flags are outside.  [peq m m'] (below): same arcs, same path prefix, as many
     nodes, with the same cores; every invariant of this file is transported along [peq]. *)
  Definition core_eq (a b : node) : Prop :=
    n_state a = n_state b /\ n_vtop a = n_vtop b /\ n_best a = n_best b /\ n_inb a = n_inb b /\
    f_exact (n_flags a) = f_exact (n_flags b) /\ f_relaxed (n_flags a) = f_relaxed (n_flags b) /\
    n_depth a = n_depth b.

  Lemma core_eq_refl a : core_eq a a.
  Proof. repeat split. Qed.
  (* [Proof using], here and below: other files apply these lemmas with explicit arguments, so the section
     premises each closed statement takes are spelled out instead of left to what its proof happens to use. *)
  Lemma core_eq_sym a b : core_eq a b -> core_eq b a.
  Proof using inp Hclean. intros (c1 & c2 & c3 & c4 & c5 & c6 & c7). repeat split; congruence. Qed.
  Lemma core_eq_trans a b c : core_eq a b -> core_eq b c -> core_eq a c.
  Proof using inp Hclean.
    intros (a1 & a2 & a3 & a4 & a5 & a6 & a7) (b1 & b2 & b3 & b4 & b5 & b6 & b7). repeat split; congruence.
  Qed.

  Lemma core_eq_is_exact a b : core_eq a b -> fl_is_exact (n_flags a) = fl_is_exact (n_flags b).
  Proof. unfold core_eq, fl_is_exact; intros (_ & _ & _ & _ & H1 & H2 & _). rewrite H1, H2. reflexivity. Qed.

  Definition peq (m m' : mdd) : Prop :=
    m_edges m' = m_edges m /\ m_path m' = m_path m /\ length (m_nodes m') = length (m_nodes m) /\
    forall id, core_eq (gn m id) (gn m' id).

  Lemma peq_refl m : peq m m.
  Proof. repeat split. Qed.
  Lemma peq_trans m1 m2 m3 : peq m1 m2 -> peq m2 m3 -> peq m1 m3.
  Proof.
    intros (A1 & A2 & A3 & A4) (B1 & B2 & B3 & B4).
    split; [congruence|]. split; [congruence|]. split; [congruence|].
    intros id. destruct (A4 id) as (a1 & a2 & a3 & a4 & a5 & a6 & a7).
    destruct (B4 id) as (b1 & b2 & b3 & b4 & b5 & b6 & b7). repeat split; congruence.
  Qed.

  Lemma peq_sym m1 m2 : peq m1 m2 -> peq m2 m1.
  Proof.
    intros (A1 & A2 & A3 & A4).
    split; [congruence|]. split; [congruence|]. split; [congruence|].
    intros id. destruct (A4 id) as (a1 & a2 & a3 & a4 & a5 & a6 & a7). repeat split; congruence.
  Qed.

  (* any change of the fields outside the core is invisible *)
  Lemma peq_same_nodes (m m' : mdd) :
    m_nodes m' = m_nodes m -> m_edges m' = m_edges m -> m_path m' = m_path m -> peq m m'.
  Proof.
    intros H1 H2 H3. unfold peq. rewrite H1. repeat split; auto.
    all: rewrite (gn_nodes_eq m m' id H1); reflexivity.
  Qed.

  Lemma peq_upd_node (m : mdd) id f :
    (forall n, core_eq n (f n)) -> peq m (upd_node m id f).
  Proof.
    intros Hf. unfold peq. msimpl. rewrite upd_nth_length. split; [reflexivity|]. split; [reflexivity|].
    split; [reflexivity|]. intros k.
    destruct (Nat.eq_dec id k) as [->|Hne].
    - destruct (Nat.lt_ge_cases k (length (m_nodes m))) as [Hlt|Hge].
      + rewrite gn_upd_same by exact Hlt. apply Hf.
      + rewrite gn_upd_out by exact Hge. apply core_eq_refl.
    - rewrite gn_upd_other by exact Hne. apply core_eq_refl.
  Qed.

  Lemma peq_fold {B} (f : mdd -> B -> mdd) (l : list B) (m : mdd) :
    (forall m x, peq m (f m x)) -> peq m (fold_left f l m).
  Proof.
    intros Hf. apply (fold_left_rel peq); [exact peq_refl|exact peq_trans|exact Hf].
  Qed.

  (* the core-neutral node updates used by the code *)
  Lemma core_eq_set_flags_nc (n : node) fl :
    f_exact fl = f_exact (n_flags n) -> f_relaxed fl = f_relaxed (n_flags n) -> core_eq n (set_flags n fl).
  Proof. intros H1 H2. unfold core_eq. nsimpl. rewrite H1, H2. repeat split. Qed.
  Lemma core_eq_set_theta (n : node) t : core_eq n (set_theta n t).
  Proof. repeat split. Qed.
  Lemma core_eq_set_vbot (n : node) t : core_eq n (set_vbot n t).
  Proof. repeat split. Qed.
  Lemma core_eq_set_rub (n : node) t : core_eq n (set_rub n t).
  Proof. repeat split. Qed.

  Definition best_ok (m : mdd) (id eid : nat) : Prop :=
    eid < length (m_edges m) /\
    e_to (get_edge m eid) = id /\
    e_from (get_edge m eid) < id /\
    n_state (gn m id) = transition pb (n_state (gn m (e_from (get_edge m eid)))) (e_dec (get_edge m eid)) /\
    e_cost (get_edge m eid) =
      transition_cost pb (n_state (gn m (e_from (get_edge m eid)))) (n_state (gn m id)) (e_dec (get_edge m eid)) /\
    in_domain pb (n_state (gn m (e_from (get_edge m eid)))) (e_dec (get_edge m eid)) = true /\
    n_vtop (gn m id) = sat_add (n_vtop (gn m (e_from (get_edge m eid)))) (e_cost (get_edge m eid)) /\
    n_depth (gn m id) = S (n_depth (gn m (e_from (get_edge m eid)))) /\
    (fl_is_exact (n_flags (gn m id)) = true -> fl_is_exact (n_flags (gn m (e_from (get_edge m eid)))) = true).

  Definition node_ok (m : mdd) (id : nat) : Prop :=
    (forall eid, In eid (n_inb (gn m id)) -> eid < length (m_edges m)) /\
    (f_relaxed (n_flags (gn m id)) = false ->
       match n_best (gn m id) with None => id = 0 | Some eid => best_ok m id eid end).

  Definition root_ok (m : mdd) : Prop :=
    0 < length (m_nodes m) /\ n_state (gn m 0) = sp_state root /\ n_vtop (gn m 0) = sp_value root /\
    n_depth (gn m 0) = sp_depth root /\ m_path m = sp_path root.

  (* the decision of an edge branches on the variable that next_variable returned for the layer of
     its source (for some layer content [states]) *)
  Definition edge_var_ok (m : mdd) (eid : nat) : Prop :=
    exists states, next_variable pb (n_depth (gn m (e_from (get_edge m eid)))) states
                   = Some (d_var (e_dec (get_edge m eid))).

  (* the static invariant: what the theorems need of a finished diagram *)
  Record Sinv (m : mdd) : Prop := {
    S_nodes : forall id, id < length (m_nodes m) -> node_ok m id;
    S_root : root_ok m;
    S_efrom : forall eid, eid < length (m_edges m) -> e_from (get_edge m eid) < length (m_nodes m);
    S_next : forall id, In id (m_next m) -> id < length (m_nodes m);
    S_var : forall eid, eid < length (m_edges m) -> edge_var_ok m eid }.

  (* the dynamic invariant: sources of edges are closed nodes (below m_layer_end), open nodes are above;
     [P] selects the nodes whose node_ok is claimed (all but a freshly created one) *)
  Record Dg (P : nat -> Prop) (m : mdd) : Prop := {
    D_nodes : forall id, id < length (m_nodes m) -> P id -> node_ok m id;
    D_root : root_ok m;
    D_efrom : forall eid, eid < length (m_edges m) -> e_from (get_edge m eid) < m_layer_end m;
    D_le : m_layer_end m <= length (m_nodes m);
    D_next : forall id, In id (m_next m) -> m_layer_end m <= id < length (m_nodes m);
    D_var : forall eid, eid < length (m_edges m) -> edge_var_ok m eid }.
  Definition Dinv := Dg (fun _ => True).

  Lemma Dinv_Sinv m : Dinv m -> Sinv m.
  Proof.
    intros [H1 H2 H3 H4 H5 H6]. split; auto.
    - intros eid He. specialize (H3 eid He). lia.
    - intros id Hid. apply H5 in Hid. lia.
  Qed.

  Lemma Dg_weaken (P Q : nat -> Prop) m : (forall id, Q id -> P id) -> Dg P m -> Dg Q m.
  Proof. intros HPQ [H1 H2 H3 H4 H5 H6]. split; auto. Qed.

  Lemma node_ok_transfer (m m' : mdd) id :
    node_ok m id ->
    core_eq (gn m id) (gn m' id) ->
    (forall eid, eid < length (m_edges m) ->
        eid < length (m_edges m') /\ get_edge m' eid = get_edge m eid /\
        core_eq (gn m (e_from (get_edge m eid))) (gn m' (e_from (get_edge m eid)))) ->
    node_ok m' id.
  Proof.
    intros [Hinb Hbest] Hc Hedges.
    pose proof (core_eq_is_exact _ _ Hc) as Hex.
    destruct Hc as (c1 & c2 & c3 & c4 & c5 & c6 & c7).
    split.
    - rewrite <- c4. intros eid Hin. apply Hinb in Hin. apply Hedges in Hin. tauto.
    - rewrite <- c6, <- c3. intros Hr. specialize (Hbest Hr).
      destruct (n_best (gn m id)) as [eid|]; auto.
      destruct Hbest as (b1 & b2 & b3 & b4 & b5 & b6 & b7 & b8 & b9).
      destruct (Hedges eid b1) as (E1 & E2 & E3).
      pose proof (core_eq_is_exact _ _ E3) as Hpex.
      destruct E3 as (p1 & p2 & p3 & p4 & p5 & p6 & p7).
      unfold best_ok. rewrite E2. rewrite <- c1, <- c2, <- c7, <- p1, <- p2, <- p7, <- Hex, <- Hpex.
      repeat split; auto.
  Qed.

  Lemma edge_var_ok_transfer (m m' : mdd) eid :
    edge_var_ok m eid -> get_edge m' eid = get_edge m eid ->
    n_depth (gn m' (e_from (get_edge m eid))) = n_depth (gn m (e_from (get_edge m eid))) ->
    edge_var_ok m' eid.
  Proof. intros [st H] He Hd. exists st. rewrite He, Hd. exact H. Qed.

  Lemma edge_var_ok_peq m m' eid : peq m m' -> edge_var_ok m eid -> edge_var_ok m' eid.
  Proof.
    intros (A1 & A2 & A3 & A4) H. eapply edge_var_ok_transfer; [exact H|apply ge_edges_eq; exact A1|].
    destruct (A4 (e_from (get_edge m eid))) as (_ & _ & _ & _ & _ & _ & c7). congruence.
  Qed.

  Lemma node_ok_peq m m' id : peq m m' -> node_ok m id -> node_ok m' id.
  Proof.
    intros (A1 & A2 & A3 & A4) Hok. eapply node_ok_transfer; eauto.
    intros eid He. rewrite A1. split; [exact He|]. split; [apply ge_edges_eq; exact A1|apply A4].
  Qed.

  Lemma root_ok_peq m m' : peq m m' -> root_ok m -> root_ok m'.
  Proof.
    intros (A1 & A2 & A3 & A4) (r1 & r2 & r3 & r4 & r5).
    destruct (A4 0) as (c1 & c2 & c3 & c4 & c5 & c6 & c7).
    unfold root_ok. rewrite A3, A2, <- c1, <- c2, <- c7. auto.
  Qed.

  Lemma Sinv_peq m m' :
    peq m m' -> (forall id, In id (m_next m') -> id < length (m_nodes m')) -> Sinv m -> Sinv m'.
  Proof.
    intros Hp Hnext [H1 H2 H3 H4 H5]. pose proof Hp as (A1 & A2 & A3 & A4). split; auto.
    - intros id Hid. eapply node_ok_peq; eauto. apply H1. lia.
    - eapply root_ok_peq; eauto.
    - intros eid He. rewrite (ge_edges_eq m m' eid A1). rewrite A3. apply H3. rewrite <- A1. exact He.
    - intros eid He. eapply edge_var_ok_peq; eauto. apply H5. rewrite <- A1. exact He.
  Qed.

  Lemma Dg_peq P m m' :
    peq m m' -> Dg P m ->
    m_layer_end m <= m_layer_end m' -> m_layer_end m' <= length (m_nodes m') ->
    (forall id, In id (m_next m') -> m_layer_end m' <= id < length (m_nodes m')) ->
    Dg P m'.
  Proof.
    intros Hp [H1 H2 H3 H4 H5 H6] Hle1 Hle2 Hnext. pose proof Hp as (A1 & A2 & A3 & A4). split; auto.
    - intros id Hid HP. eapply node_ok_peq; eauto. apply H1; auto. lia.
    - eapply root_ok_peq; eauto.
    - intros eid He. rewrite (ge_edges_eq m m' eid A1). rewrite A1 in He. specialize (H3 eid He). lia.
    - intros eid He. eapply edge_var_ok_peq; eauto. apply H6. rewrite <- A1. exact He.
  Qed.

  (* same next / layer_end / layers / lel / cutset: the usual case *)
  Definition ceq (m m' : mdd) : Prop :=
    peq m m' /\ m_next m' = m_next m /\ m_layer_end m' = m_layer_end m /\
    m_layers m' = m_layers m /\ m_lel m' = m_lel m /\ m_cutset m' = m_cutset m /\
    m_curr_depth m' = m_curr_depth m.
  Lemma ceq_refl m : ceq m m.
  Proof. split; [apply peq_refl|repeat split]. Qed.
  Lemma ceq_trans m1 m2 m3 : ceq m1 m2 -> ceq m2 m3 -> ceq m1 m3.
  Proof.
    intros (A & B & C & D & E & F & G) (A' & B' & C' & D' & E' & F' & G').
    split; [eapply peq_trans; eauto|]. repeat split; congruence.
  Qed.

  Lemma Dg_ceq P m m' : ceq m m' -> Dg P m -> Dg P m'.
  Proof.
    intros (Hp & Hn & Hl & _) HD. pose proof Hp as (A1 & A2 & A3 & A4).
    eapply Dg_peq; eauto.
    - lia.
    - rewrite Hl, A3. apply (D_le _ _ HD).
    - rewrite Hl, Hn, A3. apply (D_next _ _ HD).
  Qed.

  Lemma ceq_upd_node (m : mdd) id f : (forall n, core_eq n (f n)) -> ceq m (upd_node m id f).
  Proof. intros Hf. split; [apply peq_upd_node; exact Hf|]. repeat split. Qed.
  Lemma ceq_fold {B} (f : mdd -> B -> mdd) (l : list B) (m : mdd) :
    (forall m x, ceq m (f m x)) -> ceq m (fold_left f l m).
  Proof.
    intros Hf. apply (fold_left_rel ceq); [exact ceq_refl|exact ceq_trans|exact Hf].
  Qed.
  Ltac ceq_triv := split; [apply peq_same_nodes; reflexivity|repeat split].
  Lemma ceq_add_log (m : mdd) ev : ceq m (add_log m ev).
  Proof. ceq_triv. Qed.
  Lemma ceq_set_crash (m : mdd) : ceq m (set_crash m).
  Proof. ceq_triv. Qed.
  Lemma ceq_with_cache (m : mdd) c : ceq m (with_cache m c).
  Proof. ceq_triv. Qed.
  Lemma ceq_with_dom (m : mdd) c : ceq m (with_dom m c).
  Proof. ceq_triv. Qed.
  Lemma ceq_with_polls (m : mdd) c : ceq m (with_polls m c).
  Proof. ceq_triv. Qed.

  (* closed nodes (below m_layer_end) keep their core; state and depth of a node never change *)
  Definition stable (m m' : mdd) : Prop :=
    m_layer_end m' = m_layer_end m /\ length (m_nodes m) <= length (m_nodes m') /\
    (forall id, id < m_layer_end m -> core_eq (gn m id) (gn m' id)) /\
    (forall id, id < length (m_nodes m) ->
       n_state (gn m' id) = n_state (gn m id) /\ n_depth (gn m' id) = n_depth (gn m id)) /\
    m_curr_depth m' = m_curr_depth m.
  Lemma stable_refl m : stable m m.
  Proof. repeat split; auto. Qed.
  Lemma stable_trans m1 m2 m3 : stable m1 m2 -> stable m2 m3 -> stable m1 m3.
  Proof using Hclean.
    intros (A & B & C & D & E) (A' & B' & C' & D' & E'). split; [congruence|]. split; [lia|]. split; [|split].
    - intros id Hid. eapply core_eq_trans; [apply C; exact Hid|apply C'; rewrite A; exact Hid].
    - intros id Hid. destruct (D id Hid) as [d1 d2]. destruct (D' id) as [d1' d2']; [lia|].
      split; congruence.
    - congruence.
  Qed.

  Lemma ceq_stable m m' : ceq m m' -> stable m m'.
  Proof.
    intros ((A1 & A2 & A3 & A4) & _ & Hl & _ & _ & _ & Hcd). split; [exact Hl|]. split; [lia|]. split; [|split].
    - intros id _. apply A4.
    - intros id _. destruct (A4 id) as (c1 & c2 & c3 & c4 & c5 & c6 & c7). split; congruence.
    - exact Hcd.
  Qed.

  Lemma gn_append_other (m : mdd) e k : k <> e_to e -> gn (append_edge inp m e) k = gn m k.
  Proof. intros H. unfold get_node. msimpl. apply nth_upd_nth_other. congruence. Qed.

  Lemma gn_append_same (m : mdd) e :
    e_to e < length (m_nodes m) ->
    gn (append_edge inp m e) (e_to e) =
    let n := gn m (e_to e) in
    let value := sat_add (n_vtop (gn m (e_from e))) (e_cost e) in
    let better := (value >=? n_vtop n)%Z in
    {| n_state := n_state n; n_vtop := if better then value else n_vtop n; n_vbot := n_vbot n;
       n_best := if better then Some (length (m_edges m)) else n_best n;
       n_inb := length (m_edges m) :: n_inb n; n_rub := n_rub n; n_theta := n_theta n;
       n_flags := fl_set_exact (n_flags n)
                    (fl_is_exact (n_flags (gn m (e_from e))) && fl_is_exact (n_flags n));
       n_depth := n_depth n |}.
  Proof.
    intros H. unfold get_node. msimpl. rewrite nth_upd_nth_same by exact H. reflexivity.
  Qed.

  Lemma append_edge_depth (m : mdd) e k : n_depth (gn (append_edge inp m e) k) = n_depth (gn m k).
  Proof. apply (nth_upd_nth_proj (@n_depth St)). reflexivity. Qed.

  Lemma fl_is_exact_set_exact fl b :
    fl_is_exact (fl_set_exact fl b) = b && negb (f_relaxed fl).
  Proof. reflexivity. Qed.

  (* the fields that append_edge rewrites in the target of the new arc *)
  Lemma append_edge_target (m : mdd) e :
    e_to e < length (m_nodes m) ->
    let t := gn m (e_to e) in
    let t' := gn (append_edge inp m e) (e_to e) in
    let value := sat_add (n_vtop (gn m (e_from e))) (e_cost e) in
    n_state t' = n_state t /\ n_depth t' = n_depth t /\ n_inb t' = length (m_edges m) :: n_inb t /\
    f_relaxed (n_flags t') = f_relaxed (n_flags t) /\
    fl_is_exact (n_flags t') = fl_is_exact (n_flags (gn m (e_from e))) && fl_is_exact (n_flags t) /\
    (if (value >=? n_vtop t)%Z then n_vtop t' = value /\ n_best t' = Some (length (m_edges m))
     else n_vtop t' = n_vtop t /\ n_best t' = n_best t).
  Proof.
    intros H. cbv zeta. rewrite gn_append_same by exact H. cbv zeta. nsimpl.
    split; [reflexivity|]. split; [reflexivity|]. split; [reflexivity|]. split; [reflexivity|]. split.
    - rewrite fl_is_exact_set_exact. unfold fl_is_exact.
      destruct (f_exact (n_flags (gn m (e_from e))) && _), (f_exact _), (f_relaxed _); reflexivity.
    - destruct (_ >=? _)%Z; split; reflexivity.
  Qed.

  Lemma append_edge_Dg (m : mdd) (e : edge) :
    Dg (fun id => id <> e_to e) m ->
    e_from e < m_layer_end m -> m_layer_end m <= e_to e -> e_to e < length (m_nodes m) ->
    (forall x, In x (n_inb (gn m (e_to e))) -> x < length (m_edges m)) ->
    (f_relaxed (n_flags (gn m (e_to e))) = false ->
       n_state (gn m (e_to e)) = transition pb (n_state (gn m (e_from e))) (e_dec e) /\
       e_cost e = transition_cost pb (n_state (gn m (e_from e))) (n_state (gn m (e_to e))) (e_dec e) /\
       in_domain pb (n_state (gn m (e_from e))) (e_dec e) = true /\
       n_depth (gn m (e_to e)) = S (n_depth (gn m (e_from e))) /\
       match n_best (gn m (e_to e)) with
       | None => (n_vtop (gn m (e_to e)) <= sat_add (n_vtop (gn m (e_from e))) (e_cost e))%Z
       | Some b => best_ok m (e_to e) b
       end) ->
    (exists states, next_variable pb (n_depth (gn m (e_from e))) states = Some (d_var (e_dec e))) ->
    Dinv (append_edge inp m e).
  Proof.
    intros [H1 H2 H3 H4 H5 H6] Hfrom Hto Hlt Hinb Hpre Hvar.
    assert (Hne : e_from e <> e_to e) by lia.
    assert (Hedges : m_edges (append_edge inp m e) = m_edges m ++ [e]) by reflexivity.
    assert (Hlen : length (m_nodes (append_edge inp m e)) = length (m_nodes m))
      by (msimpl; apply upd_nth_length).
    assert (Helen : length (m_edges (append_edge inp m e)) = S (length (m_edges m)))
      by (rewrite Hedges, app_length; simpl; lia).
    split.
    - (* nodes *)
      intros id Hid _. rewrite Hlen in Hid.
      destruct (Nat.eq_dec id (e_to e)) as [->|Hidne].
      + (* the target *)
        destruct (append_edge_target m e Hlt) as (T1 & T2 & T3 & T4 & T5 & T6). cbv zeta in T6.
        split.
        * rewrite T3, Helen. intros x [<-|Hx]; [lia|]. apply Hinb in Hx. lia.
        * rewrite T4. intros Hr. destruct (Hpre Hr) as (P1 & P2 & P3 & P4 & P5).
          destruct (_ >=? _)%Z eqn:Hb; destruct T6 as [T6 T7]; rewrite T7.
          -- unfold best_ok.
             rewrite (ge_snoc_new m _ e Hedges), (gn_append_other m e (e_from e) Hne), T1, T2, T5, T6, Helen.
             repeat split; auto; try lia.
             intros Hx. apply andb_true_iff in Hx. apply Hx.
          -- destruct (n_best (gn m (e_to e))) as [b|].
             ++ destruct P5 as (b1 & b2 & b3 & b4 & b5 & b6 & b7 & b8 & b9).
                assert (Hsrc : e_from (get_edge m b) <> e_to e) by lia.
                unfold best_ok.
                rewrite (ge_snoc_old m _ e b Hedges b1), (gn_append_other m e _ Hsrc), T1, T2, T5, T6, Helen.
                repeat split; auto; try lia.
                intros Hx. apply andb_true_iff in Hx. apply b9, Hx.
             ++ exfalso. rewrite Z.geb_leb in Hb. apply Z.leb_gt in Hb. lia.
      + (* the other nodes *)
        eapply node_ok_transfer.
        * apply H1; auto.
        * rewrite gn_append_other by exact Hidne. apply core_eq_refl.
        * intros x Hx. split; [lia|]. split; [apply (ge_snoc_old m _ e x Hedges Hx)|].
          specialize (H3 x Hx).
          rewrite gn_append_other by lia. apply core_eq_refl.
    - (* root *)
      destruct H2 as (r1 & r2 & r3 & r4 & r5). unfold root_ok.
      rewrite Hlen. rewrite gn_append_other by lia. auto.
    - (* sources *)
      intros x Hx. rewrite Helen in Hx.
      destruct (Nat.eq_dec x (length (m_edges m))) as [->|Hxne].
      + rewrite (ge_snoc_new m _ e Hedges). exact Hfrom.
      + assert (Hx' : x < length (m_edges m)) by lia.
        rewrite (ge_snoc_old m _ e x Hedges Hx'). apply H3; exact Hx'.
    - rewrite Hlen. exact H4.
    - intros id Hid. rewrite Hlen. apply H5. exact Hid.
    - (* variables *)
      intros x Hx. rewrite Helen in Hx.
      destruct (Nat.eq_dec x (length (m_edges m))) as [->|Hxne].
      + unfold edge_var_ok. rewrite (ge_snoc_new m _ e Hedges). rewrite gn_append_other by exact Hne. exact Hvar.
      + assert (Hx' : x < length (m_edges m)) by lia.
        eapply edge_var_ok_transfer; [apply H6; exact Hx'|apply (ge_snoc_old m _ e x Hedges Hx')|].
        specialize (H3 x Hx'). rewrite gn_append_other by lia. reflexivity.
  Qed.

  Lemma append_edge_stable (m : mdd) e :
    m_layer_end m <= e_to e -> stable m (append_edge inp m e).
  Proof.
    intros Hto. split; [reflexivity|]. split; [|split; [|split]].
    - msimpl. rewrite upd_nth_length. lia.
    - intros id Hid. rewrite gn_append_other by lia. apply core_eq_refl.
    - intros id Hid. destruct (Nat.eq_dec id (e_to e)) as [->|Hne].
      + rewrite gn_append_same by exact Hid. split; reflexivity.
      + rewrite gn_append_other by exact Hne. split; reflexivity.
    - reflexivity.
  Qed.

  (* the second invariant
     (empty cutset during compilation; nodes are exact-flagged as long as nothing was squashed /
      for the non-relaxed compilations; layers are closed; the layer designated by m_lel is exact) *)
  Record Xg (bound : nat) (m : mdd) : Prop := {
    X_cutset : m_cutset m = [];
    X_exact_nr : ci_type inp <> Relaxed ->
                 forall id, id < length (m_nodes m) -> fl_is_exact (n_flags (gn m id)) = true;
    X_lel_none : m_lel m = None ->
                 forall id, id < length (m_nodes m) -> fl_is_exact (n_flags (gn m id)) = true;
    X_lel_lt : ci_type inp = Relaxed -> forall k, m_lel m = Some k -> k < length (m_layers m);
    X_layers : forall ids id, In ids (m_layers m) -> In id ids -> id < bound;
    X_lel_some : forall k ids id, m_lel m = Some k -> nth_error (m_layers m) k = Some ids -> In id ids ->
                 fl_is_exact (n_flags (gn m id)) = true }.
  Definition Xinv (m : mdd) : Prop := Xg (m_layer_end m) m.   (* during the compilation: layers are closed *)
  Definition Xs (m : mdd) : Prop := Xg (length (m_nodes m)) m. (* afterwards: layers are in range *)

  Lemma Xg_peq b m m' :
    peq m m' -> m_layers m' = m_layers m -> m_lel m' = m_lel m -> m_cutset m' = m_cutset m ->
    Xg b m -> Xg b m'.
  Proof.
    intros (A1 & A2 & A3 & A4) Hly Hlel Hcs [X1 X2 X3 X4 X5 X6].
    split.
    - congruence.
    - intros Ht id Hid. rewrite <- (core_eq_is_exact _ _ (A4 id)). apply X2; auto. lia.
    - intros Hnone id Hid. rewrite <- (core_eq_is_exact _ _ (A4 id)). apply X3; auto; [congruence|lia].
    - intros Ht k Hk. rewrite Hly. apply X4; auto. congruence.
    - intros ids id H1 H2. rewrite Hly in H1. eapply X5; eauto.
    - intros k ids id H1 H2 H3. rewrite <- (core_eq_is_exact _ _ (A4 id)).
      rewrite Hlel in H1. rewrite Hly in H2. eapply X6; eauto.
  Qed.

  Lemma Xg_weaken b b' m : b <= b' -> Xg b m -> Xg b' m.
  Proof.
    intros Hb [X1 X2 X3 X4 X5 X6]. split; auto.
    intros ids id H1 H2. specialize (X5 ids id H1 H2). lia.
  Qed.

  Lemma Xinv_ceq m m' : ceq m m' -> Xinv m -> Xinv m'.
  Proof.
    intros (Hp & _ & Hl & Hly & Hlel & Hcs & _) HX. unfold Xinv. rewrite Hl.
    exact (Xg_peq _ m m' Hp Hly Hlel Hcs HX).
  Qed.

  Lemma append_edge_Xinv (m : mdd) e :
    Xinv m -> m_layer_end m <= e_to e -> e_to e < length (m_nodes m) -> e_from e < length (m_nodes m) ->
    Xinv (append_edge inp m e).
  Proof.
    intros [X1 X2 X3 X4 X5 X6] Hto Hlt Hfrom.
    assert (Hlen : length (m_nodes (append_edge inp m e)) = length (m_nodes m))
      by (msimpl; apply upd_nth_length).
    assert (Hall : (forall id, id < length (m_nodes m) -> fl_is_exact (n_flags (gn m id)) = true) ->
                   forall id, id < length (m_nodes (append_edge inp m e)) ->
                   fl_is_exact (n_flags (gn (append_edge inp m e) id)) = true).
    { intros Hex id Hid. rewrite Hlen in Hid.
      destruct (Nat.eq_dec id (e_to e)) as [->|Hne].
      - destruct (append_edge_target m e Hlt) as (_ & _ & _ & _ & T5 & _).
        rewrite T5, (Hex _ Hlt), (Hex _ Hfrom). reflexivity.
      - rewrite gn_append_other by exact Hne. apply Hex; exact Hid. }
    split.
    - exact X1.
    - intros Ht. apply Hall. apply X2; exact Ht.
    - intros Hnone. apply Hall. apply X3; exact Hnone.
    - exact X4.
    - exact X5.
    - intros k ids id H1 H2 H3.
      assert (Hid : id < m_layer_end m).
      { eapply X5; eauto. eapply nth_error_In; eauto. }
      rewrite gn_append_other by lia. eapply X6; eauto.
  Qed.

  Lemma gn_snoc_old (m : mdd) n k :
    k < length (m_nodes m) -> gn (with_nodes m (m_nodes m ++ [n])) k = gn m k.
  Proof. intros H. unfold get_node. msimpl. apply app_nth1; exact H. Qed.
  Lemma gn_snoc_new (m : mdd) n : gn (with_nodes m (m_nodes m ++ [n])) (length (m_nodes m)) = n.
  Proof. unfold get_node. msimpl. apply nth_middle. Qed.
  Lemma len_snoc (m : mdd) n : length (m_nodes (with_nodes m (m_nodes m ++ [n]))) = S (length (m_nodes m)).
  Proof. msimpl. rewrite app_length. simpl. lia. Qed.

  Lemma Dg_snoc_node (m : mdd) n :
    Dinv m -> Dg (fun id => id <> length (m_nodes m)) (with_nodes m (m_nodes m ++ [n])).
  Proof.
    intros [H1 H2 H3 H4 H5 H6]. split.
    - intros id Hid Hne. rewrite len_snoc in Hid.
      assert (Hid' : id < length (m_nodes m)) by lia.
      eapply node_ok_transfer.
      + apply H1; auto.
      + rewrite gn_snoc_old by exact Hid'. apply core_eq_refl.
      + intros x Hx. split; [exact Hx|]. split; [reflexivity|].
        specialize (H3 x Hx). rewrite gn_snoc_old by lia. apply core_eq_refl.
    - destruct H2 as (r1 & r2 & r3 & r4 & r5). unfold root_ok. rewrite len_snoc.
      rewrite gn_snoc_old by exact r1. repeat split; auto.
    - exact H3.
    - rewrite len_snoc. msimpl. lia.
    - intros id Hid. rewrite len_snoc. msimpl. apply H5 in Hid. lia.
    - intros x Hx. eapply edge_var_ok_transfer; [apply H6; exact Hx|reflexivity|].
      specialize (H3 x Hx). rewrite gn_snoc_old by lia. reflexivity.
  Qed.

  Lemma Xinv_snoc_node (m : mdd) n :
    Xinv m -> (ci_type inp <> Relaxed \/ m_lel m = None -> fl_is_exact (n_flags n) = true) ->
    m_layer_end m <= length (m_nodes m) ->
    Xinv (with_nodes m (m_nodes m ++ [n])).
  Proof.
    intros [X1 X2 X3 X4 X5 X6] Hn Hle.
    assert (Hall : (forall id, id < length (m_nodes m) -> fl_is_exact (n_flags (gn m id)) = true) ->
                   fl_is_exact (n_flags n) = true ->
                   forall id, id < length (m_nodes (with_nodes m (m_nodes m ++ [n]))) ->
                   fl_is_exact (n_flags (gn (with_nodes m (m_nodes m ++ [n])) id)) = true).
    { intros Hex Hnx id Hid. rewrite len_snoc in Hid.
      destruct (Nat.eq_dec id (length (m_nodes m))) as [->|Hne].
      - rewrite gn_snoc_new. exact Hnx.
      - rewrite gn_snoc_old by lia. apply Hex. lia. }
    split.
    - exact X1.
    - intros Ht. apply Hall; auto.
    - intros Hnone. apply Hall; auto.
    - exact X4.
    - exact X5.
    - intros k ids id H1 H2 H3.
      assert (Hid : id < m_layer_end m).
      { eapply X5; eauto. eapply nth_error_In; eauto. }
      rewrite gn_snoc_old by lia. eapply X6; eauto.
  Qed.

  Lemma snoc_node_stable (m : mdd) n :
    m_layer_end m <= length (m_nodes m) -> stable m (with_nodes m (m_nodes m ++ [n])).
  Proof.
    intros Hle. split; [reflexivity|]. split; [rewrite len_snoc; lia|]. split; [|split].
    - intros id Hid. rewrite gn_snoc_old by lia. apply core_eq_refl.
    - intros id Hid. rewrite gn_snoc_old by lia. split; reflexivity.
    - reflexivity.
  Qed.

  (* m_next is only constrained by D_next *)
  Lemma with_next_inv (m m' : mdd) nx :
    Dinv m' -> Xinv m' -> stable m m' ->
    (forall id, In id nx -> m_layer_end m' <= id < length (m_nodes m')) ->
    Dinv (with_next m' nx) /\ Xinv (with_next m' nx) /\ stable m (with_next m' nx).
  Proof.
    intros HD [X1 X2 X3 X4 X5 X6] Hst Hnx. split; [|split].
    - apply (Dg_peq _ m'); [apply peq_same_nodes; reflexivity|exact HD|apply Nat.le_refl|apply (D_le _ _ HD)|exact Hnx].
    - split; assumption.
    - exact Hst.
  Qed.

  Definition next_depth (dn : nat) (m : mdd) : Prop :=
    forall id, In id (m_next m) -> n_depth (gn m id) = dn.

  (* what the loop carries from the start [m0] of an expansion is kept by a ceq step *)
  Lemma ceq_inv4 d (m0 m m' : mdd) :
    ceq m m' -> Dinv m -> Xinv m -> stable m0 m -> next_depth d m ->
    Dinv m' /\ Xinv m' /\ stable m0 m' /\ next_depth d m'.
  Proof.
    intros Hc HD HX Hst Hnd.
    split; [eapply Dg_ceq; eauto|]. split; [eapply Xinv_ceq; eauto|].
    split; [eapply stable_trans; [exact Hst|apply ceq_stable; exact Hc]|].
    destruct Hc as ((_ & _ & _ & A4) & Hn & _). intros k Hk. rewrite Hn in Hk.
    destruct (A4 k) as (_ & _ & _ & _ & _ & _ & c7). rewrite <- c7. apply Hnd; exact Hk.
  Qed.

  (* the two outcomes of [branch_on]: an arc to a node of the next layer that already holds the new
     state, or to a fresh node appended to the next layer.  Use: [pattern (branch_on ...); apply
     branch_on_cases; intros s ns cost m1 arc n]. *)
  Lemma branch_on_cases (m : mdd) (from_id : nat) (d : decision) (P : mdd -> Prop) :
    (let s := n_state (gn m from_id) in
     let ns := transition pb s d in
     let cost := transition_cost pb s ns d in
     let m1 := add_log (add_log m (EvTransition s d ns)) (EvCost s ns d cost) in
     let arc t := {| e_from := from_id; e_to := t; e_dec := d; e_cost := cost |} in
     let n := {| n_state := ns; n_vtop := sat_add (n_vtop (gn m from_id)) cost; n_vbot := IMIN;
                 n_best := None; n_inb := []; n_rub := IMAX; n_theta := None;
                 n_flags := fl_set_exact fl_new_exact (fl_is_exact (n_flags (gn m from_id)));
                 n_depth := S (n_depth (gn m from_id)) |} in
     (forall t, In t (m_next m) -> st_eqb (n_state (gn m t)) ns = true -> P (append_edge inp m1 (arc t))) /\
     P (with_next (append_edge inp (with_nodes m1 (m_nodes m ++ [n])) (arc (length (m_nodes m))))
                  (m_next m ++ [length (m_nodes m)]))) ->
    P (branch_on st_eqb inp m from_id d).
  Proof.
    cbv zeta. intros [Hold Hnew]. unfold branch_on. cbv zeta.
    destruct (find_next _ _ _ _) as [t|] eqn:Hfind; [|exact Hnew].
    unfold find_next in Hfind. apply find_some in Hfind. apply Hold; apply Hfind.
  Qed.

  Lemma branch_on_inv (m : mdd) (from_id : nat) (d : decision) :
    Dinv m -> Xinv m -> from_id < m_layer_end m ->
    next_depth (S (n_depth (gn m from_id))) m ->
    in_domain pb (n_state (gn m from_id)) d = true ->
    (exists states, next_variable pb (n_depth (gn m from_id)) states = Some (d_var d)) ->
    Dinv (branch_on st_eqb inp m from_id d) /\ Xinv (branch_on st_eqb inp m from_id d) /\
    stable m (branch_on st_eqb inp m from_id d) /\
    next_depth (S (n_depth (gn m from_id))) (branch_on st_eqb inp m from_id d).
  Proof.
    intros HD HX Hfrom Hnd Hdom Hv.
    pose proof (D_le _ _ HD) as Hle.
    pattern (branch_on st_eqb inp m from_id d). apply branch_on_cases. intros s ns cost m1 arc n.
    assert (Hc1 : ceq m m1) by (eapply ceq_trans; apply ceq_add_log).
    destruct (ceq_inv4 _ m m m1 Hc1 HD HX (stable_refl m) Hnd) as (HD1 & HX1 & Hst1 & _).
    split.
    - (* an existing node of the next layer *)
      intros t Hin Hst. apply st_eqb_spec in Hst.
      pose proof (D_next _ _ HD t Hin) as Hrange.
      pose proof (D_nodes _ _ HD t (proj2 Hrange) I) as [Hinb Hbest].
      split; [|split; [|split]].
      + apply append_edge_Dg; cbn [arc e_from e_to e_dec e_cost].
        * eapply Dg_weaken; [|exact HD1]. intros; exact I.
        * exact Hfrom.
        * exact (proj1 Hrange).
        * exact (proj2 Hrange).
        * exact Hinb.
        * intros Hr. specialize (Hbest Hr). change (gn m1) with (gn m). rewrite Hst.
          repeat split; auto.
          destruct (n_best (gn m t)); auto. exfalso. lia.
        * exact Hv.
      + apply append_edge_Xinv; cbn [arc e_from e_to]; auto; [exact (proj1 Hrange)|exact (proj2 Hrange)|].
        change (from_id < length (m_nodes m)). lia.
      + eapply stable_trans; [exact Hst1|]. apply append_edge_stable. exact (proj1 Hrange).
      + intros id Hid. rewrite append_edge_depth. apply Hnd; exact Hid.
    - (* a fresh node *)
      set (t := length (m_nodes m)).
      set (m2 := with_nodes m1 (m_nodes m ++ [n])).
      set (m3 := append_edge inp m2 (arc t)).
      assert (Hlen2 : length (m_nodes m2) = S t) by apply (len_snoc m1).
      assert (Hgn2old : forall k, k < t -> gn m2 k = gn m k) by (intros k Hk; apply (gn_snoc_old m1); exact Hk).
      assert (Hgn2new : gn m2 t = n) by apply (gn_snoc_new m1).
      assert (HD2 : Dg (fun id => id <> t) m2) by (apply (Dg_snoc_node m1); exact HD1).
      assert (HX2 : Xinv m2).
      { apply (Xinv_snoc_node m1); auto. intros Hor. cbn [n n_flags]. rewrite fl_is_exact_set_exact. simpl.
        rewrite andb_true_r.
        destruct Hor as [Hor|Hor]; [apply (X_exact_nr _ _ HX Hor)|apply (X_lel_none _ _ HX Hor)]; lia. }
      assert (HD3 : Dinv m3).
      { apply append_edge_Dg; cbn [arc e_from e_to e_dec e_cost]; try assumption; try (rewrite ?Hlen2; lia).
        - rewrite Hgn2new. intros x [].
        - intros _. rewrite Hgn2new, Hgn2old by lia. cbn [n n_state n_vtop n_depth n_best]. repeat split; auto. lia.
        - rewrite Hgn2old by lia. exact Hv. }
      assert (HX3 : Xinv m3) by (apply append_edge_Xinv; cbn [arc e_from e_to]; auto; rewrite ?Hlen2; lia).
      assert (Hlen3 : length (m_nodes m3) = S t) by (rewrite <- Hlen2; apply upd_nth_length).
      assert (Hst3 : stable m m3).
      { eapply stable_trans; [exact Hst1|]. eapply stable_trans; [apply (snoc_node_stable m1); exact Hle|].
        apply append_edge_stable. exact Hle. }
      destruct (with_next_inv m m3 (m_next m ++ [t]) HD3 HX3 Hst3) as (W1 & W2 & W3).
      { intros id Hid. apply in_app_or in Hid. rewrite Hlen3. change (m_layer_end m3) with (m_layer_end m).
        destruct Hid as [Hid|[<-|[]]]; [pose proof (D_next _ _ HD id Hid)|]; lia. }
      split; [exact W1|]. split; [exact W2|]. split; [exact W3|].
      + intros id Hid. cbn [m_next with_next] in Hid. apply in_app_or in Hid.
        change (n_depth (gn m3 id) = S (n_depth (gn m from_id))).
        destruct Hid as [Hid|[<-|[]]].
        all: unfold m3; rewrite append_edge_depth.
        * pose proof (D_next _ _ HD id Hid) as Hr. rewrite Hgn2old by lia. apply Hnd; exact Hid.
        * rewrite Hgn2new. reflexivity.
  Qed.

  Lemma in_domain_of_In var val s : In val (domain pb var s) -> in_domain pb s {| d_var := var; d_val := val |} = true.
  Proof.
    intros H. unfold in_domain. simpl. apply existsb_exists. exists val. split; [exact H|apply Z.eqb_refl].
  Qed.

  Lemma expand_node_inv (var : nat) (m : mdd) (id : nat) :
    Dinv m -> Xinv m -> id < m_layer_end m -> next_depth (S (n_depth (gn m id))) m ->
    (exists states, next_variable pb (n_depth (gn m id)) states = Some var) ->
    Dinv (expand_node st_eqb inp var m id) /\ Xinv (expand_node st_eqb inp var m id) /\
    stable m (expand_node st_eqb inp var m id) /\
    next_depth (S (n_depth (gn m id))) (expand_node st_eqb inp var m id).
  Proof.
    intros HD HX Hid Hnd Hv. unfold expand_node. cbv zeta.
    set (state := n_state (gn m id)).
    set (m1 := upd_node m id (fun n => set_rub n (fast_upper_bound (ci_relax inp) state))).
    assert (Hc1 : ceq m m1) by (apply ceq_upd_node; intros n; apply core_eq_set_rub).
    assert (Hidlen : id < length (m_nodes m)) by (pose proof (D_le _ _ HD); lia).
    destruct (sat_add (fast_upper_bound (ci_relax inp) state) (n_vtop (gn m1 id)) >? ci_best_lb inp)%Z.
    2: { apply (ceq_inv4 _ m m m1 Hc1 HD HX (stable_refl m) Hnd). }
    set (m2 := add_log m1 (EvDomain var state)).
    assert (Hc2 : ceq m m2) by (eapply ceq_trans; [exact Hc1|apply ceq_add_log]).
    apply (fold_left_inv
             (fun m' => Dinv m' /\ Xinv m' /\ stable m m' /\ next_depth (S (n_depth (gn m id))) m')).
    - apply (ceq_inv4 _ m m m2 Hc2 HD HX (stable_refl m) Hnd).
    - intros a val Hval (Ha1 & Ha2 & Ha3 & Ha4).
      pose proof Ha3 as (s1 & s2 & s3 & s4 & s5).
      destruct (s4 id Hidlen) as [Hs Hdp].
      assert (Hida : id < m_layer_end a) by (rewrite s1; exact Hid).
      destruct (branch_on_inv a id {| d_var := var; d_val := val |} Ha1 Ha2 Hida) as (B1 & B2 & B3 & B4).
      + rewrite Hdp. exact Ha4.
      + rewrite Hs. apply in_domain_of_In. exact Hval.
      + rewrite Hdp. exact Hv.
      + split; [exact B1|]. split; [exact B2|]. split.
        * eapply stable_trans; eauto.
        * rewrite Hdp in B4. exact B4.
  Qed.

  Lemma expand_layer_inv (var : nat) (l : list nat) (d : nat) : forall (m : mdd),
    Dinv m -> Xinv m -> next_depth (S d) m ->
    (forall id, In id l -> id < m_layer_end m /\ n_depth (gn m id) = d) ->
    (exists states, next_variable pb d states = Some var) ->
    Dinv (fold_left (expand_node st_eqb inp var) l m) /\ Xinv (fold_left (expand_node st_eqb inp var) l m) /\
    stable m (fold_left (expand_node st_eqb inp var) l m) /\
    next_depth (S d) (fold_left (expand_node st_eqb inp var) l m).
  Proof.
    intros m HD HX Hnd Hl Hv.
    apply (fold_left_inv (fun m' => Dinv m' /\ Xinv m' /\ stable m m' /\ next_depth (S d) m')).
    - split; [exact HD|]. split; [exact HX|]. split; [apply stable_refl|exact Hnd].
    - intros a id Hin (Ha1 & Ha2 & Ha3 & Ha4).
      pose proof Ha3 as (s1 & s2 & s3 & s4 & s5).
      destruct (Hl id Hin) as [Hlt Hdp].
      assert (Hidlen : id < length (m_nodes m)) by (pose proof (D_le _ _ HD); lia).
      destruct (s4 id Hidlen) as [_ Hdp'].
      assert (Hd : n_depth (gn a id) = d) by congruence.
      destruct (expand_node_inv var a id Ha1 Ha2) as (B1 & B2 & B3 & B4).
      + rewrite s1; exact Hlt.
      + rewrite Hd. exact Ha4.
      + rewrite Hd. exact Hv.
      + rewrite Hd in B4. split; [exact B1|]. split; [exact B2|]. split; [|exact B4].
        eapply stable_trans; eauto.
  Qed.

  (* the filters leave the core of every node alone and return a sub-list *)
  Lemma cache_get_ceq (m : mdd) s dp : ceq m (fst (cache_get st_eqb inp m s dp)).
  Proof.
    unfold cache_get. destruct (ci_use_cache inp).
    - destruct (get_threshold st_eqb (m_cache (add_log m (EvCacheGet s dp))) s dp); simpl.
      + apply ceq_add_log.
      + eapply ceq_trans; [apply ceq_add_log|apply ceq_set_crash].
    - simpl. apply ceq_add_log.
  Qed.

  Lemma cache_update_ceq (m : mdd) s dp v e : ceq m (cache_update st_eqb inp m s dp v e).
  Proof.
    unfold cache_update. destruct (ci_use_cache inp).
    - destruct (update_threshold st_eqb (m_cache (add_log m (EvCacheUpd s dp v e))) s dp v e).
      + eapply ceq_trans; [apply ceq_add_log|apply ceq_with_cache].
      + eapply ceq_trans; [apply ceq_add_log|apply ceq_set_crash].
    - apply ceq_add_log.
  Qed.

  Lemma dom_query_ceq (m : mdd) s dp v : ceq m (fst (dom_query inp m s dp v)).
  Proof.
    unfold dom_query. destruct (ci_domrule inp) as [[[[key nd] coord] usev]|].
    - destruct (is_dominated_or_insert Z.eqb key nd coord usev (m_dom m) s dp v) as [[st' r]|]; simpl.
      + eapply ceq_trans; [apply ceq_with_dom|apply ceq_add_log].
      + eapply ceq_trans; [apply ceq_set_crash|apply ceq_add_log].
    - simpl. apply ceq_add_log.
  Qed.

  Lemma filter_with_cache_ceq (l : list nat) : forall (m : mdd),
    ceq m (fst (filter_with_cache st_eqb inp m l)) /\ incl (snd (filter_with_cache st_eqb inp m l)) l.
  Proof using Hclean.
    induction l as [|id l IH]; intros m; simpl.
    - split; [apply ceq_refl|apply incl_refl].
    - pose proof (cache_get_ceq m (n_state (gn m id)) (n_depth (gn m id))) as Hc.
      destruct (cache_get st_eqb inp m (n_state (gn m id)) (n_depth (gn m id))) as [m1 th]. simpl in Hc.
      destruct th as [t|].
      + destruct (n_vtop (gn m id) >? th_value t)%Z.
        * destruct (IH m1) as [I1 I2]. destruct (filter_with_cache st_eqb inp m1 l) as [m2 r]. simpl in *.
          split; [eapply ceq_trans; eauto|]. apply incl_cons; [left; reflexivity|apply incl_tl; exact I2].
        * match goal with |- context [filter_with_cache st_eqb inp ?mm l] => destruct (IH mm) as [I1 I2] end.
          split.
          -- eapply ceq_trans; [exact Hc|]. eapply ceq_trans; [|exact I1].
             apply ceq_upd_node. intros n.
             eapply core_eq_trans; [|apply core_eq_set_theta]. apply core_eq_set_flags_nc; reflexivity.
          -- apply incl_tl; exact I2.
      + destruct (IH m1) as [I1 I2]. destruct (filter_with_cache st_eqb inp m1 l) as [m2 r]. simpl in *.
        split; [eapply ceq_trans; eauto|]. apply incl_cons; [left; reflexivity|apply incl_tl; exact I2].
  Qed.

  Lemma dom_retain_ceq (l : list nat) : forall (m : mdd),
    ceq m (fst (dom_retain inp m l)) /\ incl (snd (dom_retain inp m l)) l.
  Proof.
    induction l as [|id l IH]; intros m; simpl.
    - split; [apply ceq_refl|apply incl_refl].
    - destruct (fl_is_exact (n_flags (gn m id))).
      + pose proof (dom_query_ceq m (n_state (gn m id)) (n_depth (gn m id)) (n_vtop (gn m id))) as Hc.
        destruct (dom_query inp m (n_state (gn m id)) (n_depth (gn m id)) (n_vtop (gn m id))) as [m1 r].
        simpl in Hc. destruct (dc_dominated r).
        * match goal with |- context [dom_retain inp ?mm l] => destruct (IH mm) as [I1 I2] end.
          split.
          -- eapply ceq_trans; [exact Hc|]. eapply ceq_trans; [|exact I1].
             apply ceq_upd_node. intros n. apply core_eq_set_theta.
          -- apply incl_tl; exact I2.
        * destruct (IH m1) as [I1 I2]. destruct (dom_retain inp m1 l) as [m2 k]. simpl in *.
          split; [eapply ceq_trans; eauto|]. apply incl_cons; [left; reflexivity|apply incl_tl; exact I2].
      + destruct (IH m) as [I1 I2]. destruct (dom_retain inp m l) as [m2 k]. simpl in *.
        split; [exact I1|]. apply incl_cons; [left; reflexivity|apply incl_tl; exact I2].
  Qed.

  Lemma filter_with_dominance_ceq (m : mdd) (l : list nat) :
    ceq m (fst (filter_with_dominance inp m l)) /\ incl (snd (filter_with_dominance inp m l)) l.
  Proof.
    unfold filter_with_dominance. destruct (dom_retain_ceq (sort_by (dom_order inp m) l) m) as [I1 I2].
    split; [exact I1|]. intros x Hx. apply I2 in Hx. apply sort_by_In in Hx. exact Hx.
  Qed.

  Lemma prefilter_ceq (m : mdd) (l : list nat) :
    ceq m (fst (prefilter st_eqb inp m l)) /\ incl (snd (prefilter st_eqb inp m l)) l.
  Proof.
    unfold prefilter. destruct (Nat.ltb _ _); [apply filter_with_cache_ceq|].
    split; [apply ceq_refl|apply incl_refl].
  Qed.

  Definition layer_ok (m : mdd) (l : list nat) (d : nat) : Prop :=
    forall id, In id l -> (m_layer_end m <= id < length (m_nodes m)) /\ n_depth (gn m id) = d.

  Lemma layer_ok_stable m m' l l' d :
    stable m m' -> layer_ok m l d -> incl l' l -> layer_ok m' l' d.
  Proof.
    intros (s1 & s2 & s3 & s4 & s5) Hl Hincl id Hin. apply Hincl in Hin. destruct (Hl id Hin) as [Hr Hd].
    destruct (s4 id) as [_ Hd']; [lia|]. rewrite s1. split; [lia|congruence].
  Qed.

  Lemma note_squash_fields (m : mdd) :
    m_nodes (note_squash inp m) = m_nodes m /\ m_edges (note_squash inp m) = m_edges m /\
    m_path (note_squash inp m) = m_path m /\ m_next (note_squash inp m) = m_next m /\
    m_layer_end (note_squash inp m) = m_layer_end m /\ m_layers (note_squash inp m) = m_layers m /\
    m_cutset (note_squash inp m) = m_cutset m /\
    m_lel (note_squash inp m) =
      match m_lel m with Some k => Some k | None => Some (length (m_layers m) - 1) end /\
    m_curr_depth (note_squash inp m) = m_curr_depth m.
  Proof.
    unfold note_squash. cbv zeta. rewrite not_pooled. destruct (m_lel m) eqn:E; repeat split; auto.
  Qed.

  Lemma note_squash_inv (m : mdd) :
    Dinv m -> Xinv m -> (ci_type inp = Relaxed -> m_layers m <> []) ->
    Dinv (note_squash inp m) /\ Xinv (note_squash inp m) /\ stable m (note_squash inp m) /\
    m_next (note_squash inp m) = m_next m /\ m_lel (note_squash inp m) <> None /\
    forall k, gn (note_squash inp m) k = gn m k.
  Proof.
    intros HD HX Hly.
    destruct (note_squash_fields m) as (F1 & F2 & F3 & F4 & F5 & F6 & F7 & F8 & F9).
    assert (Hp : peq m (note_squash inp m)) by (apply peq_same_nodes; auto).
    assert (Hgn : forall k, gn (note_squash inp m) k = gn m k) by (intros k; apply gn_nodes_eq; exact F1).
    split; [|split; [|split; [|split; [|split]]]]; auto.
    - eapply Dg_peq; eauto.
      + rewrite F5; lia.
      + rewrite F5, F1. apply (D_le _ _ HD).
      + rewrite F5, F4, F1. apply (D_next _ _ HD).
    - destruct HX as [X1 X2 X3 X4 X5 X6]. split.
      + congruence.
      + intros Ht id Hid. rewrite Hgn. apply X2; auto. rewrite <- F1. exact Hid.
      + intros Hnone. rewrite F8 in Hnone. destruct (m_lel m); discriminate.
      + intros Ht k Hk. rewrite F6. rewrite F8 in Hk. destruct (m_lel m) as [k0|] eqn:E.
        * apply X4; auto.
        * inversion Hk; subst. specialize (Hly Ht). destruct (m_layers m); [congruence|simpl; lia].
      + intros ids id H1 H2. rewrite F5. rewrite F6 in H1. eapply X5; eauto.
      + intros k ids id H1 H2 H3. rewrite Hgn. rewrite F6 in H2. rewrite F8 in H1.
        destruct (m_lel m) as [k0|] eqn:E.
        * eapply X6; eauto.
        * apply X3; auto. pose proof (D_le _ _ HD).
          assert (id < m_layer_end m) by (eapply X5; eauto; eapply nth_error_In; eauto). lia.
    - split; [exact F5|]. split; [rewrite F1; lia|]. split; [|split].
      + intros id _. rewrite Hgn. apply core_eq_refl.
      + intros id _. rewrite Hgn. split; reflexivity.
      + exact F9.
    - rewrite F8. destruct (m_lel m); discriminate.
  Qed.

  Lemma mark_deleted_ceq (l : list nat) (m : mdd) : ceq m (mark_deleted m l).
  Proof.
    unfold mark_deleted. apply ceq_fold. intros a x. apply ceq_upd_node.
    intros n. apply core_eq_set_flags_nc; reflexivity.
  Qed.

  Lemma restrict_layer_inv (m : mdd) (l : list nat) :
    Dinv m -> Xinv m -> ci_type inp <> Relaxed ->
    Dinv (fst (restrict_layer inp m l)) /\ Xinv (fst (restrict_layer inp m l)) /\
    stable m (fst (restrict_layer inp m l)) /\ m_next (fst (restrict_layer inp m l)) = m_next m /\
    incl (snd (restrict_layer inp m l)) l.
  Proof.
    intros HD HX Ht. unfold restrict_layer. cbv zeta. simpl fst. simpl snd.
    destruct (note_squash_inv m HD HX) as (N1 & N2 & N3 & N4 & N5 & N6); [congruence|].
    set (m0 := note_squash inp m) in *.
    pose proof (mark_deleted_ceq (skipn (ci_width inp) (sort_by (rank_order inp m0) l)) m0) as Hc.
    split; [eapply Dg_ceq; eauto|]. split; [eapply Xinv_ceq; eauto|]. split; [|split].
    - eapply stable_trans; [exact N3|apply ceq_stable; exact Hc].
    - destruct Hc as (_ & Hn & _). rewrite Hn. exact N4.
    - intros x Hx. apply In_firstn in Hx. apply sort_by_In in Hx. exact Hx.
  Qed.

  (* marking a (still open) node as merged *)
  Lemma set_relaxed_inv (m : mdd) (id : nat) :
    Dinv m -> Xinv m -> ci_type inp = Relaxed -> m_lel m <> None ->
    m_layer_end m <= id -> id < length (m_nodes m) ->
    let m' := upd_node m id set_relaxed_flag in
    Dinv m' /\ Xinv m' /\ stable m m' /\ m_next m' = m_next m /\
    f_relaxed (n_flags (gn m' id)) = true.
  Proof.
    intros HD HX Ht Hlel Hle Hlt m'.
    assert (Hlen : length (m_nodes m') = length (m_nodes m)) by (unfold m'; msimpl; apply upd_nth_length).
    assert (Hsame : gn m' id = set_flags (gn m id) (fl_set_relaxed (n_flags (gn m id)) true))
      by (unfold m'; apply gn_upd_same; exact Hlt).
    assert (Hother : forall k, k <> id -> gn m' k = gn m k)
      by (intros k Hk; unfold m'; apply gn_upd_other; congruence).
    assert (Hsd : forall k, n_state (gn m' k) = n_state (gn m k) /\ n_vtop (gn m' k) = n_vtop (gn m k) /\
                            n_depth (gn m' k) = n_depth (gn m k) /\ n_inb (gn m' k) = n_inb (gn m k)).
    { intros k. destruct (Nat.eq_dec k id) as [->|Hne].
      - rewrite Hsame. repeat split.
      - rewrite Hother by exact Hne. repeat split. }
    destruct HD as [H1 H2 H3 H4 H5 H6].
    split; [|split; [|split; [|split]]].
    - split.
      + intros k Hk _. rewrite Hlen in Hk. destruct (Nat.eq_dec k id) as [->|Hne].
        * split.
          -- destruct (Hsd id) as (_ & _ & _ & Hi). rewrite Hi. apply (H1 id Hlt I).
          -- rewrite Hsame. nsimpl. discriminate.
        * eapply node_ok_transfer.
          -- apply H1; auto.
          -- rewrite Hother by exact Hne. apply core_eq_refl.
          -- intros x Hx. split; [exact Hx|]. split; [reflexivity|].
             specialize (H3 x Hx). rewrite Hother by lia. apply core_eq_refl.
      + destruct H2 as (r1 & r2 & r3 & r4 & r5). unfold root_ok. rewrite Hlen.
        destruct (Hsd 0) as (q1 & q2 & q3 & _). rewrite q1, q2, q3. auto.
      + exact H3.
      + rewrite Hlen. exact H4.
      + rewrite Hlen. exact H5.
      + intros x Hx. eapply edge_var_ok_transfer; [apply H6; exact Hx|reflexivity|].
        destruct (Hsd (e_from (get_edge m x))) as (_ & _ & q3 & _). exact q3.
    - destruct HX as [X1 X2 X3 X4 X5 X6]. split.
      + exact X1.
      + intros Hnt. congruence.
      + intros Hnone. exfalso. apply Hlel. exact Hnone.
      + exact X4.
      + exact X5.
      + intros k ids x G1 G2 G3.
        assert (x < m_layer_end m) by (eapply X5; eauto; eapply nth_error_In; eauto).
        rewrite Hother by lia. eapply X6; eauto.
    - split; [reflexivity|]. split; [lia|]. split; [|split].
      + intros k Hk. rewrite Hother by lia. apply core_eq_refl.
      + intros k _. destruct (Hsd k) as (q1 & _ & q3 & _). auto.
      + reflexivity.
    - reflexivity.
    - rewrite Hsame. reflexivity.
  Qed.

  Lemma redirect_edges_inv (m : mdd) (merged : St) (merged_id drop_id : nat) :
    Dinv m -> Xinv m -> drop_id < length (m_nodes m) ->
    m_layer_end m <= merged_id -> merged_id < length (m_nodes m) ->
    f_relaxed (n_flags (gn m merged_id)) = true ->
    let m' := redirect_edges inp m merged merged_id drop_id in
    Dinv m' /\ Xinv m' /\ stable m m' /\ m_next m' = m_next m /\
    length (m_nodes m') = length (m_nodes m) /\ f_relaxed (n_flags (gn m' merged_id)) = true /\
    length (m_edges m) <= length (m_edges m').
  Proof.
    intros HD HX Hdrop Hle Hlt Hrel. cbv zeta. unfold redirect_edges.
    apply (fold_left_inv (fun m' =>
      Dinv m' /\ Xinv m' /\ stable m m' /\ m_next m' = m_next m /\
      length (m_nodes m') = length (m_nodes m) /\ f_relaxed (n_flags (gn m' merged_id)) = true /\
      length (m_edges m) <= length (m_edges m'))).
    - split; [exact HD|]. split; [exact HX|]. split; [apply stable_refl|]. auto.
    - intros a eid Hin (A1 & A2 & A3 & A4 & A5 & A6 & A7). cbv zeta.
      assert (Heid : eid < length (m_edges a)).
      { destruct (D_nodes _ _ HD drop_id Hdrop I) as [Hinb _]. apply Hinb in Hin. lia. }
      set (e := get_edge a eid).
      set (rc := relax (ci_relax inp) (n_state (gn a (e_from e))) (n_state (gn a (e_to e))) merged (e_dec e) (e_cost e)).
      set (a1 := add_log a (EvRelax (n_state (gn a (e_from e))) (n_state (gn a (e_to e))) merged (e_dec e) (e_cost e) rc)).
      set (e' := {| e_from := e_from e; e_to := merged_id; e_dec := e_dec e; e_cost := rc |}).
      assert (Hc : ceq a a1) by apply ceq_add_log.
      assert (HD1 : Dinv a1) by (eapply Dg_ceq; eauto).
      assert (HX1 : Xinv a1) by (eapply Xinv_ceq; eauto).
      pose proof A3 as (s1 & s2 & s3 & s4 & s5).
      assert (Hfrom : e_from e < m_layer_end a) by (apply (D_efrom _ _ A1); exact Heid).
      assert (Hlea : m_layer_end a <= length (m_nodes a)) by apply (D_le _ _ A1).
      split; [|split; [|split; [|split; [|split; [|split]]]]].
      + apply append_edge_Dg; unfold e'; nsimpl.
        * eapply Dg_weaken; [|exact HD1]. intros; exact I.
        * exact Hfrom.
        * change (m_layer_end a1) with (m_layer_end a). lia.
        * change (length (m_nodes a1)) with (length (m_nodes a)). lia.
        * apply (D_nodes _ _ HD1 merged_id); [change (length (m_nodes a1)) with (length (m_nodes a)); lia|exact I].
        * intros Hr. change (gn a1 merged_id) with (gn a merged_id) in Hr. congruence.
        * apply (D_var _ _ HD1 eid). exact Heid.
      + apply append_edge_Xinv; unfold e'; nsimpl; auto.
        * change (m_layer_end a1) with (m_layer_end a). lia.
        * change (length (m_nodes a1)) with (length (m_nodes a)). lia.
        * change (length (m_nodes a1)) with (length (m_nodes a)). lia.
      + eapply stable_trans; [exact A3|]. eapply stable_trans; [apply ceq_stable; exact Hc|].
        apply append_edge_stable. unfold e'; nsimpl. change (m_layer_end a1) with (m_layer_end a). lia.
      + exact A4.
      + msimpl. rewrite upd_nth_length. exact A5.
      + change (gn (append_edge inp a1 e') merged_id) with (gn (append_edge inp a1 e') (e_to e')). rewrite gn_append_same.
        * cbv zeta. nsimpl. exact A6.
        * unfold e'; nsimpl. change (length (m_nodes a1)) with (length (m_nodes a)). lia.
      + msimpl. rewrite app_length. simpl. lia.
  Qed.

  Lemma relax_fold_inv (merged : St) (merged_id : nat) (mrg : list nat) (m : mdd) :
    Dinv m -> Xinv m -> (forall x, In x mrg -> x < length (m_nodes m)) ->
    m_layer_end m <= merged_id -> merged_id < length (m_nodes m) ->
    f_relaxed (n_flags (gn m merged_id)) = true ->
    let m' := fold_left (drop_step inp merged merged_id) mrg m in
    Dinv m' /\ Xinv m' /\ stable m m' /\ m_next m' = m_next m /\ length (m_nodes m') = length (m_nodes m).
  Proof.
    intros HD HX Hmrg Hle Hlt Hrel. cbv zeta.
    assert (G : let m' := fold_left (drop_step inp merged merged_id) mrg m in
            Dinv m' /\ Xinv m' /\ stable m m' /\ m_next m' = m_next m /\
            length (m_nodes m') = length (m_nodes m) /\ f_relaxed (n_flags (gn m' merged_id)) = true).
    { cbv zeta. apply (fold_left_inv (fun m' =>
        Dinv m' /\ Xinv m' /\ stable m m' /\ m_next m' = m_next m /\
        length (m_nodes m') = length (m_nodes m) /\ f_relaxed (n_flags (gn m' merged_id)) = true)).
      - split; [exact HD|]. split; [exact HX|]. split; [apply stable_refl|]. auto.
      - intros a drop Hin (A1 & A2 & A3 & A4 & A5 & A6). unfold drop_step.
        set (a1 := upd_node a drop (fun n => set_flags n (fl_set_deleted (n_flags n) true))).
        assert (Hc : ceq a a1).
        { apply ceq_upd_node. intros n. apply core_eq_set_flags_nc; reflexivity. }
        assert (HD1 : Dinv a1) by (eapply Dg_ceq; eauto).
        assert (HX1 : Xinv a1) by (eapply Xinv_ceq; eauto).
        pose proof A3 as (s1 & s2 & s3 & s4 & s5).
        pose proof Hc as ((c1 & c2 & c3 & c4) & c5 & c6 & _).
        destruct (redirect_edges_inv a1 merged merged_id drop HD1 HX1) as (B1 & B2 & B3 & B4 & B5 & B6 & B7).
        + rewrite c3, A5. apply Hmrg; exact Hin.
        + rewrite c6, s1. exact Hle.
        + rewrite c3, A5. exact Hlt.
        + destruct (c4 merged_id) as (_ & _ & _ & _ & _ & q & _). rewrite <- q. exact A6.
        + split; [exact B1|]. split; [exact B2|]. split; [|split; [|split]].
          * eapply stable_trans; [exact A3|]. eapply stable_trans; [apply ceq_stable; exact Hc|exact B3].
          * rewrite B4, c5. exact A4.
          * rewrite B5, c3. exact A5.
          * exact B6. }
    cbv zeta in G. destruct G as (G1 & G2 & G3 & G4 & G5 & G6). auto.
  Qed.

  Lemma skipn_nonempty {A} n (l : list A) : n < length l -> skipn n l <> [].
  Proof. intros H E. pose proof (skipn_length n l) as HL. rewrite E in HL. simpl in HL. lia. Qed.
  Lemma hd_In {A} (d : A) l : l <> [] -> In (hd d l) l.
  Proof. destruct l; [congruence|simpl; auto]. Qed.

  Lemma relax_core_inv (m2 : mdd) (merged : St) (merged_id : nat) (mrg : list nat) :
    Dinv m2 -> Xinv m2 -> ci_type inp = Relaxed -> m_lel m2 <> None ->
    (forall x, In x mrg -> x < length (m_nodes m2)) ->
    m_layer_end m2 <= merged_id -> merged_id < length (m_nodes m2) ->
    let m4 := fold_left (drop_step inp merged merged_id) mrg (upd_node m2 merged_id set_relaxed_flag) in
    Dinv m4 /\ Xinv m4 /\ stable m2 m4 /\ m_next m4 = m_next m2 /\ length (m_nodes m4) = length (m_nodes m2).
  Proof.
    intros HD HX Ht Hlel Hmrg Hle Hlt.
    destruct (set_relaxed_inv m2 merged_id HD HX Ht Hlel Hle Hlt) as (R1 & R2 & R3 & R4 & R5).
    set (m3 := upd_node m2 merged_id set_relaxed_flag) in *.
    assert (Hlen3 : length (m_nodes m3) = length (m_nodes m2)) by apply upd_nth_length.
    pose proof (relax_fold_inv merged merged_id mrg m3 R1 R2) as G. cbv zeta in G.
    destruct G as (G1 & G2 & G3 & G4 & G5).
    - intros x Hx. rewrite Hlen3. apply Hmrg; exact Hx.
    - exact Hle.
    - rewrite Hlen3. exact Hlt.
    - exact R5.
    - cbv zeta. split; [exact G1|]. split; [exact G2|]. split; [|split].
      + eapply stable_trans; eauto.
      + rewrite G4. exact R4.
      + rewrite G5. exact Hlen3.
  Qed.

  (* the three outcomes of [relax_layer]: zero width (crash), the merged state is the state of a kept
     node (which is recycled), or a fresh merged node.  Use as [branch_on_cases]. *)
  Lemma relax_layer_cases (m : mdd) (l : list nat) (P : mdd * list nat -> Prop) :
    (let m0 := note_squash inp m in
     let sorted := sort_by (rank_order inp m0) l in
     (ci_width inp = 0 -> P (set_crash m0, l)) /\
     (forall w1, ci_width inp = S w1 ->
        let keep := firstn w1 sorted in
        let mrg := skipn w1 sorted in
        let mstates := map (fun id => n_state (gn m0 id)) mrg in
        let merged := merge (ci_relax inp) mstates in
        let m1 := add_log m0 (EvMerge mstates merged) in
        (forall rid, In rid keep ->
           P (upd_node (fold_left (drop_step inp merged rid) mrg (upd_node m1 rid set_relaxed_flag))
                       (nth w1 sorted 0) clear_deleted_flag, firstn (S w1) sorted)) /\
        (let mid := length (m_nodes m1) in
         let n := merged_node merged (n_depth (gn m1 (hd 0 mrg))) in
         P (fold_left (drop_step inp merged mid) mrg
              (upd_node (with_nodes m1 (m_nodes m1 ++ [n])) mid set_relaxed_flag), keep ++ [mid])))) ->
    P (relax_layer st_eqb inp m l).
  Proof.
    cbv zeta. intros [H0 HS]. destruct (ci_width inp) as [|w1] eqn:Ew.
    - unfold relax_layer. rewrite Ew. apply H0. reflexivity.
    - rewrite (relax_layer_unfold st_eqb inp m l w1 Ew). cbv zeta.
      destruct (HS w1 eq_refl) as [Hrec Hnew].
      destruct (find _ _) as [rid|] eqn:Hf; [|exact Hnew].
      apply find_some in Hf. apply Hrec. apply Hf.
  Qed.

  Lemma relax_layer_inv (m : mdd) (l : list nat) (d : nat) :
    Dinv m -> Xinv m -> ci_type inp = Relaxed -> m_layers m <> [] ->
    layer_ok m l d -> ci_width inp < length l ->
    Dinv (fst (relax_layer st_eqb inp m l)) /\ Xinv (fst (relax_layer st_eqb inp m l)) /\
    stable m (fst (relax_layer st_eqb inp m l)) /\
    m_next (fst (relax_layer st_eqb inp m l)) = m_next m /\
    layer_ok (fst (relax_layer st_eqb inp m l)) (snd (relax_layer st_eqb inp m l)) d.
  Proof.
    intros HD HX Ht Hly Hl Hw.
    pattern (relax_layer st_eqb inp m l). apply relax_layer_cases. intros m0 sorted.
    destruct (note_squash_inv m HD HX) as (N1 & N2 & N3 & N4 & N5 & N6); [auto|].
    fold m0 in N1, N2, N3, N4, N5, N6.
    split.
    - intros _. cbn [fst snd].
      assert (Hc : ceq m0 (set_crash m0)) by apply ceq_set_crash.
      assert (Hst : stable m (set_crash m0)) by (eapply stable_trans; [exact N3|apply ceq_stable; exact Hc]).
      split; [eapply Dg_ceq; eauto|]. split; [eapply Xinv_ceq; eauto|].
      split; [exact Hst|]. split; [exact N4|].
      eapply layer_ok_stable; eauto. apply incl_refl.
    - intros w1 Ew keep mrg mstates merged m1.
      assert (Hc1 : ceq m0 m1) by apply ceq_add_log.
      assert (HD1 : Dinv m1) by (eapply Dg_ceq; eauto).
      assert (HX1 : Xinv m1) by (eapply Xinv_ceq; eauto).
      assert (Hst1 : stable m m1) by (eapply stable_trans; [exact N3|apply ceq_stable; exact Hc1]).
      assert (Hl1 : layer_ok m1 l d) by (eapply layer_ok_stable; eauto; apply incl_refl).
      assert (Hkeep : incl keep l).
      { intros x Hx. apply In_firstn in Hx. apply sort_by_In in Hx. exact Hx. }
      assert (Hmrg : incl mrg l).
      { intros x Hx. apply In_skipn in Hx. apply sort_by_In in Hx. exact Hx. }
      assert (Hmrg1 : forall x, In x mrg -> x < length (m_nodes m1)).
      { intros x Hx. apply Hmrg in Hx. apply Hl1 in Hx. lia. }
      split.
      + (* the merged state is the state of a kept node *)
        intros rid Hin. cbn [fst snd]. apply Hkeep in Hin. destruct (Hl1 rid Hin) as [Hr _].
        destruct (relax_core_inv m1 merged rid mrg HD1 HX1 Ht N5 Hmrg1) as (G1 & G2 & G3 & G4 & G5); [lia|lia|].
        cbv zeta in G1, G2, G3, G4, G5.
        set (m4 := fold_left (drop_step inp merged rid) mrg (upd_node m1 rid set_relaxed_flag)) in *.
        assert (Hc : ceq m4 (upd_node m4 (nth w1 sorted 0) clear_deleted_flag)).
        { apply ceq_upd_node. intros n. apply core_eq_set_flags_nc; reflexivity. }
        assert (Hst : stable m (upd_node m4 (nth w1 sorted 0) clear_deleted_flag)).
        { eapply stable_trans; [exact Hst1|]. eapply stable_trans; [exact G3|apply ceq_stable; exact Hc]. }
        split; [eapply Dg_ceq; eauto|]. split; [eapply Xinv_ceq; eauto|]. split; [exact Hst|]. split.
        * destruct Hc as (_ & Hn & _). rewrite Hn, G4. exact N4.
        * eapply layer_ok_stable; [exact Hst|exact Hl|]. intros x Hx. apply In_firstn in Hx.
          apply sort_by_In in Hx. exact Hx.
      + (* a fresh merged node *)
        intros mid n. cbn [fst snd].
        set (m2 := with_nodes m1 (m_nodes m1 ++ [n])).
        assert (Hle1 : m_layer_end m1 <= mid) by apply (D_le _ _ HD1).
        assert (Hlen2 : length (m_nodes m2) = S mid) by apply len_snoc.
        assert (HD2 : Dinv m2).
        { pose proof (Dg_snoc_node m1 n HD1) as [H1 H2 H3 H4 H5 H6]. split; auto.
          intros id Hid _. destruct (Nat.eq_dec id mid) as [->|Hne]; [|apply H1; auto].
          unfold m2, mid. split; rewrite gn_snoc_new; [intros eid []|discriminate]. }
        assert (HX2 : Xinv m2).
        { apply Xinv_snoc_node; auto. intros [Hor|Hor]; [congruence|]. exfalso. apply N5. exact Hor. }
        assert (Hst2 : stable m1 m2) by (apply snoc_node_stable; exact Hle1).
        assert (Hmrg2 : forall x, In x mrg -> x < length (m_nodes m2)).
        { intros x Hx. apply Hmrg1 in Hx. rewrite Hlen2. unfold mid. lia. }
        destruct (relax_core_inv m2 merged mid mrg HD2 HX2 Ht N5 Hmrg2) as (G1 & G2 & G3 & G4 & G5).
        { exact Hle1. } { lia. }
        cbv zeta in G1, G2, G3, G4, G5.
        set (m4 := fold_left (drop_step inp merged mid) mrg (upd_node m2 mid set_relaxed_flag)) in *.
        assert (Hst : stable m m4).
        { eapply stable_trans; [exact Hst1|]. eapply stable_trans; [exact Hst2|exact G3]. }
        split; [exact G1|]. split; [exact G2|]. split; [exact Hst|]. split.
        * rewrite G4. exact N4.
        * intros x Hx. apply in_app_or in Hx. destruct Hx as [Hx|[<-|[]]].
          -- apply (layer_ok_stable m m4 l keep d Hst Hl); auto.
          -- destruct Hst as (s1 & _). destruct G3 as (_ & _ & _ & g4 & _).
             destruct (g4 mid) as [_ Hdp]; [lia|].
             rewrite s1, G5, Hlen2. destruct Hst1 as (t1 & _). rewrite t1 in Hle1.
             split; [lia|]. rewrite Hdp. unfold m2, mid. rewrite gn_snoc_new.
             apply Hl1. apply Hmrg. apply hd_In. apply skipn_nonempty.
             unfold sorted. rewrite sort_by_length. lia.
  Qed.

  Lemma squash_if_needed_inv (m : mdd) (l : list nat) (d : nat) :
    Dinv m -> Xinv m -> layer_ok m l d ->
    Dinv (fst (squash_if_needed st_eqb inp m l)) /\ Xinv (fst (squash_if_needed st_eqb inp m l)) /\
    stable m (fst (squash_if_needed st_eqb inp m l)) /\
    m_next (fst (squash_if_needed st_eqb inp m l)) = m_next m /\
    layer_ok (fst (squash_if_needed st_eqb inp m l)) (snd (squash_if_needed st_eqb inp m l)) d.
  Proof.
    intros HD HX Hl. unfold squash_if_needed.
    assert (Htriv : Dinv m /\ Xinv m /\ stable m m /\ m_next m = m_next m /\ layer_ok m l d).
    { split; [exact HD|]. split; [exact HX|]. split; [apply stable_refl|]. split; [reflexivity|exact Hl]. }
    destruct (ci_type inp) eqn:Et.
    - exact Htriv.
    - destruct (Nat.ltb (ci_width inp) (length l) && Nat.ltb 1 (length (m_layers m))) eqn:Eg; [|exact Htriv].
      apply andb_true_iff in Eg. destruct Eg as [E1 E2].
      apply Nat.ltb_lt in E1. apply Nat.ltb_lt in E2.
      apply relax_layer_inv; auto. intros E. rewrite E in E2. simpl in E2. lia.
    - destruct (Nat.ltb (ci_width inp) (length l)) eqn:Eg; [|exact Htriv].
      assert (Hnr : ci_type inp <> Relaxed) by (rewrite Et; discriminate).
      destruct (restrict_layer_inv m l HD HX Hnr) as (R1 & R2 & R3 & R4 & R5).
      split; [exact R1|]. split; [exact R2|]. split; [exact R3|]. split; [exact R4|].
      eapply layer_ok_stable; eauto.
  Qed.

  Lemma Xinv_Xs m : Dinv m -> Xinv m -> Xs m.
  Proof. intros HD HX. eapply Xg_weaken; [|exact HX]. apply (D_le _ _ HD). Qed.

  Lemma Xg_push_layer b (m : mdd) ids e :
    Xg b m -> b <= length (m_nodes m) -> (forall id, In id ids -> id < b) -> Xg b (push_layer m ids e).
  Proof.
    intros [X1 X2 X3 X4 X5 X6] Hb Hids. split.
    - exact X1.
    - exact X2.
    - exact X3.
    - intros Ht k Hk. msimpl. rewrite app_length. specialize (X4 Ht k Hk). lia.
    - intros ids0 id H1 H2. msimpl_in H1. apply in_app_or in H1. destruct H1 as [H1|[<-|[]]].
      + eapply X5; eauto.
      + apply Hids; exact H2.
    - intros k ids0 id H1 H2 H3. msimpl_in H1. msimpl_in H2.
      change (gn (push_layer m ids e) id) with (gn m id).
      destruct (Nat.lt_ge_cases k (length (m_layers m))) as [Hk|Hk].
      + rewrite nth_error_app1 in H2 by exact Hk. eapply X6; eauto.
      + destruct (ci_type inp) eqn:Et.
        * apply X2; [discriminate|].
          apply nth_error_In in H2. apply in_app_or in H2. destruct H2 as [H2|[<-|[]]].
          -- specialize (X5 _ _ H2 H3). lia.
          -- specialize (Hids _ H3). lia.
        * specialize (X4 eq_refl k H1). lia.
        * apply X2; [discriminate|].
          apply nth_error_In in H2. apply in_app_or in H2. destruct H2 as [H2|[<-|[]]].
          -- specialize (X5 _ _ H2 H3). lia.
          -- specialize (Hids _ H3). lia.
  Qed.

  Lemma move_to_next_layer_clean_inv (m : mdd) (d : nat) :
    Dinv m -> Xinv m -> next_depth d m ->
    match snd (move_to_next_layer_clean st_eqb inp m) with
    | None => Sinv (fst (move_to_next_layer_clean st_eqb inp m)) /\
              Xs (fst (move_to_next_layer_clean st_eqb inp m)) /\
              m_next (fst (move_to_next_layer_clean st_eqb inp m)) = []
    | Some l => Dinv (fst (move_to_next_layer_clean st_eqb inp m)) /\
                Xinv (fst (move_to_next_layer_clean st_eqb inp m)) /\
                m_next (fst (move_to_next_layer_clean st_eqb inp m)) = [] /\
                (forall id, In id l ->
                  id < m_layer_end (fst (move_to_next_layer_clean st_eqb inp m)) /\
                  n_depth (gn (fst (move_to_next_layer_clean st_eqb inp m)) id) = d) /\
                m_curr_depth (fst (move_to_next_layer_clean st_eqb inp m)) = m_curr_depth m
    end.
  Proof.
    intros HD HX Hnd.
    destruct (move_to_next_layer_clean st_eqb inp m) as [m' ol] eqn:E. cbn [fst snd].
    rewrite move_clean_unfold in E.
    destruct (with_next_inv m m [] HD HX (stable_refl m)) as (HDa & HXa & _); [intros id []|].
    set (ma := with_next m []) in *.
    destruct (m_next m) as [|c0 cs] eqn:En.
    - apply pair_eq_inv in E. destruct E as [<- <-].
      assert (Hp : peq ma (push_layer ma [] 0)) by (apply peq_same_nodes; reflexivity).
      split; [|split].
      + eapply Sinv_peq; [exact Hp| |apply Dinv_Sinv; exact HDa]. intros id [].
      + apply Xg_push_layer; [change (Xs ma); apply Xinv_Xs; assumption|apply Nat.le_refl|intros id []].
      + reflexivity.
    - set (curr := c0 :: cs) in *.
      assert (Hla : layer_ok ma curr d).
      { intros id Hid. rewrite <- En in Hid. split; [apply (D_next _ _ HD id Hid)|apply Hnd; exact Hid]. }
      destruct (prefilter_ceq ma curr) as [Hcb Hib].
      destruct (prefilter st_eqb inp ma curr) as [mb lb]. cbn [fst snd] in Hcb, Hib.
      destruct (filter_with_dominance_ceq mb lb) as [Hcc Hic].
      destruct (filter_with_dominance inp mb lb) as [mc lc]. cbn [fst snd] in Hcc, Hic.
      assert (Hac : ceq ma mc) by (eapply ceq_trans; eauto).
      assert (HDc : Dinv mc) by (eapply Dg_ceq; eauto).
      assert (HXc : Xinv mc) by (eapply Xinv_ceq; eauto).
      assert (Hlc : layer_ok mc lc d).
      { eapply layer_ok_stable; [apply ceq_stable; exact Hac|exact Hla|]. eapply incl_tran; eauto. }
      destruct (squash_if_needed_inv mc lc d HDc HXc Hlc) as (Q1 & Q2 & Q3 & Q4 & Q5).
      destruct (squash_if_needed st_eqb inp mc lc) as [md ld]. cbn [fst snd] in Q1, Q2, Q3, Q4, Q5.
      apply pair_eq_inv in E. destruct E as [<- <-].
      assert (Hnd' : m_next md = []) by (destruct Hac as (_ & Hn & _); rewrite Q4, Hn; reflexivity).
      pose proof (D_le _ _ Q1) as Hft.
      split; [|split; [|split; [|split]]].
      + apply (Dg_peq _ md); [apply peq_same_nodes; reflexivity|exact Q1|exact Hft|apply Nat.le_refl|].
        intros id Hid. cbn [m_next push_layer] in Hid. rewrite Hnd' in Hid. destruct Hid.
      + apply Xg_push_layer; [eapply Xg_weaken; [exact Hft|exact Q2]|apply Nat.le_refl|].
        intros id Hid. apply in_seq in Hid. cbn [m_layer_end push_layer]. lia.
      + exact Hnd'.
      + intros id Hid. destruct (Q5 id Hid) as [Hr Hdp]. split; [exact (proj2 Hr)|exact Hdp].
      + destruct Q3 as (_ & _ & _ & _ & q5). destruct Hac as (_ & _ & _ & _ & _ & _ & a7).
        cbn [m_curr_depth push_layer]. rewrite q5, a7. reflexivity.
  Qed.

  Lemma initialize_inv c ds polls :
    Dinv (initialize inp c ds polls) /\ Xinv (initialize inp c ds polls) /\
    next_depth (sp_depth root) (initialize inp c ds polls).
  Proof.
    split; [|split].
    - split.
      + intros id Hid _. simpl in Hid. assert (id = 0) by lia. subst id. split.
        * intros eid [].
        * intros _. reflexivity.
      + unfold root_ok. simpl. repeat split; auto.
      + intros eid He. simpl in He. lia.
      + simpl. lia.
      + intros id [<-|[]]. simpl. lia.
      + intros eid He. simpl in He. lia.
    - split.
      + reflexivity.
      + intros _ id Hid. simpl in Hid. assert (id = 0) by lia. subst id. reflexivity.
      + intros _ id Hid. simpl in Hid. assert (id = 0) by lia. subst id. reflexivity.
      + intros _ k Hk. discriminate.
      + intros ids id [].
      + intros k ids id Hk. discriminate.
    - intros id [<-|[]]. reflexivity.
  Qed.

  Lemma layer_loop_inv (fuel : nat) : forall (m : mdd),
    Dinv m -> Xinv m -> next_depth (m_curr_depth m) m ->
    Sinv (fst (layer_loop st_eqb inp fuel m)) /\ Xs (fst (layer_loop st_eqb inp fuel m)).
  Proof.
    induction fuel as [|fuel IH]; intros m HD HX Hnd; set (d := m_curr_depth m) in Hnd.
    - simpl. split; [apply Dinv_Sinv; exact HD|apply Xinv_Xs; auto].
    - cbn [layer_loop]. cbv zeta.
      set (states := map (fun id => n_state (gn m id)) (m_next m)).
      set (ov := next_variable (ci_problem inp) (m_curr_depth m) states).
      set (m1 := add_log m (EvNextVar (m_curr_depth m) states ov)).
      assert (Hc1 : ceq m m1) by apply ceq_add_log.
      assert (HD1 : Dinv m1) by (eapply Dg_ceq; eauto).
      assert (HX1 : Xinv m1) by (eapply Xinv_ceq; eauto).
      assert (Hov : ov = next_variable pb d states) by reflexivity.
      destruct ov as [var|].
      2: { cbn [fst]. split; [apply Dinv_Sinv; exact HD1|apply Xinv_Xs; auto]. }
      set (m2 := with_polls m1 (S (m_polls m1))).
      assert (Hc2 : ceq m1 m2) by apply ceq_with_polls.
      assert (HD2 : Dinv m2) by (eapply Dg_ceq; eauto).
      assert (HX2 : Xinv m2) by (eapply Xinv_ceq; eauto).
      assert (Hnd2 : next_depth d m2) by exact Hnd.
      destruct (Nat.ltb 0 (ci_cutoff inp) && Nat.leb (ci_cutoff inp) (m_polls m2)).
      { cbn [fst]. split; [apply Dinv_Sinv; exact HD2|apply Xinv_Xs; auto]. }
      rewrite not_pooled.
      pose proof (move_to_next_layer_clean_inv m2 d HD2 HX2 Hnd2) as Hmv.
      destruct (move_to_next_layer_clean st_eqb inp m2) as [m3 ol]. cbn [fst snd] in Hmv.
      destruct ol as [l|].
      2: { cbn [fst]. destruct Hmv as (M1 & M2 & _). auto. }
      destruct Hmv as (M1 & M2 & M3 & M4 & M5).
      assert (Hnd3 : next_depth (S d) m3) by (intros id Hid; rewrite M3 in Hid; destruct Hid).
      destruct (expand_layer_inv var l d m3 M1 M2 Hnd3 M4) as (E1 & E2 & E3 & E4).
      { exists states. symmetry. exact Hov. }
      set (m4 := fold_left (expand_node st_eqb inp var) l m3) in *.
      assert (Hp5 : peq m4 (with_depth m4 (S (m_curr_depth m4)))) by (apply peq_same_nodes; reflexivity).
      apply IH.
      + eapply Dg_peq; [exact Hp5|exact E1|apply Nat.le_refl|apply (D_le _ _ E1)|apply (D_next _ _ E1)].
      + eapply Xg_peq; [exact Hp5|reflexivity|reflexivity|reflexivity|exact E2].
      + cbn [m_curr_depth with_depth]. destruct E3 as (_ & _ & _ & _ & e5). rewrite e5.
        change (m_curr_depth m2) with (m_curr_depth m) in M5. rewrite M5. exact E4.
  Qed.

  (* the theorems, on any diagram satisfying Sinv *)
  Lemma fl_is_exact_not_relaxed fl : fl_is_exact fl = true -> f_relaxed fl = false.
  Proof. unfold fl_is_exact. intros H. apply andb_true_iff in H. destruct H as [_ H]. destruct (f_relaxed fl); auto. Qed.

  (* T1 *)
  Lemma Sinv_exact_flag_clean_chain (m : mdd) :
    Sinv m -> forall id, id < length (m_nodes m) ->
    fl_is_exact (n_flags (gn m id)) = true -> clean_chain m id.
  Proof.
    intros HS id. induction id as [id IH] using lt_wf_ind. intros Hid Hex.
    pose proof (fl_is_exact_not_relaxed _ Hex) as Hr.
    destruct (S_nodes _ HS id Hid) as [_ Hb]. specialize (Hb Hr).
    destruct (n_best (gn m id)) as [eid|] eqn:Eb.
    - destruct Hb as (b1 & b2 & b3 & b4 & b5 & b6 & b7 & b8 & b9).
      eapply cc_step; eauto. apply IH; auto. lia.
    - subst id. apply cc_root; auto.
  Qed.

  (* T2 *)
  Lemma Sinv_ebp_clean_chain (m : mdd) :
    Sinv m -> forall fuel id, id < fuel -> id < length (m_nodes m) ->
    has_exact_best_path inp fuel m (Some id) = true -> clean_chain m id.
  Proof.
    intros HS fuel. induction fuel as [|fuel IH]; intros id Hf Hid Hebp; [lia|].
    cbn [has_exact_best_path] in Hebp.
    destruct (fl_is_exact (n_flags (gn m id))) eqn:Hex.
    - apply Sinv_exact_flag_clean_chain; auto.
    - apply andb_true_iff in Hebp. destruct Hebp as [Hr Hrec].
      apply negb_true_iff in Hr.
      destruct (S_nodes _ HS id Hid) as [_ Hb]. specialize (Hb Hr).
      destruct (n_best (gn m id)) as [eid|] eqn:Eb.
      + destruct Hb as (b1 & b2 & b3 & b4 & b5 & b6 & b7 & b8 & b9).
        simpl in Hrec. eapply cc_step; eauto. apply IH; auto; lia.
      + subst id. apply cc_root; auto.
  Qed.

  (* T3 *)
  Lemma Sinv_clean_chain_walk (m : mdd) :
    Sinv m -> forall id, clean_chain m id -> forall fuel, id < fuel -> id < length (m_nodes m) ->
    replay_sat pb (rev (walk_up inp fuel m (n_best (gn m id)))) (sp_state root) (sp_value root)
      = Some (n_state (gn m id), n_vtop (gn m id)) /\
    n_depth (gn m id) = sp_depth root + length (walk_up inp fuel m (n_best (gn m id))).
  Proof.
    intros HS id Hcc. induction Hcc as [Hr Hb|id eid Hr Hb Hcc IH]; intros fuel Hf Hid.
    - rewrite Hb. destruct (S_root _ HS) as (r1 & r2 & r3 & r4 & r5).
      destruct fuel; simpl; rewrite r2, r3, r4; split; auto.
    - destruct (S_nodes _ HS id Hid) as [_ Hok]. specialize (Hok Hr). rewrite Hb in Hok.
      destruct Hok as (b1 & b2 & b3 & b4 & b5 & b6 & b7 & b8 & b9).
      destruct fuel as [|fuel]; [lia|].
      rewrite Hb. cbn [walk_up].
      set (e := get_edge m eid) in *. set (p := e_from e) in *.
      destruct (IH fuel) as [IH1 IH2]; [lia|lia|].
      split.
      + cbn [rev]. rewrite replay_sat_app. rewrite IH1. cbn [replay_sat].
        rewrite b6. rewrite <- b4. rewrite <- b5. rewrite <- b7. reflexivity.
      + cbn [length]. rewrite b8, IH2. lia.
  Qed.

  (* [keq] is what _compute_local_bounds and _compute_thresholds keep; _finalize_cutset writes the cut-set
     and keeps [beq] (below) only *)
  Definition keq (m m' : mdd) : Prop :=
    peq m m' /\ m_next m' = m_next m /\ m_best m' = m_best m /\ m_best_exact m' = m_best_exact m /\
    m_cutset m' = m_cutset m.
  Lemma keq_refl m : keq m m.
  Proof. split; [apply peq_refl|repeat split]. Qed.
  Lemma keq_trans m1 m2 m3 : keq m1 m2 -> keq m2 m3 -> keq m1 m3.
  Proof.
    intros (A & B & C & D & E) (A' & B' & C' & D' & E').
    split; [eapply peq_trans; eauto|]. repeat split; congruence.
  Qed.

  Lemma keq_upd_node (m : mdd) id f : (forall n, core_eq n (f n)) -> keq m (upd_node m id f).
  Proof. intros Hf. split; [apply peq_upd_node; exact Hf|]. repeat split. Qed.
  Lemma keq_fold {B} (f : mdd -> B -> mdd) (l : list B) (m : mdd) :
    (forall m x, keq m (f m x)) -> keq m (fold_left f l m).
  Proof.
    intros Hf. apply (fold_left_rel keq); [exact keq_refl|exact keq_trans|exact Hf].
  Qed.

  Lemma ceq_keq m m' :
    ceq m m' -> m_best m' = m_best m -> m_best_exact m' = m_best_exact m -> keq m m'.
  Proof. intros (A & B & C & D & E & F & _) H1 H2. split; [exact A|]. repeat split; auto. Qed.

  Lemma cache_update_keq (m : mdd) s dp v e : keq m (cache_update st_eqb inp m s dp v e).
  Proof.
    apply ceq_keq; [apply cache_update_ceq| |];
    unfold cache_update; destruct (ci_use_cache inp); try reflexivity;
    destruct (update_threshold st_eqb (m_cache (add_log m (EvCacheUpd s dp v e))) s dp v e); reflexivity.
  Qed.

  Lemma compute_local_bounds_keq (m : mdd) : keq m (compute_local_bounds inp m).
  Proof using Hclean.
    apply compute_local_bounds_steps; [apply keq_refl|apply keq_trans|].
    intros a k v. apply keq_upd_node. intros n.
    eapply core_eq_trans; [|apply core_eq_set_vbot]. apply core_eq_set_flags_nc; reflexivity.
  Qed.

  Lemma compute_thresholds_keq (m : mdd) : keq m (compute_thresholds st_eqb inp m).
  Proof.
    apply compute_thresholds_steps; [apply keq_refl|apply keq_trans| |apply cache_update_keq].
    intros a k t. apply keq_upd_node. intros n. apply core_eq_set_theta.
  Qed.

  (* [beq]: as [keq], but the cut-set may differ *)
  Definition beq (m m' : mdd) : Prop :=
    peq m m' /\ m_next m' = m_next m /\ m_best m' = m_best m /\ m_best_exact m' = m_best_exact m.
  Lemma beq_refl m : beq m m.
  Proof. split; [apply peq_refl|repeat split]. Qed.
  Lemma beq_trans m1 m2 m3 : beq m1 m2 -> beq m2 m3 -> beq m1 m3.
  Proof.
    intros (A & B & C & D) (A' & B' & C' & D').
    split; [eapply peq_trans; eauto|]. repeat split; congruence.
  Qed.

  Lemma keq_beq m m' : keq m m' -> beq m m'.
  Proof. intros (A & B & C & D & E). split; auto. Qed.

  Definition above_cutset_upd (n : node) : node := set_flags n (fl_set_above (fl_set_cutset (n_flags n) true) true).

  Lemma lel_cutset_spec (m : mdd) (k : nat) :
    beq m (lel_cutset m k) /\
    m_cutset (lel_cutset m k) =
      m_cutset m ++ match nth_error (m_layers m) k with Some ids => ids | None => [] end.
  Proof.
    unfold lel_cutset.
    match goal with |- beq m (fold_left ?f ?l ?X) /\ _ => set (m1 := X) end.
    match goal with |- beq m (fold_left ?f ?l m1) /\ _ => set (F := f); set (L := l) end.
    assert (H1 : beq m m1 /\ m_cutset m1 = m_cutset m ++ match nth_error (m_layers m) k with Some ids => ids | None => [] end).
    { unfold m1. destruct (nth_error (m_layers m) k) as [ids|].
      - match goal with |- beq m (with_cutset ?Y _) /\ _ => assert (Hk : keq m Y); [|set (m0 := Y) in *] end.
        { apply keq_fold. intros a id. apply keq_upd_node. intros n. apply core_eq_set_flags_nc; reflexivity. }
        destruct Hk as (K1 & K2 & K3 & K4 & K5). split.
        + split; [|repeat split; auto]. eapply peq_trans; [exact K1|]. apply peq_same_nodes; reflexivity.
        + msimpl. rewrite K5. reflexivity.
      - split; [apply beq_refl|]. rewrite app_nil_r. reflexivity. }
    destruct H1 as [H1 H2].
    assert (Hk : keq m1 (fold_left F L m1)).
    { apply keq_fold. intros a id. apply keq_upd_node. intros n. apply core_eq_set_flags_nc; reflexivity. }
    split.
    - eapply beq_trans; [exact H1|apply keq_beq; exact Hk].
    - destruct Hk as (_ & _ & _ & _ & K5). rewrite K5. exact H2.
  Qed.

  Lemma gn_out_of_range (m : mdd) id :
    length (m_nodes m) <= id -> gn m id = default_node (sp_state (ci_root inp)).
  Proof. intros H. unfold get_node. apply nth_overflow. exact H. Qed.

  (* _compute_frontier_cutset with push: a walk that keeps [peq]; it marks nodes as above the cut-set, and puts
     into the cut-set the exact sources [src] of arcs into inexact nodes, once each (read in the diagram
     [m] it starts from: the walk changes neither arcs nor exactness) *)
  Lemma frontier_cutset_walk (m : mdd) (Q : mdd -> Prop) :
    Q m ->
    (forall a id, Q a -> Q (upd_node a id (fun n => set_flags n (fl_set_above (n_flags n) true)))) ->
    (forall a id eid, peq m a -> Q a -> fl_is_exact (n_flags (gn m id)) = false -> In eid (n_inb (gn m id)) ->
       let src := e_from (get_edge m eid) in
       fl_is_exact (n_flags (gn m src)) = true -> f_cutset (n_flags (gn a src)) = false ->
       Q (upd_node (with_cutset a (m_cutset a ++ [src])) src (fun n => set_flags n (fl_set_cutset (n_flags n) true)))) ->
    peq m (frontier_cutset inp m true) /\ Q (frontier_cutset inp m true).
  Proof.
    intros H0 Habove Hpush. unfold frontier_cutset.
    apply (fold_left_inv (fun a => peq m a /\ Q a)); [split; [apply peq_refl|exact H0]|].
    intros a id _ [Pa Qa]. cbv zeta. pose proof Pa as (_ & _ & _ & A4).
    rewrite <- (core_eq_is_exact _ _ (A4 id)). destruct (fl_is_exact (n_flags (gn m id))) eqn:Eex.
    - split; [|apply Habove; exact Qa].
      eapply peq_trans; [exact Pa|]. apply peq_upd_node. intros n. apply core_eq_set_flags_nc; reflexivity.
    - destruct (A4 id) as (_ & _ & _ & <- & _).
      apply (fold_left_inv (fun b => peq m b /\ Q b)); [split; assumption|].
      intros b eid Hin [Pb Qb]. pose proof Pb as (B1 & _ & _ & B4).
      rewrite (ge_edges_eq m b eid B1). set (src := e_from (get_edge m eid)).
      rewrite <- (core_eq_is_exact _ _ (B4 src)).
      destruct (fl_is_exact (n_flags (gn m src))) eqn:Es; [|split; assumption].
      destruct (f_cutset (n_flags (gn b src))) eqn:Ec; cbn [negb andb]; [split; assumption|].
      split; [|apply (Hpush b id eid); assumption].
      eapply peq_trans; [exact Pb|].
      eapply peq_trans; [apply (peq_same_nodes b (with_cutset b (m_cutset b ++ [src]))); reflexivity|].
      apply peq_upd_node. intros n. apply core_eq_set_flags_nc; reflexivity.
  Qed.

  Lemma frontier_cutset_spec (m : mdd) :
    Sinv m ->
    beq m (frontier_cutset inp m true) /\
    forall id, In id (m_cutset (frontier_cutset inp m true)) ->
      In id (m_cutset m) \/ (id < length (m_nodes m) /\ fl_is_exact (n_flags (gn m id)) = true).
  Proof.
    intros HS.
    destruct (frontier_cutset_walk m (fun a => m_next a = m_next m /\ m_best a = m_best m /\
                m_best_exact a = m_best_exact m /\ forall id, In id (m_cutset a) ->
                In id (m_cutset m) \/ (id < length (m_nodes m) /\ fl_is_exact (n_flags (gn m id)) = true)))
      as (Hp & Hn & Hb & Hbe & Hc).
    - repeat split. intros id Hid. left; exact Hid.
    - intros a id Qa. exact Qa.
    - intros a id eid _ (Q1 & Q2 & Q3 & Q4) Eex Hin src Es _. split; [exact Q1|]. split; [exact Q2|]. split; [exact Q3|].
      intros x Hx. msimpl_in Hx. apply in_app_or in Hx. destruct Hx as [Hx|[<-|[]]]; [apply Q4; exact Hx|].
      right. split; [|exact Es].
      destruct (Nat.lt_ge_cases id (length (m_nodes m))) as [Hlt|Hge].
      + apply (S_efrom _ HS). apply (S_nodes _ HS id Hlt). exact Hin.
      + rewrite gn_out_of_range in Hin by exact Hge. destruct Hin.
    - split; [|exact Hc]. split; [exact Hp|]. split; [exact Hn|]. split; [exact Hb|exact Hbe].
  Qed.

  Definition cutset_ok (m : mdd) : Prop :=
    forall id, In id (m_cutset m) -> id < length (m_nodes m) /\ fl_is_exact (n_flags (gn m id)) = true.

  Lemma finalize_cutset_spec (m : mdd) :
    Sinv m -> Xs m -> beq m (finalize_cutset inp m) /\ cutset_ok (finalize_cutset inp m).
  Proof.
    intros HS HX.
    assert (Hco : forall m', beq m m' ->
              (forall id, In id (m_cutset m') ->
                 In id (m_cutset m) \/ (id < length (m_nodes m) /\ fl_is_exact (n_flags (gn m id)) = true)) ->
              cutset_ok m').
    { intros m' ((A1 & A2 & A3 & A4) & _) H id Hid. destruct (H id Hid) as [Hc|[H1 H2]].
      - rewrite (X_cutset _ _ HX) in Hc. destruct Hc.
      - rewrite A3. rewrite <- (core_eq_is_exact _ _ (A4 id)). auto. }
    unfold finalize_cutset. cbv zeta.
    set (m1 := match m_lel m with
               | None => with_lel_exact m (Some (length (m_layers m))) (m_is_exact m)
               | Some _ => m end).
    assert (H1 : beq m m1 /\ m_cutset m1 = m_cutset m /\ m_layers m1 = m_layers m /\ m_nodes m1 = m_nodes m /\
                 m_lel m1 = match m_lel m with None => Some (length (m_layers m)) | Some k => Some k end).
    { unfold m1. destruct (m_lel m) as [k|] eqn:El.
      - split; [apply beq_refl|]. repeat split. exact El.
      - split; [|repeat split]. split; [apply peq_same_nodes; reflexivity|repeat split]. }
    destruct H1 as (H1 & H2 & H3 & H4 & H5).
    assert (Hsame : beq m m1 /\ cutset_ok m1).
    { split; [exact H1|]. apply Hco; [exact H1|]. intros id Hid. rewrite H2 in Hid. left; exact Hid. }
    assert (HS1 : Sinv m1).
    { destruct H1 as (Hp & Hn & _). eapply Sinv_peq; [exact Hp| |exact HS].
      intros id Hid. rewrite Hn in Hid. rewrite H4. apply (S_next _ HS); exact Hid. }
    destruct Hclean as [Hf|Hf]; rewrite Hf.
    - (* last exact layer *)
      destruct (is_relaxed_ct (ci_type inp) || m_is_exact m); [|exact Hsame].
      destruct (lel_cutset_spec m1 (opt_default 0 (m_lel m1))) as [L1 L2].
      split; [eapply beq_trans; eauto|].
      apply Hco; [eapply beq_trans; eauto|].
      intros id Hid. rewrite L2, H2 in Hid. apply in_app_or in Hid. destruct Hid as [Hid|Hid]; [left; exact Hid|].
      right. rewrite H3, H5 in Hid.
      destruct (m_lel m) as [k|] eqn:El; cbn [opt_default] in Hid.
      + destruct (nth_error (m_layers m) k) as [ids|] eqn:En; [|destruct Hid]. split.
        * eapply (X_layers _ _ HX); eauto. eapply nth_error_In; eauto.
        * eapply (X_lel_some _ _ HX); eauto.
      + destruct (nth_error (m_layers m) (length (m_layers m))) as [ids|] eqn:En; [|destruct Hid].
        exfalso. assert (length (m_layers m) < length (m_layers m)); [|lia].
        apply nth_error_Some. rewrite En. discriminate.
    - (* frontier *)
      destruct (is_relaxed_ct (ci_type inp) || m_is_exact m); [|exact Hsame].
      destruct (frontier_cutset_spec m1 HS1) as [F1 F2].
      split; [eapply beq_trans; eauto|].
      apply Hco; [eapply beq_trans; eauto|].
      intros id Hid. destruct (F2 id Hid) as [Hc|[G1 G2]].
      + left. rewrite <- H2. exact Hc.
      + right. rewrite H4 in G1. rewrite (gn_nodes_eq m m1 id H4) in G2. auto.
  Qed.

  Lemma clean_chain_peq m m' id : peq m m' -> clean_chain m id -> clean_chain m' id.
  Proof.
    intros (A1 & A2 & A3 & A4) Hcc. induction Hcc as [Hr Hb|id eid Hr Hb Hcc IH].
    - destruct (A4 0) as (_ & _ & c3 & _ & _ & c6 & _). apply cc_root; congruence.
    - destruct (A4 id) as (_ & _ & c3 & _ & _ & c6 & _).
      apply (cc_step m' id eid); [congruence|congruence|].
      rewrite (ge_edges_eq m m' eid A1). exact IH.
  Qed.

  Lemma pick_In tb cands b : pick tb cands = Some b -> In b cands.
  Proof. unfold pick. destruct cands as [|c cs]; [discriminate|]. apply nth_error_In. Qed.

  Lemma argmax_candidates_In (m : mdd) ids b : In b (argmax_candidates inp m ids) -> In b ids.
  Proof.
    unfold argmax_candidates. destruct (zmax_list _); [|intros []]. intros H. apply filter_In in H. tauto.
  Qed.

  Lemma finalize_layers_spec (m : mdd) :
    Sinv m -> Xs m ->
    Sinv (finalize_layers inp m) /\ Xs (finalize_layers inp m) /\ peq m (finalize_layers inp m) /\
    m_next (finalize_layers inp m) = m_next m.
  Proof.
    intros HS HX. unfold finalize_layers. cbv zeta. rewrite not_pooled.
    destruct (m_next m) as [|c cs] eqn:En.
    - split; [exact HS|]. split; [exact HX|]. split; [apply peq_refl|exact En].
    - set (m' := push_layer m _ _).
      assert (Hp : peq m m') by (apply peq_same_nodes; reflexivity).
      split; [|split; [|split]].
      + eapply Sinv_peq; [exact Hp| |exact HS]. intros id Hid. apply (S_next _ HS). exact Hid.
      + apply Xg_push_layer; [exact HX|apply Nat.le_refl|]. intros id Hid. apply in_seq in Hid.
        change (id < length (m_nodes m)). lia.
      + exact Hp.
      + exact En.
  Qed.

  (* [finalize] does not change n_state, n_vtop, n_best, n_inb, the exact and
     relaxed flags, n_depth of any node, nor m_edges, m_path, the number of nodes, m_next *)
  Theorem finalize_spec (tb tb2 : nat) (m : mdd) :
    Sinv m -> Xs m ->
    peq m (finalize st_eqb inp tb tb2 m) /\
    m_next (finalize st_eqb inp tb tb2 m) = m_next m /\
    Sinv (finalize st_eqb inp tb tb2 m) /\
    (forall b, m_best (finalize st_eqb inp tb tb2 m) = Some b ->
               b < length (m_nodes (finalize st_eqb inp tb tb2 m))) /\
    (forall b, m_best_exact (finalize st_eqb inp tb tb2 m) = Some b ->
               b < length (m_nodes (finalize st_eqb inp tb tb2 m)) /\
               clean_chain (finalize st_eqb inp tb tb2 m) b) /\
    cutset_ok (finalize st_eqb inp tb tb2 m) /\
    (ci_type inp <> Relaxed -> forall id, id < length (m_nodes (finalize st_eqb inp tb tb2 m)) ->
       fl_is_exact (n_flags (gn (finalize st_eqb inp tb tb2 m) id)) = true).
  Proof.
    intros HS HX. unfold finalize.
    destruct (finalize_layers_spec m HS HX) as (S1 & X1 & P1 & N1).
    set (m1 := finalize_layers inp m) in *.
    (* find_best_node *)
    set (m2 := find_best_node inp tb tb2 m1).
    assert (P2 : peq m1 m2) by (apply peq_same_nodes; reflexivity).
    assert (S2 : Sinv m2).
    { eapply Sinv_peq; [exact P2| |exact S1]. intros id Hid. apply (S_next _ S1). exact Hid. }
    assert (X2 : Xs m2) by (eapply Xg_peq; [exact P2|reflexivity|reflexivity|reflexivity|exact X1]).
    assert (B2 : forall b, m_best m2 = Some b -> b < length (m_nodes m2)).
    { intros b Hb. unfold m2, find_best_node in Hb. msimpl_in Hb.
      apply pick_In in Hb. apply argmax_candidates_In in Hb. apply (S_next _ S1). exact Hb. }
    assert (BE2 : forall b, m_best_exact m2 = Some b ->
                    b < length (m_nodes m2) /\ fl_is_exact (n_flags (gn m2 b)) = true).
    { intros b Hb. unfold m2, find_best_node in Hb. msimpl_in Hb.
      apply pick_In in Hb. apply argmax_candidates_In in Hb. apply filter_In in Hb. destruct Hb as [Hb1 Hb2].
      split; [apply (S_next _ S1); exact Hb1|exact Hb2]. }
    (* finalize_exact *)
    set (m3 := finalize_exact inp m2).
    assert (P3 : peq m2 m3) by (apply peq_same_nodes; reflexivity).
    assert (S3 : Sinv m3).
    { eapply Sinv_peq; [exact P3| |exact S2]. intros id Hid. apply (S_next _ S2). exact Hid. }
    assert (X3 : Xs m3) by (eapply Xg_peq; [exact P3|reflexivity|reflexivity|reflexivity|exact X2]).
    assert (B3 : forall b, m_best m3 = Some b -> b < length (m_nodes m2)) by exact B2.
    assert (BE3 : forall b, m_best_exact m3 = Some b -> b < length (m_nodes m2) /\ clean_chain m2 b).
    { intros b Hb. unfold m3, finalize_exact in Hb. cbv zeta in Hb. msimpl_in Hb.
      destruct (is_relaxed_ct (ci_type inp) && has_exact_best_path inp (S (length (m_nodes m2))) m2 (m_best m2)) eqn:Eb.
      - apply andb_true_iff in Eb. destruct Eb as [_ Eb]. rewrite Hb in Eb.
        pose proof (B2 b Hb) as Hlt. split; [exact Hlt|].
        eapply Sinv_ebp_clean_chain; [exact S2| |exact Hlt|exact Eb]. lia.
      - destruct (BE2 b Hb) as [Hlt Hex]. split; [exact Hlt|].
        apply Sinv_exact_flag_clean_chain; auto. }
    (* finalize_cutset, local bounds, thresholds *)
    destruct (finalize_cutset_spec m3 S3 X3) as [Q4 C4].
    set (m4 := finalize_cutset inp m3) in *.
    pose proof (compute_local_bounds_keq m4) as K5.
    set (m5 := compute_local_bounds inp m4) in *.
    pose proof (compute_thresholds_keq m5) as K6.
    set (m6 := compute_thresholds st_eqb inp m5) in *.
    assert (Q6 : beq m3 m6).
    { eapply beq_trans; [exact Q4|]. apply keq_beq. eapply keq_trans; eauto. }
    assert (K46 : keq m4 m6) by (eapply keq_trans; eauto).
    destruct Q6 as (P6 & N6 & Bb6 & Be6).
    assert (P26 : peq m2 m6) by (eapply peq_trans; [exact P3|exact P6]).
    assert (P06 : peq m m6) by (eapply peq_trans; [exact P1|]; eapply peq_trans; [exact P2|exact P26]).
    pose proof P26 as (_ & _ & L26 & _).
    assert (Nx6 : m_next m6 = m_next m) by (rewrite N6; exact N1).
    split; [exact P06|]. split; [exact Nx6|].
    split; [|split; [|split; [|split]]].
    - eapply Sinv_peq; [exact P06| |exact HS]. intros id Hid. rewrite Nx6 in Hid.
      destruct P06 as (_ & _ & L & _). rewrite L. apply (S_next _ HS). exact Hid.
    - intros b Hb. rewrite Bb6 in Hb. rewrite L26. apply B3; exact Hb.
    - intros b Hb. rewrite Be6 in Hb. destruct (BE3 b Hb) as [G1 G2]. rewrite L26.
      split; [exact G1|]. eapply clean_chain_peq; [exact P26|exact G2].
    - destruct K46 as ((_ & _ & L & A4) & _ & _ & _ & Kc). intros id Hid. rewrite Kc in Hid.
      destruct (C4 id Hid) as [G1 G2]. rewrite L. rewrite <- (core_eq_is_exact _ _ (A4 id)). auto.
    - intros Ht id Hid. destruct P06 as (_ & _ & L & A4). rewrite <- (core_eq_is_exact _ _ (A4 id)).
      apply (X_exact_nr _ _ HX Ht). rewrite <- L. exact Hid.
  Qed.

  Corollary finalize_preserves_paths (tb tb2 : nat) (m : mdd) :
    Sinv m -> Xs m ->
    m_edges (finalize st_eqb inp tb tb2 m) = m_edges m /\
    m_path (finalize st_eqb inp tb tb2 m) = m_path m /\
    length (m_nodes (finalize st_eqb inp tb tb2 m)) = length (m_nodes m) /\
    forall id,
      n_state (gn (finalize st_eqb inp tb tb2 m) id) = n_state (gn m id) /\
      n_vtop (gn (finalize st_eqb inp tb tb2 m) id) = n_vtop (gn m id) /\
      n_best (gn (finalize st_eqb inp tb tb2 m) id) = n_best (gn m id) /\
      n_inb (gn (finalize st_eqb inp tb tb2 m) id) = n_inb (gn m id) /\
      f_exact (n_flags (gn (finalize st_eqb inp tb tb2 m) id)) = f_exact (n_flags (gn m id)) /\
      f_relaxed (n_flags (gn (finalize st_eqb inp tb tb2 m) id)) = f_relaxed (n_flags (gn m id)) /\
      n_depth (gn (finalize st_eqb inp tb tb2 m) id) = n_depth (gn m id).
  Proof.
    intros HS HX. destruct (finalize_spec tb tb2 m HS HX) as ((A1 & A2 & A3 & A4) & _).
    split; [exact A1|]. split; [exact A2|]. split; [exact A3|].
    intros id. destruct (A4 id) as (c1 & c2 & c3 & c4 & c5 & c6 & c7). repeat split; auto.
  Qed.

  Lemma layer_loop_Sinv fuel c ds polls :
    Sinv (fst (layer_loop st_eqb inp fuel (initialize inp c ds polls))) /\
    Xs (fst (layer_loop st_eqb inp fuel (initialize inp c ds polls))).
  Proof.
    destruct (initialize_inv c ds polls) as (I1 & I2 & I3).
    apply layer_loop_inv; auto.
  Qed.

  Lemma compile_Compiled tb tb2 c ds polls m :
    compile st_eqb inp tb tb2 c ds polls = (m, Compiled) ->
    exists ml, ml = fst (layer_loop st_eqb inp (S (S (nb_vars pb))) (initialize inp c ds polls)) /\
               m = finalize st_eqb inp tb tb2 ml /\ Sinv ml /\ Xs ml.
  Proof.
    unfold compile. cbv zeta. intros H.
    destruct (layer_loop_Sinv (S (S (nb_vars pb))) c ds polls) as [HS HX].
    fold pb in H.
    destruct (layer_loop st_eqb inp (S (S (nb_vars pb))) (initialize inp c ds polls)) as [ml e].
    cbn [fst] in HS, HX.
    destruct e; inversion H. exists ml. auto.
  Qed.

  (* what the theorems below use of a compiled diagram *)
  Lemma compile_spec tb tb2 c ds polls m :
    compile st_eqb inp tb tb2 c ds polls = (m, Compiled) ->
    Sinv m /\
    (forall b, m_best m = Some b -> b < length (m_nodes m)) /\
    (forall b, m_best_exact m = Some b -> b < length (m_nodes m) /\ clean_chain m b) /\
    cutset_ok m /\
    (ci_type inp <> Relaxed -> forall id, id < length (m_nodes m) ->
       fl_is_exact (n_flags (gn m id)) = true).
  Proof.
    intros H. destruct (compile_Compiled _ _ _ _ _ _ H) as (ml & _ & -> & HS & HX).
    apply (finalize_spec tb tb2 ml HS HX).
  Qed.

  Lemma compile_Sinv tb tb2 c ds polls m :
    compile st_eqb inp tb tb2 c ds polls = (m, Compiled) -> Sinv m.
  Proof. intros H. apply (compile_spec _ _ _ _ _ _ H). Qed.

  (* T1 *)
  Theorem exact_flag_implies_clean_chain tb tb2 c ds polls m id :
    compile st_eqb inp tb tb2 c ds polls = (m, Compiled) ->
    fl_is_exact (n_flags (gn m id)) = true -> id < length (m_nodes m) -> clean_chain m id.
  Proof.
    intros H Hex Hid. apply Sinv_exact_flag_clean_chain; auto. eapply compile_Sinv; eauto.
  Qed.

  Theorem exact_flag_implies_clean_chain_loop fuel c ds polls id :
    let m := fst (layer_loop st_eqb inp fuel (initialize inp c ds polls)) in
    fl_is_exact (n_flags (gn m id)) = true -> id < length (m_nodes m) -> clean_chain m id.
  Proof.
    intros m Hex Hid. apply Sinv_exact_flag_clean_chain; auto. apply layer_loop_Sinv.
  Qed.

  (* T2 *)
  Theorem has_exact_best_path_implies_clean_chain tb tb2 c ds polls m id :
    compile st_eqb inp tb tb2 c ds polls = (m, Compiled) ->
    has_exact_best_path inp (S (length (m_nodes m))) m (Some id) = true ->
    id < length (m_nodes m) -> clean_chain m id.
  Proof.
    intros H Hebp Hid. eapply Sinv_ebp_clean_chain; [eapply compile_Sinv; eauto| |exact Hid|exact Hebp]. lia.
  Qed.

  Theorem has_exact_best_path_implies_clean_chain_loop fuel c ds polls id :
    let m := fst (layer_loop st_eqb inp fuel (initialize inp c ds polls)) in
    has_exact_best_path inp (S (length (m_nodes m))) m (Some id) = true ->
    id < length (m_nodes m) -> clean_chain m id.
  Proof.
    intros m Hebp Hid. eapply Sinv_ebp_clean_chain; [apply layer_loop_Sinv| |exact Hid|exact Hebp]. lia.
  Qed.

  (* T3 *)
  Lemma Sinv_clean_chain_replays (m : mdd) id :
    Sinv m -> clean_chain m id -> id < length (m_nodes m) ->
    replay_sat pb (rev (chain m id)) (sp_state root) (sp_value root)
      = Some (n_state (gn m id), n_vtop (gn m id)) /\
    length (chain m id) = n_depth (gn m id) - sp_depth root /\
    sp_depth root <= n_depth (gn m id) /\
    m_path m = sp_path root.
  Proof.
    intros HS Hcc Hid. unfold chain.
    destruct (Sinv_clean_chain_walk m HS id Hcc (S (length (m_nodes m)))) as [H1 H2]; [lia|exact Hid|].
    split; [exact H1|]. split; [lia|]. split; [lia|]. apply (S_root _ HS).
  Qed.

  Lemma Sinv_node_genuine (m : mdd) id :
    Sinv m -> clean_chain m id -> id < length (m_nodes m) ->
    replay_sat pb (rev (chain m id)) (sp_state root) (sp_value root)
      = Some (n_state (gn m id), n_vtop (gn m id)) /\
    best_path inp m id = sp_path root ++ chain m id /\
    length (chain m id) = n_depth (gn m id) - sp_depth root.
  Proof.
    intros HS Hcc Hid. destruct (Sinv_clean_chain_replays m id HS Hcc Hid) as (R1 & R2 & _ & R4).
    rewrite best_path_chain, R4. auto.
  Qed.

  Theorem clean_chain_replays tb tb2 c ds polls m id :
    compile st_eqb inp tb tb2 c ds polls = (m, Compiled) ->
    clean_chain m id -> id < length (m_nodes m) ->
    replay_sat pb (rev (chain m id)) (sp_state root) (sp_value root)
      = Some (n_state (gn m id), n_vtop (gn m id)) /\
    length (chain m id) = n_depth (gn m id) - sp_depth root /\
    sp_depth root <= n_depth (gn m id) /\
    m_path m = sp_path root.
  Proof. intros H. apply Sinv_clean_chain_replays. eapply compile_Sinv; eauto. Qed.

  Theorem clean_chain_replays_loop fuel c ds polls id :
    let m := fst (layer_loop st_eqb inp fuel (initialize inp c ds polls)) in
    clean_chain m id -> id < length (m_nodes m) ->
    replay_sat pb (rev (chain m id)) (sp_state root) (sp_value root)
      = Some (n_state (gn m id), n_vtop (gn m id)) /\
    length (chain m id) = n_depth (gn m id) - sp_depth root /\
    sp_depth root <= n_depth (gn m id) /\
    m_path m = sp_path root.
  Proof. intros m. apply Sinv_clean_chain_replays. apply layer_loop_Sinv. Qed.

  (* T3, the variables: the k-th decision from the root branches on the variable that next_variable
     returned at depth (sp_depth root + k) (for the content [states] of that layer) *)
  Lemma Sinv_clean_chain_vars_walk (m : mdd) :
    Sinv m -> forall id, clean_chain m id -> forall fuel, id < fuel -> id < length (m_nodes m) ->
    forall k d, nth_error (rev (walk_up inp fuel m (n_best (gn m id)))) k = Some d ->
    exists states, next_variable pb (sp_depth root + k) states = Some (d_var d).
  Proof.
    intros HS id Hcc. induction Hcc as [Hr Hb|id eid Hr Hb Hcc IH]; intros fuel Hf Hid k d Hk.
    - rewrite Hb in Hk. destruct fuel; destruct k; discriminate.
    - destruct (S_nodes _ HS id Hid) as [_ Hok]. specialize (Hok Hr). rewrite Hb in Hok.
      destruct Hok as (b1 & b2 & b3 & b4 & b5 & b6 & b7 & b8 & b9).
      destruct fuel as [|fuel]; [lia|].
      rewrite Hb in Hk. cbn [walk_up rev] in Hk.
      set (p := e_from (get_edge m eid)) in *.
      assert (Hp : p < length (m_nodes m)) by lia.
      assert (Hpf : p < fuel) by lia.
      destruct (Sinv_clean_chain_walk m HS p Hcc fuel Hpf Hp) as [_ Hdepth].
      set (W := walk_up inp fuel m (n_best (gn m p))) in *.
      destruct (Nat.lt_ge_cases k (length (rev W))) as [Hlt|Hge].
      + rewrite nth_error_app1 in Hk by exact Hlt. eapply IH; eauto.
      + rewrite nth_error_app2 in Hk by exact Hge.
        rewrite rev_length in Hge, Hk.
        destruct (k - length W) as [|j] eqn:Ej; [|destruct j; discriminate].
        simpl in Hk. inversion Hk; subst d.
        destruct (S_var _ HS eid b1) as [st Hst]. exists st.
        replace (sp_depth root + k) with (n_depth (gn m p)) by lia. exact Hst.
  Qed.

  Lemma Sinv_clean_chain_vars (m : mdd) id :
    Sinv m -> clean_chain m id -> id < length (m_nodes m) ->
    forall k d, nth_error (rev (chain m id)) k = Some d ->
    exists states, next_variable pb (sp_depth root + k) states = Some (d_var d).
  Proof.
    intros HS Hcc Hid. unfold chain. eapply Sinv_clean_chain_vars_walk; eauto.
  Qed.

  Theorem clean_chain_variables tb tb2 c ds polls m id :
    compile st_eqb inp tb tb2 c ds polls = (m, Compiled) ->
    clean_chain m id -> id < length (m_nodes m) ->
    forall k d, nth_error (rev (chain m id)) k = Some d ->
    exists states, next_variable pb (sp_depth root + k) states = Some (d_var d).
  Proof. intros H. apply Sinv_clean_chain_vars. eapply compile_Sinv; eauto. Qed.

  (* feasibility in the sense of DP.replay: the chain replays to the node's state; the value is the
     node's value whenever no isize overflow was clamped along the way *)
  Corollary Sinv_clean_chain_feasible (m : mdd) id :
    Sinv m -> clean_chain m id -> id < length (m_nodes m) ->
    exists w, replay pb (rev (chain m id)) (sp_state root) (sp_value root) = Some (n_state (gn m id), w) /\
              (no_overflow pb (rev (chain m id)) (sp_state root) (sp_value root) -> w = n_vtop (gn m id)).
  Proof.
    intros HS Hcc Hid. destruct (Sinv_clean_chain_replays m id HS Hcc Hid) as (R1 & _).
    destruct (replay_sat_feasible pb _ _ _ _ _ (sp_value root) R1) as [w Hw].
    exists w. split; [exact Hw|]. intros Hno.
    rewrite (replay_sat_eq_replay pb _ _ _ Hno) in R1. rewrite Hw in R1. inversion R1. reflexivity.
  Qed.

  (* whatever the outcome (Compiled, CutoffOccurred, OutOfFuel) the returned diagram satisfies the
     static invariant, so the Sinv_* lemmas above apply to it *)
  Lemma compile_Sinv_any tb tb2 c ds polls : Sinv (fst (compile st_eqb inp tb tb2 c ds polls)).
  Proof.
    unfold compile. cbv zeta.
    destruct (layer_loop_Sinv (S (S (nb_vars pb))) c ds polls) as [HS HX]. fold pb.
    destruct (layer_loop st_eqb inp (S (S (nb_vars pb))) (initialize inp c ds polls)) as [ml e].
    cbn [fst] in HS, HX. destruct e; cbn [fst]; auto.
    apply (finalize_spec tb tb2 ml HS HX).
  Qed.

  Theorem clean_chain_feasible tb tb2 c ds polls m id :
    compile st_eqb inp tb tb2 c ds polls = (m, Compiled) ->
    clean_chain m id -> id < length (m_nodes m) ->
    exists w, replay pb (rev (chain m id)) (sp_state root) (sp_value root) = Some (n_state (gn m id), w) /\
              (no_overflow pb (rev (chain m id)) (sp_state root) (sp_value root) -> w = n_vtop (gn m id)).
  Proof. intros H. apply Sinv_clean_chain_feasible. eapply compile_Sinv; eauto. Qed.

  (* C1 *)
  Theorem restricted_solution_feasible tb tb2 c ds polls m b :
    ci_type inp = Restricted \/ ci_type inp = Exact ->
    compile st_eqb inp tb tb2 c ds polls = (m, Compiled) ->
    m_best m = Some b \/ m_best_exact m = Some b ->
    b < length (m_nodes m) /\ clean_chain m b /\
    replay_sat pb (rev (chain m b)) (sp_state root) (sp_value root)
      = Some (n_state (gn m b), n_vtop (gn m b)) /\
    best_path inp m b = sp_path root ++ chain m b /\
    length (chain m b) = n_depth (gn m b) - sp_depth root.
  Proof.
    intros Ht H Hb. destruct (compile_spec _ _ _ _ _ _ H) as (F3 & F4 & F5 & _ & F7).
    assert (Hlt : b < length (m_nodes m)).
    { destruct Hb as [Hb|Hb]; [apply F4; exact Hb|apply F5; exact Hb]. }
    assert (Hnr : ci_type inp <> Relaxed) by (destruct Ht as [E|E]; rewrite E; discriminate).
    assert (Hcc : clean_chain m b) by (apply Sinv_exact_flag_clean_chain; auto).
    split; [exact Hlt|]. split; [exact Hcc|]. apply Sinv_node_genuine; assumption.
  Qed.

  (* the same in terms of the DecisionDiagram API *)
  Corollary restricted_best_solution_replays tb tb2 c ds polls m sol v :
    ci_type inp = Restricted \/ ci_type inp = Exact ->
    compile st_eqb inp tb tb2 c ds polls = (m, Compiled) ->
    dd_best_solution inp m = Some sol -> dd_best_value inp m = Some v ->
    exists ch s, sol = sp_path root ++ ch /\ replay_sat pb (rev ch) (sp_state root) (sp_value root) = Some (s, v).
  Proof.
    intros Ht H Hsol Hv. unfold dd_best_solution in Hsol. unfold dd_best_value in Hv.
    destruct (m_best m) as [b|] eqn:Eb; [|discriminate]. simpl in Hsol, Hv.
    destruct (restricted_solution_feasible tb tb2 c ds polls m b Ht H (or_introl Eb)) as (G1 & G2 & G3 & G4 & G5).
    inversion Hsol; inversion Hv; subst. exists (chain m b), (n_state (gn m b)). auto.
  Qed.

  (* C3 *)
  (* C06 clause (a) assumes a relaxed compilation that declares itself exact; neither hypothesis is needed *)
  Theorem best_exact_solution_genuine tb tb2 c ds polls m b :
    compile st_eqb inp tb tb2 c ds polls = (m, Compiled) ->
    m_best_exact m = Some b ->
    b < length (m_nodes m) /\ clean_chain m b /\
    replay_sat pb (rev (chain m b)) (sp_state root) (sp_value root)
      = Some (n_state (gn m b), n_vtop (gn m b)) /\
    best_path inp m b = sp_path root ++ chain m b /\
    length (chain m b) = n_depth (gn m b) - sp_depth root.
  Proof.
    intros H Hb. destruct (compile_spec _ _ _ _ _ _ H) as (F3 & _ & F5 & _).
    destruct (F5 b Hb) as [Hlt Hcc].
    split; [exact Hlt|]. split; [exact Hcc|]. apply Sinv_node_genuine; assumption.
  Qed.

  Theorem relaxed_exact_solution_genuine tb tb2 c ds polls m b :
    ci_type inp = Relaxed ->
    compile st_eqb inp tb tb2 c ds polls = (m, Compiled) ->
    dd_is_exact m = true -> m_best_exact m = Some b ->
    clean_chain m b /\
    replay_sat pb (rev (chain m b)) (sp_state root) (sp_value root)
      = Some (n_state (gn m b), n_vtop (gn m b)).
  Proof.
    intros _ H _ Hb. destruct (best_exact_solution_genuine _ _ _ _ _ _ _ H Hb) as (G1 & G2 & G3 & _). auto.
  Qed.

  (* C2 *)
  Theorem cutset_nodes_exact tb tb2 c ds polls m sp :
    compile st_eqb inp tb tb2 c ds polls = (m, Compiled) ->
    In sp (drain_cutset inp m) ->
    exists id, In id (m_cutset m) /\ id < length (m_nodes m) /\
      fl_is_exact (n_flags (gn m id)) = true /\ clean_chain m id /\
      sp_path sp = sp_path root ++ chain m id /\
      sp_state sp = n_state (gn m id) /\ sp_value sp = n_vtop (gn m id) /\
      sp_depth sp = n_depth (gn m id) /\
      replay_sat pb (rev (chain m id)) (sp_state root) (sp_value root) = Some (sp_state sp, sp_value sp) /\
      sp_depth sp = sp_depth root + length (chain m id).
  Proof.
    intros H Hin. destruct (compile_spec _ _ _ _ _ _ H) as (F3 & _ & _ & F6 & _).
    unfold drain_cutset in Hin. destruct (dd_best_value inp m) as [bv|]; [|destruct Hin].
    apply in_flat_map in Hin. destruct Hin as (id & Hid & Hsp).
    destruct (f_marked (n_flags (gn m id))); [|destruct Hsp].
    destruct Hsp as [<-|[]].
    destruct (F6 id Hid) as [Hlt Hex].
    assert (Hcc : clean_chain m id) by (apply Sinv_exact_flag_clean_chain; auto).
    destruct (Sinv_clean_chain_replays m id F3 Hcc Hlt) as (R1 & R2 & R3 & R4).
    exists id. cbn [sp_path sp_state sp_value sp_depth].
    split; [exact Hid|]. split; [exact Hlt|]. split; [exact Hex|]. split; [exact Hcc|].
    split; [rewrite best_path_chain, R4; reflexivity|].
    split; [reflexivity|]. split; [reflexivity|]. split; [reflexivity|]. split; [exact R1|]. lia.
  Qed.
End Exact.

Print Assumptions replay_sat_eq_replay.
Print Assumptions finalize_preserves_paths.
Print Assumptions exact_flag_implies_clean_chain.
Print Assumptions exact_flag_implies_clean_chain_loop.
Print Assumptions has_exact_best_path_implies_clean_chain.
Print Assumptions has_exact_best_path_implies_clean_chain_loop.
Print Assumptions clean_chain_replays.
Print Assumptions clean_chain_replays_loop.
Print Assumptions clean_chain_variables.
Print Assumptions clean_chain_feasible.
Print Assumptions compile_Sinv_any.
Print Assumptions restricted_solution_feasible.
Print Assumptions restricted_best_solution_replays.
Print Assumptions cutset_nodes_exact.
Print Assumptions best_exact_solution_genuine.
Print Assumptions relaxed_exact_solution_genuine.
