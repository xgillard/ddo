(* DomSearch.v — property C10 at solver level: the sequential branch-and-bound model (Solver.v) run WITH a
   dominance rule (SimpleDominanceChecker, Dom.v), no cache, SimpleFringe, clean flavours (CleanLEL, CleanFC).

   FINDINGS (closed, by vm_compute; section 2)
     C10_refuted_for_admissible_rules   the natural premise [admissible_H] "a dominates b (same key, every coordinate >=)
        implies value-to-go(a) >= value-to-go(b)", proved here for ALL states and depths of the instance, does NOT make
        the solver return the optimum: instance cyc_ti (6 variables, 18 base states, use_value = true, coordinate 0 =
        the exact value-to-go, coordinate 1 = a free tag), CleanLEL, width 2: maximize returns 6 with is_exact = true,
        the optimum is 11 (without the rule: 11).  The same run was reproduced on the Rust code.  Mechanism: a relaxed
        compilation records exact nodes lying BELOW its cut-set (a restricted one records nodes it then truncates);
        such an entry is a promise that only the cut-set ancestor keeps; another sub-problem records a node dominating
        an intermediate node of that ancestor's path while its own continuation is dropped because of the promised
        entry: both optimal runs are lost, each pruning being justified by value-to-go admissibility.
     C10_refuted_without_values   with use_value = false the checker compares states only and prunes nodes of LARGER
        value: the same state-only premise is refuted on a 2-variable instance (returns 1, optimum 10; both clean flavours,
        widths 1 to 3).

   POSITIVE RESULT (closed; sections 3-10)
     premise [opt_undominated]: no reachable (state, value) pair whose best completion is the optimum is STRICTLY
     dominated (same key) by a reachable pair of the same depth.  It follows from [strictly_admissible] (strict
     dominance implies a strictly better best completion: strictly_admissible_undominated), which the generators'
     one-coordinate rule (coordinate 0 = value-to-go, use_value = true) satisfies (coord_is_H_strict), and from the
     executable check [check_undominated] (check_undominated_sound).
       C10_sequential_dominance_optimal          the statement of Assembly.C01_sequential_optimal with
                                                 sc_domrule cfg = Some rule, under opt_undominated
       C10_sequential_dominance_optimal_strict   the same under strictly_admissible
       C10_dominance_does_not_change_the_answer  maximize with the rule = maximize without it = the optimum
       C10_table_instances, exd_C10, exd_prunes  non-vacuity on the table family; an instance where the rule prunes
     NOT proved: the theorem for transition-monotone rules that are not strictly admissible (e.g. knapsack capacity);
     the numeric invariant used here (the optimum is carried by the incumbent or by an open sub-problem) is not
     inductive for them, because an optimal node may legitimately be dropped in favour of a recorded entry.

   Sections  1 premises  2 refutations  3 solver-level induction from the contracts KD0..KD5 (stated for the optimum only,
   a store invariant threaded through the compilations: dom_maximize_correct)  4 the dominance filter of one layer
   (dom_retain_spec)  5 MddProgress.v's Section Traversal instantiated with the store condition fitD (compile_factsD,
   cutset_size_boundD)  6 MddSim.tracking instantiated with the rule and a threshold tau (rule_tracking): runs whose
   value exceeds tau are tracked, their nodes are never dropped (tracked_not_droppable); S2T, S4T, S3T are
   MddSim's S2_tracked, S4_tracked, S3_tracked at that instance  7 the contracts (KD_all)  8 the theorem
   9 sufficient conditions  10 stated forms  11 table family. *)
Require Import DDO.Base DDO.Fringe DDO.DP DDO.Cache DDO.Dom DDO.DomProofs DDO.Mdd DDO.MddStruct DDO.MddExact.
Require Import DDO.Solver DDO.SolverProofs DDO.MddProgress DDO.MddSim DDO.Table DDO.Run DDO.Assembly DDO.TableWf.
From Coq Require Import Lia List Arith ZArith Bool Permutation.
Import ListNotations.
Local Open Scope Z_scope.

(* 1. the premises on the user's rule *)
Section Premises.
  Context {St : Type}.
  Variable pb : problem St.
  Variable key : St -> option Z.
  Variable nd : nat.
  Variable coord : St -> nat -> Z.
  Variable usev : bool.

  Definition same_key (a b : St) : Prop := exists k, key a = Some k /\ key b = Some k.

  (* (a, va) is reached by a feasible run of d decisions from the root of the problem *)
  Definition reach (d : nat) (a : St) (va : Z) : Prop :=
    exists ds, frun pb 0 (init_state pb) (init_value pb) ds = Some (a, va) /\ length ds = d.

  (* the checker's verdict "(a, va) strictly dominates (b, vb)" (DomProofs.partial_cmp_Lt_iff) *)
  Definition sdom (a : St) (va : Z) (b : St) (vb : Z) : Prop :=
    le_all nd coord usev b vb a va /\ ~ le_all nd coord usev a va b vb.

  (* the natural premise: dominance on the coordinates implies dominance of the values-to-go, for ALL states and
     depths (REFUTED below; a fortiori its restrictions to reachable states are refuted) *)
  Definition admissible_H : Prop :=
    forall d a b, same_key a b -> (forall i, (i < nd)%nat -> coord b i <= coord a i) ->
    forall h, H pb d b = Some h -> exists h', H pb d a = Some h' /\ h <= h'.

  (* strict dominance implies a strictly better best completion, on reachable pairs *)
  Definition strictly_admissible : Prop :=
    forall d a va b vb, reach d a va -> reach d b vb -> same_key a b -> sdom a va b vb ->
    forall h, H pb d b = Some h -> exists h', H pb d a = Some h' /\ vb + h < va + h'.

  (* what the proof uses: a pair whose best completion is the optimum is never strictly dominated *)
  Definition opt_undominated : Prop :=
    forall o, opt_enum pb = Some o ->
    forall d a va b vb, reach d a va -> reach d b vb -> same_key a b -> sdom a va b vb ->
    forall h, H pb d b = Some h -> vb + h < o.
End Premises.

(* 2. the refutations *)
Lemma main_loop_more {St} (st_eqb : St -> St -> bool) cfg : forall fuel s s',
  main_loop st_eqb cfg fuel s = (s', Finished) -> forall k, main_loop st_eqb cfg (fuel + k) s = (s', Finished).
Proof.
  induction fuel as [|fuel IH]; intros s s' Hm k; [cbn [main_loop] in Hm; discriminate|].
  cbn [Nat.add main_loop] in Hm |- *. destruct (s_crash s); [exact Hm|].
  destruct (get_workload st_eqb cfg s) as [s1 w]. destruct w as [| |node]; try exact Hm.
  destruct (process_one_node st_eqb cfg s1 node) as [s2 err]. destruct err; [exact Hm|]. apply IH. exact Hm.
Qed.

Lemma maximize_more {St} (st_eqb : St -> St -> bool) cfg fuel primal :
  r_outoffuel (maximize st_eqb cfg fuel primal) = false ->
  forall k, maximize st_eqb cfg (fuel + k) primal = maximize st_eqb cfg fuel primal.
Proof.
  unfold maximize. intros Hf k.
  destruct (main_loop st_eqb cfg fuel _) as [s e] eqn:Hm. destruct e; [|cbn [r_outoffuel] in Hf; discriminate].
  rewrite (main_loop_more st_eqb cfg fuel _ s Hm k). reflexivity.
Qed.

(* 2a. use_value = true, the rule is admissible for the values-to-go, the optimum is lost
   base states: 0 root | 1 A, 2 B | 3 y, 4 c', 5 c | 8 e1, 9 mu | 10 w, 11 nu | 12 q1, 13 w2, 14 nu2, 15 p1, 16 p2 | 17 t
   two optimal runs (value 11):  0 -> A -> c -> mu -> nu -> nu2 -> t   and   0 -> B -> y -> e1 -> w -> w2 -> t
   rule: keys 3 (e1, mu) and 4 (w, nu); coordinates (value-to-go, tag): e1 = (10,1) > mu = (10,0); nu = (10,1) > w = (10,0).
   Width 2, last-exact-layer cut-sets.  The root's relaxed diagram has cut-set {A, B} (layer 2 = {c, c', y} is merged into
   c and {c', y}); below it, mu and nu are still exact and are RECORDED in the store.  B is popped first: e1 replaces mu in
   the store, then w is dropped because of nu: the diagram of B is empty, hence exact.  Then A: mu is dropped because of e1:
   empty, exact.  The fringe is empty and the incumbent is the 6 found by the root's restricted diagram. *)
Definition cyc_ti : tinst := {|
  t_nvars := 6; t_nbase := 18; t_init := 0; t_initval := 0; t_slack := 0; t_rubkind := 0; t_domkind := 1;
  t_usevalue := true; t_ncoord := 2; t_order := [0; 1; 2; 3; 4; 5]%nat;
  t_trans := [ (0%nat, 0, 0, 1, 0); (0%nat, 0, 1, 2, 0);
               (1%nat, 1, 0, 5, 0); (1%nat, 1, 1, 4, 0); (1%nat, 2, 0, 3, 0);
               (2%nat, 5, 0, 9, 1); (2%nat, 3, 0, 8, 1);
               (3%nat, 9, 0, 11, 0); (3%nat, 8, 0, 10, 0);
               (4%nat, 11, 0, 14, 0); (4%nat, 11, 1, 15, 5); (4%nat, 11, 2, 16, 5); (4%nat, 10, 0, 13, 0); (4%nat, 10, 1, 12, 5);
               (5%nat, 14, 0, 17, 10); (5%nat, 15, 0, 17, 0); (5%nat, 16, 0, 17, 0); (5%nat, 13, 0, 17, 10); (5%nat, 12, 0, 17, 0) ];
  t_notimp := []; t_rub := [];
  t_key := [-1; -1; -1; -1; -1; -1; -1; -1; 3; 3; 4; 4; -1; -1; -1; -1; -1; -1];
  t_coords := [[0;0];[0;0];[0;0];[0;0];[0;0];[0;0];[0;0];[0;0];[10;1];[10;0];[10;0];[10;1];[0;0];[0;0];[0;0];[0;0];[0;0];[0;0]];
  t_mergekind := 0; t_pos := []; t_up := [] |}.

Example cyc_wf : t_wf cyc_ti 10.
Proof. apply t_wfb_spec. vm_compute. reflexivity. Qed.

Example cyc_opt : opt_enum (t_problem cyc_ti) = Some 11.
Proof. vm_compute. reflexivity. Qed.

Lemma small_Z_cases (x : Z) (n : nat) : 0 <= x < Z.of_nat n -> In x (map Z.of_nat (seq 0 n)).
Proof.
  intros Hx. apply in_map_iff. exists (Z.to_nat x). split; [lia|]. apply in_seq. lia.
Qed.

Lemma cyc_keyed s k : t_key_of cyc_ti s = Some k ->
  ((s = [8] \/ s = [9]) /\ k = 3) \/ ((s = [10] \/ s = [11]) /\ k = 4).
Proof.
  destruct s as [|x [|y r]]; cbn [t_key_of]; try discriminate.
  destruct (Z_lt_le_dec x 0) as [Hneg|Hpos].
  { destruct x as [|p|p]; try lia. cbn. discriminate. }
  destruct (Z_lt_le_dec x 18) as [Hlt|Hge].
  - pose proof (small_Z_cases x 18 (conj Hpos Hlt)) as Hin. cbn in Hin.
    repeat (destruct Hin as [<-|Hin]; [cbn; first [discriminate | intros E; inversion E; subst; tauto]|]). destruct Hin.
  - rewrite nth_overflow by (cbn [t_key cyc_ti length]; lia). cbn. discriminate.
Qed.

Lemma cyc_admissible : admissible_H (t_problem cyc_ti) (t_key_of cyc_ti) 2 (t_coord cyc_ti).
Proof.
  intros d a b (k & Ka & Kb) _ h Hh.
  assert (Hpair : (In a [[8];[9]] /\ In b [[8];[9]]) \/ (In a [[10];[11]] /\ In b [[10];[11]])).
  { apply cyc_keyed in Ka. apply cyc_keyed in Kb. cbn [In].
    destruct Ka as [[Ha ->]|[Ha ->]], Kb as [[Hb E]|[Hb E]]; try discriminate; [left|right]; intuition. }
  destruct (le_lt_dec 6 d) as [Hge|Hlt].
  { rewrite (H_end (t_problem cyc_ti) (TableWf.nv_none cyc_ti eq_refl) d b Hge) in Hh. inversion Hh; subst h.
    exists 0. split; [apply (H_end (t_problem cyc_ti) (TableWf.nv_none cyc_ti eq_refl) d a Hge)|lia]. }
  assert (Hd : In d (seq 0 6)) by (apply in_seq; lia). cbn in Hd.
  destruct Hpair as [[Ha Hb]|[Ha Hb]]; cbn [In] in Ha, Hb;
    repeat (destruct Ha as [<-|Ha]; [|]); try contradiction;
    repeat (destruct Hb as [<-|Hb]; [|]); try contradiction;
    repeat (destruct Hd as [<-|Hd]; [|]); try contradiction;
    vm_compute in Hh; try discriminate; inversion Hh; subst h; exists 10; (split; [vm_compute; reflexivity|lia]).
Qed.

Definition run_view (r : sresult) := (r_crash r, r_outoffuel r, r_exact r, r_value r, r_lb r, r_ub r).

Theorem C10_refuted_for_admissible_rules :
  t_wf cyc_ti 10 /\
  sc_domrule (tb_sconfig cyc_ti CleanLEL false false true 2 0) = Some (t_key_of cyc_ti, 2%nat, t_coord cyc_ti, true) /\
  admissible_H (t_problem cyc_ti) (t_key_of cyc_ti) 2 (t_coord cyc_ti) /\
  opt_enum (t_problem cyc_ti) = Some 11 /\
  (forall fuel, (40 <= fuel)%nat ->
     run_view (maximize tstate_eqb (tb_sconfig cyc_ti CleanLEL false false true 2 0) fuel None)
       = (false, false, true, Some 6, 6, 6)) /\
  (forall fuel, (40 <= fuel)%nat ->
     run_view (maximize tstate_eqb (tb_sconfig cyc_ti CleanLEL false false false 2 0) fuel None)
       = (false, false, true, Some 11, 11, 11)).
Proof.
  split; [exact cyc_wf|]. split; [reflexivity|]. split; [exact cyc_admissible|]. split; [exact cyc_opt|].
  split; intros fuel Hfuel; replace fuel with (40 + (fuel - 40))%nat by lia;
    (rewrite maximize_more; [vm_compute; reflexivity|vm_compute; reflexivity]).
Qed.

(* 2b. use_value = false: the checker compares the states only.  Two children of the root: state 1 (value 0,
   value-to-go 1, coordinate 1) and state 2 (value 10, value-to-go 0, coordinate 0).  State 1 dominates state 2 and the
   value-to-go premise holds, yet the node of value 10 is dropped: the solver returns 1, the optimum is 10. *)
Definition nov_ti : tinst := {|
  t_nvars := 2; t_nbase := 4; t_init := 0; t_initval := 0; t_slack := 0; t_rubkind := 0; t_domkind := 1;
  t_usevalue := false; t_ncoord := 1; t_order := [0; 1]%nat;
  t_trans := [ (0%nat, 0, 0, 1, 0); (0%nat, 0, 1, 2, 10); (1%nat, 1, 0, 3, 1); (1%nat, 2, 0, 3, 0) ];
  t_notimp := []; t_rub := [];
  t_key := [-1; 7; 7; -1];
  t_coords := [[0];[1];[0];[0]];
  t_mergekind := 0; t_pos := []; t_up := [] |}.

Lemma nov_keyed s k : t_key_of nov_ti s = Some k -> s = [1] \/ s = [2].
Proof.
  destruct s as [|x [|y r]]; cbn [t_key_of]; try discriminate.
  destruct (Z_lt_le_dec x 0) as [Hneg|Hpos].
  { destruct x as [|p|p]; try lia. cbn. discriminate. }
  destruct (Z_lt_le_dec x 4) as [Hlt|Hge].
  - pose proof (small_Z_cases x 4 (conj Hpos Hlt)) as Hin. cbn in Hin.
    repeat (destruct Hin as [<-|Hin]; [cbn; first [discriminate | tauto]|]). destruct Hin.
  - rewrite nth_overflow by (cbn [t_key nov_ti length]; lia). cbn. discriminate.
Qed.

Lemma nov_admissible : admissible_H (t_problem nov_ti) (t_key_of nov_ti) 1 (t_coord nov_ti).
Proof.
  intros d a b (k & Ka & Kb) Hc h Hh. specialize (Hc 0%nat ltac:(lia)).
  apply nov_keyed in Ka. apply nov_keyed in Kb.
  destruct (le_lt_dec 2 d) as [Hge|Hlt].
  { rewrite (H_end (t_problem nov_ti) (TableWf.nv_none nov_ti eq_refl) d b Hge) in Hh. inversion Hh; subst h.
    exists 0. split; [apply (H_end (t_problem nov_ti) (TableWf.nv_none nov_ti eq_refl) d a Hge)|lia]. }
  assert (Hd : In d (seq 0 2)) by (apply in_seq; lia). cbn in Hd.
  destruct Ka as [->| ->], Kb as [->| ->]; cbn in Hc; try lia;
    repeat (destruct Hd as [<-|Hd]; [|]); try contradiction;
    vm_compute in Hh; try discriminate; inversion Hh; subst h;
    first [ exists 1; split; [vm_compute; reflexivity|lia] | exists 0; split; [vm_compute; reflexivity|lia] ].
Qed.

Theorem C10_refuted_without_values :
  t_wf nov_ti 10 /\
  sc_domrule (tb_sconfig nov_ti CleanLEL false false true 3 0) = Some (t_key_of nov_ti, 1%nat, t_coord nov_ti, false) /\
  admissible_H (t_problem nov_ti) (t_key_of nov_ti) 1 (t_coord nov_ti) /\
  opt_enum (t_problem nov_ti) = Some 10 /\
  (forall flv width fuel, (flv = CleanLEL \/ flv = CleanFC) -> In width [1; 2; 3]%nat -> (40 <= fuel)%nat ->
     run_view (maximize tstate_eqb (tb_sconfig nov_ti flv false false true width 0) fuel None)
       = (false, false, true, Some 1, 1, 1)).
Proof.
  split; [apply t_wfb_spec; vm_compute; reflexivity|]. split; [reflexivity|]. split; [exact nov_admissible|].
  split; [vm_compute; reflexivity|].
  intros flv width fuel Hflv Hw Hfuel. replace fuel with (40 + (fuel - 40))%nat by lia.
  cbn [In] in Hw.
  destruct Hflv as [-> | ->]; repeat (destruct Hw as [<-|Hw]; [rewrite maximize_more; vm_compute; reflexivity|]); destruct Hw.
Qed.

(* 3. the solver-level induction: the argument of SolverProofs.v with (i) a dominance rule allowed, (ii) a store invariant [dsok] threaded through the
   compilations, (iii) the completeness contracts (KD2, KD3_ub, KD4) required for the OPTIMUM only. *)
Section DomSolver.
  Context {St : Type}.
  Variable st_eqb : St -> St -> bool.
  Variable cfg : @sconfig St.
  Let pb := sc_problem cfg.
  Let N := nb_vars pb.

  Hypothesis cfg_nocache : sc_use_cache cfg = false.
  Hypothesis cfg_nodup : sc_nodup cfg = false.

  Variable good : @subproblem St -> Prop.
  Variable best : @subproblem St -> option Z.
  Variable feasible : list decision -> Z -> Prop.
  Let OPT : option Z := best (root_node cfg).

  Hypothesis good_root : good (root_node cfg).
  Hypothesis feasible_le_opt : forall sol v, feasible sol v -> exists o, OPT = Some o /\ v <= o.
  Hypothesis opt_in_isize : forall o, OPT = Some o -> IMIN < o <= IMAX.
  Hypothesis good_set_ub : forall c u, good c -> good (set_ub c u).
  Hypothesis best_set_ub : forall c u, best (set_ub c u) = best c.

  (* the invariant of the dominance store *)
  Variable dsok : @dstore St Z -> Prop.
  Hypothesis dsok_init : dsok (init_dstore N).

  Variable M : nat.

  Hypothesis KD0 : forall ct n lb c ds polls m out,
    dd_ct ct -> good n -> (sp_depth n <= N)%nat -> dsok ds ->
    compile st_eqb (mk_input cfg ct n lb) 0 0 c ds polls = (m, out) ->
    out = Compiled /\ m_crash m = false /\ dsok (m_dom m).
  Hypothesis KD1 : forall ct n lb c ds polls m out,
    dd_ct ct -> good n -> (sp_depth n <= N)%nat -> dsok ds ->
    compile st_eqb (mk_input cfg ct n lb) 0 0 c ds polls = (m, out) ->
    forall v, dd_best_exact_value (mk_input cfg ct n lb) m = Some v ->
    exists sol, dd_best_exact_solution (mk_input cfg ct n lb) m = Some sol /\ feasible sol v.
  Hypothesis KD2 : forall ct n lb c ds polls m out,
    dd_ct ct -> good n -> (sp_depth n <= N)%nat -> dsok ds ->
    compile st_eqb (mk_input cfg ct n lb) 0 0 c ds polls = (m, out) ->
    dd_is_exact m = true ->
    forall o, OPT = Some o -> best n = Some o -> o > lb -> dd_best_exact_value (mk_input cfg ct n lb) m = Some o.
  Hypothesis KD3_good : forall n lb c ds polls m out,
    good n -> (sp_depth n <= N)%nat -> dsok ds ->
    compile st_eqb (mk_input cfg Relaxed n lb) 0 0 c ds polls = (m, out) ->
    dd_is_exact m = false ->
    forall x, In x (drain_cutset (mk_input cfg Relaxed n lb) m) -> good x.
  Hypothesis KD3_depth : forall n lb c ds polls m out,
    good n -> (sp_depth n <= N)%nat -> dsok ds ->
    compile st_eqb (mk_input cfg Relaxed n lb) 0 0 c ds polls = (m, out) ->
    dd_is_exact m = false ->
    forall x, In x (drain_cutset (mk_input cfg Relaxed n lb) m) -> (sp_depth n < sp_depth x <= N)%nat.
  Hypothesis KD3_ub : forall n lb c ds polls m out,
    good n -> (sp_depth n <= N)%nat -> dsok ds ->
    compile st_eqb (mk_input cfg Relaxed n lb) 0 0 c ds polls = (m, out) ->
    dd_is_exact m = false ->
    forall x, In x (drain_cutset (mk_input cfg Relaxed n lb) m) ->
    forall o, OPT = Some o -> best x = Some o -> o > lb -> o <= sp_ub x.
  Hypothesis KD4 : forall n lb c ds polls m out,
    good n -> (sp_depth n <= N)%nat -> dsok ds ->
    compile st_eqb (mk_input cfg Relaxed n lb) 0 0 c ds polls = (m, out) ->
    dd_is_exact m = false ->
    forall o, OPT = Some o -> best n = Some o -> o > lb ->
    (forall e, dd_best_exact_value (mk_input cfg Relaxed n lb) m = Some e -> e < o) ->
    exists x, In x (drain_cutset (mk_input cfg Relaxed n lb) m) /\ best x = Some o.
  Hypothesis KD5 : forall n lb c ds polls m out,
    good n -> (sp_depth n <= N)%nat -> dsok ds ->
    compile st_eqb (mk_input cfg Relaxed n lb) 0 0 c ds polls = (m, out) ->
    dd_is_exact m = false ->
    (length (drain_cutset (mk_input cfg Relaxed n lb) m) <= M)%nat.

  Lemma d_fr_len_simple s : fr_len cfg s = length (s_simple s).
  Proof. unfold fr_len. rewrite cfg_nodup. reflexivity. Qed.

  Lemma d_fr_push_simple s n :
    fr_push st_eqb cfg s n =
    upd_s s (n :: s_simple s) (s_nodup s) (s_explored s) (s_open s) (s_fal s) (s_lb s) (s_ub s) (s_sol s) (s_abort s)
          (s_cache s) (s_dom s) (s_polls s) (s_crash s) (s_tie s) (s_compiles s).
  Proof. unfold fr_push. rewrite cfg_nodup. reflexivity. Qed.

  Lemma d_fr_pop_simple s :
    fr_pop st_eqb cfg s =
    match pq_pop cfg (s_simple s) with
    | None => (s, None)
    | Some (x, rest) => (upd_s s rest (s_nodup s) (s_explored s) (s_open s) (s_fal s) (s_lb s) (s_ub s) (s_sol s)
                         (s_abort s) (s_cache s) (s_dom s) (s_polls s) (s_crash s) (s_tie s) (s_compiles s), Some x)
    end.
  Proof. unfold fr_pop. rewrite cfg_nodup. reflexivity. Qed.

  (* the observable part of a state, the dominance store included *)
  Definition dview (s : @sstate St) :=
    (s_simple s, s_open s, s_lb s, s_sol s, s_abort s, s_crash s, s_dom s).

  Lemma dview_inv s s' : dview s' = dview s ->
    s_simple s' = s_simple s /\ s_open s' = s_open s /\ s_lb s' = s_lb s /\ s_sol s' = s_sol s /\
    s_abort s' = s_abort s /\ s_crash s' = s_crash s /\ s_dom s' = s_dom s.
  Proof. unfold dview; intros H; inversion H; auto 10. Qed.

  Definition dwt (n : @subproblem St) : nat := (S M) ^ (N - sp_depth n).
  Definition dPhi (l : list (@subproblem St)) : nat := sumf dwt l.
  Definition dcnt (d : nat) (l : list (@subproblem St)) : nat := cntp (fun n => Nat.eqb (sp_depth n) d) l.

  Lemma dcnt_perm d l l' : Permutation l l' -> dcnt d l = dcnt d l'.
  Proof. apply sumf_perm. Qed.
  Lemma dPhi_perm l l' : Permutation l l' -> dPhi l = dPhi l'.
  Proof. apply sumf_perm. Qed.
  Lemma dcnt_cons_same x l : dcnt (sp_depth x) (x :: l) = S (dcnt (sp_depth x) l).
  Proof. unfold dcnt, cntp; simpl. rewrite Nat.eqb_refl. reflexivity. Qed.
  Lemma dcnt_cons_other d x l : sp_depth x <> d -> dcnt d (x :: l) = dcnt d l.
  Proof. intros H. unfold dcnt, cntp; simpl. apply Nat.eqb_neq in H. rewrite H. reflexivity. Qed.
  Lemma dwt_pos n : (1 <= dwt n)%nat.
  Proof. unfold dwt. pose proof (Nat.pow_nonzero (S M) (N - sp_depth n)). lia. Qed.

  Definition DIncumbent (lb : Z) (sol : option (list decision)) : Prop :=
    IMIN <= lb /\ ((sol = None /\ lb = IMIN) \/ exists l, sol = Some l /\ feasible l lb).
  Definition DFringeOK (l : list (@subproblem St)) : Prop :=
    forall n, In n l -> good n /\ (sp_depth n <= N)%nat.
  Definition DOpenOK (op : list nat) (l : list (@subproblem St)) : Prop :=
    forall d, (d <= N)%nat -> nth_error op d = Some (dcnt d l).

  Definition DCore (s : @sstate St) : Prop :=
    s_crash s = false /\ s_abort s = false /\ DIncumbent (s_lb s) (s_sol s) /\
    DFringeOK (s_simple s) /\ DOpenOK (s_open s) (s_simple s) /\ dsok (s_dom s).

  Definition DCompl (s : @sstate St) (extra : list (@subproblem St)) : Prop :=
    forall o, OPT = Some o ->
      o <= s_lb s \/ exists n, (In n extra \/ In n (s_simple s)) /\ best n = Some o /\ o <= sp_ub n.

  Definition DInv (s : @sstate St) : Prop := DCore s /\ DCompl s [].

  Lemma DCore_view s s' : dview s' = dview s -> DCore s -> DCore s'.
  Proof.
    intros H. apply dview_inv in H. destruct H as (H1 & H2 & H3 & H4 & H5 & H6 & H7).
    unfold DCore. rewrite H1, H2, H3, H4, H5, H6, H7. auto.
  Qed.

  Lemma d_clean_cache_loop_view fuel s :
    (forall d, (d <= N)%nat -> exists k, nth_error (s_open s) d = Some k) ->
    dview (clean_cache_loop cfg fuel s) = dview s.
  Proof.
    revert s; induction fuel as [|fuel IH]; intros s H; cbn [clean_cache_loop]; [reflexivity|].
    destruct (Nat.ltb (s_fal s) (nb_vars (sc_problem cfg))) eqn:E; [|reflexivity].
    apply Nat.ltb_lt in E. destruct (H (s_fal s)) as [k Hk]; [unfold N, pb; lia|].
    rewrite Hk. destruct k; [|reflexivity]. rewrite cfg_nocache. rewrite IH; [reflexivity|]. exact H.
  Qed.

  Lemma d_get_workload_spec s : DCore s ->
    (s_simple s = [] /\ exists s1, get_workload st_eqb cfg s = (s1, WComplete) /\
       s_simple s1 = [] /\ s_crash s1 = false /\ s_abort s1 = false /\ s_lb s1 = s_lb s /\
       s_sol s1 = s_sol s /\ s_ub s1 = s_lb s)
    \/ (exists x rest s1, get_workload st_eqb cfg s = (s1, WItem x) /\ Permutation (s_simple s) (x :: rest) /\
         s_simple s1 = rest /\ DCore s1 /\ s_lb s1 = s_lb s).
  Proof.
    intros (Hcr & Hab & Hinc & Hfr & Hop & Hds).
    unfold get_workload.
    set (sc := clean_cache_loop cfg (S (nb_vars (sc_problem cfg))) s).
    assert (Hv : dview sc = dview s).
    { apply d_clean_cache_loop_view. intros d Hd. eexists. apply Hop. exact Hd. }
    apply dview_inv in Hv. destruct Hv as (V1 & V2 & V3 & V4 & V5 & V6 & V7).
    rewrite d_fr_len_simple, V1.
    destruct (s_simple s) as [|y l] eqn:El.
    - left. split; [reflexivity|]. eexists. split; [reflexivity|].
      cbn [s_simple s_crash s_abort s_lb s_sol s_ub upd_s]. rewrite V3, V4, V5, V6. auto 10.
    - right. cbn [length Nat.eqb]. rewrite V5, Hab. rewrite d_fr_pop_simple, V1.
      destruct (pq_pop cfg (y :: l)) as [[x rest]|] eqn:Ep; [|apply pq_pop_none in Ep; discriminate].
      pose proof (pq_pop_perm _ _ _ _ Ep) as Hperm.
      assert (Hx : In x (y :: l)). { eapply Permutation_in; [apply Permutation_sym; exact Hperm|]. left; reflexivity. }
      destruct (Hfr x Hx) as [Hgx Hdx].
      cbn [s_open upd_s]. rewrite V2, (Hop _ Hdx).
      rewrite (dcnt_perm _ _ _ Hperm), dcnt_cons_same.
      exists x, rest. eexists. split; [reflexivity|]. split; [exact Hperm|].
      cbn [s_simple s_lb upd_s]. split; [reflexivity|]. split; [|exact V3].
      unfold DCore. cbn [s_simple s_crash s_abort s_lb s_sol s_open s_dom upd_s].
      rewrite ?V2, ?V3, ?V4, ?V5, ?V6, ?V7. split; [exact Hcr|]. split; [exact Hab|]. split; [exact Hinc|]. split; [|split].
      + intros n Hn. apply Hfr. eapply Permutation_in; [apply Permutation_sym; exact Hperm|]. right; exact Hn.
      + intros d Hd. destruct (Nat.eq_dec (sp_depth x) d) as [Heq|Hne].
        * subst d. erewrite nth_error_upd_nth_same; [reflexivity|]. rewrite (Hop _ Hd).
          rewrite (dcnt_perm _ _ _ Hperm), dcnt_cons_same. reflexivity.
        * rewrite nth_error_upd_nth_other by exact Hne. rewrite (Hop _ Hd).
          rewrite (dcnt_perm _ _ _ Hperm), dcnt_cons_other by exact Hne. reflexivity.
      + exact Hds.
  Qed.

  Lemma d_run_compile_spec s ct n s' inp m o :
    run_compile st_eqb cfg s ct n = (s', inp, m, o) ->
    inp = mk_input cfg ct n (s_lb s) /\
    compile st_eqb (mk_input cfg ct n (s_lb s)) 0 0 (s_cache s) (s_dom s) (s_polls s) = (m, o) /\
    s_simple s' = s_simple s /\ s_open s' = s_open s /\ s_lb s' = s_lb s /\ s_sol s' = s_sol s /\
    s_abort s' = s_abort s /\ s_crash s' = (s_crash s || m_crash m)%bool /\ s_dom s' = m_dom m.
  Proof.
    unfold run_compile.
    destruct (compile st_eqb (mk_input cfg ct n (s_lb s)) 0 0 (s_cache s) (s_dom s) (s_polls s)) as [m0 o0] eqn:E.
    intros H; inversion H; subst. cbn [s_simple s_open s_lb s_sol s_abort s_crash s_dom upd_s]. auto 10.
  Qed.

  Lemma d_mub_dom (s : @sstate St) inp m : s_dom (maybe_update_best s inp m) = s_dom s.
  Proof. unfold maybe_update_best. destruct (_ >? _); reflexivity. Qed.

  Lemma d_phase s ct n s' inp m o :
    DCore s -> dd_ct ct -> good n -> (sp_depth n <= N)%nat ->
    run_compile st_eqb cfg s ct n = (s', inp, m, o) ->
    o = Compiled /\ inp = mk_input cfg ct n (s_lb s) /\
    compile st_eqb (mk_input cfg ct n (s_lb s)) 0 0 (s_cache s) (s_dom s) (s_polls s) = (m, Compiled) /\
    DCore (maybe_update_best s' inp m) /\ s_simple (maybe_update_best s' inp m) = s_simple s /\
    s_lb s <= s_lb (maybe_update_best s' inp m) /\
    (forall e, dd_best_exact_value inp m = Some e -> e <= s_lb (maybe_update_best s' inp m)).
  Proof.
    intros (Hcr & Hab & Hinc & Hfr & Hop & Hds) Hct Hg Hd Hrc.
    apply d_run_compile_spec in Hrc. destruct Hrc as (Hinp & Hc & R1 & R2 & R3 & R4 & R5 & R6 & R7).
    destruct (KD0 _ _ _ _ _ _ _ _ Hct Hg Hd Hds Hc) as (Ho & Hmc & Hds'). subst o.
    assert (Hlb' : IMIN <= s_lb s') by (rewrite R3; apply Hinc).
    pose proof (mub_spec cfg s' inp m Hlb') as Hm. cbv zeta in Hm.
    destruct Hm as (U1 & U2 & U3 & U4 & U5).
    split; [reflexivity|]. split; [exact Hinp|]. split; [exact Hc|].
    assert (Hcore_rest : s_crash (maybe_update_best s' inp m) = false /\ s_abort (maybe_update_best s' inp m) = false /\
              DFringeOK (s_simple (maybe_update_best s' inp m)) /\
              DOpenOK (s_open (maybe_update_best s' inp m)) (s_simple (maybe_update_best s' inp m)) /\
              dsok (s_dom (maybe_update_best s' inp m))).
    { rewrite U4, U3, U2, U1, R6, R5, R2, R1, Hcr, Hmc, Hab, d_mub_dom, R7. auto. }
    destruct Hcore_rest as (C1 & C2 & C4 & C5 & C6).
    destruct U5 as [(L1 & L2 & L3) | (v & Hv & Hgt & L1 & L2)].
    - split; [|split; [rewrite U1, R1; reflexivity|split; [rewrite L1, R3; lia|rewrite L1; exact L3]]].
      unfold DCore. rewrite L1, L2, R3, R4. auto 10.
    - subst inp. destruct (KD1 _ _ _ _ _ _ _ _ Hct Hg Hd Hds Hc v Hv) as (sol & Hsol & Hfeas).
      split; [|split; [rewrite U1, R1; reflexivity|split; [rewrite L1; rewrite R3 in Hgt; lia|]]].
      + unfold DCore. split; [exact C1|]. split; [exact C2|]. split; [|split; [exact C4|split; [exact C5|exact C6]]].
        rewrite L1, L2. split; [rewrite R3 in Hgt; destruct Hinc; lia|].
        right. exists sol. split; [exact Hsol|exact Hfeas].
      + intros e He. rewrite Hv in He. assert (e = v) by congruence. rewrite L1. lia.
  Qed.

  Definition d_enq_step (best_lb ub : Z) (s : @sstate St) (c : @subproblem St) : @sstate St :=
    let cub := Z.min ub (sp_ub c) in
    if cub >? best_lb then
      let c' := {| sp_state := sp_state c; sp_value := sp_value c; sp_path := sp_path c; sp_ub := cub; sp_depth := sp_depth c |} in
      let before := fr_len cfg s in
      let s := fr_push st_eqb cfg s c' in
      let after := fr_len cfg s in
      match nth_error (s_open s) (sp_depth c) with
      | None => crashed s
      | Some _ =>
          upd_s s (s_simple s) (s_nodup s) (s_explored s) (upd_nth (sp_depth c) (fun o => o + (after - before))%nat (s_open s))
                (s_fal s) (s_lb s) (s_ub s) (s_sol s) (s_abort s) (s_cache s) (s_dom s) (s_polls s) (s_crash s) (s_tie s) (s_compiles s)
      end
    else s.

  Lemma d_enqueue_cutset_fold s inp m ub :
    enqueue_cutset st_eqb cfg s inp m ub = fold_left (d_enq_step (s_lb s) ub) (drain_cutset inp m) s.
  Proof. reflexivity. Qed.

  Lemma d_enq_step_spec lb ub s c :
    (sp_depth c <= N)%nat -> DOpenOK (s_open s) (s_simple s) ->
    s_lb (d_enq_step lb ub s c) = s_lb s /\ s_sol (d_enq_step lb ub s c) = s_sol s /\
    s_abort (d_enq_step lb ub s c) = s_abort s /\ s_crash (d_enq_step lb ub s c) = s_crash s /\
    s_dom (d_enq_step lb ub s c) = s_dom s /\
    s_simple (d_enq_step lb ub s c) =
      (if Z.min ub (sp_ub c) >? lb then [set_ub c (Z.min ub (sp_ub c))] else []) ++ s_simple s /\
    DOpenOK (s_open (d_enq_step lb ub s c)) (s_simple (d_enq_step lb ub s c)).
  Proof.
    intros Hd Hop. unfold d_enq_step.
    destruct (Z.min ub (sp_ub c) >? lb) eqn:E; [|cbn [app]; auto 10].
    rewrite d_fr_push_simple, !d_fr_len_simple. cbn [s_simple s_open s_lb s_sol s_abort s_crash s_dom upd_s length].
    rewrite (Hop _ Hd). cbn [s_simple s_open s_lb s_sol s_abort s_crash s_dom upd_s app].
    repeat (split; [reflexivity|]).
    replace (S (length (s_simple s)) - length (s_simple s))%nat with 1%nat by lia.
    fold (set_ub c (Z.min ub (sp_ub c))).
    intros d Hd'. destruct (Nat.eq_dec (sp_depth c) d) as [Heq|Hne].
    - subst d. erewrite nth_error_upd_nth_same; [|apply Hop; exact Hd].
      change (sp_depth c) with (sp_depth (set_ub c (Z.min ub (sp_ub c)))) at 2.
      rewrite dcnt_cons_same. f_equal. cbn [set_ub sp_depth]. lia.
    - rewrite nth_error_upd_nth_other by exact Hne. rewrite (Hop _ Hd').
      rewrite dcnt_cons_other; [reflexivity|exact Hne].
  Qed.

  Lemma d_enq_fold_spec lb ub cs : forall s,
    (forall c, In c cs -> (sp_depth c <= N)%nat) -> DOpenOK (s_open s) (s_simple s) ->
    s_lb (fold_left (d_enq_step lb ub) cs s) = s_lb s /\ s_sol (fold_left (d_enq_step lb ub) cs s) = s_sol s /\
    s_abort (fold_left (d_enq_step lb ub) cs s) = s_abort s /\ s_crash (fold_left (d_enq_step lb ub) cs s) = s_crash s /\
    s_dom (fold_left (d_enq_step lb ub) cs s) = s_dom s /\
    DOpenOK (s_open (fold_left (d_enq_step lb ub) cs s)) (s_simple (fold_left (d_enq_step lb ub) cs s)) /\
    (forall x, In x (s_simple (fold_left (d_enq_step lb ub) cs s)) <->
       In x (s_simple s) \/ exists c, In c cs /\ Z.min ub (sp_ub c) > lb /\ x = set_ub c (Z.min ub (sp_ub c))) /\
    (dPhi (s_simple (fold_left (d_enq_step lb ub) cs s)) <= dPhi (s_simple s) + sumf dwt cs)%nat.
  Proof.
    induction cs as [|c cs IH]; intros s Hd Hop; cbn [fold_left].
    - repeat (split; [reflexivity|]). split; [exact Hop|]. split.
      + intros x; split; [auto|]. intros [H|(c & [] & _)]; exact H.
      + simpl. lia.
    - assert (Hdc : (sp_depth c <= N)%nat) by (apply Hd; left; reflexivity).
      destruct (d_enq_step_spec lb ub s c Hdc Hop) as (E1 & E2 & E3 & E4 & E4' & E5 & E6).
      destruct (IH (d_enq_step lb ub s c)) as (F1 & F2 & F3 & F4 & F4' & F5 & F6 & F7);
        [intros c' Hc'; apply Hd; right; exact Hc'|exact E6|].
      rewrite F1, F2, F3, F4, F4', E1, E2, E3, E4, E4'. repeat (split; [reflexivity|]). split; [exact F5|]. split.
      + intros x. rewrite F6, E5. destruct (Z.min ub (sp_ub c) >? lb) eqn:E.
        * rewrite Z.gtb_ltb in E. apply Z.ltb_lt in E. cbn [app In]. split.
          -- intros [[Hx|Hx]|(c' & Hc' & Hgt & Hx)].
             ++ right. exists c. split; [left; reflexivity|]. split; [lia|auto].
             ++ left; exact Hx.
             ++ right. exists c'. split; [right; exact Hc'|auto].
          -- intros [Hx|(c' & [Hc'|Hc'] & Hgt & Hx)].
             ++ left; right; exact Hx.
             ++ subst c'. left; left; auto.
             ++ right. exists c'. auto.
        * rewrite Z.gtb_ltb in E. apply Z.ltb_ge in E. cbn [app In]. split.
          -- intros [Hx|(c' & Hc' & Hgt & Hx)]; [left; exact Hx|]. right. exists c'. split; [right; exact Hc'|auto].
          -- intros [Hx|(c' & [Hc'|Hc'] & Hgt & Hx)]; [left; exact Hx| subst c'; lia |]. right. exists c'. auto.
      + eapply Nat.le_trans; [exact F7|]. rewrite E5. cbn [sumf].
        destruct (Z.min ub (sp_ub c) >? lb); cbn [app]; unfold dPhi; cbn [sumf].
        * change (dwt (set_ub c (Z.min ub (sp_ub c)))) with (dwt c). lia.
        * lia.
  Qed.

  Lemma d_kids_weight n cs : (length cs <= M)%nat ->
    (forall c, In c cs -> (sp_depth n < sp_depth c <= N)%nat) -> (sumf dwt cs < dwt n)%nat.
  Proof.
    intros Hlen Hd. destruct cs as [|c0 cs'].
    - simpl. pose proof (dwt_pos n). lia.
    - assert (Hn : (sp_depth n < N)%nat).
      { pose proof (Hd c0 (or_introl eq_refl)). lia. }
      revert Hlen Hd. generalize (c0 :: cs'). intros cs Hlen Hd.
      set (P := ((S M) ^ (N - S (sp_depth n)))%nat).
      assert (HP : (1 <= P)%nat). { unfold P. pose proof (Nat.pow_nonzero (S M) (N - S (sp_depth n))). lia. }
      assert (Hw : dwt n = (S M * P)%nat).
      { unfold dwt, P. replace (N - sp_depth n)%nat with (S (N - S (sp_depth n))) by lia.
        rewrite Nat.pow_succ_r'. reflexivity. }
      assert (Hs : (sumf dwt cs <= length cs * P)%nat).
      { apply sumf_le_const. intros c Hc. apply Hd in Hc. unfold dwt, P.
        apply Nat.pow_le_mono_r; lia. }
      rewrite Hw. assert (length cs * P <= M * P)%nat by (apply Nat.mul_le_mono_r; exact Hlen). lia.
  Qed.

  Lemma d_compl_close s n sA :
    DCompl s [n] -> (forall x, In x (s_simple s) -> In x (s_simple sA)) -> s_lb s <= s_lb sA ->
    (forall o, OPT = Some o -> best n = Some o -> o <= sp_ub n ->
       o <= s_lb sA \/ exists c, In c (s_simple sA) /\ best c = Some o /\ o <= sp_ub c) ->
    DCompl sA [].
  Proof.
    intros HC Hsub Hlb Hn o Ho. destruct (HC o Ho) as [Hle|(w & [Hw|Hw] & Hb & Hu)].
    - left. lia.
    - destruct Hw as [Hw|[]]. subst w. destruct (Hn o Ho Hb Hu) as [H|(c & Hc & Hbc & Huc)]; [left; exact H|].
      right. exists c. split; [right; exact Hc|auto].
    - right. exists w. split; [right; apply Hsub; exact Hw|auto].
  Qed.

  Lemma d_process_spec s n s2 err :
    DCore s -> DCompl s [n] -> good n -> (sp_depth n <= N)%nat ->
    process_one_node st_eqb cfg s n = (s2, err) ->
    err = false /\ DCore s2 /\ DCompl s2 [] /\ (dPhi (s_simple s2) < dPhi (s_simple s) + dwt n)%nat.
  Proof.
    intros HCore HCompl Hg Hd. unfold process_one_node.
    destruct (sp_ub n <=? s_lb s) eqn:Eub.
    { intros H; inversion H; subst s2 err. split; [reflexivity|]. split; [exact HCore|]. split.
      - apply (d_compl_close s n s HCompl); [auto|lia|]. intros o _ _ Hu. left. apply Z.leb_le in Eub. lia.
      - pose proof (dwt_pos n). lia. }
    rewrite cfg_nocache.
    destruct (run_compile st_eqb cfg s Restricted n) as [[[sa0 inpa] ma] oa] eqn:Ea.
    destruct (d_phase _ _ _ _ _ _ _ HCore (or_introl eq_refl) Hg Hd Ea) as (-> & Hinpa & Hca & HCa & Hsa & Hlba & Heva).
    cbv beta iota zeta.
    set (sa := maybe_update_best sa0 inpa ma) in HCa, Hsa, Hlba, Heva |- *.
    assert (Hdss : dsok (s_dom s)) by apply HCore.
    destruct (dd_is_exact ma) eqn:Eexa.
    { intros H; inversion H; subst s2 err. split; [reflexivity|]. split; [exact HCa|]. split.
      - apply (d_compl_close s n sa HCompl); [rewrite Hsa; auto|exact Hlba|]. intros o Ho Hb _. left.
        destruct (Z_le_gt_dec o (s_lb s)) as [Hle|Hgt]; [lia|].
        apply Heva. rewrite Hinpa. eapply KD2; eauto. left; reflexivity.
      - rewrite Hsa. pose proof (dwt_pos n). lia. }
    destruct (run_compile st_eqb cfg sa Relaxed n) as [[[sb0 inpb] mb] ob] eqn:Eb.
    destruct (d_phase _ _ _ _ _ _ _ HCa (or_intror eq_refl) Hg Hd Eb) as (-> & Hinpb & Hcb & HCb & Hsb & Hlbb & Hevb).
    cbv beta iota zeta.
    set (sb := maybe_update_best sb0 inpb mb) in HCb, Hsb, Hlbb, Hevb |- *.
    assert (Hdsa : dsok (s_dom sa)) by apply HCa.
    destruct (dd_is_exact mb) eqn:Eexb.
    { intros H; inversion H; subst s2 err. split; [reflexivity|]. split; [exact HCb|]. split.
      - apply (d_compl_close s n sb HCompl); [rewrite Hsb, Hsa; auto|lia|]. intros o Ho Hb _. left.
        destruct (Z_le_gt_dec o (s_lb sa)) as [Hle|Hgt]; [lia|].
        apply Hevb. rewrite Hinpb. eapply KD2; eauto. right; reflexivity.
      - rewrite Hsb, Hsa. pose proof (dwt_pos n). lia. }
    intros H; inversion H; subst s2 err. clear H. split; [reflexivity|].
    rewrite d_enqueue_cutset_fold. subst inpb.
    set (cs := drain_cutset (mk_input cfg Relaxed n (s_lb sa)) mb).
    assert (Hdep : forall c, In c cs -> (sp_depth n < sp_depth c <= N)%nat).
    { intros c Hc. eapply KD3_depth; eauto. }
    destruct HCb as (B1 & B2 & B3 & B4 & B5 & B6).
    destruct (d_enq_fold_spec (s_lb sb) (sp_ub n) cs sb) as (F1 & F2 & F3 & F4 & F4' & F5 & F6 & F7);
      [intros c Hc; apply Hdep in Hc; lia|exact B5|].
    split; [|split].
    - unfold DCore. rewrite F1, F2, F3, F4, F4'. split; [exact B1|]. split; [exact B2|]. split; [exact B3|].
      split; [|split; [exact F5|exact B6]]. intros x Hx. apply F6 in Hx. destruct Hx as [Hx|(c & Hc & _ & ->)].
      + apply B4; exact Hx.
      + split; [apply good_set_ub; eapply KD3_good; eauto|]. cbn [set_ub sp_depth]. apply Hdep in Hc. lia.
    - apply (d_compl_close s n _ HCompl).
      + intros x Hx. apply F6. left. rewrite Hsb, Hsa. exact Hx.
      + rewrite F1. lia.
      + intros o Ho Hb Hu. rewrite F1.
        destruct (Z_le_gt_dec o (s_lb sb)) as [Hle|Hgt]; [left; exact Hle|]. right.
        assert (Hgta : o > s_lb sa) by lia.
        destruct (KD4 _ _ _ _ _ _ _ Hg Hd Hdsa Hcb Eexb o Ho Hb Hgta) as (c & Hc & Hbc).
        { intros e He. apply Hevb in He. lia. }
        assert (Hubc : o <= sp_ub c) by (eapply KD3_ub; eauto).
        exists (set_ub c (Z.min (sp_ub n) (sp_ub c))). split; [|split].
        * apply F6. right. exists c. split; [exact Hc|]. split; [lia|reflexivity].
        * rewrite best_set_ub. exact Hbc.
        * cbn [set_ub sp_ub]. lia.
    - eapply Nat.le_lt_trans; [exact F7|]. rewrite Hsb, Hsa.
      apply Nat.add_lt_mono_l. apply d_kids_weight; [|exact Hdep].
      eapply KD5; eauto.
  Qed.

  Definition DFinal (s : @sstate St) : Prop :=
    s_crash s = false /\ s_abort s = false /\ s_ub s = s_lb s /\ DIncumbent (s_lb s) (s_sol s) /\
    (forall o, OPT = Some o -> o <= s_lb s).

  Lemma d_main_loop_spec : forall fuel s, DInv s -> (dPhi (s_simple s) < fuel)%nat ->
    exists s', main_loop st_eqb cfg fuel s = (s', Finished) /\ DFinal s'.
  Proof.
    induction fuel as [|fuel IH]; intros s [HCore HCompl] Hfuel; [lia|].
    cbn [main_loop]. assert (Hcr : s_crash s = false) by apply HCore. rewrite Hcr.
    destruct (d_get_workload_spec s HCore) as [(Hemp & s1 & Hgw & W1 & W2 & W3 & W4 & W5 & W6)
                                              |(x & rest & s1 & Hgw & Hperm & W1 & HC1 & W2)]; rewrite Hgw.
    - exists s1. split; [reflexivity|]. unfold DFinal. rewrite W6, W5, W4. split; [exact W2|]. split; [exact W3|].
      split; [reflexivity|]. split; [apply HCore|]. intros o Ho.
      destruct (HCompl o Ho) as [H|(w & [[]|Hw] & _)]; [exact H|]. rewrite Hemp in Hw. destruct Hw.
    - destruct (process_one_node st_eqb cfg s1 x) as [s2 err] eqn:Ep.
      assert (Hx : In x (s_simple s)).
      { eapply Permutation_in; [apply Permutation_sym; exact Hperm|]. left; reflexivity. }
      destruct HCore as (_ & _ & _ & Hfr & _). destruct (Hfr x Hx) as [Hgx Hdx].
      assert (HCompl1 : DCompl s1 [x]).
      { intros o Ho. rewrite W2. destruct (HCompl o Ho) as [H|(w & [[]|Hw] & Hb & Hu)]; [left; exact H|].
        right. exists w. split; [|auto]. eapply Permutation_in in Hw; [|exact Hperm].
        destruct Hw as [Hw|Hw]; [left; left; exact Hw|right; rewrite W1; exact Hw]. }
      destruct (d_process_spec s1 x s2 err HC1 HCompl1 Hgx Hdx Ep) as (-> & HC2 & HCompl2 & HPhi).
      apply IH; [split; assumption|].
      rewrite (dPhi_perm _ _ Hperm) in Hfuel. unfold dPhi in Hfuel, HPhi |- *. cbn [sumf] in Hfuel. rewrite W1 in HPhi. lia.
  Qed.

  Lemma d_initialize_inv s0 :
    s_simple s0 = [] -> s_open s0 = repeat O (S N) -> s_crash s0 = false -> s_abort s0 = false ->
    DIncumbent (s_lb s0) (s_sol s0) -> dsok (s_dom s0) ->
    DInv (initialize_solver st_eqb cfg s0) /\ s_simple (initialize_solver st_eqb cfg s0) = [root_node cfg].
  Proof.
    intros H1 H2 H3 H4 H5 H6. unfold initialize_solver. rewrite d_fr_push_simple.
    cbn [s_simple s_open s_lb s_sol s_abort s_crash upd_s]. rewrite H1. split; [|reflexivity].
    split.
    - unfold DCore. cbn [s_simple s_open s_lb s_sol s_abort s_crash s_dom upd_s].
      split; [exact H3|]. split; [exact H4|]. split; [exact H5|]. split; [|split; [|exact H6]].
      + intros n [<-|[]]. split; [exact good_root|]. cbn [root_node sp_depth]. lia.
      + intros d Hd. rewrite H2. destruct d as [|d].
        * reflexivity.
        * cbn [repeat upd_nth nth_error]. rewrite nth_error_repeat by lia.
          rewrite dcnt_cons_other by (cbn [root_node sp_depth]; lia). reflexivity.
    - intros o Ho. right. exists (root_node cfg). cbn [s_simple upd_s]. split; [right; left; reflexivity|].
      split; [exact Ho|]. cbn [root_node sp_ub]. apply opt_in_isize. exact Ho.
  Qed.

  Definition d_fuel0 : nat := S ((S M) ^ N).

  Definition d_result_ok (r : sresult) : Prop :=
    r_crash r = false /\ r_outoffuel r = false /\ r_exact r = true /\ r_value r = OPT /\
    (forall v, OPT = Some v ->
       r_lb r = v /\ r_ub r = v /\ exists sol, r_sol r = Some (sort_by dec_var_cmp sol) /\ feasible sol v) /\
    (OPT = None -> r_sol r = None /\ r_lb r = IMIN).

  Lemma d_final_result s :
    DFinal s ->
    (forall v, OPT = Some v -> s_lb s = v /\ exists sol, s_sol s = Some sol /\ feasible sol v) /\
    (OPT = None -> s_sol s = None /\ s_lb s = IMIN).
  Proof.
    intros (_ & _ & _ & [Hmin Hinc] & Hopt). split.
    - intros v Hv. pose proof (Hopt v Hv) as Hle. pose proof (opt_in_isize v Hv) as Hr.
      destruct Hinc as [[_ Hlb]|(sol & Hsol & Hfeas)]; [lia|].
      destruct (feasible_le_opt _ _ Hfeas) as (o & Ho & Hlo). rewrite Hv in Ho. inversion Ho; subst o.
      assert (Heq : s_lb s = v) by lia. split; [exact Heq|]. exists sol. rewrite <- Heq. auto.
    - intros Hnone. destruct Hinc as [[Hs Hlb]|(sol & Hsol & Hfeas)]; [auto|].
      destruct (feasible_le_opt _ _ Hfeas) as (o & Ho & _). rewrite Hnone in Ho. discriminate.
  Qed.

  (* C10 at solver level, from the contracts *)
  Theorem dom_maximize_correct :
    forall fuel, (d_fuel0 <= fuel)%nat -> d_result_ok (maximize st_eqb cfg fuel None).
  Proof.
    intros fuel Hfuel.
    assert (Hinit : DIncumbent (s_lb (init_sstate cfg)) (s_sol (init_sstate cfg))).
    { cbn [init_sstate s_lb s_sol]. split; [lia|]. left. auto. }
    destruct (d_initialize_inv (init_sstate cfg) eq_refl eq_refl eq_refl eq_refl Hinit dsok_init) as [HInv Hsimple].
    destruct (d_main_loop_spec fuel _ HInv) as (s' & Hml & HF).
    { rewrite Hsimple. unfold dPhi, dwt. cbn [sumf root_node sp_depth]. rewrite Nat.sub_0_r. unfold d_fuel0 in Hfuel. lia. }
    unfold maximize. rewrite Hml. destruct (d_final_result s' HF) as [Hsome Hnone].
    destruct HF as (F1 & F2 & F3 & F4 & F5).
    unfold d_result_ok. cbn [r_crash r_outoffuel r_exact r_value r_lb r_ub r_sol].
    split; [exact F1|]. split; [reflexivity|]. split; [rewrite F2; reflexivity|].
    assert (Hcase : forall x : option Z, (exists v, x = Some v) \/ x = None) by (intros [v|]; eauto).
    destruct (Hcase OPT) as [[v EO]|EO]; rewrite EO.
    - destruct (Hsome v EO) as (Hlb & sol & Hsol & Hfeas). rewrite Hsol, Hlb. cbn [option_map].
      split; [reflexivity|]. split; [|discriminate].
      intros v' Hv'. inversion Hv'; subst v'. split; [reflexivity|]. split; [rewrite F3; exact Hlb|].
      exists sol. auto.
    - destruct (Hnone EO) as [Hsol Hlb]. rewrite Hsol, Hlb. cbn [option_map].
      split; [reflexivity|]. split; [discriminate|]. auto.
  Qed.
End DomSolver.

(* 4. the dominance filter of one layer *)
Local Open Scope nat_scope.

Section DomFilter.
  Context {St : Type}.
  Variable inp : @cinput St.
  Variable key : St -> option Z.
  Variable nd : nat.
  Variable coord : St -> nat -> Z.
  Variable usev : bool.
  Hypothesis Hdom : ci_domrule inp = Some (key, nd, coord, usev).
  Notation mdd := (@mdd St).
  Notation gn := (get_node inp).

  Definition sbucket (st : @dstore St Z) (d : nat) (k : Z) : @bucket St := store_bucket Z.eqb st d k.

  (* every recorded entry satisfies P (depth, key, state, value) *)
  Definition store_all (P : nat -> Z -> St -> Z -> Prop) (st : @dstore St Z) : Prop :=
    forall d k e ve, In (e, ve) (sbucket st d k) -> P d k e ve.

  Lemma store_all_init P n : store_all P (init_dstore n).
  Proof.
    intros d k e ve Hin. unfold sbucket, store_bucket, init_dstore in Hin.
    match type of Hin with In _ (match ?X with _ => _ end) => destruct X as [l|] eqn:E end; [|destruct Hin].
    apply nth_error_In in E. apply repeat_spec in E. subst l. destruct Hin.
  Qed.

  Lemma dom_query_spec (m : mdd) s d v m' r :
    dom_query inp m s d v = (m', r) -> d < length (m_dom m) ->
    m_crash m' = m_crash m /\ length (m_dom m') = length (m_dom m) /\
    (dc_dominated r = true ->
       exists k os ov, key s = Some k /\ In (os, ov) (sbucket (m_dom m) d k) /\ sdom nd coord usev os ov s v) /\
    (forall d' k' e ve, In (e, ve) (sbucket (m_dom m') d' k') ->
       In (e, ve) (sbucket (m_dom m) d' k') \/ (d' = d /\ key s = Some k' /\ e = s /\ ve = v)).
  Proof.
    unfold dom_query. rewrite Hdom. intros H Hd.
    destruct (is_dominated_or_insert Z.eqb key nd coord usev (m_dom m) s d v) as [[st' r0]|] eqn:E.
    2:{ apply (idoi_None_iff Z.eqb key nd coord usev) in E. destruct E as [_ E]. lia. }
    inversion H; subst m' r. clear H. msimpl.
    destruct (key s) as [k|] eqn:Ek.
    - destruct (idoi_spec Z.eqb Z.eqb_eq key nd coord usev (m_dom m) s d v k st' r0 Ek E) as (B1 & B2 & B3).
      symmetry in B1. destruct (bucket_query_verdict key nd coord usev s v _ _ _ B1) as (V1 & V2 & V3).
      split; [reflexivity|]. split; [exact B3|]. split.
      + intros Hdm. apply V1 in Hdm. destruct Hdm as (os & ov & o & Hin & Hpc).
        exists k, os, ov. split; [reflexivity|]. split; [exact Hin|].
        apply (partial_cmp_Lt_iff key nd coord usev s v os ov). exists o. exact Hpc.
      + intros d' k' e ve Hin. destruct (Nat.eq_dec d' d) as [->|Hnd]; [destruct (Z.eq_dec k' k) as [->|Hnk]|].
        * unfold sbucket in Hin. destruct (dc_dominated r0) eqn:Er.
          -- destruct (V3 eq_refl) as [V3' _]. rewrite V3' in Hin. apply filter_In in Hin. left. apply Hin.
          -- destruct (V2 eq_refl) as [V2' _]. rewrite V2' in Hin. apply in_app_or in Hin. destruct Hin as [Hin|[Hin|[]]].
             ++ apply filter_In in Hin. left. apply Hin.
             ++ inversion Hin; subst. right. auto.
        * left. unfold sbucket in *. rewrite B2 in Hin by (right; exact Hnk). exact Hin.
        * left. unfold sbucket in *. rewrite B2 in Hin by (left; exact Hnd). exact Hin.
    - rewrite (idoi_no_key Z.eqb key nd coord usev (m_dom m) s d v Ek) in E. inversion E; subst st' r0.
      split; [reflexivity|]. split; [reflexivity|]. split; [cbn; discriminate|]. intros d' k' e ve Hin. left. exact Hin.
  Qed.

  Lemma core_eq_trans' (a b c : @node St) : core_eq a b -> core_eq b c -> core_eq a c.
  Proof.
    intros (a1 & a2 & a3 & a4 & a5 & a6 & a7) (b1 & b2 & b3 & b4 & b5 & b6 & b7).
    repeat split; congruence.
  Qed.

  Lemma gn_upd_theta_core (m : mdd) id t x : core_eq (gn m x) (gn (upd_node m id (fun n => set_theta n t)) x).
  Proof.
    pose proof (ceq_upd_node inp m id (fun n => set_theta n t) (fun n => core_eq_set_theta n t)) as ((_ & _ & _ & A) & _).
    apply A.
  Qed.

  (* the retain loop, in terms of the node data BEFORE the loop (the loop only touches theta, the log and the store) *)
  Lemma dom_retain_spec (P : nat -> Z -> St -> Z -> Prop) l : forall (m m' : mdd) l',
    dom_retain inp m l = (m', l') ->
    (forall id, In id l -> n_depth (gn m id) < length (m_dom m)) ->
    store_all P (m_dom m) ->
    (forall id k, In id l -> fl_is_exact (n_flags (gn m id)) = true -> key (n_state (gn m id)) = Some k ->
       P (n_depth (gn m id)) k (n_state (gn m id)) (n_vtop (gn m id))) ->
    m_crash m' = m_crash m /\ length (m_dom m') = length (m_dom m) /\ store_all P (m_dom m') /\
    (forall id, In id l -> ~ In id l' ->
       fl_is_exact (n_flags (gn m id)) = true /\
       exists k e ve, key (n_state (gn m id)) = Some k /\ P (n_depth (gn m id)) k e ve /\
                      sdom nd coord usev e ve (n_state (gn m id)) (n_vtop (gn m id))).
  Proof.
    induction l as [|id l IH]; intros m m' l' H Hlen HP Hex; cbn [dom_retain] in H.
    - inversion H; subst. split; [reflexivity|]. split; [reflexivity|]. split; [exact HP|]. intros id [].
    - destruct (fl_is_exact (n_flags (gn m id))) eqn:Eex.
      + destruct (dom_query inp m (n_state (gn m id)) (n_depth (gn m id)) (n_vtop (gn m id))) as [m1 r] eqn:Eq.
        destruct (dom_query_spec m _ _ _ m1 r Eq (Hlen id (or_introl eq_refl))) as (Q1 & Q2 & Q3 & Q4).
        pose proof (dom_query_ceq inp m (n_state (gn m id)) (n_depth (gn m id)) (n_vtop (gn m id))) as Hc.
        rewrite Eq in Hc. cbn [fst] in Hc. destruct Hc as ((_ & _ & _ & Hcore) & _).
        assert (HP1 : store_all P (m_dom m1)).
        { intros d' k' e ve Hin. destruct (Q4 d' k' e ve Hin) as [Hold|(-> & Hk & -> & ->)]; [apply HP; exact Hold|].
          apply Hex; auto. left; reflexivity. }
        destruct (dc_dominated r) eqn:Er.
        * set (m2 := upd_node m1 id (fun n => set_theta n (dc_threshold r))) in *.
          assert (Hcore2 : forall x, core_eq (gn m x) (gn m2 x)).
          { intros x. eapply core_eq_trans'; [apply Hcore|apply gn_upd_theta_core]. }
          destruct (IH m2 m' l' H) as (I1 & I2 & I3 & I4).
          -- intros x Hx. destruct (Hcore2 x) as (_ & _ & _ & _ & _ & _ & Hd). rewrite <- Hd.
             unfold m2. msimpl. rewrite Q2. apply Hlen. right; exact Hx.
          -- exact HP1.
          -- intros x k Hx Hxe Hxk. pose proof (Hcore2 x) as Hcx.
             rewrite <- (core_eq_is_exact _ _ Hcx) in Hxe.
             destruct Hcx as (c1 & c2 & _ & _ & _ & _ & c7). rewrite <- c1 in Hxk. rewrite <- c1, <- c2, <- c7.
             apply Hex; auto. right; exact Hx.
          -- split; [rewrite I1; unfold m2; msimpl; exact Q1|]. split; [rewrite I2; unfold m2; msimpl; exact Q2|].
             split; [exact I3|]. intros x [<-|Hx] Hnx.
             ++ split; [exact Eex|]. destruct (Q3 eq_refl) as (k & os & ov & Hk & Hin & Hs).
                exists k, os, ov. split; [exact Hk|]. split; [apply HP; exact Hin|exact Hs].
             ++ destruct (I4 x Hx Hnx) as (J1 & k & e & ve & J2 & J3 & J4). pose proof (Hcore2 x) as Hcx.
                rewrite <- (core_eq_is_exact _ _ Hcx) in J1.
                destruct Hcx as (c1 & c2 & _ & _ & _ & _ & c7). rewrite <- c1 in J2, J4. rewrite <- c2 in J4. rewrite <- c7 in J3.
                split; [exact J1|]. exists k, e, ve. auto.
        * destruct (dom_retain inp m1 l) as [m2 k2] eqn:Er2. inversion H; subst m' l'. clear H.
          destruct (IH m1 m2 k2 Er2) as (I1 & I2 & I3 & I4).
          -- intros x Hx. destruct (Hcore x) as (_ & _ & _ & _ & _ & _ & Hd). rewrite <- Hd, Q2. apply Hlen. right; exact Hx.
          -- exact HP1.
          -- intros x k Hx Hxe Hxk. pose proof (Hcore x) as Hcx.
             rewrite <- (core_eq_is_exact _ _ Hcx) in Hxe.
             destruct Hcx as (c1 & c2 & _ & _ & _ & _ & c7). rewrite <- c1 in Hxk. rewrite <- c1, <- c2, <- c7.
             apply Hex; auto. right; exact Hx.
          -- split; [rewrite I1; exact Q1|]. split; [rewrite I2; exact Q2|]. split; [exact I3|].
             intros x [<-|Hx] Hnx; [exfalso; apply Hnx; left; reflexivity|].
             destruct (I4 x Hx) as (J1 & k & e & ve & J2 & J3 & J4); [intros Hc; apply Hnx; right; exact Hc|].
             pose proof (Hcore x) as Hcx. rewrite <- (core_eq_is_exact _ _ Hcx) in J1.
             destruct Hcx as (c1 & c2 & _ & _ & _ & _ & c7). rewrite <- c1 in J2, J4. rewrite <- c2 in J4. rewrite <- c7 in J3.
             split; [exact J1|]. exists k, e, ve. auto.
      + destruct (dom_retain inp m l) as [m2 k2] eqn:Er2. inversion H; subst m' l'. clear H.
        destruct (IH m m2 k2 Er2) as (I1 & I2 & I3 & I4).
        -- intros x Hx. apply Hlen. right; exact Hx.
        -- exact HP.
        -- intros x k Hx. apply Hex. right; exact Hx.
        -- split; [exact I1|]. split; [exact I2|]. split; [exact I3|].
           intros x [<-|Hx] Hnx; [exfalso; apply Hnx; left; reflexivity|].
           apply I4; [exact Hx|]. intros Hc; apply Hnx; right; exact Hc.
  Qed.

  Lemma filter_with_dominance_spec (P : nat -> Z -> St -> Z -> Prop) (m m' : mdd) l l' :
    filter_with_dominance inp m l = (m', l') ->
    (forall id, In id l -> n_depth (gn m id) < length (m_dom m)) ->
    store_all P (m_dom m) ->
    (forall id k, In id l -> fl_is_exact (n_flags (gn m id)) = true -> key (n_state (gn m id)) = Some k ->
       P (n_depth (gn m id)) k (n_state (gn m id)) (n_vtop (gn m id))) ->
    m_crash m' = m_crash m /\ length (m_dom m') = length (m_dom m) /\ store_all P (m_dom m') /\
    (forall id, In id l -> ~ In id l' ->
       fl_is_exact (n_flags (gn m id)) = true /\
       exists k e ve, key (n_state (gn m id)) = Some k /\ P (n_depth (gn m id)) k e ve /\
                      sdom nd coord usev e ve (n_state (gn m id)) (n_vtop (gn m id))).
  Proof.
    unfold filter_with_dominance. intros H Hlen HP Hex.
    destruct (dom_retain_spec P (sort_by (dom_order inp m) l) m m' l' H) as (R1 & R2 & R3 & R4).
    - intros id Hid. apply Hlen. apply sort_by_In in Hid. exact Hid.
    - exact HP.
    - intros id k Hid. apply Hex. apply sort_by_In in Hid. exact Hid.
    - split; [exact R1|]. split; [exact R2|]. split; [exact R3|]. intros id Hid. apply R4. apply sort_by_In. exact Hid.
  Qed.
End DomFilter.

(* 5. the structural contracts with a dominance rule: MddProgress.v's Section Traversal with [fitD] for its store
   condition (the store must be long enough for the depths met) *)
Section DomProgress.
  Context {St : Type}.
  Variable st_eqb : St -> St -> bool.
  Hypothesis st_eqb_spec : forall a b, st_eqb a b = true <-> a = b.
  Variable inp : @cinput St.
  Variable key : St -> option Z.
  Variable nd : nat.
  Variable coord : St -> nat -> Z.
  Variable usev : bool.
  Hypothesis Hdom : ci_domrule inp = Some (key, nd, coord, usev).

  Notation mdd := (@mdd St).
  Notation gn := (get_node inp).
  Notation pb := (ci_problem inp).
  Notation N := (nb_vars (ci_problem inp)).
  Notation d0 := (sp_depth (ci_root inp)).

  Hypothesis Hclean : ci_flavour inp = CleanLEL \/ ci_flavour inp = CleanFC.
  Hypothesis Hnocache : ci_use_cache inp = false.
  Hypothesis Hnocut : ci_cutoff inp = 0.
  Hypothesis Hwidth : 1 <= ci_width inp.
  Hypothesis nv_some : forall k l, k < N -> exists x, next_variable pb k l = Some x.
  Hypothesis nv_none : forall k l, N <= k -> next_variable pb k l = None.
  Hypothesis Hroot_depth : d0 <= N.

  (* the store is long enough for every depth met *)
  Definition fitD (m : mdd) : Prop := N < length (m_dom m).

  Lemma fitD_stores (m m' : mdd) : m_cache m' = m_cache m -> m_dom m' = m_dom m -> fitD m -> fitD m'.
  Proof. unfold fitD. intros _ ->. auto. Qed.

  (* on the open layer, whose nodes have a depth <= N, the query never leaves the store *)
  Lemma fitD_filters dn (m : mdd) l m1 l1 m2 l2 :
    prefilter st_eqb inp m l = (m1, l1) -> filter_with_dominance inp m1 l1 = (m2, l2) ->
    Pinv inp dn m -> dn <= N -> in_open m l -> fitD m -> m_crash m2 = m_crash m /\ fitD m2.
  Proof.
    intros H1 H2 HP Hdn Ho Hf.
    destruct (prefilter_step st_eqb inp Hclean Hnocache Hnocut Hwidth Hroot_depth dn m l m1 l1 H1 HP) as (A1 & A2 & _ & A4).
    assert (Hdom1 : m_dom m1 = m_dom m).
    { pose proof (dom_prefilter st_eqb inp m l) as Hp. rewrite H1 in Hp. exact Hp. }
    destruct (filter_with_dominance_spec inp key nd coord usev Hdom (fun _ _ _ _ => True) m1 m2 l1 l2 H2) as (C3 & C4 & _).
    - intros id Hid. rewrite Hdom1.
      destruct (in_open_keep inp Hnocut Hwidth Hroot_depth m m1 l l1 A2 A4 Ho id Hid) as [o1 o2].
      rewrite (P_open _ _ _ A1 id o1 o2). unfold fitD in Hf. lia.
    - intros d k e ve _; exact I.
    - intros; exact I.
    - split; [rewrite C3; apply (k_crash _ _ _ A2)|]. unfold fitD. rewrite C4, Hdom1. exact Hf.
  Qed.

  Theorem compile_factsD tb tb2 c ds polls (m : mdd) out : N < length ds ->
    compile st_eqb inp tb tb2 c ds polls = (m, out) ->
    out = Compiled /\ m_crash m = false /\
    (forall id, id < length (m_nodes m) -> d0 <= n_depth (gn m id) <= N) /\
    (forall b, m_best m = Some b \/ m_best_exact m = Some b -> n_depth (gn m b) = N) /\
    (ci_type inp = Relaxed -> forall sp, In sp (drain_cutset inp m) -> d0 < sp_depth sp <= N) /\
    NoDup (m_cutset m) /\
    (ci_type inp = Relaxed -> forall id, In id (m_cutset m) -> id < length (m_nodes m)).
  Proof.
    intros Hds H.
    destruct (compile_final_gen st_eqb st_eqb_spec inp Hclean Hnocache Hnocut Hwidth nv_some nv_none Hroot_depth
                fitD fitD_stores fitD_filters tb tb2 c ds polls m out Hds H)
      as (F0 & F1 & Fd & _ & _ & Fn & G1 & G2 & Fnd & Fc).
    split; [exact F0|]. split; [exact F1|]. split; [exact Fd|]. split; [|split; [|split; [exact Fnd|]]].
    - intros b Hb. apply Fn. destruct Hb as [Hb|Hb]; [apply G1|apply G2]; exact Hb.
    - intros Hr sp Hin. destruct (drain_cutset_In inp _ sp Hin) as (id & Hid & ->).
      destruct (Fc Hr id Hid) as [a b]. specialize (Fd id a). lia.
    - intros Hr id Hid. apply (Fc Hr id Hid).
  Qed.

  (* size of the diagram (K5) *)
  Variable D : nat.
  Hypothesis dom_bound : forall x s, length (domain pb x s) <= D.

  Theorem cutset_size_boundD tb tb2 c ds polls (m : mdd) out : N < length ds ->
    ci_type inp = Relaxed ->
    compile st_eqb inp tb tb2 c ds polls = (m, out) -> length (drain_cutset inp m) <= Mbound inp D.
  Proof.
    exact (cutset_size_bound_gen st_eqb st_eqb_spec inp Hclean Hnocache Hnocut Hwidth nv_some nv_none Hroot_depth
             D dom_bound fitD fitD_stores fitD_filters tb tb2 c ds polls m out).
  Qed.
End DomProgress.

(* 6. the simulation argument with a dominance rule.  MddSim.tracking is instantiated (rule_tracking): the threshold is max lb tau, the store invariant says that the store is long
   enough for the depths met and that every entry satisfies [Pst], and the filter keeps every node that is not
   [droppable].  The hypothesis [Hsafe] says that a pair (state, value) reached from the root whose best completion
   exceeds tau is never strictly dominated by a pair satisfying [Pst]; [Hexact_Pst] says that what the compilation
   records satisfies [Pst]. *)
Section DomSim.
  Context {St : Type}.
  Variable st_eqb : St -> St -> bool.
  Hypothesis st_eqb_spec : forall a b, st_eqb a b = true <-> a = b.
  Variable inp : @cinput St.
  Local Notation pb := (ci_problem inp).
  Local Notation rlx := (ci_relax inp).
  Local Notation root := (ci_root inp).
  Local Notation lb := (ci_best_lb inp).
  Local Notation N := (nb_vars (ci_problem inp)).
  Local Notation rd := (sp_depth (ci_root inp)).
  Local Notation rs := (sp_state (ci_root inp)).
  Local Notation rv := (sp_value (ci_root inp)).
  Hypothesis Hclean : ci_flavour inp = CleanLEL \/ ci_flavour inp = CleanFC.
  Hypothesis Hnocache : ci_use_cache inp = false.
  Hypothesis Hnocut : ci_cutoff inp = 0.
  Hypothesis Hwidth : 1 <= ci_width inp.
  Hypothesis Hrd : rd <= N.
  Hypothesis nv_static : forall k l1 l2, next_variable pb k l1 = next_variable pb k l2.
  Hypothesis nv_some : forall k l, k < N -> exists x, next_variable pb k l = Some x.
  Hypothesis nv_none : forall k l, N <= k -> next_variable pb k l = None.
  Variable cov : St -> St -> Prop.
  Hypothesis cov_refl : forall s, cov s s.
  Hypothesis cov_sim : forall s s' x v, cov s s' -> In v (domain pb x s') ->
    let d := {| d_var := x; d_val := v |} in
    In v (domain pb x s) /\ cov (transition pb s d) (transition pb s' d) /\
    (transition_cost pb s' (transition pb s' d) d <= transition_cost pb s (transition pb s d) d)%Z.
  Hypothesis merge_cov : forall L s s', In s L -> cov s s' -> cov (merge rlx L) s'.
  Hypothesis relax_ge : forall src dst mg d c, (c <= relax rlx src dst mg d c)%Z.
  Hypothesis rub_adm : forall k s s' h, cov s s' -> H pb k s' = Some h -> (h <= fast_upper_bound rlx s)%Z.
  Variable B : Z.
  Hypothesis HB : (2 * B <= IMAX)%Z.
  Hypothesis Hguard : forall ds s' v', frun pb rd rs rv ds = Some (s', v') -> (- B <= v' <= B)%Z.

  Variable key : St -> option Z.
  Variable nd : nat.
  Variable coord : St -> nat -> Z.
  Variable usev : bool.
  Hypothesis Hdom : ci_domrule inp = Some (key, nd, coord, usev).
  Variable tau : Z.
  Variable Pst : nat -> Z -> St -> Z -> Prop.
  Hypothesis Hexact_Pst : forall ds s v k,
    frun pb rd rs rv ds = Some (s, v) -> key s = Some k -> Pst (rd + length ds) k s v.
  Hypothesis Hsafe : forall ds s v k h e ve,
    frun pb rd rs rv ds = Some (s, v) -> key s = Some k -> H pb (rd + length ds) s = Some h ->
    (tau < v + h)%Z -> Pst (rd + length ds) k e ve -> ~ sdom nd coord usev e ve s v.

  Notation mdd := (@mdd St).
  Notation node := (@node St).
  Notation gn := (get_node inp).
  Notation frn := (frun pb).

  (* inp with the incumbent raised to max lb tau: its promising runs are exactly the tracked ones.  The argument below
     goes through [rule_tracking] and does not need it. *)
  Definition inpT : @cinput St :=
    {| ci_flavour := ci_flavour inp; ci_type := ci_type inp; ci_problem := ci_problem inp; ci_relax := ci_relax inp;
       ci_ranking := ci_ranking inp; ci_domcmp := ci_domcmp inp; ci_width := ci_width inp; ci_root := ci_root inp;
       ci_best_lb := Z.max lb tau; ci_use_cache := ci_use_cache inp; ci_domrule := ci_domrule inp; ci_cutoff := ci_cutoff inp |}.

  Local Notation is_ex := (MddSim.is_ex inp).
  Local Notation Cinv := (MddSim.Cinv inp).
  Local Notation vstar := (MddSim.vstar inp).
  Let clean_chain_frun := MddSim.clean_chain_frun inp Hnocut Hwidth Hrd nv_static B HB Hguard.

  (* a covering state has at least the value-to-go of the covered one *)
  Lemma cov_frun ds : forall k s s' v v' sN' w', cov s s' -> (v' <= v)%Z ->
    frn k s' v' ds = Some (sN', w') -> exists sN w, frn k s v ds = Some (sN, w) /\ cov sN sN' /\ (w' <= w)%Z.
  Proof.
    induction ds as [|d ds IH]; intros k s s' v v' sN' w' Hc Hv Hr; cbn [frun] in *.
    - inversion Hr; subst. exists s, v. auto.
    - destruct (var_ok pb k d) eqn:Ev; cbn [andb] in *; [|discriminate].
      destruct (in_domain pb s' d) eqn:Ed; [|discriminate].
      apply (in_domain_In pb) in Ed.
      destruct (cov_sim s s' (d_var d) (d_val d) Hc Ed) as (C1 & C2 & C3). cbv zeta in C2, C3.
      assert (Edd : {| d_var := d_var d; d_val := d_val d |} = d) by (destruct d; reflexivity).
      rewrite Edd in C2, C3. rewrite (In_in_domain pb s d C1).
      eapply IH; [exact C2| |exact Hr]. lia.
  Qed.

  Lemma cov_H k s s' h : k <= N -> cov s s' -> H pb k s' = Some h -> exists h', H pb k s = Some h' /\ (h <= h')%Z.
  Proof.
    intros Hk Hc Hh.
    destruct (H_attained pb nv_static nv_some nv_none (N - k) k s' 0%Z h eq_refl Hk Hh) as (ds & sN & Hr & Hl).
    destruct (cov_frun ds k s s' 0%Z 0%Z sN (0 + h)%Z Hc ltac:(lia) Hr) as (sN2 & w & Hr2 & _ & Hw).
    destruct (frun_le_H pb nv_static nv_none ds k s 0%Z sN2 w Hl Hr2) as (h' & Hh' & Hle).
    exists h'. split; [exact Hh'|lia].
  Qed.

  (* a node the filter may drop: exact, and strictly dominated by a pair satisfying the store invariant *)
  Definition droppable (m : mdd) (u : nat) : Prop :=
    is_ex m u = true /\
    exists k e ve, key (n_state (gn m u)) = Some k /\ Pst (n_depth (gn m u)) k e ve /\
                   sdom nd coord usev e ve (n_state (gn m u)) (n_vtop (gn m u)).

  Lemma tracked_not_droppable (m : mdd) d u s' h v1 :
    Cinv d m -> d <= N -> In u (m_next m) -> cov (n_state (gn m u)) s' -> H pb d s' = Some h ->
    (v1 <= n_vtop (gn m u))%Z -> (tau < v1 + h)%Z -> ~ droppable m u.
  Proof.
    intros (HD & HX & Hnd & HE) HdN Hu Hc Hh Hv Ht (Hex & k & e & ve & Hk & HP & Hs).
    pose proof (D_next _ _ _ HD u Hu) as Hr.
    pose proof (Sinv_exact_flag_clean_chain inp m (Dinv_Sinv inp m HD) u (proj2 Hr) Hex) as Hcc.
    destruct (clean_chain_frun m u (Dinv_Sinv inp m HD) Hcc (proj2 Hr)) as (dsu & Hru & Hdu).
    rewrite (Hnd u Hu) in Hdu, HP.
    destruct (cov_H d _ s' h HdN Hc Hh) as (h' & Hh' & Hle).
    rewrite Hdu in HP, Hh'.
    apply (Hsafe dsu _ _ k h' e ve Hru Hk Hh' ltac:(lia) HP). exact Hs.
  Qed.

  Definition dsokT (st : @dstore St Z) : Prop := N < length st /\ store_all Pst st.

  Lemma rule_tracking : MddSim.tracking inp cov (Z.max lb tau) dsokT (fun m u => ~ droppable m u).
  Proof.
    split; [lia|]. split.
    - intros d m mb HC HdN [Hl Hs] Hcore Hdm.
      pose proof HC as (HD & _ & Hnd & _).
      destruct (filter_with_dominance inp mb (m_next m)) as [mc lc] eqn:Efd. cbn [fst snd].
      destruct (filter_with_dominance_spec inp key nd coord usev Hdom Pst mb mc (m_next m) lc Efd) as (_ & F2 & F3 & F4).
      { intros id Hid. rewrite Hdm. destruct (Hcore id) as (_ & _ & _ & _ & _ & _ & c7). rewrite <- c7, (Hnd id Hid). lia. }
      { rewrite Hdm. exact Hs. }
      { intros id k Hid Hex Hk. destruct (Hcore id) as (c1 & c2 & _ & _ & c5 & c6 & c7).
        rewrite <- c1 in Hk. rewrite <- c1, <- c2, <- c7.
        assert (Hex' : fl_is_exact (n_flags (gn m id)) = true).
        { unfold fl_is_exact in *. rewrite c5, c6. exact Hex. }
        pose proof (D_next _ _ _ HD id Hid) as Hr.
        pose proof (Sinv_exact_flag_clean_chain inp m (Dinv_Sinv inp m HD) id (proj2 Hr) Hex') as Hcch.
        destruct (clean_chain_frun m id (Dinv_Sinv inp m HD) Hcch (proj2 Hr)) as (dsu & Hru & Hdu).
        rewrite Hdu. apply Hexact_Pst; assumption. }
      split; [split; [rewrite F2, Hdm; exact Hl|exact F3]|].
      intros u Hu Hk. destruct (in_dec Nat.eq_dec u lc) as [Hin|Hnin]; [exact Hin|]. exfalso. apply Hk.
      destruct (F4 u Hu Hnin) as (G1 & k & e & ve & G2 & G3 & G4).
      destruct (Hcore u) as (c1 & c2 & _ & _ & c5 & c6 & c7).
      split.
      + unfold MddSim.is_ex, fl_is_exact in *. rewrite c5, c6. exact G1.
      + exists k, e, ve. rewrite c1, c2, c7. auto.
    - intros d m u s' h v HC HdN Hu Hc Hh Hv Ht. apply (tracked_not_droppable m d u s' h v); auto. lia.
  Qed.

  Lemma dom_finalize tb tb2 (ml : mdd) : m_dom (finalize st_eqb inp tb tb2 ml) = m_dom ml.
  Proof.
    assert (Hins : insens (@m_dom St)) by (repeat split).
    unfold finalize.
    rewrite (ins_compute_thresholds st_eqb inp Hnocache _ Hins).
    rewrite (ins_compute_local_bounds inp _ Hins).
    rewrite (ins_finalize_cutset inp Hclean _ Hins) by reflexivity.
    unfold finalize_exact, find_best_node, finalize_layers. cbv zeta. msimpl.
    rewrite (not_pooled inp Hclean). destruct (m_next ml); reflexivity.
  Qed.

  Lemma compile_postT tb tb2 c ds polls m :
    N < length ds -> store_all Pst ds ->
    compile st_eqb inp tb tb2 c ds polls = (m, Compiled) ->
    exists ml, m = finalize st_eqb inp tb tb2 ml /\ Sinv inp ml /\ Xs inp ml /\ MddSim.Post inp cov (Z.max lb tau) ml /\
               MddSim.Ninv inp ml /\ store_all Pst (m_dom m) /\ N < length (m_dom m).
  Proof.
    intros Hdsl Hdst H.
    destruct (MddSim.compile_post st_eqb st_eqb_spec inp Hclean Hnocache Hnocut Hwidth Hrd nv_static nv_some nv_none
                cov cov_refl cov_sim merge_cov relax_ge rub_adm B HB Hguard _ _ _ rule_tracking tb tb2 c ds polls m
                (conj Hdsl Hdst) H) as (ml & E & HS & HX & HP & HN & Hl & Hs).
    exists ml. rewrite E at 2 3. rewrite dom_finalize. auto 10.
  Qed.

  (* S2 (K2), S4 (K4), S3 (K3_ub) for the runs whose value exceeds tau *)
  Theorem S2T tb tb2 c ds polls m o :
    N < length ds -> store_all Pst ds ->
    compile st_eqb inp tb tb2 c ds polls = (m, Compiled) ->
    dd_is_exact m = true -> vstar = Some o -> (o > lb)%Z -> (o > tau)%Z ->
    dd_best_exact_value inp m = Some o.
  Proof.
    intros Hdsl Hdst Hc Hex Hv Hlb Htau.
    exact (MddSim.S2_tracked st_eqb st_eqb_spec inp Hclean Hnocache Hnocut Hwidth Hrd nv_static nv_some nv_none
             cov cov_refl cov_sim merge_cov relax_ge rub_adm B HB Hguard _ _ _ rule_tracking tb tb2 c ds polls m o
             (conj Hdsl Hdst) Hc Hex Hv ltac:(lia)).
  Qed.

  Theorem S4T tb tb2 c ds polls m o :
    N < length ds -> store_all Pst ds ->
    compile st_eqb inp tb tb2 c ds polls = (m, Compiled) ->
    ci_type inp = Relaxed -> dd_is_exact m = false -> vstar = Some o -> (o > lb)%Z -> (o > tau)%Z ->
    (forall e, dd_best_exact_value inp m = Some e -> (e < o)%Z) ->
    exists sp, In sp (drain_cutset inp m) /\
      oadd (sp_value sp) (H pb (sp_depth sp) (sp_state sp)) = Some o /\ (o <= sp_ub sp)%Z.
  Proof.
    intros Hdsl Hdst Hc Ht Hnex Hv Hlb Htau.
    exact (MddSim.S4_tracked st_eqb st_eqb_spec inp Hclean Hnocache Hnocut Hwidth Hrd nv_static nv_some nv_none
             cov cov_refl cov_sim merge_cov relax_ge rub_adm B HB Hguard _ _ _ rule_tracking tb tb2 c ds polls m o
             (conj Hdsl Hdst) Hc Ht Hnex Hv ltac:(lia)).
  Qed.

  Theorem S3T tb tb2 c ds polls m sp o :
    N < length ds -> store_all Pst ds ->
    compile st_eqb inp tb tb2 c ds polls = (m, Compiled) ->
    ci_type inp = Relaxed -> dd_is_exact m = false ->
    In sp (drain_cutset inp m) ->
    oadd (sp_value sp) (H pb (sp_depth sp) (sp_state sp)) = Some o -> (o > lb)%Z -> (o > tau)%Z ->
    (o <= sp_ub sp)%Z.
  Proof.
    intros Hdsl Hdst Hc Ht Hnex Hsp Ho Hlb Htau.
    exact (MddSim.S3_tracked st_eqb st_eqb_spec inp Hclean Hnocache Hnocut Hwidth Hrd nv_static nv_some nv_none
             cov cov_refl cov_sim merge_cov relax_ge rub_adm B HB Hguard _ _ _ rule_tracking tb tb2 c ds polls m sp o
             (conj Hdsl Hdst) Hc Ht Hnex Hsp Ho ltac:(lia)).
  Qed.
End DomSim.

(* 7. the contracts KD0..KD5 for Mdd.compile, under [opt_undominated] *)

(* the contracts consumed by the solver-level theorem of section 3, as one proposition *)
Definition dom_contracts {St : Type} (st_eqb : St -> St -> bool) (cfg : @sconfig St)
    (dsok : @dstore St Z -> Prop) (M : nat) : Prop :=
  let pb := sc_problem cfg in let N := nb_vars (sc_problem cfg) in
  let good := sgood (sc_problem cfg) in let feas := sfeasible (sc_problem cfg) in let bst := MddSim.best cfg in
  (forall ct n lb c ds polls m out,
    dd_ct ct -> good n -> sp_depth n <= N -> dsok ds ->
    compile st_eqb (mk_input cfg ct n lb) 0 0 c ds polls = (m, out) ->
    out = Compiled /\ m_crash m = false /\ dsok (m_dom m)) /\
  (forall ct n lb c ds polls m out,
    dd_ct ct -> good n -> sp_depth n <= N -> dsok ds ->
    compile st_eqb (mk_input cfg ct n lb) 0 0 c ds polls = (m, out) ->
    forall v, dd_best_exact_value (mk_input cfg ct n lb) m = Some v ->
    exists sol, dd_best_exact_solution (mk_input cfg ct n lb) m = Some sol /\ feas sol v) /\
  (forall ct n lb c ds polls m out,
    dd_ct ct -> good n -> sp_depth n <= N -> dsok ds ->
    compile st_eqb (mk_input cfg ct n lb) 0 0 c ds polls = (m, out) ->
    dd_is_exact m = true ->
    forall o, bst (root_node cfg) = Some o -> bst n = Some o -> (o > lb)%Z ->
    dd_best_exact_value (mk_input cfg ct n lb) m = Some o) /\
  (forall n lb c ds polls m out,
    good n -> sp_depth n <= N -> dsok ds ->
    compile st_eqb (mk_input cfg Relaxed n lb) 0 0 c ds polls = (m, out) ->
    dd_is_exact m = false ->
    forall x, In x (drain_cutset (mk_input cfg Relaxed n lb) m) -> good x) /\
  (forall n lb c ds polls m out,
    good n -> sp_depth n <= N -> dsok ds ->
    compile st_eqb (mk_input cfg Relaxed n lb) 0 0 c ds polls = (m, out) ->
    dd_is_exact m = false ->
    forall x, In x (drain_cutset (mk_input cfg Relaxed n lb) m) -> sp_depth n < sp_depth x <= N) /\
  (forall n lb c ds polls m out,
    good n -> sp_depth n <= N -> dsok ds ->
    compile st_eqb (mk_input cfg Relaxed n lb) 0 0 c ds polls = (m, out) ->
    dd_is_exact m = false ->
    forall x, In x (drain_cutset (mk_input cfg Relaxed n lb) m) ->
    forall o, bst (root_node cfg) = Some o -> bst x = Some o -> (o > lb)%Z -> (o <= sp_ub x)%Z) /\
  (forall n lb c ds polls m out,
    good n -> sp_depth n <= N -> dsok ds ->
    compile st_eqb (mk_input cfg Relaxed n lb) 0 0 c ds polls = (m, out) ->
    dd_is_exact m = false ->
    forall o, bst (root_node cfg) = Some o -> bst n = Some o -> (o > lb)%Z ->
    (forall e, dd_best_exact_value (mk_input cfg Relaxed n lb) m = Some e -> (e < o)%Z) ->
    exists x, In x (drain_cutset (mk_input cfg Relaxed n lb) m) /\ bst x = Some o) /\
  (forall n lb c ds polls m out,
    good n -> sp_depth n <= N -> dsok ds ->
    compile st_eqb (mk_input cfg Relaxed n lb) 0 0 c ds polls = (m, out) ->
    dd_is_exact m = false ->
    length (drain_cutset (mk_input cfg Relaxed n lb) m) <= M).

Section DomContracts.
  Context {St : Type}.
  Variable st_eqb : St -> St -> bool.
  Hypothesis st_eqb_spec : forall a b, st_eqb a b = true <-> a = b.
  Variable cfg : @sconfig St.
  Local Notation pb := (sc_problem cfg).
  Local Notation rlx := (sc_relax cfg).
  Local Notation N := (nb_vars (sc_problem cfg)).
  Variable key : St -> option Z.
  Variable nd : nat.
  Variable coord : St -> nat -> Z.
  Variable usev : bool.
  Hypothesis cfg_clean : sc_flavour cfg = CleanLEL \/ sc_flavour cfg = CleanFC.
  Hypothesis cfg_nocache : sc_use_cache cfg = false.
  Hypothesis cfg_dom : sc_domrule cfg = Some (key, nd, coord, usev).
  Hypothesis cfg_nocut : sc_cutoff cfg = 0.
  Hypothesis cfg_width : 1 <= sc_width cfg.
  Hypothesis nv_static : forall k l1 l2, next_variable pb k l1 = next_variable pb k l2.
  Hypothesis nv_some : forall k l, k < N -> exists x, next_variable pb k l = Some x.
  Hypothesis nv_none : forall k l, N <= k -> next_variable pb k l = None.
  Variable cov : St -> St -> Prop.
  Hypothesis cov_refl : forall s, cov s s.
  Hypothesis cov_sim : forall s s' x v, cov s s' -> In v (domain pb x s') ->
    let d := {| d_var := x; d_val := v |} in
    In v (domain pb x s) /\ cov (transition pb s d) (transition pb s' d) /\
    (transition_cost pb s' (transition pb s' d) d <= transition_cost pb s (transition pb s d) d)%Z.
  Hypothesis merge_cov : forall L s s', In s L -> cov s s' -> cov (merge rlx L) s'.
  Hypothesis relax_ge : forall src dst mg d c, (c <= relax rlx src dst mg d c)%Z.
  Hypothesis rub_adm : forall k s s' h, cov s s' -> H pb k s' = Some h -> (h <= fast_upper_bound rlx s)%Z.
  Variable D : nat.
  Hypothesis dom_bound : forall x s, length (domain pb x s) <= D.
  Variable B : Z.
  Hypothesis HB : (2 * B <= IMAX)%Z.
  Hypothesis guard0 : forall ds s' v', frun pb 0 (init_state pb) (init_value pb) ds = Some (s', v') -> (- B <= v' <= B)%Z.
  Hypothesis Hund : opt_undominated pb key nd coord usev.

  Local Notation good := (sgood pb).
  Local Notation feas := (sfeasible pb).
  Local Notation bst := (MddSim.best cfg).

  (* the store invariant: every entry sits in the bucket of its key and is reached by a feasible run from the root *)
  Definition Pst (d : nat) (k : Z) (e : St) (ve : Z) : Prop := key e = Some k /\ reach pb d e ve.
  Definition dsok (ds : @dstore St Z) : Prop := N < length ds /\ store_all Pst ds.

  Lemma dsok_init : dsok (init_dstore N).
  Proof.
    split; [unfold init_dstore; rewrite repeat_length; lia|apply store_all_init].
  Qed.

  Lemma gguardD n : good n -> forall ds s' v',
    frun pb (sp_depth n) (sp_state n) (sp_value n) ds = Some (s', v') -> (- B <= v' <= B)%Z.
  Proof. apply sgood_guard. exact guard0. Qed.

  Lemma good_reach n ds s v : good n ->
    frun pb (sp_depth n) (sp_state n) (sp_value n) ds = Some (s, v) -> reach pb (sp_depth n + length ds) s v.
  Proof.
    intros (_ & ds0 & G1 & _ & G3) Hr. exists (ds0 ++ ds). split; [|rewrite app_length; lia].
    rewrite frun_app, G3, G1. exact Hr.
  Qed.

  Lemma HexactD n : good n -> forall ds s v k,
    frun pb (sp_depth n) (sp_state n) (sp_value n) ds = Some (s, v) -> key s = Some k ->
    Pst (sp_depth n + length ds) k s v.
  Proof. intros Hg ds s v k Hr Hk. split; [exact Hk|]. eapply good_reach; eauto. Qed.

  (* with tau = B nothing is promising: used for the structural contracts *)
  Lemma HsafeB n : good n -> sp_depth n <= N -> forall ds s v k h e ve,
    frun pb (sp_depth n) (sp_state n) (sp_value n) ds = Some (s, v) -> key s = Some k ->
    H pb (sp_depth n + length ds) s = Some h -> (B < v + h)%Z -> Pst (sp_depth n + length ds) k e ve ->
    ~ sdom nd coord usev e ve s v.
  Proof.
    intros Hg Hd ds s v k h e ve Hr _ Hh Hlt _ _. exfalso.
    assert (Hle : sp_depth n + length ds <= N).
    { apply (frun_length pb nv_none ds _ _ _ _ Hr Hd). }
    destruct (H_attained pb nv_static nv_some nv_none (N - (sp_depth n + length ds)) (sp_depth n + length ds) s v h eq_refl Hle Hh)
      as (ds2 & s2 & Hr2 & _).
    assert (Hfull : frun pb (sp_depth n) (sp_state n) (sp_value n) (ds ++ ds2) = Some (s2, (v + h)%Z)).
    { rewrite frun_app, Hr. exact Hr2. }
    pose proof (gguardD n Hg _ _ _ Hfull). lia.
  Qed.

  Lemma OPT_enum : bst (root_node cfg) = opt_enum pb.
  Proof. unfold MddSim.best, opt_enum. cbn [root_node sp_value sp_depth sp_state]. symmetry. apply opt_enum_from_H. Qed.

  (* with tau = o - 1 for the optimum o: what opt_undominated says *)
  Lemma HsafeO n o : good n -> bst (root_node cfg) = Some o -> forall ds s v k h e ve,
    frun pb (sp_depth n) (sp_state n) (sp_value n) ds = Some (s, v) -> key s = Some k ->
    H pb (sp_depth n + length ds) s = Some h -> (o - 1 < v + h)%Z -> Pst (sp_depth n + length ds) k e ve ->
    ~ sdom nd coord usev e ve s v.
  Proof.
    intros Hg Ho ds s v k h e ve Hr Hk Hh Hlt [Hke Hre] Hs.
    rewrite OPT_enum in Ho.
    pose proof (Hund o Ho (sp_depth n + length ds) e ve s v Hre (good_reach n ds s v Hg Hr)
                  (ex_intro _ k (conj Hke Hk)) Hs h Hh). lia.
  Qed.

  Local Notation inp0 ct n lb := (mk_input cfg ct n lb).

  Lemma KD_struct ct n lb c ds polls m out :
    good n -> sp_depth n <= N -> dsok ds ->
    compile st_eqb (inp0 ct n lb) 0 0 c ds polls = (m, out) ->
    out = Compiled /\ m_crash m = false /\ dsok (m_dom m) /\
    (forall b, m_best m = Some b \/ m_best_exact m = Some b -> n_depth (get_node (inp0 ct n lb) m b) = N) /\
    (ct = Relaxed -> forall sp, In sp (drain_cutset (inp0 ct n lb) m) -> sp_depth n < sp_depth sp <= N).
  Proof.
    intros Hg Hd [Hl Hs] Hc.
    destruct (compile_factsD st_eqb st_eqb_spec (inp0 ct n lb) key nd coord usev cfg_dom cfg_clean cfg_nocache cfg_nocut
                cfg_width nv_some nv_none Hd 0 0 c ds polls m out Hl Hc) as (-> & F1 & _ & F3 & F4 & _).
    split; [reflexivity|]. split; [exact F1|]. split; [|split; [exact F3|exact F4]].
    destruct (compile_postT st_eqb st_eqb_spec (inp0 ct n lb) cfg_clean cfg_nocache cfg_nocut cfg_width Hd
                nv_static nv_some nv_none cov cov_refl cov_sim merge_cov relax_ge rub_adm B HB (gguardD n Hg)
                key nd coord usev cfg_dom B Pst (HexactD n Hg) (HsafeB n Hg Hd) 0 0 c ds polls m Hl Hs Hc)
      as (ml & _ & _ & _ & _ & _ & S1 & S2).
    split; [exact S2|exact S1].
  Qed.

  Theorem KD0_holds : forall ct n lb c ds polls m out,
    dd_ct ct -> good n -> sp_depth n <= N -> dsok ds ->
    compile st_eqb (inp0 ct n lb) 0 0 c ds polls = (m, out) ->
    out = Compiled /\ m_crash m = false /\ dsok (m_dom m).
  Proof.
    intros ct n lb c ds polls m out _ Hg Hd Hds Hc.
    destruct (KD_struct ct n lb c ds polls m out Hg Hd Hds Hc) as (A & B0 & C & _). auto.
  Qed.

  Theorem KD1_holds : forall ct n lb c ds polls m out,
    dd_ct ct -> good n -> sp_depth n <= N -> dsok ds ->
    compile st_eqb (inp0 ct n lb) 0 0 c ds polls = (m, out) ->
    forall v, dd_best_exact_value (inp0 ct n lb) m = Some v ->
    exists sol, dd_best_exact_solution (inp0 ct n lb) m = Some sol /\ feas sol v.
  Proof.
    intros ct n lb c ds polls m out _ Hg Hd Hds Hc v Hv.
    destruct (KD_struct ct n lb c ds polls m out Hg Hd Hds Hc) as (-> & _ & _ & Hbd & _).
    unfold dd_best_exact_value in Hv. unfold dd_best_exact_solution.
    destruct (m_best_exact m) as [b|] eqn:Eb; [|discriminate]. simpl in Hv. inversion Hv; subst v. simpl.
    destruct (best_exact_solution_genuine st_eqb st_eqb_spec (inp0 ct n lb) cfg_clean 0 0 c ds polls m b Hc Eb)
      as (Hlt & Hcc & _ & Hpath & Hlen).
    pose proof (Assembly.clean_chain_frun st_eqb st_eqb_spec (inp0 ct n lb) cfg_clean nv_static B HB (gguardD n Hg)
                  0 0 c ds polls m b Hc Hcc Hlt) as Hrun.
    pose proof (Hbd b (or_intror eq_refl)) as HdN.
    destruct Hg as (_ & ds0 & G1 & G2 & G3).
    eexists. split; [reflexivity|].
    exists (ds0 ++ rev (chain (inp0 ct n lb) m b)), (n_state (get_node (inp0 ct n lb) m b)).
    split; [|split].
    - rewrite app_length, rev_length, G1, Hlen, HdN. cbn [mk_input ci_root ci_problem]. lia.
    - rewrite Hpath. apply Permutation_app; [exact G2|]. apply Permutation_sym, Permutation_rev.
    - rewrite frun_app, G3, G1. exact Hrun.
  Qed.

  Theorem KD3_depth_holds : forall n lb c ds polls m out,
    good n -> sp_depth n <= N -> dsok ds ->
    compile st_eqb (inp0 Relaxed n lb) 0 0 c ds polls = (m, out) ->
    dd_is_exact m = false ->
    forall x, In x (drain_cutset (inp0 Relaxed n lb) m) -> sp_depth n < sp_depth x <= N.
  Proof.
    intros n lb c ds polls m out Hg Hd Hds Hc _ x Hx.
    destruct (KD_struct Relaxed n lb c ds polls m out Hg Hd Hds Hc) as (_ & _ & _ & _ & Hcd).
    apply Hcd; auto.
  Qed.

  Theorem KD3_good_holds : forall n lb c ds polls m out,
    good n -> sp_depth n <= N -> dsok ds ->
    compile st_eqb (inp0 Relaxed n lb) 0 0 c ds polls = (m, out) ->
    dd_is_exact m = false ->
    forall x, In x (drain_cutset (inp0 Relaxed n lb) m) -> good x.
  Proof.
    intros n lb c ds polls m out Hg Hd Hds Hc Hex x Hx.
    destruct (KD3_depth_holds n lb c ds polls m out Hg Hd Hds Hc Hex x Hx) as [_ HxN].
    destruct (KD_struct Relaxed n lb c ds polls m out Hg Hd Hds Hc) as (-> & _).
    destruct (cutset_nodes_exact st_eqb st_eqb_spec (inp0 Relaxed n lb) cfg_clean 0 0 c ds polls m x Hc Hx)
      as (id & _ & Hlt & _ & Hcc & Hpath & Hst & Hval & _ & _ & Hlen).
    pose proof (Assembly.clean_chain_frun st_eqb st_eqb_spec (inp0 Relaxed n lb) cfg_clean nv_static B HB (gguardD n Hg)
                  0 0 c ds polls m id Hc Hcc Hlt) as Hrun.
    destruct Hg as (_ & ds0 & G1 & G2 & G3).
    split; [exact HxN|].
    exists (ds0 ++ rev (chain (inp0 Relaxed n lb) m id)). split; [|split].
    - rewrite app_length, rev_length, G1, Hlen. reflexivity.
    - rewrite Hpath. apply Permutation_app; [exact G2|]. apply Permutation_sym, Permutation_rev.
    - rewrite frun_app, G3, G1, Hst, Hval. exact Hrun.
  Qed.

  Definition KboundD : nat := 3 + D + D * D + N * (1 + sc_width cfg * D).

  Theorem KD5_holds : forall n lb c ds polls m out,
    good n -> sp_depth n <= N -> dsok ds ->
    compile st_eqb (inp0 Relaxed n lb) 0 0 c ds polls = (m, out) ->
    dd_is_exact m = false ->
    length (drain_cutset (inp0 Relaxed n lb) m) <= KboundD.
  Proof.
    intros n lb c ds polls m out Hg Hd [Hl _] Hc _.
    exact (cutset_size_boundD st_eqb st_eqb_spec (inp0 Relaxed n lb) key nd coord usev cfg_dom cfg_clean cfg_nocache
             cfg_nocut cfg_width nv_some nv_none Hd D dom_bound 0 0 c ds polls m out Hl eq_refl Hc).
  Qed.

  Theorem KD2_holds : forall ct n lb c ds polls m out,
    dd_ct ct -> good n -> sp_depth n <= N -> dsok ds ->
    compile st_eqb (inp0 ct n lb) 0 0 c ds polls = (m, out) ->
    dd_is_exact m = true ->
    forall o, bst (root_node cfg) = Some o -> bst n = Some o -> (o > lb)%Z ->
    dd_best_exact_value (inp0 ct n lb) m = Some o.
  Proof.
    intros ct n lb c ds polls m out _ Hg Hd Hds Hc Hex o Ho Hb Hlb.
    destruct (KD_struct ct n lb c ds polls m out Hg Hd Hds Hc) as (-> & _).
    destruct Hds as [Hl Hs].
    exact (S2T st_eqb st_eqb_spec (inp0 ct n lb) cfg_clean cfg_nocache cfg_nocut cfg_width Hd
             nv_static nv_some nv_none cov cov_refl cov_sim merge_cov relax_ge rub_adm B HB (gguardD n Hg)
             key nd coord usev cfg_dom (o - 1)%Z Pst (HexactD n Hg) (HsafeO n o Hg Ho)
             0 0 c ds polls m o Hl Hs Hc Hex Hb Hlb ltac:(lia)).
  Qed.

  Theorem KD4_holds : forall n lb c ds polls m out,
    good n -> sp_depth n <= N -> dsok ds ->
    compile st_eqb (inp0 Relaxed n lb) 0 0 c ds polls = (m, out) ->
    dd_is_exact m = false ->
    forall o, bst (root_node cfg) = Some o -> bst n = Some o -> (o > lb)%Z ->
    (forall e, dd_best_exact_value (inp0 Relaxed n lb) m = Some e -> (e < o)%Z) ->
    exists x, In x (drain_cutset (inp0 Relaxed n lb) m) /\ bst x = Some o.
  Proof.
    intros n lb c ds polls m out Hg Hd Hds Hc Hex o Ho Hb Hlb Hbe.
    destruct (KD_struct Relaxed n lb c ds polls m out Hg Hd Hds Hc) as (-> & _).
    destruct Hds as [Hl Hs].
    destruct (S4T st_eqb st_eqb_spec (inp0 Relaxed n lb) cfg_clean cfg_nocache cfg_nocut cfg_width Hd
             nv_static nv_some nv_none cov cov_refl cov_sim merge_cov relax_ge rub_adm B HB (gguardD n Hg)
             key nd coord usev cfg_dom (o - 1)%Z Pst (HexactD n Hg) (HsafeO n o Hg Ho)
             0 0 c ds polls m o Hl Hs Hc eq_refl Hex Hb Hlb ltac:(lia) Hbe) as (x & H1 & H2 & _).
    exists x. auto.
  Qed.

  Theorem KD3_ub_holds : forall n lb c ds polls m out,
    good n -> sp_depth n <= N -> dsok ds ->
    compile st_eqb (inp0 Relaxed n lb) 0 0 c ds polls = (m, out) ->
    dd_is_exact m = false ->
    forall x, In x (drain_cutset (inp0 Relaxed n lb) m) ->
    forall o, bst (root_node cfg) = Some o -> bst x = Some o -> (o > lb)%Z -> (o <= sp_ub x)%Z.
  Proof.
    intros n lb c ds polls m out Hg Hd Hds Hc Hex x Hx o Ho Hb Hlb.
    destruct (KD_struct Relaxed n lb c ds polls m out Hg Hd Hds Hc) as (-> & _).
    destruct Hds as [Hl Hs].
    exact (S3T st_eqb st_eqb_spec (inp0 Relaxed n lb) cfg_clean cfg_nocache cfg_nocut cfg_width Hd
             nv_static nv_some nv_none cov cov_refl cov_sim merge_cov relax_ge rub_adm B HB (gguardD n Hg)
             key nd coord usev cfg_dom (o - 1)%Z Pst (HexactD n Hg) (HsafeO n o Hg Ho)
             0 0 c ds polls m x o Hl Hs Hc eq_refl Hex Hx Hb Hlb ltac:(lia)).
  Qed.
  Theorem KD_all : dom_contracts st_eqb cfg dsok KboundD.
  Proof.
    unfold dom_contracts. cbv zeta.
    split; [exact KD0_holds|]. split; [exact KD1_holds|]. split; [exact KD2_holds|]. split; [exact KD3_good_holds|].
    split; [exact KD3_depth_holds|]. split; [exact KD3_ub_holds|]. split; [exact KD4_holds|exact KD5_holds].
  Qed.
End DomContracts.

(* 8. C10, sequential solver *)
Section DomMain.
  Context {St : Type}.
  Variable st_eqb : St -> St -> bool.
  Hypothesis st_eqb_spec : forall a b, st_eqb a b = true <-> a = b.
  Variable cfg : @sconfig St.
  Local Notation pb := (sc_problem cfg).
  Local Notation N := (nb_vars (sc_problem cfg)).
  Variable key : St -> option Z.
  Variable nd : nat.
  Variable coord : St -> nat -> Z.
  Variable usev : bool.
  (* configuration: clean flavour, no cache, SimpleFringe, width >= 1, no cutoff, and a RULE *)
  Hypothesis cfg_clean : sc_flavour cfg = CleanLEL \/ sc_flavour cfg = CleanFC.
  Hypothesis cfg_nocache : sc_use_cache cfg = false.
  Hypothesis cfg_dom : sc_domrule cfg = Some (key, nd, coord, usev).
  Hypothesis cfg_nodup : sc_nodup cfg = false.
  Hypothesis cfg_width : 1 <= sc_width cfg.
  Hypothesis cfg_nocut : sc_cutoff cfg = 0.
  (* the user's model, as in Assembly.C01_sequential_optimal *)
  Hypothesis nv_static : forall k l1 l2, next_variable pb k l1 = next_variable pb k l2.
  Hypothesis nv_some : forall k l, k < N -> exists x, next_variable pb k l = Some x.
  Hypothesis nv_none : forall k l, N <= k -> next_variable pb k l = None.
  Hypothesis Hwf : wf_relaxation cfg.
  Variable D : nat.
  Hypothesis dom_bound : forall x s, length (domain pb x s) <= D.
  Variable B : Z.
  Hypothesis HB : (2 * B <= IMAX)%Z.
  Hypothesis guard0 : forall ds s' v', frun pb 0 (init_state pb) (init_value pb) ds = Some (s', v') -> (- B <= v' <= B)%Z.
  Hypothesis Hund : opt_undominated pb key nd coord usev.

  Lemma contracts_hold_dom : dom_contracts st_eqb cfg (dsok cfg key) (KboundD cfg D).
  Proof.
    destruct Hwf as (cov & [((W1 & W2 & W3 & W4) & W5) | ((W1 & W2 & W3 & W4) & W5 & W6 & W7)]).
    - exact (KD_all st_eqb st_eqb_spec cfg key nd coord usev cfg_clean cfg_nocache cfg_dom cfg_nocut cfg_width
               nv_static nv_some nv_none cov W1 W2 W3 W5 W4 D dom_bound B HB guard0 Hund).
    - pose proof (KD_all st_eqb st_eqb_spec (clip_cfg cfg) key nd coord usev cfg_clean cfg_nocache cfg_dom cfg_nocut cfg_width
               nv_static nv_some nv_none cov W1 W2 W3 (clip_relax_ge cfg cfg_width W7) W4 D dom_bound B HB guard0 Hund)
        as (K0 & K1 & K2 & K3g & K3d & K3u & K4 & K5).
      pose proof (clip_compile_cfg st_eqb cfg cfg_clean W5 W6) as Hclip.
      unfold dom_contracts. cbv zeta.
      split; [|split; [|split; [|split; [|split; [|split; [|split]]]]]].
      + intros ct n lb c ds polls m out H1 H2 H3 H4 Hc. rewrite <- Hclip in Hc.
        exact (K0 ct n lb c ds polls m out H1 H2 H3 H4 Hc).
      + intros ct n lb c ds polls m out H1 H2 H3 H4 Hc. rewrite <- Hclip in Hc.
        exact (K1 ct n lb c ds polls m out H1 H2 H3 H4 Hc).
      + intros ct n lb c ds polls m out H1 H2 H3 H4 Hc. rewrite <- Hclip in Hc.
        exact (K2 ct n lb c ds polls m out H1 H2 H3 H4 Hc).
      + intros n lb c ds polls m out H2 H3 H4 Hc. rewrite <- Hclip in Hc.
        exact (K3g n lb c ds polls m out H2 H3 H4 Hc).
      + intros n lb c ds polls m out H2 H3 H4 Hc. rewrite <- Hclip in Hc.
        exact (K3d n lb c ds polls m out H2 H3 H4 Hc).
      + intros n lb c ds polls m out H2 H3 H4 Hc. rewrite <- Hclip in Hc.
        exact (K3u n lb c ds polls m out H2 H3 H4 Hc).
      + intros n lb c ds polls m out H2 H3 H4 Hc. rewrite <- Hclip in Hc.
        exact (K4 n lb c ds polls m out H2 H3 H4 Hc).
      + intros n lb c ds polls m out H2 H3 H4 Hc. rewrite <- Hclip in Hc.
        exact (K5 n lb c ds polls m out H2 H3 H4 Hc).
  Qed.

  Local Notation good := (sgood pb).
  Local Notation feas := (sfeasible pb).
  Local Notation bst := (MddSim.best cfg).

  Lemma feasible_le_optD sol v : feas sol v -> exists o, bst (root_node cfg) = Some o /\ (v <= o)%Z.
  Proof.
    intros (ds & st & H1 & _ & H3).
    destruct (frun_le_H pb nv_static nv_none ds 0 _ _ st v H1 H3) as (h & Hh & Hle).
    exists (init_value pb + h)%Z. split; [|exact Hle].
    unfold MddSim.best. cbn [root_node sp_value sp_depth sp_state]. rewrite Hh. reflexivity.
  Qed.

  Lemma opt_in_isizeD o : bst (root_node cfg) = Some o -> (IMIN < o <= IMAX)%Z.
  Proof.
    unfold MddSim.best. cbn [root_node sp_value sp_depth sp_state].
    destruct (H pb 0 (init_state pb)) as [h|] eqn:Eh; [|discriminate]. simpl. intros E. inversion E; subst o.
    destruct (H_attained pb nv_static nv_some nv_none (N - 0) 0 (init_state pb) (init_value pb) h eq_refl
                ltac:(lia) Eh) as (ds & s' & Hr & _).
    pose proof (guard0 ds s' _ Hr). unfold IMIN, IMAX in *. lia.
  Qed.

  (* strong form: the returned solution is a feasible run in exact integer arithmetic *)
  Theorem C10_sequential_dominance_optimal_run :
    exists f0, forall fuel, f0 <= fuel ->
      let r := maximize st_eqb cfg fuel None in
      r_crash r = false /\ r_outoffuel r = false /\ r_exact r = true /\ r_value r = opt_enum pb /\
      (forall v, opt_enum pb = Some v ->
         r_lb r = v /\ r_ub r = v /\ exists sol, r_sol r = Some (sort_by dec_var_cmp sol) /\ feas sol v) /\
      (opt_enum pb = None -> r_sol r = None /\ r_lb r = IMIN).
  Proof.
    destruct contracts_hold_dom as (K0 & K1 & K2 & K3g & K3d & K3u & K4 & K5).
    exists (d_fuel0 cfg (KboundD cfg D)). intros fuel Hfuel.
    pose proof (dom_maximize_correct st_eqb cfg cfg_nocache cfg_nodup good bst feas
                  (sgood_root pb (root_node cfg) eq_refl eq_refl eq_refl eq_refl)
                  feasible_le_optD opt_in_isizeD (fun c u => sgood_set_ub pb c u) (fun c u => eq_refl)
                  (dsok cfg key) (dsok_init cfg key cfg_nocut cfg_width) (KboundD cfg D) K0 K1 K2 K3g K3d K3u K4 K5 fuel Hfuel) as Hr.
    unfold d_result_ok in Hr. rewrite (OPT_enum cfg) in Hr. exact Hr.
  Qed.

  Theorem C10_sequential_dominance_optimal :
    exists f0, forall fuel, f0 <= fuel ->
      let r := maximize st_eqb cfg fuel None in
      r_crash r = false /\ r_outoffuel r = false /\ r_exact r = true /\ r_value r = opt_enum pb /\
      (forall v, opt_enum pb = Some v ->
         r_lb r = v /\ r_ub r = v /\
         exists sol, r_sol r = Some (sort_by dec_var_cmp sol) /\ MddProgress.feasible pb sol v) /\
      (opt_enum pb = None -> r_sol r = None /\ r_lb r = IMIN).
  Proof.
    destruct C10_sequential_dominance_optimal_run as [f0 Hf]. exists f0. intros fuel Hfuel.
    destruct (Hf fuel Hfuel) as (A1 & A2 & A3 & A4 & A5 & A6).
    split; [exact A1|]. split; [exact A2|]. split; [exact A3|]. split; [exact A4|]. split; [|exact A6].
    intros v Hv. destruct (A5 v Hv) as (E1 & E2 & sol & S1 & S2). split; [exact E1|]. split; [exact E2|].
    exists sol. split; [exact S1|]. apply (sfeasible_feasible pb B HB guard0). exact S2.
  Qed.
End DomMain.

(* 9. sufficient conditions *)
Section Corollaries.
  Context {St : Type}.
  Variable pb : problem St.
  Local Notation N := (nb_vars pb).
  Hypothesis nv_static : forall k l1 l2, next_variable pb k l1 = next_variable pb k l2.
  Hypothesis nv_some : forall k l, k < N -> exists x, next_variable pb k l = Some x.
  Hypothesis nv_none : forall k l, N <= k -> next_variable pb k l = None.
  Variable key : St -> option Z.
  Variable nd : nat.
  Variable coord : St -> nat -> Z.
  Variable usev : bool.

  Lemma reach_best_le_opt d a va h o :
    reach pb d a va -> H pb d a = Some h -> opt_enum pb = Some o -> (va + h <= o)%Z.
  Proof.
    intros (ds & Hr & Hl) Hh Ho. subst d.
    assert (Hle : 0 + length ds <= N) by (apply (frun_length pb nv_none ds 0 _ _ _ Hr); lia).
    destruct (H_attained pb nv_static nv_some nv_none (N - length ds) (length ds) a va h eq_refl Hle Hh)
      as (ds2 & s2 & Hr2 & Hl2).
    assert (Hfull : frun pb 0 (init_state pb) (init_value pb) (ds ++ ds2) = Some (s2, (va + h)%Z)).
    { rewrite frun_app, Hr. exact Hr2. }
    destruct (frun_le_H pb nv_static nv_none (ds ++ ds2) 0 _ _ s2 _ ltac:(rewrite app_length; lia) Hfull)
      as (h0 & Hh0 & Hle0).
    unfold opt_enum in Ho. rewrite opt_enum_from_H, Hh0 in Ho. simpl in Ho. inversion Ho; subst o. exact Hle0.
  Qed.

  Lemma strictly_admissible_undominated :
    strictly_admissible pb key nd coord usev -> opt_undominated pb key nd coord usev.
  Proof.
    intros Hs o Ho d a va b vb Ha Hb Hk Hd h Hh.
    destruct (Hs d a va b vb Ha Hb Hk Hd h Hh) as (h' & Hh' & Hlt).
    pose proof (reach_best_le_opt d a va h' o Ha Hh' Ho). lia.
  Qed.

  (* the exact one-coordinate rule of the generators: coordinate 0 = value-to-go, values are used *)
  Definition coord_is_H : Prop :=
    forall d s v k, reach pb d s v -> key s = Some k -> H pb d s = Some (coord s 0).

  Lemma coord_is_H_strict : nd = 1 -> usev = true -> coord_is_H -> strictly_admissible pb key nd coord usev.
  Proof.
    intros -> -> Hc d a va b vb Ha Hb (k & Ka & Kb) [[L1 L2] Hn] h Hh.
    rewrite (Hc d b vb k Hb Kb) in Hh. inversion Hh; subst h.
    exists (coord a 0). split; [apply (Hc d a va k Ha Ka)|].
    specialize (L1 0 ltac:(lia)). specialize (L2 eq_refl).
    destruct (Z_lt_le_dec (vb + coord b 0) (va + coord a 0)) as [Hlt|Hge]; [exact Hlt|].
    exfalso. apply Hn. split; [intros i Hi; assert (i = 0) by lia; subst i; lia|intros _; lia].
  Qed.

  (* an executable sufficient check: enumerate the reachable (state, value) pairs of every depth *)
  Definition var_at (k : nat) : option nat := next_variable pb k [].

  Definition next_pairs (k : nat) (l : list (St * Z)) : list (St * Z) :=
    match var_at k with
    | None => []
    | Some x =>
        flat_map (fun '(s, v) =>
          map (fun val => let d := {| d_var := x; d_val := val |} in
                          (transition pb s d, (v + transition_cost pb s (transition pb s d) d)%Z))
              (domain pb x s)) l
    end.

  Fixpoint reach_pairs (d : nat) : list (St * Z) :=
    match d with
    | O => [(init_state pb, init_value pb)]
    | S k => next_pairs k (reach_pairs k)
    end.

  Lemma reach_pairs_complete ds : forall s v,
    frun pb 0 (init_state pb) (init_value pb) ds = Some (s, v) -> In (s, v) (reach_pairs (length ds)).
  Proof.
    induction ds as [|d ds IH] using rev_ind; intros s v Hr.
    - simpl in Hr. inversion Hr; subst. left; reflexivity.
    - rewrite frun_app in Hr.
      destruct (frun pb 0 (init_state pb) (init_value pb) ds) as [[s1 v1]|] eqn:E1; [|discriminate].
      specialize (IH s1 v1 eq_refl). cbn [frun] in Hr. simpl in Hr.
      destruct (var_ok pb (length ds) d) eqn:Ev; cbn [andb] in Hr; [|discriminate].
      destruct (in_domain pb s1 d) eqn:Ed; [|discriminate]. inversion Hr; subst s v. clear Hr.
      rewrite app_length. simpl. rewrite Nat.add_1_r. cbn [reach_pairs]. unfold next_pairs, var_at.
      apply (var_ok_spec pb nv_static (length ds) d []) in Ev. rewrite Ev.
      apply in_flat_map. exists (s1, v1). split; [exact IH|].
      apply in_map_iff. exists (d_val d). split; [|apply (in_domain_In pb); exact Ed].
      destruct d as [x val]. reflexivity.
  Qed.

  Definition sdomb (a : St) (va : Z) (b : St) (vb : Z) : bool :=
    DomSpec.le_allb nd coord usev b vb a va && negb (DomSpec.le_allb nd coord usev a va b vb).

  Definition same_keyb (a b : St) : bool :=
    match key a, key b with Some k, Some k' => Z.eqb k k' | _, _ => false end.

  (* every strictly dominated reachable pair has a best completion below the optimum *)
  Definition undominated_at (o : Z) (d : nat) : bool :=
    forallb (fun '(a, va) =>
      forallb (fun '(b, vb) =>
        negb (same_keyb a b && sdomb a va b vb) ||
        match H pb d b with Some h => (vb + h <? o)%Z | None => true end) (reach_pairs d)) (reach_pairs d).

  Definition check_undominated : bool :=
    match opt_enum pb with
    | None => true
    | Some o => forallb (undominated_at o) (seq 0 (S N))
    end.

  Lemma check_undominated_sound : check_undominated = true -> opt_undominated pb key nd coord usev.
  Proof.
    unfold check_undominated. intros Hc o Ho d a va b vb Ha Hb (k & Ka & Kb) [Hd1 Hd2] h Hh.
    rewrite Ho in Hc. rewrite forallb_forall in Hc.
    destruct Ha as (dsa & Hra & Hla). destruct Hb as (dsb & Hrb & Hlb).
    assert (HdN : d <= N).
    { subst d. pose proof (frun_length pb nv_none dsa 0 _ _ _ Hra). lia. }
    specialize (Hc d ltac:(apply in_seq; lia)). unfold undominated_at in Hc.
    rewrite forallb_forall in Hc.
    pose proof (reach_pairs_complete dsa a va Hra) as Ia. rewrite Hla in Ia.
    pose proof (reach_pairs_complete dsb b vb Hrb) as Ib. rewrite Hlb in Ib.
    specialize (Hc (a, va) Ia). cbv beta iota in Hc. rewrite forallb_forall in Hc.
    specialize (Hc (b, vb) Ib). cbv beta iota in Hc.
    assert (Hk : same_keyb a b = true) by (unfold same_keyb; rewrite Ka, Kb; apply Z.eqb_refl).
    assert (Hs : sdomb a va b vb = true).
    { unfold sdomb. apply andb_true_iff. split; [apply DomSpec.le_allb_spec; exact Hd1|].
      apply negb_true_iff. destruct (DomSpec.le_allb nd coord usev a va b vb) eqn:E; [|reflexivity].
      exfalso. apply Hd2. apply DomSpec.le_allb_spec. exact E. }
    rewrite Hk, Hs, Hh in Hc. cbn [andb negb orb] in Hc. apply Z.ltb_lt in Hc. exact Hc.
  Qed.
End Corollaries.

(* 10. the stated forms of C10 *)
Definition without_rule {St : Type} (cfg : @sconfig St) : @sconfig St :=
  {| sc_flavour := sc_flavour cfg; sc_problem := sc_problem cfg; sc_relax := sc_relax cfg; sc_ranking := sc_ranking cfg;
     sc_domcmp := sc_domcmp cfg; sc_domrule := None; sc_width := sc_width cfg; sc_use_cache := sc_use_cache cfg;
     sc_nodup := sc_nodup cfg; sc_cutoff := sc_cutoff cfg |}.

Section C10.
  Context {St : Type}.
  Variable st_eqb : St -> St -> bool.
  Hypothesis st_eqb_spec : forall a b, st_eqb a b = true <-> a = b.
  Variable cfg : @sconfig St.
  Local Notation pb := (sc_problem cfg).
  Local Notation N := (nb_vars (sc_problem cfg)).
  Variable key : St -> option Z.
  Variable nd : nat.
  Variable coord : St -> nat -> Z.
  Variable usev : bool.
  Hypothesis cfg_clean : sc_flavour cfg = CleanLEL \/ sc_flavour cfg = CleanFC.
  Hypothesis cfg_nocache : sc_use_cache cfg = false.
  Hypothesis cfg_dom : sc_domrule cfg = Some (key, nd, coord, usev).
  Hypothesis cfg_nodup : sc_nodup cfg = false.
  Hypothesis cfg_width : 1 <= sc_width cfg.
  Hypothesis cfg_nocut : sc_cutoff cfg = 0.
  Hypothesis nv_static : forall k l1 l2, next_variable pb k l1 = next_variable pb k l2.
  Hypothesis nv_some : forall k l, k < N -> exists x, next_variable pb k l = Some x.
  Hypothesis nv_none : forall k l, N <= k -> next_variable pb k l = None.
  Hypothesis Hwf : wf_relaxation cfg.
  Variable D : nat.
  Hypothesis dom_bound : forall x s, length (domain pb x s) <= D.
  Variable B : Z.
  Hypothesis HB : (2 * B <= IMAX)%Z.
  Hypothesis guard0 : forall ds s' v', frun pb 0 (init_state pb) (init_value pb) ds = Some (s', v') -> (- B <= v' <= B)%Z.

  (* with a strictly admissible rule *)
  Theorem C10_sequential_dominance_optimal_strict :
    strictly_admissible pb key nd coord usev ->
    exists f0, forall fuel, f0 <= fuel ->
      let r := maximize st_eqb cfg fuel None in
      r_crash r = false /\ r_outoffuel r = false /\ r_exact r = true /\ r_value r = opt_enum pb /\
      (forall v, opt_enum pb = Some v ->
         r_lb r = v /\ r_ub r = v /\
         exists sol, r_sol r = Some (sort_by dec_var_cmp sol) /\ MddProgress.feasible pb sol v) /\
      (opt_enum pb = None -> r_sol r = None /\ r_lb r = IMIN).
  Proof.
    intros Hs.
    exact (C10_sequential_dominance_optimal st_eqb st_eqb_spec cfg key nd coord usev cfg_clean cfg_nocache cfg_dom
             cfg_nodup cfg_width cfg_nocut nv_static nv_some nv_none Hwf D dom_bound B HB guard0
             (strictly_admissible_undominated pb nv_static nv_some nv_none key nd coord usev Hs)).
  Qed.

  (* enabling the checker does not change the answer *)
  Theorem C10_dominance_does_not_change_the_answer :
    opt_undominated pb key nd coord usev ->
    exists f0, forall fuel, f0 <= fuel ->
      let r := maximize st_eqb cfg fuel None in
      let r0 := maximize st_eqb (without_rule cfg) fuel None in
      r_value r = r_value r0 /\ r_value r = opt_enum pb /\ r_lb r = r_lb r0 /\
      r_exact r = true /\ r_exact r0 = true /\ r_crash r = false /\ r_crash r0 = false /\
      r_outoffuel r = false /\ r_outoffuel r0 = false.
  Proof.
    intros Hu.
    destruct (C10_sequential_dominance_optimal st_eqb st_eqb_spec cfg key nd coord usev cfg_clean cfg_nocache cfg_dom
                cfg_nodup cfg_width cfg_nocut nv_static nv_some nv_none Hwf D dom_bound B HB guard0 Hu) as [f1 H1].
    destruct (C01_sequential_optimal st_eqb st_eqb_spec (without_rule cfg) cfg_clean cfg_nocache eq_refl cfg_nodup cfg_width
                nv_static nv_some nv_none Hwf D dom_bound B HB guard0 cfg_nocut) as [f2 H2].
    exists (Nat.max f1 f2). intros fuel Hfuel.
    destruct (H1 fuel ltac:(lia)) as (A1 & A2 & A3 & A4 & A5 & A6).
    destruct (H2 fuel ltac:(lia)) as (B1 & B2 & B3 & B4 & B5 & B6).
    cbv zeta. change (sc_problem (without_rule cfg)) with pb in B4, B5, B6.
    split; [rewrite A4, B4; reflexivity|]. split; [exact A4|]. split; [|auto 10].
    destruct (opt_enum pb) as [v|] eqn:Eo.
    - destruct (A5 v eq_refl) as (E1 & _). destruct (B5 v eq_refl) as (E2 & _). congruence.
    - destruct (A6 eq_refl) as [_ E1]. destruct (B6 eq_refl) as [_ E2]. congruence.
  Qed.
End C10.

(* 11. non-vacuity: the table family *)
Section TableDom.
  Variable ti : tinst.
  Variable C : Z.
  Hypothesis Hwf : t_wf ti C.
  Variable flv : flavour.
  Hypothesis Hflv : flv = CleanLEL \/ flv = CleanFC.
  Variable width : nat.
  Hypothesis Hwidth : (1 <= width)%nat.
  Hypothesis Hkind : t_domkind ti = 1%Z.
  Local Notation cfg := (tb_sconfig ti flv false false true width 0).

  Lemma table_cfg_dom : sc_domrule cfg = Some (t_key_of ti, t_ncoord ti, t_coord ti, t_usevalue ti).
  Proof. cbn [tb_sconfig sc_domrule]. unfold t_domrule. rewrite Hkind. reflexivity. Qed.

  Theorem C10_table_instances :
    check_undominated (t_problem ti) (t_key_of ti) (t_ncoord ti) (t_coord ti) (t_usevalue ti) = true ->
    exists f0, forall fuel, (f0 <= fuel)%nat ->
      let r := maximize tstate_eqb cfg fuel None in
      r_crash r = false /\ r_outoffuel r = false /\ r_exact r = true /\ r_value r = opt_enum (t_problem ti) /\
      (forall v, opt_enum (t_problem ti) = Some v ->
         r_lb r = v /\ r_ub r = v /\
         exists sol, r_sol r = Some (sort_by dec_var_cmp sol) /\ MddProgress.feasible (t_problem ti) sol v) /\
      (opt_enum (t_problem ti) = None -> r_sol r = None /\ r_lb r = IMIN).
  Proof.
    intros Hchk.
    destruct (table_premises ti C Hwf flv Hflv width Hwidth 0%nat)
      as (P1 & P2 & P3 & P4 & P5 & P6 & P7 & P8 & P9 & P10 & P11 & P12 & P13).
    exact (C10_sequential_dominance_optimal tstate_eqb P1 cfg (t_key_of ti) (t_ncoord ti) (t_coord ti) (t_usevalue ti)
             P2 P3 table_cfg_dom P5 P6 eq_refl P7 P8 P9 P10 (length (t_trans ti)) P11 (tB ti C) P12 P13
             (check_undominated_sound (t_problem ti) P7 P9 (t_key_of ti) (t_ncoord ti) (t_coord ti) (t_usevalue ti) Hchk)).
  Qed.
End TableDom.

(* a 3-variable instance on which the rule prunes: base states 1 (value 5, value-to-go 3) and 2 (value 2, value-to-go 1)
   of depth 1 have the same key; 1 dominates 2, the node of 2 is dropped and its child 5 is never created: the root's
   restricted diagram of width 2 is exact (one compilation instead of two).  The rule is the generators' exact rule
   (coordinate 0 = value-to-go, with values) and the theorem applies: the optimum 8 is returned. *)
Definition exd_ti : tinst := {|
  t_nvars := 3; t_nbase := 7; t_init := 0; t_initval := 0; t_slack := 0; t_rubkind := 0; t_domkind := 1;
  t_usevalue := true; t_ncoord := 1; t_order := [0; 1; 2]%nat;
  t_trans := [ (0%nat, 0, 0, 1, 5); (0%nat, 0, 1, 2, 2);
               (1%nat, 1, 0, 3, 0); (1%nat, 1, 1, 4, 1); (1%nat, 2, 0, 5, 0);
               (2%nat, 3, 0, 6, 3); (2%nat, 4, 0, 6, 0); (2%nat, 5, 0, 6, 1) ];
  t_notimp := []; t_rub := [];
  t_key := [-1; 1; 1; 2; 2; 2; -1];
  t_coords := [[0];[3];[1];[3];[0];[1];[0]];
  t_mergekind := 0; t_pos := []; t_up := [] |}%Z.

Example exd_wf : t_wf exd_ti 5.
Proof. apply t_wfb_spec. vm_compute. reflexivity. Qed.

Example exd_undominated :
  check_undominated (t_problem exd_ti) (t_key_of exd_ti) (t_ncoord exd_ti) (t_coord exd_ti) (t_usevalue exd_ti) = true.
Proof. vm_compute. reflexivity. Qed.

Example exd_C10 :
  exists f0, forall fuel, (f0 <= fuel)%nat ->
    let r := maximize tstate_eqb (tb_sconfig exd_ti CleanLEL false false true 2 0) fuel None in
    r_crash r = false /\ r_outoffuel r = false /\ r_exact r = true /\ r_value r = Some 8%Z.
Proof.
  destruct (C10_table_instances exd_ti 5 exd_wf CleanLEL (or_introl eq_refl) 2 (le_S 1 1 (le_n 1)) eq_refl exd_undominated)
    as [f0 Hf].
  exists f0. intros fuel Hfuel. destruct (Hf fuel Hfuel) as (A1 & A2 & A3 & A4 & _).
  cbv zeta. split; [exact A1|]. split; [exact A2|]. split; [exact A3|]. rewrite A4. vm_compute. reflexivity.
Qed.

(* the rule does prune: same optimum, one compilation instead of two *)
Example exd_prunes :
  (let r := maximize tstate_eqb (tb_sconfig exd_ti CleanLEL false false true 2 0) 50 None in
   (r_value r, r_exact r, r_explored r, r_compiles r)) = (Some 8%Z, true, 1%nat, 1%nat) /\
  (let r := maximize tstate_eqb (tb_sconfig exd_ti CleanLEL false false false 2 0) 50 None in
   (r_value r, r_exact r, r_explored r, r_compiles r)) = (Some 8%Z, true, 1%nat, 2%nat).
Proof. split; vm_compute; reflexivity. Qed.

(* the executable check rejects the refuted instance *)
Example cyc_not_undominated :
  check_undominated (t_problem cyc_ti) (t_key_of cyc_ti) (t_ncoord cyc_ti) (t_coord cyc_ti) (t_usevalue cyc_ti) = false.
Proof. vm_compute. reflexivity. Qed.

Print Assumptions C10_refuted_for_admissible_rules.
Print Assumptions C10_refuted_without_values.
Print Assumptions dom_maximize_correct.
Print Assumptions KD_all.
Print Assumptions C10_sequential_dominance_optimal.
Print Assumptions C10_sequential_dominance_optimal_strict.
Print Assumptions C10_dominance_does_not_change_the_answer.
Print Assumptions C10_table_instances.
Print Assumptions exd_C10.
Print Assumptions exd_prunes.
