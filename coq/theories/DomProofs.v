(* DomProofs.v — property C10: the dominance checker implements Pareto-front semantics.
   Theorems about the executable model in Dom.v
   (Dominance::partial_cmp, Dominance::cmp, SimpleDominanceChecker::is_dominated_or_insert).
   Stdlib only, no axioms. *)
Require Import DDO.Base DDO.Dom.
From Coq Require Import ZArith List Bool Lia Arith.
Import ListNotations.
Open Scope Z_scope.

Section DomProofs.
  Context {St Key : Type}.
  Variable key_eqb : Key -> Key -> bool.
  Hypothesis key_eqb_spec : forall a b, key_eqb a b = true <-> a = b.
  Variable get_key : St -> option Key.
  Variable nd : nat.
  Variable coord : St -> nat -> Z.
  Variable use_value : bool.

  Local Notation pc_loop := (pc_loop coord).
  Local Notation cmp_loop := (cmp_loop coord).
  Local Notation partial_cmp := (partial_cmp nd coord use_value).
  Local Notation dcmp := (dcmp nd coord use_value).
  Local Notation retain_loop := (retain_loop nd coord use_value).
  Local Notation bucket_query := (bucket_query nd coord use_value).
  Local Notation layer_query := (layer_query key_eqb nd coord use_value).
  Local Notation is_dominated_or_insert :=
    (is_dominated_or_insert key_eqb get_key nd coord use_value).
  Local Notation lookup_bucket := (lookup_bucket key_eqb).
  Local Notation entry := (@entry St).
  Local Notation bucket := (@bucket St).
  Local Notation dlayer := (@dlayer St Key).
  Local Notation dstore := (@dstore St Key).

  (** * 1. Semantic characterisation of [partial_cmp] *)

  (** [le_all a va b vb]: (a,va) is at most (b,vb) on every coordinate
      (and on the value when [use_value]).  "Greater is better". *)
  Definition le_all (a : St) (va : Z) (b : St) (vb : Z) : Prop :=
    (forall i, (i < nd)%nat -> coord a i <= coord b i) /\ (use_value = true -> va <= vb).

  Lemma le_all_refl a va : le_all a va a va.
  Proof. split; intros; lia. Qed.

  Lemma le_all_trans a va b vb c vc :
    le_all a va b vb -> le_all b vb c vc -> le_all a va c vc.
  Proof.
    intros [H1 H2] [H3 H4]; split.
    - intros i Hi. specialize (H1 i Hi). specialize (H3 i Hi). lia.
    - intros Hu. specialize (H2 Hu). specialize (H4 Hu). lia.
  Qed.

  (* the same comparisons over the list of indices that the loop still has to visit *)
  Definition leL (a b : St) (is : list nat) : Prop :=
    forall i, In i is -> coord a i <= coord b i.
  Definition ltE (a b : St) (is : list nat) : Prop :=
    exists i, In i is /\ coord a i < coord b i.

  Lemma leL_cons a b i is : leL a b (i :: is) <-> coord a i <= coord b i /\ leL a b is.
  Proof.
    unfold leL; split.
    - intros H; split; [apply H; left; reflexivity | intros j Hj; apply H; right; exact Hj].
    - intros [H1 H2] j [Hj | Hj]; [subst j; exact H1 | apply H2; exact Hj].
  Qed.
  Lemma ltE_cons a b i is : ltE a b (i :: is) <-> coord a i < coord b i \/ ltE a b is.
  Proof.
    unfold ltE; split.
    - intros [j [[Hj | Hj] Hlt]]; [subst j; left; exact Hlt | right; exists j; split; assumption].
    - intros [H | [j [Hj Hlt]]]; [exists i; split; [left; reflexivity | exact H]
                                  | exists j; split; [right; exact Hj | exact Hlt]].
  Qed.
  Lemma ltE_nil a b : ~ ltE a b [].
  Proof. intros [j [[] _]]. Qed.

  Lemma ltE_not_leL a b is : ltE a b is -> ~ leL b a is.
  Proof. intros [i [Hi Hlt]] H. specialize (H i Hi). lia. Qed.

  (** Swapping the two states mirrors the result of the loop. *)
  Lemma pc_loop_opp a b is : forall ord,
    pc_loop b a is ord = option_map CompOpp (pc_loop a b is (CompOpp ord)).
  Proof.
    induction is as [|i is IH]; intros ord; cbn [Dom.pc_loop].
    - destruct ord; reflexivity.
    - unfold Zcmp. rewrite (Z.compare_antisym (coord a i) (coord b i)).
      destruct ord, (coord a i ?= coord b i); cbn [CompOpp]; try reflexivity; apply IH.
  Qed.

  (** Once a strict difference has been seen, the loop only checks that the remaining
      coordinates do not go the other way. *)
  Lemma pc_loop_Lt a b is :
    match pc_loop a b is Lt with Some r => r = Lt /\ leL a b is | None => ltE b a is end.
  Proof.
    induction is as [|i is IH]; cbn [Dom.pc_loop].
    - split; [reflexivity | intros j []].
    - unfold Zcmp. destruct (Z.compare_spec (coord a i) (coord b i)) as [Hc | Hc | Hc];
        [| | apply ltE_cons; left; exact Hc];
        (destruct (pc_loop a b is Lt);
         [destruct IH as [-> IH]; split; [reflexivity|]; apply leL_cons; split; [lia | exact IH]
         | apply ltE_cons; right; exact IH]).
  Qed.

  Lemma pc_loop_Gt a b is :
    match pc_loop a b is Gt with Some r => r = Gt /\ leL b a is | None => ltE a b is end.
  Proof.
    rewrite pc_loop_opp. cbn [CompOpp]. generalize (pc_loop_Lt b a is).
    destruct (pc_loop b a is Lt); cbn [option_map]; [|exact (fun H => H)].
    intros [-> H]. split; [reflexivity | exact H].
  Qed.

  Lemma pc_loop_Eq a b is :
    match pc_loop a b is Eq with
    | Some Eq => leL a b is /\ leL b a is
    | Some Lt => leL a b is /\ ltE a b is
    | Some Gt => leL b a is /\ ltE b a is
    | None => ltE a b is /\ ltE b a is
    end.
  Proof.
    induction is as [|i is IH]; cbn [Dom.pc_loop].
    - split; intros j [].
    - unfold Zcmp. destruct (Z.compare_spec (coord a i) (coord b i)) as [Hc | Hc | Hc].
      + destruct (pc_loop a b is Eq) as [[| |]|]; destruct IH as [H1 H2]; split;
          try (apply leL_cons; split; [lia | assumption]); apply ltE_cons; right; assumption.
      + generalize (pc_loop_Lt a b is). destruct (pc_loop a b is Lt) as [r|].
        * intros [-> H]. split; [apply leL_cons; split; [lia | exact H] | apply ltE_cons; left; exact Hc].
        * intros H. split; apply ltE_cons; [left; exact Hc | right; exact H].
      + generalize (pc_loop_Gt a b is). destruct (pc_loop a b is Gt) as [r|].
        * intros [-> H]. split; [apply leL_cons; split; [lia | exact H] | apply ltE_cons; left; exact Hc].
        * intros H. split; apply ltE_cons; [right; exact H | left; exact Hc].
  Qed.

  Lemma in_seq0 i : In i (seq 0 nd) <-> (i < nd)%nat.
  Proof. rewrite in_seq. lia. Qed.

  Definition coords_eq (a b : St) : Prop := forall i, (i < nd)%nat -> coord a i = coord b i.
  Definition coord_lt (a b : St) : Prop := exists i, (i < nd)%nat /\ coord a i < coord b i.

  (* [partial_cmp] runs the loop over [seq 0 nd] *)
  Lemma le_all_seq a va b vb :
    le_all a va b vb <-> leL a b (seq 0 nd) /\ (use_value = true -> va <= vb).
  Proof.
    unfold le_all, leL.
    split; intros [H1 H2]; (split; [|exact H2]); intros i Hi; apply H1; apply in_seq0; exact Hi.
  Qed.

  Lemma coord_lt_seq a b : coord_lt a b <-> ltE a b (seq 0 nd).
  Proof.
    unfold coord_lt, ltE.
    split; intros [i [Hi Hlt]]; exists i; (split; [apply in_seq0; exact Hi | exact Hlt]).
  Qed.

  Lemma coords_eq_seq a b : coords_eq a b <-> leL a b (seq 0 nd) /\ leL b a (seq 0 nd).
  Proof.
    unfold coords_eq, leL. split.
    - intros H. split; intros i Hi; apply in_seq0 in Hi; rewrite (H i Hi); apply Z.le_refl.
    - intros [H1 H2] i Hi. apply in_seq0 in Hi. apply Z.le_antisymm; [apply H1 | apply H2]; exact Hi.
  Qed.

  Lemma le_all_intro a va b vb :
    leL a b (seq 0 nd) -> (use_value = true -> va <= vb) -> le_all a va b vb.
  Proof. intros H1 H2. apply le_all_seq. split; assumption. Qed.

  Lemma coord_lt_not_le a va b vb : coord_lt a b -> ~ le_all b vb a va.
  Proof. intros [i [Hi Hlt]] [H _]. specialize (H i Hi). lia. Qed.

  Lemma val_lt_not_le a va b vb : use_value = true -> va < vb -> ~ le_all b vb a va.
  Proof. intros Hu Hlt [_ H]. specialize (H Hu). lia. Qed.

  (** master case-analysis lemma for [partial_cmp] *)
  Definition partial_cmp_post (a : St) (va : Z) (b : St) (vb : Z) (res : option dres) : Prop :=
    match res with
    | None => ~ le_all a va b vb /\ ~ le_all b vb a va
    | Some {| d_ord := Lt; d_ovd := o |} =>
        le_all a va b vb /\ ~ le_all b vb a va /\
        if o then use_value = true /\ coords_eq a b /\ va < vb else coord_lt a b
    | Some {| d_ord := Gt; d_ovd := o |} =>
        le_all b vb a va /\ ~ le_all a va b vb /\
        if o then use_value = true /\ coords_eq a b /\ vb < va else coord_lt b a
    | Some {| d_ord := Eq; d_ovd := o |} =>
        le_all a va b vb /\ le_all b vb a va /\ o = false /\ coords_eq a b
    end.

  (* [get_key] is made a parameter of this lemma and of [bucket_query_verdict], so that what
     follows from them, about [partial_cmp], a bucket or the store, takes the same parameters
     [get_key nd coord use_value]. *)
  Lemma partial_cmp_cases a va b vb : partial_cmp_post a va b vb (partial_cmp a va b vb).
  Proof using get_key.
    unfold Dom.partial_cmp. generalize (pc_loop_Eq a b (seq 0 nd)).
    destruct (pc_loop a b (seq 0 nd) Eq) as [[| |]|]; intros [H1 H2].
    4:{ apply coord_lt_seq in H1. apply coord_lt_seq in H2.
        split; [exact (coord_lt_not_le b vb a va H2) | exact (coord_lt_not_le a va b vb H1)]. }
    (* In each remaining case four goals: va = vb, va < vb, vb < va, and values not used. *)
    - (* all coordinates equal: the values decide *)
      assert (Hce : coords_eq a b) by (apply coords_eq_seq; split; assumption).
      destruct use_value eqn:Hu; [unfold Zcmp; destruct (Z.compare_spec va vb) as [Hc | Hc | Hc]|];
        cbn [partial_cmp_post].
      1,4: split; [|split; [|split; [reflexivity | exact Hce]]];
           (apply le_all_intro; [assumption | intros Hu'; lia || congruence]).
      all: split; [apply le_all_intro; [assumption | intros _; lia]|];
           split; [apply val_lt_not_le; assumption|]; split; [exact Hu | split; assumption].
    - (* a below b on the coordinates, strictly somewhere: a larger value of a makes them incomparable *)
      apply coord_lt_seq in H2. pose proof (coord_lt_not_le a va b vb H2) as Hn.
      destruct use_value eqn:Hu; [unfold Zcmp; destruct (Z.compare_spec va vb) as [Hc | Hc | Hc]|];
        cbn [partial_cmp_post].
      3: split; [apply val_lt_not_le; assumption | exact Hn].
      all: split; [apply le_all_intro; [assumption | intros Hu'; lia || congruence]|]; split; assumption.
    - (* the mirror image *)
      apply coord_lt_seq in H2. pose proof (coord_lt_not_le b vb a va H2) as Hn.
      destruct use_value eqn:Hu; [unfold Zcmp; destruct (Z.compare_spec va vb) as [Hc | Hc | Hc]|];
        cbn [partial_cmp_post].
      2: split; [exact Hn | apply val_lt_not_le; assumption].
      all: split; [apply le_all_intro; [assumption | intros Hu'; lia || congruence]|]; split; assumption.
  Qed.

  (** ** The four-way specification of [partial_cmp] *)

  (* Left to right this is [partial_cmp_cases]; right to left it holds because the four
     right-hand sides exclude each other. *)
  Theorem partial_cmp_spec a va b vb :
    (partial_cmp a va b vb = None <-> ~ le_all a va b vb /\ ~ le_all b vb a va) /\
    ((exists o, partial_cmp a va b vb = Some {| d_ord := Lt; d_ovd := o |})
       <-> le_all a va b vb /\ ~ le_all b vb a va) /\
    ((exists o, partial_cmp a va b vb = Some {| d_ord := Gt; d_ovd := o |})
       <-> le_all b vb a va /\ ~ le_all a va b vb) /\
    ((exists o, partial_cmp a va b vb = Some {| d_ord := Eq; d_ovd := o |})
       <-> le_all a va b vb /\ le_all b vb a va).
  Proof.
    generalize (partial_cmp_cases a va b vb).
    destruct (partial_cmp a va b vb) as [[[| |] o]|]; cbn [partial_cmp_post];
      [intros (H1 & H2 & _) ..| intros [H1 H2]];
      (split; [|split; [|split]]); (split; [intros E | intros [Ha Hb]]);
      first [ exact (conj H1 H2) | discriminate E | destruct E as [? [=]]
            | contradiction | reflexivity | exists o; reflexivity ].
  Qed.

  Lemma partial_cmp_None_iff a va b vb :
    partial_cmp a va b vb = None <-> ~ le_all a va b vb /\ ~ le_all b vb a va.
  Proof. apply partial_cmp_spec. Qed.

  Lemma partial_cmp_Lt_iff a va b vb :
    (exists o, partial_cmp a va b vb = Some {| d_ord := Lt; d_ovd := o |})
    <-> le_all a va b vb /\ ~ le_all b vb a va.
  Proof. apply partial_cmp_spec. Qed.

  Lemma partial_cmp_Gt_iff a va b vb :
    (exists o, partial_cmp a va b vb = Some {| d_ord := Gt; d_ovd := o |})
    <-> le_all b vb a va /\ ~ le_all a va b vb.
  Proof. apply partial_cmp_spec. Qed.

  Lemma partial_cmp_Eq_iff a va b vb :
    (exists o, partial_cmp a va b vb = Some {| d_ord := Eq; d_ovd := o |})
    <-> le_all a va b vb /\ le_all b vb a va.
  Proof. apply partial_cmp_spec. Qed.

  Lemma partial_cmp_Lt_le a va b vb o :
    partial_cmp a va b vb = Some {| d_ord := Lt; d_ovd := o |} ->
    le_all a va b vb /\ ~ le_all b vb a va.
  Proof. intros H. apply partial_cmp_Lt_iff. exists o. exact H. Qed.

  Lemma partial_cmp_None_sym a va b vb :
    partial_cmp a va b vb = None -> partial_cmp b vb a va = None.
  Proof.
    intros H. apply partial_cmp_None_iff in H. apply partial_cmp_None_iff.
    destruct H as [H1 H2]. split; assumption.
  Qed.

  (** characterisation of [d_ovd] (only_val_diff); the result [Eq] never carries it *)
  Lemma partial_cmp_Eq_ovd a va b vb o :
    partial_cmp a va b vb = Some {| d_ord := Eq; d_ovd := o |} -> o = false /\ coords_eq a b.
  Proof.
    intros H. generalize (partial_cmp_cases a va b vb). rewrite H.
    intros (_ & _ & H1). exact H1.
  Qed.

  Lemma partial_cmp_Lt_ovd_true a va b vb :
    partial_cmp a va b vb = Some {| d_ord := Lt; d_ovd := true |} ->
    use_value = true /\ coords_eq a b /\ va < vb.
  Proof.
    intros H. generalize (partial_cmp_cases a va b vb). rewrite H.
    intros (_ & _ & H1). exact H1.
  Qed.

  Lemma partial_cmp_Lt_ovd_false a va b vb :
    partial_cmp a va b vb = Some {| d_ord := Lt; d_ovd := false |} ->
    coord_lt a b /\ (use_value = true -> va <= vb).
  Proof.
    intros H. generalize (partial_cmp_cases a va b vb). rewrite H.
    intros ([_ H0] & _ & H1). split; assumption.
  Qed.

  Lemma partial_cmp_Gt_ovd_true a va b vb :
    partial_cmp a va b vb = Some {| d_ord := Gt; d_ovd := true |} ->
    use_value = true /\ coords_eq a b /\ vb < va.
  Proof.
    intros H. generalize (partial_cmp_cases a va b vb). rewrite H.
    intros (_ & _ & H1). exact H1.
  Qed.

  Lemma partial_cmp_Gt_ovd_false a va b vb :
    partial_cmp a va b vb = Some {| d_ord := Gt; d_ovd := false |} ->
    coord_lt b a /\ (use_value = true -> vb <= va).
  Proof.
    intros H. generalize (partial_cmp_cases a va b vb). rewrite H.
    intros ([_ H0] & _ & H1). split; assumption.
  Qed.

  (** * 2. [Dominance::cmp] ranks a dominator after the dominated state *)

  Lemma cmp_loop_lt a b is : leL a b is -> ltE a b is -> cmp_loop a b is = Lt.
  Proof.
    induction is as [|i is IH]; intros Hle Hlt.
    - exfalso. exact (ltE_nil a b Hlt).
    - cbn [Dom.cmp_loop]. apply leL_cons in Hle. destruct Hle as [Hi Hle].
      apply ltE_cons in Hlt. unfold Zcmp.
      destruct (Z.compare_spec (coord a i) (coord b i)) as [Hc | Hc | Hc].
      + apply IH; [exact Hle|]. destruct Hlt as [Hlt | Hlt]; [lia | exact Hlt].
      + reflexivity.
      + lia.
  Qed.

  Theorem cmp_ranks_dominator_first a va b vb o :
    partial_cmp a va b vb = Some {| d_ord := Lt; d_ovd := o |} -> dcmp a va b vb = Lt.
  Proof.
    intros H. unfold Dom.dcmp. destruct o.
    - apply partial_cmp_Lt_ovd_true in H. destruct H as [Hu [_ Hlt]].
      rewrite Hu. unfold Zcmp. rewrite (proj2 (Z.compare_lt_iff va vb) Hlt). reflexivity.
    - destruct (partial_cmp_Lt_le _ _ _ _ _ H) as [Hle _]. apply le_all_seq in Hle.
      apply partial_cmp_Lt_ovd_false in H. destruct H as [Hlt Hv]. apply coord_lt_seq in Hlt.
      rewrite (cmp_loop_lt a b _ (proj1 Hle) Hlt). destruct use_value; [|reflexivity].
      specialize (Hv eq_refl). unfold Zcmp.
      destruct (Z.compare_spec va vb) as [Hc | Hc | Hc]; [reflexivity | reflexivity | lia].
  Qed.

  (** * 3. Verdict of one query on a bucket *)

  Definition pc_is_lt (s : St) (v : Z) (e : entry) : bool :=
    match partial_cmp s v (fst e) (snd e) with
    | Some {| d_ord := Lt |} => true
    | _ => false
    end.
  (** entries that [Vec::retain] keeps: incomparable ones and dominators of the query *)
  Definition pc_keep (s : St) (v : Z) (e : entry) : bool :=
    match partial_cmp s v (fst e) (snd e) with
    | None => true
    | Some {| d_ord := Lt |} => true
    | Some _ => false
    end.
  Definition pc_incomp (s : St) (v : Z) (e : entry) : bool :=
    match partial_cmp s v (fst e) (snd e) with
    | None => true
    | Some _ => false
    end.
  (** one update of the running threshold *)
  Definition thr_step (s : St) (v : Z) (t : option Z) (e : entry) : option Z :=
    match partial_cmp s v (fst e) (snd e) with
    | Some {| d_ord := Lt; d_ovd := ovd |} =>
        if use_value then (if ovd then omin t (sat_sub (snd e) 1) else omin t (snd e)) else t
    | _ => t
    end.

  Lemma retain_loop_spec s v es : forall d t,
    retain_loop s v es d t =
    (filter (pc_keep s v) es, d || existsb (pc_is_lt s v) es, fold_left (thr_step s v) es t).
  Proof.
    induction es as [|[os ov] es IH]; intros d t.
    - cbn [Dom.retain_loop filter existsb fold_left]. rewrite orb_false_r. reflexivity.
    - cbn [Dom.retain_loop filter existsb fold_left].
      unfold pc_keep at 1, pc_is_lt at 1, thr_step at 2. cbn [fst snd].
      destruct (partial_cmp s v os ov) as [[[| |] o]|]; rewrite IH;
        [| rewrite orb_true_l, orb_true_r | |]; reflexivity.
  Qed.

  Lemma bucket_query_eq s v es :
    bucket_query s v es =
    if existsb (pc_is_lt s v) es
    then (filter (pc_keep s v) es,
          {| dc_dominated := true; dc_threshold := fold_left (thr_step s v) es (Some IMAX) |})
    else (filter (pc_keep s v) es ++ [(s, v)], {| dc_dominated := false; dc_threshold := None |}).
  Proof.
    unfold Dom.bucket_query. rewrite retain_loop_spec. rewrite orb_false_l. reflexivity.
  Qed.

  Lemma existsb_pc_is_lt s v es :
    existsb (pc_is_lt s v) es = true <->
    exists os ov o, In (os, ov) es /\ partial_cmp s v os ov = Some {| d_ord := Lt; d_ovd := o |}.
  Proof.
    rewrite existsb_exists. split.
    - intros [[os ov] [Hin Hlt]]. unfold pc_is_lt in Hlt. cbn [fst snd] in Hlt.
      destruct (partial_cmp s v os ov) as [[[| |] o]|] eqn:E; try discriminate.
      exists os, ov, o. split; [exact Hin | exact E].
    - intros [os [ov [o [Hin Hpc]]]]. exists (os, ov). split; [exact Hin|].
      unfold pc_is_lt. cbn [fst snd]. rewrite Hpc. reflexivity.
  Qed.

  Lemma keep_is_incomp_when_not_dominated s v es :
    existsb (pc_is_lt s v) es = false -> filter (pc_keep s v) es = filter (pc_incomp s v) es.
  Proof.
    intros H. apply filter_ext_in. intros e He.
    assert (Hlt : pc_is_lt s v e = false).
    { destruct (pc_is_lt s v e) eqn:E; [|reflexivity].
      assert (Hex : existsb (pc_is_lt s v) es = true).
      { apply existsb_exists. exists e. split; assumption. }
      congruence. }
    unfold pc_is_lt in Hlt. unfold pc_keep, pc_incomp.
    destruct (partial_cmp s v (fst e) (snd e)) as [[[| |] o]|]; try reflexivity; discriminate.
  Qed.

  Theorem bucket_query_verdict s v es es' r :
    bucket_query s v es = (es', r) ->
    (dc_dominated r = true <->
       exists os ov o, In (os, ov) es /\
                       partial_cmp s v os ov = Some {| d_ord := Lt; d_ovd := o |}) /\
    (dc_dominated r = false ->
       es' = filter (pc_incomp s v) es ++ [(s, v)] /\ dc_threshold r = None) /\
    (dc_dominated r = true ->
       es' = filter (pc_keep s v) es /\
       dc_threshold r = fold_left (thr_step s v) es (Some IMAX)).
  Proof using get_key.
    rewrite bucket_query_eq. rewrite <- existsb_pc_is_lt.
    destruct (existsb (pc_is_lt s v) es) eqn:E; intros H; inversion H; subst es' r; cbn [dc_dominated dc_threshold].
    - split; [tauto|]. split; [discriminate|]. intros _. split; reflexivity.
    - split; [tauto|]. split; [|discriminate]. intros _.
      rewrite (keep_is_incomp_when_not_dominated s v es E). split; reflexivity.
  Qed.

  (** readable membership form: what is kept / dropped *)
  Lemma pc_keep_true_iff s v e :
    pc_keep s v e = true <->
    partial_cmp s v (fst e) (snd e) = None \/
    exists o, partial_cmp s v (fst e) (snd e) = Some {| d_ord := Lt; d_ovd := o |}.
  Proof.
    unfold pc_keep. destruct (partial_cmp s v (fst e) (snd e)) as [[[| |] o]|]; split;
      try discriminate; try (intros [H | [o' H]]; discriminate).
    - intros _. right. exists o. reflexivity.
    - reflexivity.
    - intros _. left. reflexivity.
    - reflexivity.
  Qed.

  Lemma pc_incomp_true_iff s v e :
    pc_incomp s v e = true <-> partial_cmp s v (fst e) (snd e) = None.
  Proof.
    unfold pc_incomp. destruct (partial_cmp s v (fst e) (snd e)); split; try discriminate; reflexivity.
  Qed.

  (** an entry that [Vec::retain] drops is below the query *)
  Lemma pc_keep_false_le s v e : pc_keep s v e = false -> le_all (fst e) (snd e) s v.
  Proof.
    unfold pc_keep. generalize (partial_cmp_cases s v (fst e) (snd e)).
    destruct (partial_cmp s v (fst e) (snd e)) as [[[| |] o]|]; try discriminate;
      intros (H1 & H2 & _) _; assumption.
  Qed.

  (** * 4. The bucket is an antichain *)

  Definition epc (e1 e2 : entry) : option dres := partial_cmp (fst e1) (snd e1) (fst e2) (snd e2).
  Definition incomp2 (e1 e2 : entry) : Prop := epc e1 e2 = None /\ epc e2 e1 = None.

  (** any two entries at distinct positions are incomparable (in both directions) *)
  Definition antichain (es : bucket) : Prop :=
    forall i j e1 e2, i <> j -> nth_error es i = Some e1 -> nth_error es j = Some e2 ->
                      incomp2 e1 e2.

  Fixpoint antichainF (es : bucket) : Prop :=
    match es with
    | [] => True
    | e :: es' => (forall e', In e' es' -> incomp2 e e') /\ antichainF es'
    end.

  Lemma incomp2_sym e1 e2 : incomp2 e1 e2 -> incomp2 e2 e1.
  Proof. intros [H1 H2]. split; assumption. Qed.

  Lemma antichain_iff_F es : antichain es <-> antichainF es.
  Proof.
    induction es as [|e es IH].
    - split; [intros _; exact I|]. intros _ [|i] j e1 e2 _ H; discriminate.
    - cbn [antichainF]. split.
      + intros H. split.
        * intros e' Hin. apply In_nth_error in Hin. destruct Hin as [j Hj].
          apply (H 0%nat (S j) e e'); [discriminate | reflexivity | exact Hj].
        * apply IH. intros i j e1 e2 Hij H1 H2.
          apply (H (S i) (S j) e1 e2); [congruence | exact H1 | exact H2].
      + intros [Hhd Htl]. apply IH in Htl. intros [|i] [|j] e1 e2 Hij H1 H2.
        * congruence.
        * cbn [nth_error] in H1, H2. inversion H1; subst e1.
          apply Hhd. apply nth_error_In with (n := j). exact H2.
        * cbn [nth_error] in H1, H2. inversion H2; subst e2.
          apply incomp2_sym. apply Hhd. apply nth_error_In with (n := i). exact H1.
        * cbn [nth_error] in H1, H2. apply (Htl i j e1 e2); [congruence | exact H1 | exact H2].
  Qed.

  Lemma antichain_nil : antichain [].
  Proof. apply antichain_iff_F. exact I. Qed.

  Lemma antichainF_filter f es : antichainF es -> antichainF (filter f es).
  Proof.
    induction es as [|e es IH]; [intros _; exact I|].
    cbn [antichainF filter]. intros [Hhd Htl]. destruct (f e).
    - cbn [antichainF]. split; [|apply IH; exact Htl].
      intros e' Hin. apply filter_In in Hin. apply Hhd. apply Hin.
    - apply IH; exact Htl.
  Qed.

  Lemma antichainF_snoc es x :
    antichainF es -> (forall e, In e es -> incomp2 e x) -> antichainF (es ++ [x]).
  Proof.
    induction es as [|e es IH]; intros Ha Hx.
    - cbn [app antichainF]. split; [intros e' []| exact I].
    - cbn [app antichainF] in *. destruct Ha as [Hhd Htl]. split.
      + intros e' Hin. apply in_app_or in Hin. destruct Hin as [Hin | [Hin | []]].
        * apply Hhd; exact Hin.
        * subst e'. apply Hx. left; reflexivity.
      + apply IH; [exact Htl|]. intros e' Hin. apply Hx. right; exact Hin.
  Qed.

  Theorem bucket_query_antichain s v es es' r :
    antichain es -> bucket_query s v es = (es', r) -> antichain es'.
  Proof.
    intros Ha Hq. apply antichain_iff_F. apply antichain_iff_F in Ha.
    destruct (bucket_query_verdict s v es es' r Hq) as [_ [Hf Ht]].
    destruct (dc_dominated r).
    - destruct (Ht eq_refl) as [He _]. subst es'. apply antichainF_filter. exact Ha.
    - destruct (Hf eq_refl) as [He _]. subst es'.
      apply antichainF_snoc; [apply antichainF_filter; exact Ha|].
      intros e Hin. apply filter_In in Hin. destruct Hin as [_ Hk].
      apply pc_incomp_true_iff in Hk. unfold incomp2, epc. cbn [fst snd].
      split; [apply partial_cmp_None_sym; exact Hk | exact Hk].
  Qed.

  (** buckets reachable from [[]] are antichains *)
  Fixpoint bucket_after_from (es : bucket) (qs : list entry) : bucket :=
    match qs with
    | [] => es
    | q :: qs' => bucket_after_from (fst (bucket_query (fst q) (snd q) es)) qs'
    end.

  Corollary reachable_bucket_antichain qs : antichain (bucket_after_from [] qs).
  Proof.
    assert (H : forall es, antichain es -> antichain (bucket_after_from es qs)).
    { induction qs as [|q qs IH]; intros es Ha; [exact Ha|].
      cbn [bucket_after_from]. apply IH.
      destruct (bucket_query (fst q) (snd q) es) as [es' r] eqn:E.
      cbn [fst]. exact (bucket_query_antichain _ _ _ _ _ Ha E). }
    apply H. apply antichain_nil.
  Qed.

  (** under the antichain invariant a dominated verdict drops nothing *)
  Theorem dominated_drops_nothing s v es es' r :
    antichain es -> bucket_query s v es = (es', r) -> dc_dominated r = true -> es' = es.
  Proof.
    intros Ha Hq Hd.
    destruct (bucket_query_verdict s v es es' r Hq) as [Hiff [_ Ht]].
    destruct (Ht Hd) as [He _]. subst es'.
    apply Hiff in Hd. destruct Hd as [os [ov [o [Hin0 Hlt0]]]].
    apply filter_all_true. intros e Hin.
    destruct (pc_keep s v e) eqn:Hk; [reflexivity|]. exfalso.
    (* e is below (s,v), which is strictly below (os,ov) *)
    apply pc_keep_false_le in Hk.
    destruct (partial_cmp_Lt_le _ _ _ _ _ Hlt0) as [Hle0 Hnle0].
    apply In_nth_error in Hin. destruct Hin as [i Hi].
    apply In_nth_error in Hin0. destruct Hin0 as [j Hj].
    destruct (Nat.eq_dec i j) as [Hij | Hij].
    - subst j. injection (eq_trans (eq_sym Hi) Hj) as ->. exact (Hnle0 Hk).
    - destruct (Ha i j e (os, ov) Hij Hi Hj) as [Hn _]. apply partial_cmp_None_iff in Hn.
      exact (proj1 Hn (le_all_trans _ _ _ _ _ _ Hk Hle0)).
  Qed.

  (** * 5. Pareto-front semantics over histories *)

  (** all queries go to one bucket (same key, same depth) *)
  Definition hstep (acc : bucket * list dcheck) (q : entry) : bucket * list dcheck :=
    let '(es', r) := bucket_query (fst q) (snd q) (fst acc) in (es', snd acc ++ [r]).
  Definition run_queries (qs : list entry) : bucket * list dcheck := fold_left hstep qs ([], []).
  Definition bucket_after (qs : list entry) : bucket := fst (run_queries qs).
  Definition verdicts (qs : list entry) : list dcheck := snd (run_queries qs).

  Definition ele (e1 e2 : entry) : Prop := le_all (fst e1) (snd e1) (fst e2) (snd e2).

  (** The bucket summarises the history: it is an antichain of queries of the history, and
      every query of the history, recorded or not, is below one of its entries. *)
  Definition hist_inv (qs : list entry) (es : bucket) : Prop :=
    antichain es /\
    (forall e, In e es -> In e qs) /\
    (forall q, In q qs -> exists e, In e es /\ ele q e).

  Lemma hist_inv_nil : hist_inv [] [].
  Proof.
    split; [apply antichain_nil|]. split; [intros e []| intros q []].
  Qed.

  Lemma hist_inv_step qs es s v es' r :
    hist_inv qs es -> bucket_query s v es = (es', r) -> hist_inv (qs ++ [(s, v)]) es'.
  Proof.
    intros [Ha [Hsub Hcov]] Hq.
    split; [exact (bucket_query_antichain _ _ _ _ _ Ha Hq)|].
    destruct (dc_dominated r) eqn:Hd.
    - (* dominated: the bucket is unchanged and holds a dominator of the query *)
      rewrite (dominated_drops_nothing _ _ _ _ _ Ha Hq Hd).
      apply (proj1 (bucket_query_verdict _ _ _ _ _ Hq)) in Hd. destruct Hd as [os [ov [o [Hin0 Hlt0]]]].
      split.
      + intros e Hin. apply in_or_app. left. apply Hsub. exact Hin.
      + intros q Hin. apply in_app_or in Hin. destruct Hin as [Hin | [<- | []]].
        * apply Hcov. exact Hin.
        * exists (os, ov). split; [exact Hin0 | exact (proj1 (partial_cmp_Lt_le _ _ _ _ _ Hlt0))].
    - (* recorded: the dropped entries are below the query, which covers what they covered *)
      rewrite bucket_query_eq in Hq.
      destruct (existsb (pc_is_lt s v) es); inversion Hq; subst es' r; [discriminate Hd|].
      split.
      + intros e Hin. apply in_app_or in Hin. apply in_or_app.
        destruct Hin as [Hin | Hin]; [left | right; exact Hin].
        apply filter_In in Hin. apply Hsub. apply Hin.
      + intros q Hin. apply in_app_or in Hin. destruct Hin as [Hin | [<- | []]].
        * destruct (Hcov q Hin) as [e [Hine Hqe]].
          destruct (pc_keep s v e) eqn:Hk.
          -- exists e. split; [|exact Hqe]. apply in_or_app. left.
             apply filter_In. split; assumption.
          -- exists (s, v). split; [apply in_or_app; right; left; reflexivity|].
             exact (le_all_trans _ _ _ _ _ _ Hqe (pc_keep_false_le _ _ _ Hk)).
        * exists (s, v). split; [apply in_or_app; right; left; reflexivity | apply le_all_refl].
  Qed.

  Lemma run_queries_snoc qs q : run_queries (qs ++ [q]) = hstep (run_queries qs) q.
  Proof. unfold run_queries. rewrite fold_left_app. reflexivity. Qed.

  Lemma hist_inv_run qs : hist_inv qs (bucket_after qs).
  Proof.
    induction qs as [|q qs IH] using rev_ind.
    - exact hist_inv_nil.
    - unfold bucket_after. rewrite run_queries_snoc. unfold hstep.
      destruct (bucket_query (fst q) (snd q) (fst (run_queries qs))) as [es' r] eqn:E.
      cbn [fst]. destruct q as [s v]. cbn [fst snd] in E.
      exact (hist_inv_step _ _ _ _ _ _ IH E).
  Qed.

  (** every bucket reachable from the empty one (fold_left form) is an antichain *)
  Corollary bucket_after_antichain qs : antichain (bucket_after qs).
  Proof. apply (hist_inv_run qs). Qed.

  (** one step, from any bucket satisfying the invariant: the verdict is "dominated" iff
      some query of the history strictly dominates the new one *)
  Lemma pareto_front_step qs es s v :
    hist_inv qs es ->
    (dc_dominated (snd (bucket_query s v es)) = true <->
     exists s' v', In (s', v') qs /\ le_all s v s' v' /\ ~ le_all s' v' s v).
  Proof.
    intros [Ha [Hsub Hcov]].
    destruct (bucket_query s v es) as [es' r] eqn:Hq. cbn [snd].
    rewrite (proj1 (bucket_query_verdict s v es es' r Hq)). split.
    - intros [os [ov [o [Hin Hlt]]]]. exists os, ov.
      split; [apply Hsub; exact Hin | exact (partial_cmp_Lt_le _ _ _ _ _ Hlt)].
    - intros [s' [v' [Hin [Hle Hnle]]]]. destruct (Hcov _ Hin) as [[os ov] [Hine Hqe]].
      destruct (proj2 (partial_cmp_Lt_iff s v os ov)) as [o Hlt].
      { split; [exact (le_all_trans _ _ _ _ _ _ Hle Hqe)|].
        intros Hback. apply Hnle. exact (le_all_trans _ _ _ _ _ _ Hqe Hback). }
      exists os, ov, o. split; assumption.
  Qed.

  (** the verdict list lines up with the query list *)
  Lemma verdicts_snoc qs q :
    verdicts (qs ++ [q]) = verdicts qs ++ [snd (bucket_query (fst q) (snd q) (bucket_after qs))].
  Proof.
    unfold verdicts, bucket_after. rewrite run_queries_snoc. unfold hstep.
    destruct (bucket_query (fst q) (snd q) (fst (run_queries qs))). reflexivity.
  Qed.

  Lemma verdicts_length qs : length (verdicts qs) = length qs.
  Proof.
    induction qs as [|q qs IH] using rev_ind; [reflexivity|].
    rewrite verdicts_snoc, !app_length, IH. reflexivity.
  Qed.

  Lemma verdicts_nth qs1 q qs2 :
    nth_error (verdicts (qs1 ++ q :: qs2)) (length qs1) =
    Some (snd (bucket_query (fst q) (snd q) (bucket_after qs1))).
  Proof.
    induction qs2 as [|x qs2 IH] using rev_ind.
    - rewrite verdicts_snoc, nth_error_app2; rewrite verdicts_length; [|lia].
      rewrite Nat.sub_diag. reflexivity.
    - rewrite app_comm_cons, app_assoc, verdicts_snoc, nth_error_app1; [exact IH|].
      rewrite verdicts_length, app_length. cbn [length]. lia.
  Qed.

  (** Main theorem, prefix form: the verdict on the query presented after the prefix [qs1]
      is "dominated" iff some previously presented query (recorded or not) strictly
      dominates it. *)
  Theorem pareto_front_history qs1 s v :
    dc_dominated (snd (bucket_query s v (bucket_after qs1))) = true <->
    exists s' v', In (s', v') qs1 /\ le_all s v s' v' /\ ~ le_all s' v' s v.
  Proof. apply pareto_front_step. apply hist_inv_run. Qed.

  (** Main theorem, indexed form over the whole run *)
  Theorem pareto_front_semantics qs n s v r :
    nth_error qs n = Some (s, v) ->
    nth_error (verdicts qs) n = Some r ->
    (dc_dominated r = true <->
     exists m s' v', (m < n)%nat /\ nth_error qs m = Some (s', v') /\
                     le_all s v s' v' /\ ~ le_all s' v' s v).
  Proof.
    intros Hq Hr. apply nth_error_split in Hq. destruct Hq as [qs1 [qs2 [Hqs Hlen]]].
    subst qs n. rewrite verdicts_nth in Hr. cbn [fst snd] in Hr. inversion Hr; subst r.
    rewrite pareto_front_history. split.
    - intros [s' [v' [Hin Hdom]]]. apply In_nth_error in Hin. destruct Hin as [m Hm].
      assert (Hlt : (m < length qs1)%nat). { apply nth_error_Some. congruence. }
      exists m, s', v'. split; [exact Hlt|]. split; [|exact Hdom].
      rewrite nth_error_app1; assumption.
    - intros [m [s' [v' [Hlt [Hm Hdom]]]]]. exists s', v'. split; [|exact Hdom].
      rewrite nth_error_app1 in Hm; [|exact Hlt]. apply nth_error_In with (n := m). exact Hm.
  Qed.

  (** * 6. Threshold soundness *)

  (** contribution of one dominating entry to the threshold *)
  Definition thr_contrib (ov : Z) (ovd : bool) : Z := if ovd then sat_sub ov 1 else ov.

  Lemma fold_thr_spec s v es : forall t0,
    exists t, fold_left (thr_step s v) es (Some t0) = Some t /\
      t <= t0 /\
      (use_value = false -> t = t0) /\
      (forall os ov o, In (os, ov) es ->
         partial_cmp s v os ov = Some {| d_ord := Lt; d_ovd := o |} ->
         use_value = true -> t <= thr_contrib ov o) /\
      (forall lb, lb <= t0 ->
         (forall os ov o, In (os, ov) es ->
            partial_cmp s v os ov = Some {| d_ord := Lt; d_ovd := o |} -> lb <= thr_contrib ov o) ->
         lb <= t).
  Proof.
    induction es as [|[os ov] es IH]; intros t0.
    - exists t0. cbn [fold_left]. split; [reflexivity|]. split; [lia|]. split; [reflexivity|].
      split; [intros os ov o []|]. intros lb Hlb _. exact Hlb.
    - cbn [fold_left]. unfold thr_step at 2. cbn [fst snd].
      destruct (partial_cmp s v os ov) as [[[| |] o]|] eqn:Epc; [|destruct use_value eqn:Hu|..].
      2:{ (* a dominator, with values: its contribution enters the minimum *)
        assert (Hstep : (if o then omin (Some t0) (sat_sub ov 1) else omin (Some t0) ov)
                        = Some (Z.min t0 (thr_contrib ov o))).
        { unfold thr_contrib. destruct o; reflexivity. }
        rewrite Hstep.
        destruct (IH (Z.min t0 (thr_contrib ov o))) as [t [H1 [H2 [H3 [H4 H5]]]]]. exists t.
        split; [exact H1|]. split; [lia|]. split; [discriminate|]. split.
        - intros os' ov' o' [Heq | Hin] Hpc _.
          + inversion Heq; subst os' ov'. rewrite Epc in Hpc. inversion Hpc; subst o'. lia.
          + exact (H4 os' ov' o' Hin Hpc eq_refl).
        - intros lb Hlb Hall. apply H5.
          + pose proof (Hall os ov o (or_introl eq_refl) Epc). lia.
          + intros os' ov' o' Hin Hpc. apply (Hall os' ov' o'); [right; exact Hin | exact Hpc]. }
      (* otherwise the head leaves the threshold as it is and constrains nothing *)
      all: destruct (IH t0) as [t [H1 [H2 [H3 [H4 H5]]]]]; exists t.
      all: split; [exact H1|]; split; [exact H2|]; split; [exact H3|]; split;
        [ intros os' ov' o' [Heq | Hin] Hpc Hu';
          [inversion Heq; subst os' ov'; congruence | exact (H4 os' ov' o' Hin Hpc Hu')]
        | intros lb Hlb Hall; apply H5; [exact Hlb|]; intros os' ov' o' Hin Hpc;
          apply (Hall os' ov' o'); [right; exact Hin | exact Hpc] ].
  Qed.

  Lemma clampZ_le_self z : IMIN <= z -> clampZ z <= z.
  Proof.
    intros H. unfold clampZ. destruct (Z.gtb_spec z IMAX), (Z.ltb_spec z IMIN); lia.
  Qed.

  (** a dominating entry and its contribution: the query's value is at most the
      contribution, and any value at most the contribution is still dominated by it *)
  Lemma thr_contrib_sound s v os ov o :
    in_isize v ->
    partial_cmp s v os ov = Some {| d_ord := Lt; d_ovd := o |} ->
    use_value = true ->
    v <= thr_contrib ov o /\
    forall v', v' <= thr_contrib ov o ->
               exists o', partial_cmp s v' os ov = Some {| d_ord := Lt; d_ovd := o' |}.
  Proof.
    intros Hv Hpc Hu. destruct (partial_cmp_Lt_le _ _ _ _ _ Hpc) as [[Hlec Hlev] _].
    specialize (Hlev Hu). unfold thr_contrib. destruct o.
    - apply partial_cmp_Lt_ovd_true in Hpc. destruct Hpc as [_ [Hce Hlt]].
      assert (Hmin : IMIN <= ov - 1). { unfold in_isize in Hv. lia. }
      split.
      + unfold sat_sub. rewrite <- (clampZ_id v Hv). apply clampZ_mono. lia.
      + intros v' Hv'. apply partial_cmp_Lt_iff.
        pose proof (clampZ_le_self (ov - 1) Hmin) as Hcl. unfold sat_sub in Hv'.
        split; [split; [exact Hlec | intros _; lia] | apply (val_lt_not_le _ _ _ _ Hu); lia].
    - apply partial_cmp_Lt_ovd_false in Hpc. destruct Hpc as [Hclt _].
      split; [exact Hlev|].
      intros v' Hv'. apply partial_cmp_Lt_iff. split.
      + split; [exact Hlec | intros _; exact Hv'].
      + apply coord_lt_not_le. exact Hclt.
  Qed.

  (** Only [in_isize v] is needed; the recorded values may be arbitrary. *)
  Theorem threshold_sound s v es es' r :
    in_isize v ->
    bucket_query s v es = (es', r) ->
    dc_dominated r = true ->
    (use_value = true ->
       exists t, dc_threshold r = Some t /\ v <= t /\ t <= IMAX /\
                 forall v', v' <= t -> dc_dominated (snd (bucket_query s v' es)) = true) /\
    (use_value = false -> dc_threshold r = Some IMAX).
  Proof.
    intros Hv Hq Hd.
    destruct (bucket_query_verdict s v es es' r Hq) as [Hiff [_ Ht]].
    destruct (Ht Hd) as [_ Hthr]. apply Hiff in Hd.
    destruct Hd as [os [ov [o [Hin Hpc]]]].
    destruct (fold_thr_spec s v es IMAX) as [t [H1 [H2 [H3 [H4 H5]]]]].
    rewrite H1 in Hthr. split.
    - intros Hu. exists t. split; [exact Hthr|]. split; [|split; [exact H2|]].
      + apply H5; [unfold in_isize in Hv; lia|].
        intros os' ov' o' Hin' Hpc'.
        apply (thr_contrib_sound s v os' ov' o' Hv Hpc' Hu).
      + intros v' Hv'.
        destruct (thr_contrib_sound s v os ov o Hv Hpc Hu) as [_ Hall].
        specialize (H4 os ov o Hin Hpc Hu).
        destruct (Hall v') as [o' Hpc']; [lia|].
        destruct (bucket_query s v' es) as [es'' r'] eqn:Hq'. cbn [snd].
        apply (bucket_query_verdict s v' es es'' r' Hq').
        exists os, ov, o'. split; assumption.
    - intros Hu. rewrite Hthr. rewrite (H3 Hu). reflexivity.
  Qed.

  (** any threshold returned with a dominated verdict is sound *)
  Corollary threshold_sound' s v es es' r t :
    in_isize v -> use_value = true ->
    bucket_query s v es = (es', r) -> dc_dominated r = true -> dc_threshold r = Some t ->
    v <= t /\ forall v', v' <= t -> dc_dominated (snd (bucket_query s v' es)) = true.
  Proof.
    intros Hv Hu Hq Hd Ht.
    destruct (threshold_sound s v es es' r Hv Hq Hd) as [H _].
    destruct (H Hu) as [t' [Ht' [H1 [_ H2]]]]. rewrite Ht in Ht'. inversion Ht'; subst t'.
    split; assumption.
  Qed.

  Lemma not_dominated_no_threshold s v es es' r :
    bucket_query s v es = (es', r) -> dc_dominated r = false -> dc_threshold r = None.
  Proof.
    intros Hq Hd. destruct (bucket_query_verdict s v es es' r Hq) as [_ [Hf _]].
    apply (Hf Hd).
  Qed.

  (** * 7. Lifting to the whole store *)

  Lemma key_eqb_refl k : key_eqb k k = true.
  Proof. apply key_eqb_spec. reflexivity. Qed.

  Lemma key_eqb_neq a b : a <> b -> key_eqb a b = false.
  Proof.
    intros H. destruct (key_eqb a b) eqn:E; [|reflexivity].
    apply key_eqb_spec in E. contradiction.
  Qed.

  (** a query on a layer is a [bucket_query] on the bucket of its key
      (a missing key behaves as the empty bucket) and leaves other keys alone *)
  Lemma layer_query_spec k s v l :
    forall l' r, layer_query k s v l = (l', r) ->
      (lookup_bucket k l', r) = bucket_query s v (lookup_bucket k l) /\
      (forall k', k' <> k -> lookup_bucket k' l' = lookup_bucket k' l).
  Proof.
    induction l as [|[k0 es] l IH]; intros l' r H.
    - cbn [Dom.layer_query] in H. inversion H; subst l' r. cbn [Dom.lookup_bucket].
      rewrite key_eqb_refl. split.
      + rewrite bucket_query_eq. reflexivity.
      + intros k' Hk'. rewrite key_eqb_neq; [reflexivity|]. congruence.
    - cbn [Dom.layer_query] in H. cbn [Dom.lookup_bucket].
      destruct (key_eqb k0 k) eqn:E.
      + destruct (bucket_query s v es) as [es' r0] eqn:Hq. inversion H; subst l' r.
        cbn [Dom.lookup_bucket]. rewrite E. split; [reflexivity|].
        intros k' Hk'. apply key_eqb_spec in E. subst k0.
        rewrite key_eqb_neq; [reflexivity|]. congruence.
      + destruct (layer_query k s v l) as [l'' r0] eqn:Hl. inversion H; subst l' r.
        cbn [Dom.lookup_bucket]. rewrite E.
        destruct (IH l'' r0 eq_refl) as [H1 H2]. split; [exact H1|].
        intros k' Hk'. destruct (key_eqb k0 k'); [reflexivity|]. apply H2. exact Hk'.
  Qed.

  (** the bucket of key [k] at depth [d]; missing layer / key = empty bucket *)
  Definition store_bucket (st : dstore) (d : nat) (k : Key) : bucket :=
    match nth_error st d with
    | Some l => lookup_bucket k l
    | None => []
    end.

  Lemma store_bucket_of_nth (st : dstore) d l k :
    nth_error st d = Some l -> store_bucket st d k = lookup_bucket k l.
  Proof.
    unfold store_bucket. destruct (nth_error st d) as [l0|]; intros H; inversion H. reflexivity.
  Qed.

  (** states without a key are never dominated and never recorded *)
  Theorem idoi_no_key st s d v :
    get_key s = None ->
    is_dominated_or_insert st s d v = Some (st, {| dc_dominated := false; dc_threshold := None |}).
  Proof. intros H. unfold Dom.is_dominated_or_insert. rewrite H. reflexivity. Qed.

  (** out-of-range depth is the only failure (index panic in the Rust code) *)
  Theorem idoi_None_iff st s d v :
    is_dominated_or_insert st s d v = None <->
    (exists k, get_key s = Some k) /\ (length st <= d)%nat.
  Proof.
    unfold Dom.is_dominated_or_insert. destruct (get_key s) as [k|].
    - destruct (nth_error st d) as [l|] eqn:E.
      + destruct (layer_query k s v l) as [l' r]. split; [discriminate|].
        intros [_ Hlen]. apply nth_error_None in Hlen. congruence.
      + apply nth_error_None in E. split; [|reflexivity].
        intros _. split; [exists k; reflexivity | exact E].
    - split; [discriminate|]. intros [[k Hk] _]. discriminate.
  Qed.

  Theorem idoi_spec st s d v k st' r :
    get_key s = Some k ->
    is_dominated_or_insert st s d v = Some (st', r) ->
    (store_bucket st' d k, r) = bucket_query s v (store_bucket st d k) /\
    (forall d' k', (d' <> d \/ k' <> k) -> store_bucket st' d' k' = store_bucket st d' k') /\
    length st' = length st.
  Proof.
    intros Hk H. unfold Dom.is_dominated_or_insert in H. rewrite Hk in H.
    destruct (nth_error st d) as [l|] eqn:E; [|discriminate].
    destruct (layer_query k s v l) as [l' r0] eqn:Hl. injection H as <- <-.
    destruct (layer_query_spec k s v l l' r0 Hl) as [H1 H2].
    split; [|split].
    - unfold store_bucket.
      rewrite (nth_error_upd_nth_same d (fun _ => l') st l E). rewrite E. exact H1.
    - intros d' k' Hneq. unfold store_bucket.
      destruct (Nat.eq_dec d' d) as [Hd | Hd].
      + subst d'. rewrite (nth_error_upd_nth_same d (fun _ => l') st l E). rewrite E.
        apply H2. destruct Hneq as [Hn | Hn]; [congruence | exact Hn].
      + rewrite nth_error_upd_nth_other; [reflexivity | congruence].
    - apply upd_nth_length.
  Qed.

  (** verdict of the store-level query, read directly *)
  Corollary idoi_verdict st s d v k st' r :
    get_key s = Some k ->
    is_dominated_or_insert st s d v = Some (st', r) ->
    (dc_dominated r = true <->
       exists os ov o, In (os, ov) (store_bucket st d k) /\
                       partial_cmp s v os ov = Some {| d_ord := Lt; d_ovd := o |}).
  Proof.
    intros Hk H. destruct (idoi_spec st s d v k st' r Hk H) as [H1 _].
    symmetry in H1. exact (proj1 (bucket_query_verdict _ _ _ _ _ H1)).
  Qed.

  (** [clear_layer d] empties depth [d] only *)
  Theorem dclear_layer_spec (st : dstore) d :
    (dclear_layer st d = None <-> (length st <= d)%nat) /\
    (forall st', dclear_layer st d = Some st' ->
       nth_error st' d = Some [] /\
       (forall k, store_bucket st' d k = []) /\
       (forall d', d' <> d -> nth_error st' d' = nth_error st d') /\
       (forall d' k, d' <> d -> store_bucket st' d' k = store_bucket st d' k) /\
       length st' = length st).
  Proof.
    unfold Dom.dclear_layer. destruct (nth_error st d) as [l|] eqn:E.
    - split.
      + split; [discriminate|]. intros Hlen. apply nth_error_None in Hlen. congruence.
      + intros st' H. inversion H; subst st'.
        pose proof (nth_error_upd_nth_same d (fun _ : dlayer => []) st l E) as Hsame.
        split; [exact Hsame|]. split; [|split; [|split]].
        * intros k. exact (store_bucket_of_nth _ d [] k Hsame).
        * intros d' Hd'. apply nth_error_upd_nth_other. congruence.
        * intros d' k Hd'. unfold store_bucket.
          rewrite nth_error_upd_nth_other; [reflexivity | congruence].
        * apply upd_nth_length.
    - split.
      + split; [intros _; apply nth_error_None; exact E | reflexivity].
      + intros st' H. discriminate.
  Qed.
End DomProofs.

(** * Concrete remarks.  States are integers with a single coordinate (the integer itself). *)

(** The antichain hypothesis of [dominated_drops_nothing] is necessary: on a bucket that
    is not an antichain (unreachable from [[]]), a dominated verdict does drop the entries
    that the query dominates ([Vec::retain] runs to the end regardless of the verdict). *)
Example dominated_may_drop_without_antichain :
  bucket_query 1 (fun s _ => s) false 3 0 [(1, 0); (5, 0)]
  = ([(5, 0)], {| dc_dominated := true; dc_threshold := Some IMAX |}).
Proof. vm_compute. reflexivity. Qed.

(** Remark on the threshold: it is the MINIMUM of the contributions of all dominating
    entries ([fold_thr_spec]), hence sound ([threshold_sound]) but not the largest sound
    value.  Here the bucket [(5,20); (7,10)] is an antichain (use_value = true), the query
    (3,5) is dominated by both entries and gets threshold 10, although the same state with
    value 15 > 10 is still dominated (by (5,20)). *)
Example threshold_is_min_of_dominators :
  snd (bucket_query 1 (fun s _ => s) true 3 5 [(5, 20); (7, 10)])
  = {| dc_dominated := true; dc_threshold := Some 10 |}
  /\ dc_dominated (snd (bucket_query 1 (fun s _ => s) true 3 15 [(5, 20); (7, 10)])) = true.
Proof. vm_compute. split; reflexivity. Qed.

(** only_val_diff: equal coordinates, smaller value: threshold is [ov - 1] *)
Example threshold_only_val_diff :
  snd (bucket_query 1 (fun s _ => s) true 5 3 [(5, 20)])
  = {| dc_dominated := true; dc_threshold := Some 19 |}.
Proof. vm_compute. reflexivity. Qed.

Print Assumptions partial_cmp_spec.
Print Assumptions partial_cmp_Lt_ovd_true.
Print Assumptions partial_cmp_Lt_ovd_false.
Print Assumptions cmp_ranks_dominator_first.
Print Assumptions bucket_query_verdict.
Print Assumptions bucket_query_antichain.
Print Assumptions reachable_bucket_antichain.
Print Assumptions dominated_drops_nothing.
Print Assumptions bucket_after_antichain.
Print Assumptions pareto_front_history.
Print Assumptions pareto_front_semantics.
Print Assumptions threshold_sound.
Print Assumptions threshold_sound'.
Print Assumptions layer_query_spec.
Print Assumptions idoi_no_key.
Print Assumptions idoi_None_iff.
Print Assumptions idoi_spec.
Print Assumptions idoi_verdict.
Print Assumptions dclear_layer_spec.
