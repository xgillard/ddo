(* SolverCutoff.v — the sequential solver model (Solver.v) WITH a cutoff.

   Part 1 (CompilePrefix): nothing but the poll test of Mdd.layer_loop reads ci_cutoff.
       compile_agree   a compilation that is not cut is replayed, result for result, by every cutoff above the
                       largest poll number B it tested (its own cutoff is above B); compile_zero: cutoff 0 never cuts.
   Part 2 (property C05, sequential part):  seq_anytime_sound
       configuration config_c = no cache, SimpleFringe, no dominance rule, ANY cutoff; contracts = the K1..K4 of
       SolverProofs.v made conditional on out = Compiled (K3_depth non-strict, K5 dropped), plus "no model crash"
       for every outcome.  [contracts cfg] and [semantics cfg] unfold to SolverProofs.contracts_ok and sem_ok, and
       are passed where those are expected.
       Invariant J = Core /\ Compl /\ UbB, UbB s = every fringe node has sp_ub <= s_ub s (the queue pops a
       sp_ub-maximal node + the min(node_ub, .) relabelling of enqueue_cutset).  The argument is the anytime half
       of SolverProofs.Loop, read for the SimpleFringe.
   Part 3 (property C19):  cutoff_monotone(_gen), cutoff_eventually_full
       Sections Prefix (runs with cutoffs k1 <= k2 share a prefix; only sc_use_cache cfg = false is assumed) and
       Later (a later cutoff gives bounds at least as tight; any fringe of SolverProofs.fringe_ok) hold the argument;
       main_loop_lb_monotone / main_loop_ub_monotone_partial are the run-internal facts; the plain statement
       "s_ub never increases along main_loop" is false of the model: SubCounterexample.s_ub_not_monotone.
   Stdlib only; no axioms (Print Assumptions at the end). *)
Require Import DDO.Base DDO.Fringe DDO.DP DDO.Cache DDO.Dom DDO.Mdd DDO.Solver DDO.SolverProofs.
From Coq Require Import Permutation Arith.
Open Scope Z_scope.

Section CompilePrefix.
  Context {St : Type}.
  Variable st_eqb : St -> St -> bool.

  Definition set_cutoff (inp : @cinput St) (k : nat) : @cinput St :=
    {| ci_flavour := ci_flavour inp; ci_type := ci_type inp; ci_problem := ci_problem inp; ci_relax := ci_relax inp;
       ci_ranking := ci_ranking inp; ci_domcmp := ci_domcmp inp; ci_width := ci_width inp; ci_root := ci_root inp;
       ci_best_lb := ci_best_lb inp; ci_use_cache := ci_use_cache inp; ci_domrule := ci_domrule inp; ci_cutoff := k |}.

  Definition fires (k p : nat) : bool := Nat.ltb 0 k && Nat.leb k p.
  Definition above (B k : nat) : Prop := k = 0%nat \/ (B < k)%nat.

  Lemma above_mono B B' k : (B <= B')%nat -> above B' k -> above B k.
  Proof. unfold above. intros H [E|L]; [left; exact E|right; lia]. Qed.

  Lemma fires_false_above k p : fires k p = false -> above p k.
  Proof.
    unfold fires, above. destruct k as [|k]; [left; reflexivity|]. cbn [Nat.ltb Nat.leb andb].
    intros H. right. change (Nat.leb (S k) p = false) in H. apply Nat.leb_gt in H. exact H.
  Qed.

  Lemma above_fires_false k p : above p k -> fires k p = false.
  Proof.
    unfold fires, above. intros [->|L]; [reflexivity|].
    destruct (Nat.ltb 0 k); [|reflexivity]. cbn [andb]. apply Nat.leb_gt. exact L.
  Qed.

  Definition loop_body (inp : @cinput St) (var : nat) (m : @mdd St) : @mdd St * option (list nat) :=
    if is_pooled (ci_flavour inp) then
      match m_next m with
      | [] => (m, None)
      | _ => move_to_next_layer_pooled st_eqb inp m var
      end
    else move_to_next_layer_clean st_eqb inp m.

  Lemma layer_loop_iter inp fuel m :
    layer_loop st_eqb inp (S fuel) m =
    let states := map (fun id => n_state (get_node inp m id)) (m_next m) in
    let ov := next_variable (ci_problem inp) (m_curr_depth m) states in
    let m0 := add_log m (EvNextVar (m_curr_depth m) states ov) in
    match ov with
    | None => (m0, LoopDone)
    | Some var =>
        let m1 := with_polls m0 (S (m_polls m0)) in
        if fires (ci_cutoff inp) (m_polls m1) then (m1, LoopCut)
        else
          let '(m2, ol) := loop_body inp var m1 in
          match ol with
          | None => (m2, LoopDone)
          | Some l =>
              let m3 := fold_left (expand_node st_eqb inp var) l m2 in
              layer_loop st_eqb inp fuel (with_depth m3 (S (m_curr_depth m3)))
          end
    end.
  Proof. reflexivity. Qed.

  (* nothing but the poll test of layer_loop reads ci_cutoff.  Proved function by function: unfolding the
     whole of [finalize] at once makes the normal form explode (each stage uses its argument many times). *)
  Ltac mdd_norm := cbv beta iota delta [
    set_cutoff ci_flavour ci_type ci_problem ci_relax ci_ranking ci_domcmp ci_width ci_root ci_best_lb ci_use_cache ci_domrule ci_cutoff
    loop_body get_node get_edge upd_node append_edge find_next branch_on cache_get cache_update dom_query
    filter_with_cache dom_order dom_retain filter_with_dominance rank_order note_squash restrict_layer redirect_edges
    relax_layer squash_if_needed move_to_next_layer_clean move_to_next_layer_pooled expand_node initialize
    finalize_layers argmax_candidates find_best_node has_exact_best_path finalize_exact frontier_cutset
    finalize_cutset compute_local_bounds maybe_update_cache compute_thresholds default_node].

  Lemma loop_body_cutoff inp k1 k2 var m :
    loop_body (set_cutoff inp k1) var m = loop_body (set_cutoff inp k2) var m.
  Proof. mdd_norm. reflexivity. Qed.

  Lemma expand_cutoff inp k1 k2 var m id :
    expand_node st_eqb (set_cutoff inp k1) var m id = expand_node st_eqb (set_cutoff inp k2) var m id.
  Proof. mdd_norm. reflexivity. Qed.

  Lemma initialize_cutoff inp k1 k2 c ds p : initialize (set_cutoff inp k1) c ds p = initialize (set_cutoff inp k2) c ds p.
  Proof. reflexivity. Qed.

  Lemma finalize_layers_cutoff inp k1 k2 m : finalize_layers (set_cutoff inp k1) m = finalize_layers (set_cutoff inp k2) m.
  Proof. mdd_norm. reflexivity. Qed.
  Lemma find_best_node_cutoff inp k1 k2 a b m : find_best_node (set_cutoff inp k1) a b m = find_best_node (set_cutoff inp k2) a b m.
  Proof. mdd_norm. reflexivity. Qed.
  Lemma finalize_exact_cutoff inp k1 k2 m : finalize_exact (set_cutoff inp k1) m = finalize_exact (set_cutoff inp k2) m.
  Proof. mdd_norm. reflexivity. Qed.
  Lemma finalize_cutset_cutoff inp k1 k2 m : finalize_cutset (set_cutoff inp k1) m = finalize_cutset (set_cutoff inp k2) m.
  Proof. mdd_norm. reflexivity. Qed.
  Lemma compute_local_bounds_cutoff inp k1 k2 m : compute_local_bounds (set_cutoff inp k1) m = compute_local_bounds (set_cutoff inp k2) m.
  Proof. mdd_norm. reflexivity. Qed.
  Lemma compute_thresholds_cutoff inp k1 k2 m :
    compute_thresholds st_eqb (set_cutoff inp k1) m = compute_thresholds st_eqb (set_cutoff inp k2) m.
  Proof. mdd_norm. reflexivity. Qed.

  Lemma finalize_cutoff inp k1 k2 tb tb2 m :
    finalize st_eqb (set_cutoff inp k1) tb tb2 m = finalize st_eqb (set_cutoff inp k2) tb tb2 m.
  Proof.
    unfold finalize.
    rewrite (finalize_layers_cutoff inp k1 k2), (find_best_node_cutoff inp k1 k2), (finalize_exact_cutoff inp k1 k2),
            (finalize_cutset_cutoff inp k1 k2), (compute_local_bounds_cutoff inp k1 k2), (compute_thresholds_cutoff inp k1 k2).
    reflexivity.
  Qed.

  Lemma fold_expand_cutoff inp k1 k2 var l : forall m,
    fold_left (expand_node st_eqb (set_cutoff inp k1) var) l m = fold_left (expand_node st_eqb (set_cutoff inp k2) var) l m.
  Proof.
    induction l as [|id l IH]; intros m; cbn [fold_left]; [reflexivity|].
    rewrite (expand_cutoff inp k1 k2). apply IH.
  Qed.

  (* the prefix lemma on layer_loop: a run that is not cut is reproduced by every cutoff above the
     largest poll number B it tested (and its own cutoff is above B) *)
  Lemma layer_loop_agree inp k1 : forall fuel m m' e,
    layer_loop st_eqb (set_cutoff inp k1) fuel m = (m', e) -> e <> LoopCut ->
    exists B, above B k1 /\
      forall k2, above B k2 -> layer_loop st_eqb (set_cutoff inp k2) fuel m = (m', e).
  Proof.
    induction fuel as [|fuel IH]; intros m m' e H Hne.
    - exists O. split; [destruct k1; [left; reflexivity|right; lia]|]. intros k2 _. exact H.
    - rewrite layer_loop_iter in H. cbv zeta in H.
      change (ci_problem (set_cutoff inp k1)) with (ci_problem inp) in H.
      change (ci_cutoff (set_cutoff inp k1)) with k1 in H.
      assert (Hgn : forall k, (fun id => n_state (get_node (set_cutoff inp k) m id)) = (fun id => n_state (get_node inp m id)))
        by reflexivity.
      rewrite Hgn in H.
      set (states := map (fun id => n_state (get_node inp m id)) (m_next m)) in *.
      destruct (next_variable (ci_problem inp) (m_curr_depth m) states) as [var|] eqn:Eov.
      2:{ exists O. split; [destruct k1; [left; reflexivity|right; lia]|]. intros k2 _.
          rewrite layer_loop_iter. cbv zeta.
          change (ci_problem (set_cutoff inp k2)) with (ci_problem inp). rewrite Hgn. fold states. rewrite Eov. exact H. }
      set (m0 := add_log m (EvNextVar (m_curr_depth m) states (Some var))) in *.
      set (m1 := with_polls m0 (S (m_polls m0))) in *.
      destruct (fires k1 (m_polls m1)) eqn:Ef.
      { inversion H; subst. contradiction Hne; reflexivity. }
      destruct (loop_body (set_cutoff inp k1) var m1) as [m2 ol] eqn:Eb.
      assert (Hstep : forall k2, above (m_polls m1) k2 ->
                layer_loop st_eqb (set_cutoff inp k2) (S fuel) m =
                match ol with
                | None => (m2, LoopDone)
                | Some l => let m3 := fold_left (expand_node st_eqb (set_cutoff inp k2) var) l m2 in
                            layer_loop st_eqb (set_cutoff inp k2) fuel (with_depth m3 (S (m_curr_depth m3)))
                end).
      { intros k2 Hab. rewrite layer_loop_iter. cbv zeta.
        change (ci_problem (set_cutoff inp k2)) with (ci_problem inp).
        change (ci_cutoff (set_cutoff inp k2)) with k2. rewrite Hgn. fold states. rewrite Eov. fold m0. fold m1.
        rewrite (above_fires_false _ _ Hab). rewrite (loop_body_cutoff inp k2 k1), Eb. reflexivity. }
      destruct ol as [l|].
      + cbv zeta in H. apply IH in H; [|exact Hne]. destruct H as (B & HB1 & HB2).
        exists (Nat.max (m_polls m1) B). split.
        * apply fires_false_above in Ef. destruct Ef as [->|L1]; [left; reflexivity|].
          destruct HB1 as [->|L2]; [left; reflexivity|]. right. lia.
        * intros k2 Hab. rewrite Hstep by (eapply above_mono; [|exact Hab]; lia). cbv zeta.
          rewrite (fold_expand_cutoff inp k2 k1). apply HB2. eapply above_mono; [|exact Hab]. lia.
      + exists (m_polls m1). split; [apply fires_false_above; exact Ef|]. intros k2 Hab.
        rewrite Hstep by exact Hab. exact H.
  Qed.

  Lemma compile_agree inp k1 tb tb2 c ds polls m o :
    compile st_eqb (set_cutoff inp k1) tb tb2 c ds polls = (m, o) -> o <> CutoffOccurred ->
    exists B, above B k1 /\
      forall k2, above B k2 -> compile st_eqb (set_cutoff inp k2) tb tb2 c ds polls = (m, o).
  Proof.
    unfold compile. change (ci_problem (set_cutoff inp k1)) with (ci_problem inp).
    destruct (layer_loop st_eqb (set_cutoff inp k1) (S (S (nb_vars (ci_problem inp)))) (initialize (set_cutoff inp k1) c ds polls))
      as [ml e] eqn:El.
    intros H Hne.
    assert (He : e <> LoopCut). { intros ->. inversion H; subst. apply Hne; reflexivity. }
    destruct (layer_loop_agree _ _ _ _ _ _ El He) as (B & HB1 & HB2).
    exists B. split; [exact HB1|]. intros k2 Hab.
    change (ci_problem (set_cutoff inp k2)) with (ci_problem inp).
    rewrite (initialize_cutoff inp k2 k1), (HB2 k2 Hab).
    destruct e; [|exact H|exact H]. rewrite (finalize_cutoff inp k2 k1). exact H.
  Qed.

  Lemma layer_loop_zero inp : forall fuel m m' e,
    layer_loop st_eqb (set_cutoff inp 0) fuel m = (m', e) -> e <> LoopCut.
  Proof.
    induction fuel as [|fuel IH]; intros m m' e H.
    - inversion H; subst. discriminate.
    - rewrite layer_loop_iter in H. cbv zeta in H.
      change (ci_cutoff (set_cutoff inp 0)) with 0%nat in H.
      destruct (next_variable _ _ _) as [var|]; [|inversion H; subst; discriminate].
      unfold fires in H. change (Nat.ltb 0 0) with false in H. cbn [andb] in H.
      destruct (loop_body (set_cutoff inp 0) var _) as [m2 ol].
      destruct ol as [l|]; [eapply IH; exact H|inversion H; subst; discriminate].
  Qed.

  Lemma compile_zero inp tb tb2 c ds polls m o :
    compile st_eqb (set_cutoff inp 0) tb tb2 c ds polls = (m, o) -> o <> CutoffOccurred.
  Proof.
    unfold compile.
    destruct (layer_loop st_eqb (set_cutoff inp 0) _ _) as [ml e] eqn:El.
    apply layer_loop_zero in El. destruct e; intros H; inversion H; subst; try discriminate. contradiction El; reflexivity.
  Qed.
End CompilePrefix.

Section Anytime.
  Context {St : Type}.
  Variable st_eqb : St -> St -> bool.

  Definition with_cutoff (cfg : @sconfig St) (k : nat) : @sconfig St :=
    {| sc_flavour := sc_flavour cfg; sc_problem := sc_problem cfg; sc_relax := sc_relax cfg; sc_ranking := sc_ranking cfg;
       sc_domcmp := sc_domcmp cfg; sc_domrule := sc_domrule cfg; sc_width := sc_width cfg; sc_use_cache := sc_use_cache cfg;
       sc_nodup := sc_nodup cfg; sc_cutoff := k |}.

  (* configuration of C05: no cache, SimpleFringe, no dominance rule, ANY cutoff *)
  Definition config_c (cfg : @sconfig St) : Prop :=
    sc_use_cache cfg = false /\ sc_domrule cfg = None /\ sc_nodup cfg = false.

  Variable good : @subproblem St -> Prop.
  Variable best : @subproblem St -> option Z.
  Variable feasible : list decision -> Z -> Prop.

  (* diagram contracts, as predicates of the configuration.
     Everything is conditional on out = Compiled, except the absence of a model crash. *)
  Definition KC_crash (cfg : @sconfig St) : Prop := forall ct n lb c ds polls m out,
    dd_ct ct -> good n -> (sp_depth n <= nb_vars (sc_problem cfg))%nat ->
    compile st_eqb (mk_input cfg ct n lb) 0 0 c ds polls = (m, out) -> m_crash m = false.
  Definition KC1 (cfg : @sconfig St) : Prop := forall ct n lb c ds polls m,
    dd_ct ct -> good n -> (sp_depth n <= nb_vars (sc_problem cfg))%nat ->
    compile st_eqb (mk_input cfg ct n lb) 0 0 c ds polls = (m, Compiled) ->
    forall v, dd_best_exact_value (mk_input cfg ct n lb) m = Some v ->
    exists sol, dd_best_exact_solution (mk_input cfg ct n lb) m = Some sol /\ feasible sol v.
  Definition KC2 (cfg : @sconfig St) : Prop := forall ct n lb c ds polls m,
    dd_ct ct -> good n -> (sp_depth n <= nb_vars (sc_problem cfg))%nat ->
    compile st_eqb (mk_input cfg ct n lb) 0 0 c ds polls = (m, Compiled) ->
    dd_is_exact m = true ->
    forall o, best n = Some o -> o > lb -> dd_best_exact_value (mk_input cfg ct n lb) m = Some o.
  Definition KC3_good (cfg : @sconfig St) : Prop := forall n lb c ds polls m,
    good n -> (sp_depth n <= nb_vars (sc_problem cfg))%nat ->
    compile st_eqb (mk_input cfg Relaxed n lb) 0 0 c ds polls = (m, Compiled) ->
    dd_is_exact m = false ->
    forall x, In x (drain_cutset (mk_input cfg Relaxed n lb) m) -> good x.
  (* non-strict: termination is not at stake here *)
  Definition KC3_depth (cfg : @sconfig St) : Prop := forall n lb c ds polls m,
    good n -> (sp_depth n <= nb_vars (sc_problem cfg))%nat ->
    compile st_eqb (mk_input cfg Relaxed n lb) 0 0 c ds polls = (m, Compiled) ->
    dd_is_exact m = false ->
    forall x, In x (drain_cutset (mk_input cfg Relaxed n lb) m) -> (sp_depth x <= nb_vars (sc_problem cfg))%nat.
  Definition KC3_ub (cfg : @sconfig St) : Prop := forall n lb c ds polls m,
    good n -> (sp_depth n <= nb_vars (sc_problem cfg))%nat ->
    compile st_eqb (mk_input cfg Relaxed n lb) 0 0 c ds polls = (m, Compiled) ->
    dd_is_exact m = false ->
    forall x, In x (drain_cutset (mk_input cfg Relaxed n lb) m) ->
    forall o, best x = Some o -> o > lb -> o <= sp_ub x.
  Definition KC4 (cfg : @sconfig St) : Prop := forall n lb c ds polls m,
    good n -> (sp_depth n <= nb_vars (sc_problem cfg))%nat ->
    compile st_eqb (mk_input cfg Relaxed n lb) 0 0 c ds polls = (m, Compiled) ->
    dd_is_exact m = false ->
    forall o, best n = Some o -> o > lb ->
    (forall e, dd_best_exact_value (mk_input cfg Relaxed n lb) m = Some e -> e < o) ->
    exists x, In x (drain_cutset (mk_input cfg Relaxed n lb) m) /\ best x = Some o.

  Definition contracts (cfg : @sconfig St) : Prop :=
    KC_crash cfg /\ KC1 cfg /\ KC2 cfg /\ KC3_good cfg /\ KC3_depth cfg /\ KC3_ub cfg /\ KC4 cfg.

  (* the abstract semantics: SolverProofs.sem_ok, as a predicate of the configuration *)
  Definition semantics (cfg : @sconfig St) : Prop :=
    good (root_node cfg) /\
    (forall sol v, feasible sol v -> exists o, OPT cfg best = Some o /\ v <= o) /\
    (forall o, OPT cfg best = Some o -> IMIN < o <= IMAX) /\
    (forall c u, good c -> good (set_ub c u)) /\
    (forall c u, best (set_ub c u) = best c).

  (* k2 cuts later than k1 (k2 = 0: never) *)
  Definition later (k1 k2 : nat) : Prop := (0 < k1)%nat /\ (k2 = 0%nat \/ (k1 <= k2)%nat).

  Lemma later_above k1 k2 B : later k1 k2 -> above B k1 -> above B k2.
  Proof. unfold later, above. intros [Hp H] [->|Hlt]; [lia|]. destruct H as [->|Hle]; [left; reflexivity|right; lia]. Qed.

  Lemma above_max_l B1 B2 k : above (Nat.max B1 B2) k -> above B1 k.
  Proof. apply (above_mono B1 (Nat.max B1 B2) k). lia. Qed.
  Lemma above_max_r B1 B2 k : above (Nat.max B1 B2) k -> above B2 k.
  Proof. apply (above_mono B2 (Nat.max B1 B2) k). lia. Qed.
  Lemma above_max B1 B2 k : above B1 k -> above B2 k -> above (Nat.max B1 B2) k.
  Proof. unfold above. intros [E|H1] [E'|H2]; [left; exact E|left; exact E|left; exact E'|right; lia]. Qed.

  Lemma above_zero k : above 0 k.
  Proof. destruct k; [left; reflexivity|right; lia]. Qed.

  (* runs of one configuration under two cutoffs share a prefix.  Nothing here looks at the fringe. *)
  Section Prefix.
  Variable cfg : @sconfig St.
  Hypothesis Hnc : sc_use_cache cfg = false.
  Notation wc := (with_cutoff cfg).

  Lemma run_compile_agree k1 s ct n s' inp m o :
    run_compile st_eqb (wc k1) s ct n = (s', inp, m, o) -> o <> CutoffOccurred ->
    exists B, above B k1 /\
      forall k2, above B k2 -> run_compile st_eqb (wc k2) s ct n = (s', mk_input (wc k2) ct n (s_lb s), m, o).
  Proof.
    unfold run_compile. cbv zeta.
    change (mk_input (wc k1) ct n (s_lb s)) with (set_cutoff (mk_input cfg ct n (s_lb s)) k1).
    destruct (compile st_eqb (set_cutoff (mk_input cfg ct n (s_lb s)) k1) 0 0 (s_cache s) (s_dom s) (s_polls s)) as [m0 o0] eqn:E.
    intros H Hne. inversion H; subst s' inp m0 o0. clear H.
    destruct (compile_agree st_eqb _ _ _ _ _ _ _ _ _ E Hne) as (B & HB1 & HB2).
    exists B. split; [exact HB1|]. intros k2 Hab.
    change (mk_input (wc k2) ct n (s_lb s)) with (set_cutoff (mk_input cfg ct n (s_lb s)) k2).
    rewrite (HB2 k2 Hab). reflexivity.
  Qed.

  Lemma run_compile_zero s ct n s' inp m o :
    run_compile st_eqb (wc 0) s ct n = (s', inp, m, o) -> o <> CutoffOccurred.
  Proof.
    unfold run_compile. cbv zeta.
    change (mk_input (wc 0) ct n (s_lb s)) with (set_cutoff (mk_input cfg ct n (s_lb s)) 0).
    destruct (compile st_eqb (set_cutoff (mk_input cfg ct n (s_lb s)) 0) 0 0 (s_cache s) (s_dom s) (s_polls s)) as [m0 o0] eqn:E.
    intros H. inversion H; subst. eapply compile_zero. exact E.
  Qed.

  Lemma mub_inp k1 k2 (s : @sstate St) ct n lb m :
    maybe_update_best s (mk_input (wc k1) ct n lb) m = maybe_update_best s (mk_input (wc k2) ct n lb) m.
  Proof. reflexivity. Qed.

  Lemma enqueue_inp k1 k2 (s : @sstate St) ct n lb m ub :
    enqueue_cutset st_eqb (wc k1) s (mk_input (wc k1) ct n lb) m ub =
    enqueue_cutset st_eqb (wc k2) s (mk_input (wc k2) ct n lb) m ub.
  Proof. reflexivity. Qed.

  Lemma mub_lb_ge (s : @sstate St) inp m : s_lb s <= s_lb (maybe_update_best s inp m).
  Proof.
    unfold maybe_update_best. destruct (_ >? _) eqn:E; [|lia].
    cbn [s_lb upd_s]. rewrite Z.gtb_ltb in E. apply Z.ltb_lt in E. lia.
  Qed.

  Lemma enq_step_lb c lb ub s x : s_lb (enq_step st_eqb c lb ub s x) = s_lb s.
  Proof.
    unfold enq_step. destruct (_ >? _); [|reflexivity].
    assert (Hp : forall y, s_lb (fr_push st_eqb c s y) = s_lb s).
    { intros y. unfold fr_push. destruct (sc_nodup c); [|reflexivity].
      match goal with |- context [match ?X with Some _ => _ | None => _ end] => destruct X end; reflexivity. }
    destruct (nth_error _ _); cbn [s_lb upd_s crashed]; apply Hp.
  Qed.

  Lemma enqueue_lb c s inp m ub : s_lb (enqueue_cutset st_eqb c s inp m ub) = s_lb s.
  Proof.
    rewrite enqueue_cutset_fold. generalize (s_lb s) at 1. intros lb. generalize (drain_cutset inp m). intros cs.
    revert s. induction cs as [|x cs IH]; intros s; cbn [fold_left]; [reflexivity|]. rewrite IH. apply enq_step_lb.
  Qed.

  (* process_one_node in two halves: ptail is what follows an inexact restricted compilation *)
  Definition ptail (c : @sconfig St) (sa : @sstate St) (n : @subproblem St) : @sstate St * bool :=
    let '(s, inp, m, o) := run_compile st_eqb c sa Relaxed n in
    match o with
    | Compiled =>
        let s := maybe_update_best s inp m in
        if dd_is_exact m then (s, false) else (enqueue_cutset st_eqb c s inp m (sp_ub n), false)
    | _ => (s, true)
    end.

  Lemma process_unfold k s n :
    process_one_node st_eqb (wc k) s n =
    if sp_ub n <=? s_lb s then (s, false)
    else
      let '(s, inp, m, o) := run_compile st_eqb (wc k) s Restricted n in
      match o with
      | Compiled => let s := maybe_update_best s inp m in if dd_is_exact m then (s, false) else ptail (wc k) s n
      | _ => (s, true)
      end.
  Proof.
    unfold process_one_node. change (sc_use_cache (wc k)) with (sc_use_cache cfg).
    rewrite Hnc. reflexivity.
  Qed.

  Lemma ptail_lb c sa n s2 err : ptail c sa n = (s2, err) -> s_lb sa <= s_lb s2.
  Proof.
    unfold ptail. destruct (run_compile st_eqb c sa Relaxed n) as [[[sb0 inpb] mb] ob] eqn:Eb.
    apply run_compile_spec in Eb. destruct Eb as (_ & _ & _ & _ & R3 & _).
    destruct ob; [|intros H; inversion H; subst; lia..].
    cbv zeta. pose proof (mub_lb_ge sb0 inpb mb) as Hm.
    destruct (dd_is_exact mb); intros H; inversion H; subst; [lia|]. rewrite enqueue_lb. lia.
  Qed.

  Lemma process_lb k s n s2 err : process_one_node st_eqb (wc k) s n = (s2, err) -> s_lb s <= s_lb s2.
  Proof.
    rewrite process_unfold. destruct (_ <=? _); [intros H; inversion H; subst; lia|].
    destruct (run_compile st_eqb (wc k) s Restricted n) as [[[sa0 inpa] ma] oa] eqn:Ea.
    apply run_compile_spec in Ea. destruct Ea as (_ & _ & _ & _ & R3 & _).
    destruct oa; [|intros H; inversion H; subst; lia..].
    cbv zeta. pose proof (mub_lb_ge sa0 inpa ma) as Hm.
    destruct (dd_is_exact ma); [intros H; inversion H; subst; lia|].
    intros H. apply ptail_lb in H. lia.
  Qed.

  (* prefix / determinism at the level of one node.
     Either no compilation of the k1-run was cut, and then every cutoff above the polls it tested replays it
     exactly; or the k1-run was cut (err = true) and any later cutoff sees at least the same incumbent. *)
  Lemma ptail_cases k1 sa n s2a erra : ptail (wc k1) sa n = (s2a, erra) ->
    (exists B, above B k1 /\ forall k2, above B k2 -> ptail (wc k2) sa n = (s2a, erra))
    \/ (k1 <> 0%nat /\ erra = true /\ s_lb s2a = s_lb sa).
  Proof.
    unfold ptail. destruct (run_compile st_eqb (wc k1) sa Relaxed n) as [[[sb0 inpb] mb] ob] eqn:Eb.
    pose proof (run_compile_spec _ _ _ _ _ _ _ _ _ Eb) as (Hinp & _ & _ & _ & R3 & _).
    assert (Hcut : ob = CutoffOccurred -> k1 <> 0%nat).
    { intros -> ->. exact (run_compile_zero _ _ _ _ _ _ _ Eb eq_refl). }
    destruct ob.
    - destruct (run_compile_agree _ _ _ _ _ _ _ _ Eb) as (B & HB1 & HB2); [discriminate|].
      intros H. left. exists B. split; [exact HB1|]. intros k2 Hab. rewrite (HB2 k2 Hab). subst inpb.
      cbv zeta in H |- *. rewrite (mub_inp k2 k1), (enqueue_inp k2 k1). exact H.
    - intros H. inversion H; subst s2a erra. right. split; [apply Hcut; reflexivity|]. split; [reflexivity|exact R3].
    - destruct (run_compile_agree _ _ _ _ _ _ _ _ Eb) as (B & HB1 & HB2); [discriminate|].
      intros H. left. exists B. split; [exact HB1|]. intros k2 Hab. rewrite (HB2 k2 Hab). exact H.
  Qed.

  Lemma process_cases k1 s n s2a erra : process_one_node st_eqb (wc k1) s n = (s2a, erra) ->
    (exists B, above B k1 /\ forall k2, above B k2 -> process_one_node st_eqb (wc k2) s n = (s2a, erra))
    \/ (k1 <> 0%nat /\ erra = true /\
        forall k2 s2b errb, later k1 k2 -> process_one_node st_eqb (wc k2) s n = (s2b, errb) -> s_lb s2a <= s_lb s2b).
  Proof.
    rewrite process_unfold. destruct (sp_ub n <=? s_lb s) eqn:Eskip.
    { intros H. left. exists O. split; [apply above_zero|]. intros k2 _. rewrite process_unfold, Eskip. exact H. }
    destruct (run_compile st_eqb (wc k1) s Restricted n) as [[[sa0 inpa] ma] oa] eqn:Ea.
    pose proof (run_compile_spec _ _ _ _ _ _ _ _ _ Ea) as (Hinp & _ & _ & _ & R3 & _).
    assert (Hcut : oa = CutoffOccurred -> k1 <> 0%nat).
    { intros -> ->. exact (run_compile_zero _ _ _ _ _ _ _ Ea eq_refl). }
    destruct oa.
    - destruct (run_compile_agree _ _ _ _ _ _ _ _ Ea) as (B1 & HB1 & HB2); [discriminate|].
      subst inpa. cbv zeta. destruct (dd_is_exact ma) eqn:Eex.
      + intros H. left. exists B1. split; [exact HB1|]. intros k2 Hab.
        rewrite process_unfold, Eskip, (HB2 k2 Hab). cbv zeta. rewrite (mub_inp k2 k1), Eex. exact H.
      + intros H. destruct (ptail_cases _ _ _ _ _ H) as [(B2 & HC1 & HC2)|(Hk & He & Hl)].
        * left. exists (Nat.max B1 B2). split; [apply above_max; assumption|]. intros k2 Hab.
          rewrite process_unfold, Eskip, (HB2 k2 (above_max_l _ _ _ Hab)). cbv zeta. rewrite (mub_inp k2 k1), Eex.
          apply HC2. exact (above_max_r _ _ _ Hab).
        * right. split; [exact Hk|]. split; [exact He|]. intros k2 s2b errb Hlat.
          rewrite process_unfold, Eskip, (HB2 k2 (later_above _ _ _ Hlat HB1)). cbv zeta. rewrite (mub_inp k2 k1), Eex.
          intros H2. apply ptail_lb in H2. lia.
    - intros H. inversion H; subst s2a erra. right. split; [apply Hcut; reflexivity|]. split; [reflexivity|].
      intros k2 s2b errb _ H2. apply process_lb in H2. lia.
    - destruct (run_compile_agree _ _ _ _ _ _ _ _ Ea) as (B1 & HB1 & HB2); [discriminate|].
      intros H. left. exists B1. split; [exact HB1|]. intros k2 Hab.
      rewrite process_unfold, Eskip, (HB2 k2 Hab). exact H.
  Qed.

  Lemma get_workload_cutoff k1 k2 s : get_workload st_eqb (wc k1) s = get_workload st_eqb (wc k2) s.
  Proof. reflexivity. Qed.

  Lemma main_loop_agree0 : forall fuel s s' e, main_loop st_eqb (wc 0) fuel s = (s', e) ->
    exists B, forall k2, above B k2 -> main_loop st_eqb (wc k2) fuel s = (s', e).
  Proof.
    induction fuel as [|fuel IH]; intros s s' e H.
    - exists O. intros k2 _. exact H.
    - cbn [main_loop] in H. destruct (s_crash s) eqn:Ecr.
      { exists O. intros k2 _. cbn [main_loop]. rewrite Ecr. exact H. }
      destruct (get_workload st_eqb (wc 0) s) as [s1 w] eqn:Eg.
      destruct w as [| |x].
      + exists O. intros k2 _. cbn [main_loop]. rewrite Ecr, (get_workload_cutoff k2 0), Eg. exact H.
      + exists O. intros k2 _. cbn [main_loop]. rewrite Ecr, (get_workload_cutoff k2 0), Eg. exact H.
      + destruct (process_one_node st_eqb (wc 0) s1 x) as [s2 err] eqn:Ep.
        destruct (process_cases _ _ _ _ _ Ep) as [(B1 & _ & HB)|(Hk & _)]; [|contradiction Hk; reflexivity].
        destruct err.
        * exists B1. intros k2 Hab. cbn [main_loop]. rewrite Ecr, (get_workload_cutoff k2 0), Eg, (HB k2 Hab). exact H.
        * destruct (IH _ _ _ H) as (B2 & HB2). exists (Nat.max B1 B2). intros k2 Hab. cbn [main_loop].
          rewrite Ecr, (get_workload_cutoff k2 0), Eg, (HB k2 (above_max_l _ _ _ Hab)).
          apply HB2. exact (above_max_r _ _ _ Hab).
  Qed.

  Definition R (k fuel : nat) (primal : option (Z * list decision)) : sresult := maximize st_eqb (wc k) fuel primal.

  Lemma R_unfold k fuel primal :
    R k fuel primal =
    let '(s, e) := main_loop st_eqb (wc k) fuel (initialize_solver st_eqb cfg (start_state cfg primal)) in
    let sol := option_map (sort_by dec_var_cmp) (s_sol s) in
    {| r_exact := negb (s_abort s);
       r_value := match sol with Some _ => Some (s_lb s) | None => None end;
       r_lb := s_lb s; r_ub := s_ub s; r_sol := sol; r_explored := s_explored s; r_polls := s_polls s;
       r_crash := s_crash s; r_tie := s_tie s;
       r_outoffuel := match e with RanOutOfFuel => true | Finished => false end; r_compiles := s_compiles s |}.
  Proof. reflexivity. Qed.

  (* C19 (ii): beyond some cutoff value the run IS the uninterrupted run, in every result field *)
  Theorem eventually_full fuel primal :
    exists K, forall k, (K < k)%nat -> R k fuel primal = R 0 fuel primal.
  Proof.
    destruct (main_loop st_eqb (wc 0) fuel (initialize_solver st_eqb cfg (start_state cfg primal))) as [s e] eqn:E0.
    destruct (main_loop_agree0 _ _ _ _ E0) as (B & HB).
    exists B. intros k Hk. rewrite !R_unfold. rewrite E0, (HB k (or_intror Hk)). reflexivity.
  Qed.
  End Prefix.

  (* a later cutoff gives bounds at least as tight.
     For any fringe that meets SolverProofs.fringe_ok with sp_ub-maximal pops; the invariants do not mention the
     cutoff, so the lemmas of SolverProofs.Loop apply to every with_cutoff cfg k. *)
  Section Later.
  Variable cfg : @sconfig St.
  Hypothesis Hnc : sc_use_cache cfg = false.
  Variable same : @subproblem St -> @subproblem St -> Prop.
  Variable Rep : list (@subproblem St) -> @nodup (St * nat) -> list (@subproblem St) -> Prop.
  Variable ord : Prop.
  Hypothesis Hord : ord.
  Hypothesis HS : semantics cfg.
  Hypothesis HF : fringe_ok st_eqb cfg good best same Rep ord.
  Hypothesis HKall : forall k, contracts (with_cutoff cfg k).
  Notation wc := (with_cutoff cfg).

  Lemma main_loop_sim k1 k2 : later k1 k2 -> forall fuel s sa ea sb eb, JL cfg good best feasible Rep s ->
    main_loop st_eqb (wc k1) fuel s = (sa, ea) -> main_loop st_eqb (wc k2) fuel s = (sb, eb) ->
    s_lb sa <= s_lb sb /\ s_ub sb <= s_ub sa.
  Proof.
    intros Hlat. induction fuel as [|fuel IH]; intros s sa ea sb eb HJ Ha Hb.
    - cbn [main_loop] in Ha, Hb. inversion Ha; inversion Hb; subst. lia.
    - cbn [main_loop] in Ha, Hb.
      assert (Hcr : s_crash s = false) by (destruct HJ as (L & HC & _); apply HC). rewrite Hcr in Ha, Hb.
      rewrite (get_workload_cutoff cfg k2 k1) in Hb.
      destruct (get_workload_J st_eqb (wc k1) Hnc good best feasible same Rep ord HF Hord s HJ)
        as [(s1 & Hgw & _)|(x & s1 & Hgw & HP & L1 & L2)]; rewrite Hgw in Ha, Hb.
      + inversion Ha; inversion Hb; subst. lia.
      + destruct (process_one_node st_eqb (wc k1) s1 x) as [s2a erra] eqn:Epa.
        destruct (process_one_node st_eqb (wc k2) s1 x) as [s2b errb] eqn:Epb.
        destruct (step_spec st_eqb (wc k1) Hnc good best feasible HS O same Rep ord HF (HKall k1) _ _ _ _ HP Epa)
          as (_ & Hinca & A1 & A2 & A3 & A4 & A5).
        destruct (step_spec st_eqb (wc k2) Hnc good best feasible HS O same Rep ord HF (HKall k2) _ _ _ _ HP Epb)
          as (_ & Hincb & B1 & B2 & B3 & B4 & B5).
        destruct (process_cases cfg Hnc _ _ _ _ _ Epa) as [(B & HBk & HB)|(Hk & He & Hlb)].
        * (* the k1-run was not cut on this node: same step in both runs *)
          rewrite (HB k2 (later_above _ _ _ Hlat HBk)) in Epb. inversion Epb; subst s2b errb.
          destruct erra.
          -- inversion Ha; inversion Hb; subst. lia.
          -- exact (IH _ _ _ _ _ (A4 eq_refl) Ha Hb).
        * (* the k1-run stops here *)
          subst erra. inversion Ha; subst sa ea. clear Ha.
          destruct (abort_fields s2a) as (Fa1 & Fa2 & _). rewrite Fa1, Fa2, A1.
          specialize (Hlb k2 s2b errb Hlat Epb).
          destruct (A5 eq_refl) as [Hsound Hle].
          destruct errb.
          -- inversion Hb; subst sb eb. destruct (abort_fields s2b) as (Fb1 & Fb2 & _). rewrite Fb1, Fb2, B1. lia.
          -- destruct (main_loop_bounds st_eqb (wc k2) Hnc good best feasible HS O same Rep ord HF (HKall k2) Hord
                        _ _ _ _ (B4 eq_refl) Hb) as (R1 & R2 & _).
             assert (Hmin : IMIN <= s_lb s2a) by apply Hinca.
             assert (Hb2 : s_lb s2b <= s_ub s1).
             { rewrite A1 in Hsound, Hle. apply (inc_le_bound cfg good best feasible HS _ _ _ Hincb Hsound). lia. }
             unfold eub in R2. rewrite B1 in R2. lia.
  Qed.

  (* C19 (i): cutting later never loosens the bounds.  k2 = 0 (no cutoff at all) is allowed; no assumption on fuel *)
  Theorem cutoff_monotone_later k1 k2 fuel primal : primal_ok feasible primal -> later k1 k2 ->
    r_lb (R cfg k1 fuel primal) <= r_lb (R cfg k2 fuel primal) /\ r_ub (R cfg k2 fuel primal) <= r_ub (R cfg k1 fuel primal).
  Proof.
    intros Hp Hlat. rewrite !R_unfold.
    destruct (main_loop st_eqb (wc k1) fuel _) as [sa ea] eqn:Ea.
    destruct (main_loop st_eqb (wc k2) fuel _) as [sb eb] eqn:Eb.
    cbn [r_lb r_ub].
    exact (main_loop_sim k1 k2 Hlat _ _ _ _ _ _
             (initialize_J st_eqb cfg good best feasible HS same Rep ord HF primal Hp) Ea Eb).
  Qed.
  End Later.

  (* C05, sequential part, for the SimpleFringe *)
  Section Fixed.
  Variable cfg : @sconfig St.
  Hypothesis cfg_c : config_c cfg.
  Hypothesis HK : contracts cfg.
  Hypothesis HS : semantics cfg.

  Notation CoreC := (Core cfg good feasible).
  Notation ComplC := (Compl cfg best).
  Notation OPTC := (OPT cfg best).

  Lemma no_cache_c : sc_use_cache cfg = false. Proof. apply cfg_c. Qed.
  Lemma simple_fringe_c : sc_nodup cfg = false. Proof. apply cfg_c. Qed.

  (* the anytime invariant: every open node is bounded by the reported upper bound *)
  Definition UbB (s : @sstate St) : Prop := forall n, In n (s_simple s) -> sp_ub n <= s_ub s.
  Definition J (s : @sstate St) : Prop := CoreC s /\ ComplC s [] /\ UbB s.

  Lemma J_JL s : J s -> JL cfg good best feasible rep_simple s.
  Proof.
    intros (HC & HCo & HU). exists (s_simple s). split; [apply CoreL_simple; auto|].
    split; [apply Compl_simple; exact HCo|exact HU].
  Qed.

  Lemma incumbent_le_opt lb sol o : Incumbent feasible lb sol -> OPTC = Some o -> lb <= o.
  Proof. exact (inc_le_opt cfg good best feasible HS lb sol o). Qed.

  Lemma incumbent_none lb sol : Incumbent feasible lb sol -> OPTC = None -> lb = IMIN /\ sol = None.
  Proof. exact (inc_none cfg good best feasible HS lb sol). Qed.

  (* a sound incumbent is below any sound upper bound *)
  Lemma incumbent_le_bound lb sol U :
    Incumbent feasible lb sol -> (forall o, OPTC = Some o -> o <= U) -> IMIN <= U -> lb <= U.
  Proof. exact (inc_le_bound cfg good best feasible HS lb sol U). Qed.

  (* along ANY run: s_lb never decreases, max(s_lb, s_ub) never increases; a run that finished (normally or by
     abort_search) ends in a state with sound bounds *)
  Lemma main_loop_spec_c fuel s s' e : J s -> main_loop st_eqb cfg fuel s = (s', e) ->
    s_lb s <= s_lb s' /\ eub s' <= eub s /\ (e = Finished -> FinalA cfg best feasible s').
  Proof.
    intros HJ. exact (main_loop_bounds st_eqb cfg no_cache_c good best feasible HS O no_key rep_simple True
                        (simple_fringe_ok st_eqb cfg simple_fringe_c good best) HK I fuel s s' e (J_JL s HJ)).
  Qed.

  (* C05, storey 1 *)
  Theorem seq_anytime_sound fuel primal : primal_ok feasible primal ->
    let r := maximize st_eqb cfg fuel primal in
    r_outoffuel r = false ->
    r_crash r = false /\
    (forall o, OPTC = Some o -> r_lb r <= o <= r_ub r) /\
    (OPTC = None -> r_value r = None /\ r_sol r = None) /\
    (forall v, r_value r = Some v ->
       r_lb r = v /\ exists sol, r_sol r = Some (sort_by dec_var_cmp sol) /\ feasible sol v) /\
    (r_exact r = true -> r_value r = OPTC).
  Proof.
    intros Hp r Hnf.
    destruct (anytime_sound st_eqb cfg no_cache_c good best feasible HS O no_key rep_simple True
                (simple_fringe_ok st_eqb cfg simple_fringe_c good best) HK I fuel primal Hp Hnf)
      as (A1 & A2 & A3 & A4 & A5 & _).
    auto.
  Qed.

  (* the reported interval is never empty *)
  Theorem seq_anytime_lb_le_ub fuel primal : primal_ok feasible primal ->
    let r := maximize st_eqb cfg fuel primal in
    r_outoffuel r = false -> r_lb r <= r_ub r.
  Proof.
    intros Hp r Hnf.
    apply (anytime_sound st_eqb cfg no_cache_c good best feasible HS O no_key rep_simple True
             (simple_fringe_ok st_eqb cfg simple_fringe_c good best) HK I fuel primal Hp Hnf).
  Qed.

  Lemma main_loop_lb_monotone fuel s s' e : J s -> main_loop st_eqb cfg fuel s = (s', e) -> s_lb s <= s_lb s'.
  Proof. intros HJ H. destruct (main_loop_spec_c _ _ _ _ HJ H) as (H1 & _). exact H1. Qed.

  (* "s_ub never increases along main_loop" is FALSE of the model (module SubCounterexample at the end of the file:
     a popped node whose sp_ub is below the incumbent lowers s_ub below s_lb, and the final `s_ub := s_lb` of
     get_workload raises it again).  What holds: max(s_lb, s_ub) never increases; s_ub stays below it; and in
     every Finished state s_lb <= s_ub, so there the reported upper bound IS max(s_lb, s_ub). *)
  Lemma main_loop_ub_monotone_partial fuel s s' e : J s -> main_loop st_eqb cfg fuel s = (s', e) ->
    Z.max (s_lb s') (s_ub s') <= Z.max (s_lb s) (s_ub s) /\ s_ub s' <= Z.max (s_lb s) (s_ub s) /\
    (e = Finished -> s_lb s' <= s_ub s').
  Proof.
    intros HJ H. destruct (main_loop_spec_c _ _ _ _ HJ H) as (_ & H2 & H3). unfold eub in H2.
    split; [exact H2|]. split; [lia|]. intros He. apply (H3 He).
  Qed.
  End Fixed.

  (* C19 for the SimpleFringe *)
  Section Mono.
  Variable cfg : @sconfig St.
  Hypothesis cfg_c : config_c cfg.
  Hypothesis HKall : forall k, contracts (with_cutoff cfg k).
  Hypothesis HS : semantics cfg.
  Local Notation R := (R cfg).

  (* C19 (i): cutting later never loosens the bounds.  k2 = 0 (no cutoff at all) is allowed; no assumption on fuel *)
  Theorem cutoff_monotone_gen k1 k2 fuel primal : primal_ok feasible primal -> later k1 k2 ->
    r_lb (R k1 fuel primal) <= r_lb (R k2 fuel primal) /\ r_ub (R k2 fuel primal) <= r_ub (R k1 fuel primal).
  Proof.
    exact (cutoff_monotone_later cfg (no_cache_c cfg cfg_c) no_key rep_simple True I HS
             (simple_fringe_ok st_eqb cfg (simple_fringe_c cfg cfg_c) good best) HKall k1 k2 fuel primal).
  Qed.

  Theorem cutoff_monotone k fuel primal : primal_ok feasible primal -> (1 <= k)%nat ->
    r_lb (R k fuel primal) <= r_lb (R (S k) fuel primal) /\ r_ub (R (S k) fuel primal) <= r_ub (R k fuel primal).
  Proof. intros Hp Hk. apply cutoff_monotone_gen; [exact Hp|]. split; [lia|right; lia]. Qed.

  (* C19 (ii): beyond some cutoff value the run IS the uninterrupted run, in every result field *)
  Theorem cutoff_eventually_full fuel primal :
    exists K, forall k, (K < k)%nat -> R k fuel primal = R 0 fuel primal.
  Proof. exact (eventually_full cfg (no_cache_c cfg cfg_c) fuel primal). Qed.
  End Mono.
End Anytime.

(* why "s_ub never increases" is only _partial.
   A concrete 3-variable model (states are integers), width 1, CleanLEL, SimpleFringe, no cache, no cutoff:
     root 0 --x0=0 (0)--> A=1 --x1=0 (9)--> 3 --x2=0 (0)--> 6               best completion of A : 9
     root 0 --x0=1 (0)--> B=2 --x1=0 (6)--> 5 --x2=0 (-1)--> 6              best completion of B : 8
                          B=2 --x1=1 (2)--> 8 --x2=0 (6)--> 6
   fast upper bounds: A 10, B 8 (both admissible), 100 elsewhere; merge = state 7, relax = identity on costs.
   Run: the root yields incumbent 5 and the cut-set {A (ub 10), B (ub 8)}; A is popped (s_ub = 10), its restricted
   diagram is exact and raises s_lb to 9; B is popped (s_ub := 8 < s_lb = 9) and skipped; the fringe is empty and
   get_workload sets s_ub := s_lb = 9.  So s_ub goes IMAX, 10, 8, 9. *)
Module SubCounterexample.
  Definition ce_pb : @problem Z := {|
    nb_vars := 3; init_state := 0; init_value := 0;
    transition := fun s d =>
      if s =? 0 then (if d_val d =? 0 then 1 else 2)
      else if s =? 1 then 3
      else if s =? 2 then (if d_val d =? 0 then 5 else 8)
      else 6;
    transition_cost := fun s _ d =>
      if s =? 1 then 9
      else if s =? 2 then (if d_val d =? 0 then 6 else 2)
      else if s =? 5 then -1
      else if s =? 8 then 6
      else if s =? 7 then 6
      else 0;
    next_variable := fun depth _ => if Nat.ltb depth 3 then Some depth else None;
    domain := fun var s => if (Nat.eqb var 0) || (Nat.eqb var 1 && (s =? 2)) then [0; 1] else [0];
    is_impacted_by := fun _ _ => true |}.

  Definition ce_rlx : @relaxation Z := {|
    merge := fun _ => 7;
    relax := fun _ _ _ _ c => c;
    fast_upper_bound := fun s => if s =? 1 then 10 else if s =? 2 then 8 else 100 |}.

  Definition ce_cfg : @sconfig Z := {|
    sc_flavour := CleanLEL; sc_problem := ce_pb; sc_relax := ce_rlx; sc_ranking := Z.compare;
    sc_domcmp := fun a _ b _ => Z.compare a b; sc_domrule := None; sc_width := 1; sc_use_cache := false;
    sc_nodup := false; sc_cutoff := 0 |}.

  Definition ce_start : @sstate Z := initialize_solver Z.eqb ce_cfg (init_sstate ce_cfg).
  Definition ce_after (fuel : nat) : Z * Z * bool :=
    let '(s, e) := main_loop Z.eqb ce_cfg fuel ce_start in
    (s_lb s, s_ub s, match e with Finished => true | RanOutOfFuel => false end).

  Lemma ce_config : config_c ce_cfg.
  Proof. repeat split. Qed.

  (* (s_lb, s_ub, finished?) after 1, 2, 3, 4 iterations of main_loop *)
  Example s_ub_not_monotone :
    ce_after 1 = (5, IMAX, false) /\ ce_after 2 = (9, 10, false) /\ ce_after 3 = (9, 8, false) /\ ce_after 4 = (9, 9, true).
  Proof. vm_compute. repeat split. Qed.

  (* the run as a whole is fine: exact, value 9, no crash *)
  Example ce_result :
    let r := maximize Z.eqb ce_cfg 10 None in
    (r_exact r, r_value r, r_lb r, r_ub r, r_crash r, r_outoffuel r) = (true, Some 9, 9, 9, false, false).
  Proof. vm_compute. reflexivity. Qed.
End SubCounterexample.

Print Assumptions compile_agree.
Print Assumptions seq_anytime_sound.
Print Assumptions seq_anytime_lb_le_ub.
Print Assumptions main_loop_lb_monotone.
Print Assumptions main_loop_ub_monotone_partial.
Print Assumptions cutoff_monotone_gen.
Print Assumptions cutoff_monotone.
Print Assumptions cutoff_eventually_full.
Print Assumptions SubCounterexample.s_ub_not_monotone.
