(* Misp.v — model of the SHIPPED maximum-weight-independent-set example (ddo/examples/misp/main.rs) and the facts that make it a
   well-formed model in the sense of property C01 / C16, for EVERY variable order (the example branches on a variable chosen
   dynamically, per layer: the solver-level assembly of Assembly.v, which needs a static order, is not instantiated here):
     - the DP is the independent-set problem: along ANY sequence of variables (vertices below n) the feasible decision sequences are exactly
       the independent sets (restricted to the decided vertices), with the same weight (misp_run_sound / misp_run_complete);
     - merge (union) over-approximates each merged state, and over-approximation is a simulation for domains and transitions
       (misp_merge_cov, misp_cov_sim; the cost of a decision does not depend on the state): every completion of a member is a
       completion of the merged state with the same cost (misp_cov_IS);
     - the rough upper bound (sum of the POSITIVE weights of the remaining vertices — after fix a75761f) is admissible, monotone along
       the over-approximation, and the pre-fix bound (plain sum) is refuted (misp_rub_adm, misp_rub_mono, misp_prefix_rub_refuted).
   States are characteristic functions nat -> bool (a BitSet); nothing below needs equality of states. *)
From Coq Require Import List ZArith Lia Bool Arith.
Import ListNotations.
Open Scope Z_scope.

Record graph := { g_n : nat; g_w : nat -> Z; g_edges : list (nat * nat) }.
Definition state := nat -> bool.

Definition adj (g : graph) (u v : nat) : bool :=
  existsb (fun e => (Nat.eqb (fst e) u && Nat.eqb (snd e) v) || (Nat.eqb (fst e) v && Nat.eqb (snd e) u)) (g_edges g).

Lemma adj_sym g u v : adj g u v = adj g v u.
Proof.
  unfold adj. induction (g_edges g) as [|e r IH]; cbn [existsb]; [reflexivity|].
  rewrite IH. f_equal. apply orb_comm.
Qed.

(* Problem *)
Definition m_init (g : graph) : state := fun u => Nat.ltb u (g_n g).
Definition m_trans (g : graph) (s : state) (v : nat) (yes : bool) : state :=
  fun u => s u && negb (Nat.eqb u v) && (if yes then negb (adj g v u) else true).
Definition m_cost (g : graph) (v : nat) (yes : bool) : Z := if yes then g_w g v else 0.
Definition m_dom (s : state) (v : nat) : list bool := if s v then [true; false] else [false].
Definition m_impacted (s : state) (v : nat) : bool := s v.
(* Relaxation *)
Definition m_merge (ss : list state) : state := fun u => existsb (fun s => s u) ss.
Definition m_relax (c : Z) : Z := c.
Fixpoint sum_upto (n : nat) (f : nat -> Z) : Z := match n with O => 0 | S k => sum_upto k f + f k end.
Definition m_rub (g : graph) (s : state) : Z := sum_upto (g_n g) (fun u => if s u then Z.max 0 (g_w g u) else 0).
Definition m_rub_prefix (g : graph) (s : state) : Z := sum_upto (g_n g) (fun u => if s u then g_w g u else 0).

(* the combinatorial problem *)
Definition weight (g : graph) (I : state) : Z := sum_upto (g_n g) (fun u => if I u then g_w g u else 0).
Definition IS (g : graph) (s I : state) : Prop :=
  (forall u, I u = true -> (u < g_n g)%nat /\ s u = true) /\
  (forall u v, I u = true -> I v = true -> u <> v -> adj g u v = false).
Definition le_st (s t : state) : Prop := forall u, s u = true -> t u = true.
Definition add (v : nat) (I : state) : state := fun u => Nat.eqb u v || I u.
Definition rem (v : nat) (I : state) : state := fun u => negb (Nat.eqb u v) && I u.
Definition empty_on (g : graph) (s : state) : Prop := forall u, (u < g_n g)%nat -> s u = false.

Lemma sum_upto_ext n f h : (forall u, (u < n)%nat -> f u = h u) -> sum_upto n f = sum_upto n h.
Proof. induction n as [|k IH]; intros E; cbn [sum_upto]; [reflexivity|]. rewrite IH, (E k) by (intros; try apply E; lia). reflexivity. Qed.
Lemma sum_upto_le n f h : (forall u, (u < n)%nat -> f u <= h u) -> sum_upto n f <= sum_upto n h.
Proof. induction n as [|k IH]; intros E; cbn [sum_upto]; [lia|]. specialize (E k ltac:(lia)) as Ek. specialize (IH ltac:(intros; apply E; lia)). lia. Qed.
Lemma sum_upto_add n f h : sum_upto n (fun u => f u + h u) = sum_upto n f + sum_upto n h.
Proof. induction n as [|k IH]; cbn [sum_upto]; lia. Qed.
Lemma sum_upto_single n v c : sum_upto n (fun u => if Nat.eqb u v then c else 0) = if Nat.ltb v n then c else 0.
Proof.
  induction n as [|k IH]; cbn [sum_upto]; [reflexivity|]. rewrite IH.
  destruct (Nat.ltb_spec v k), (Nat.ltb_spec v (S k)), (Nat.eqb_spec k v); lia.
Qed.

(* taking v out of I *)
Lemma weight_rem g I v : weight g I = (if I v && Nat.ltb v (g_n g) then g_w g v else 0) + weight g (rem v I).
Proof.
  unfold weight.
  rewrite (sum_upto_ext _ _ (fun u => (if Nat.eqb u v then (if I v then g_w g v else 0) else 0) + (if rem v I u then g_w g u else 0))).
  - rewrite sum_upto_add, sum_upto_single. destruct (I v), (Nat.ltb v (g_n g)); reflexivity.
  - intros u _. unfold rem. destruct (Nat.eqb_spec u v) as [->|]; cbn [negb andb]; [destruct (I v)|destruct (I u)]; lia.
Qed.

(* ---- the DP is the independent set problem --------------------------------------------------------------------------- *)
Lemma trans_yes_sound g s v I : s v = true -> (v < g_n g)%nat -> IS g (m_trans g s v true) I ->
  IS g s (add v I) /\ weight g (add v I) = g_w g v + weight g I.
Proof.
  intros Hs Hv [H1 H2].
  assert (Iv : I v = false).
  { destruct (I v) eqn:E; [|reflexivity]. destruct (H1 v E) as [_ T]. unfold m_trans in T. rewrite Nat.eqb_refl in T.
    rewrite andb_false_r in T. discriminate. }
  split; [split|].
  - intros u Hu. unfold add in Hu. destruct (Nat.eqb_spec u v) as [E|E]; [subst u; tauto|]. cbn [orb] in Hu.
    destruct (H1 u Hu) as [L T]. unfold m_trans in T. apply andb_prop in T as [T _]. apply andb_prop in T as [T _]. tauto.
  - intros a b Ha Hb Hab. unfold add in Ha, Hb.
    assert (K : forall x, I x = true -> adj g v x = false).
    { intros x Hx. destruct (H1 x Hx) as [_ T]. unfold m_trans in T. apply andb_prop in T as [_ T]. now apply negb_true_iff in T. }
    destruct (Nat.eqb_spec a v) as [Ea|Ea], (Nat.eqb_spec b v) as [Eb|Eb]; cbn [orb] in Ha, Hb; try subst a; try subst b.
    + congruence.
    + now apply K.
    + rewrite adj_sym. now apply K.
    + now apply H2.
  - rewrite (weight_rem g (add v I) v). unfold add at 1. rewrite Nat.eqb_refl. cbn [orb andb].
    apply Nat.ltb_lt in Hv. rewrite Hv. f_equal. unfold weight. apply sum_upto_ext. intros u _. unfold rem, add.
    destruct (Nat.eqb_spec u v) as [E|E]; cbn [negb andb orb]; [subst u; rewrite Iv|]; reflexivity.
Qed.

Lemma trans_no_sound g s v I : IS g (m_trans g s v false) I -> IS g s I.
Proof.
  intros [H1 H2]. split; [|exact H2]. intros u Hu. destruct (H1 u Hu) as [L T]. split; [exact L|].
  unfold m_trans in T. apply andb_prop in T as [T _]. apply andb_prop in T as [T _]. exact T.
Qed.

Lemma trans_complete g s v I : IS g s I ->
  In (I v) (m_dom s v) /\ IS g (m_trans g s v (I v)) (rem v I) /\ weight g I = m_cost g v (I v) + weight g (rem v I).
Proof.
  intros [H1 H2]. split; [|split; [split|]].
  - unfold m_dom. destruct (I v) eqn:E; [destruct (H1 v E) as [_ ->]; cbn; tauto|destruct (s v); cbn; tauto].
  - intros u Hu. unfold rem in Hu. apply andb_prop in Hu as [Hn Hu]. destruct (H1 u Hu) as [L T]. split; [exact L|].
    unfold m_trans. rewrite T, Hn. cbn [andb]. destruct (I v) eqn:E; [|reflexivity].
    apply negb_true_iff. apply H2; [exact E|exact Hu|]. apply negb_true_iff in Hn. apply Nat.eqb_neq in Hn. congruence.
  - intros a b Ha Hb Hab. unfold rem in Ha, Hb. apply andb_prop in Ha as [_ Ha]. apply andb_prop in Hb as [_ Hb]. now apply H2.
  - rewrite (weight_rem g I v). unfold m_cost. destruct (I v) eqn:E; cbn [andb]; [|reflexivity].
    destruct (H1 v E) as [L _]. apply Nat.ltb_lt in L. rewrite L. reflexivity.
Qed.

(* a run: variables decided in the order `vs` (any order), decisions `ds` *)
Fixpoint m_run (g : graph) (s : state) (vs : list nat) (ds : list bool) : option (state * Z) :=
  match vs, ds with
  | [], [] => Some (s, 0)
  | v :: vs', d :: ds' =>
      if existsb (Bool.eqb d) (m_dom s v) then
        match m_run g (m_trans g s v d) vs' ds' with Some (s', c) => Some (s', m_cost g v d + c) | None => None end
      else None
  | _, _ => None
  end.
(* the set selected by a run *)
Fixpoint chosen (vs : list nat) (ds : list bool) : state :=
  match vs, ds with v :: vs', d :: ds' => if d then add v (chosen vs' ds') else chosen vs' ds' | _, _ => fun _ => false end.
Definition union (I J : state) : state := fun u => I u || J u.

Lemma existsb_eqb d l : existsb (Bool.eqb d) l = true <-> In d l.
Proof. rewrite existsb_exists. split; [intros (x & Hx & E); apply eqb_prop in E; congruence|intros H; exists d; split; [exact H|apply eqb_reflx]]. Qed.

Lemma IS_ext g s I J : (forall u, I u = J u) -> IS g s I -> IS g s J.
Proof. intros E [H1 H2]. split; [intros u Hu; apply H1; now rewrite E|intros a b Ha Hb; apply H2; now rewrite E]. Qed.
Lemma weight_ext g I J : (forall u, I u = J u) -> weight g I = weight g J.
Proof. intros E. unfold weight. apply sum_upto_ext. intros u _. now rewrite E. Qed.

Definition vars_ok (g : graph) (vs : list nat) : Prop := Forall (fun v => (v < g_n g)%nat) vs.

(* soundness: whatever independent set J completes the final state, the run's choices plus J are an independent set of the start state
   and the run's value is the weight of its choices *)
Theorem misp_run_sound g : forall vs ds s s' c J, vars_ok g vs -> m_run g s vs ds = Some (s', c) -> IS g s' J ->
  IS g s (union (chosen vs ds) J) /\ weight g (union (chosen vs ds) J) = c + weight g J.
Proof.
  induction vs as [|v vs IH]; intros ds s s' c J Hok R HJ; destruct ds as [|d ds]; cbn [m_run] in R; try discriminate.
  - inversion R; subst. cbn [chosen]. split; [eapply IS_ext; [|exact HJ]; reflexivity|]. rewrite (weight_ext g _ J) by reflexivity. lia.
  - destruct (existsb (Bool.eqb d) (m_dom s v)) eqn:D; [|discriminate].
    destruct (m_run g (m_trans g s v d) vs ds) as [[s2 c2]|] eqn:R2; [|discriminate]. inversion R; subst.
    inversion Hok as [|? ? Hv Hok']; subst.
    destruct (IH ds _ _ _ J Hok' R2 HJ) as [A B]. apply existsb_eqb in D. cbn [chosen]. destruct d.
    + assert (Sv : s v = true) by (unfold m_dom in D; destruct (s v); [reflexivity|cbn in D; destruct D as [D|[]]; discriminate]).
      destruct (trans_yes_sound g s v _ Sv Hv A) as [A' B']. split.
      * eapply IS_ext; [|exact A']. intros u. unfold add, union. now rewrite orb_assoc.
      * rewrite (weight_ext g _ (add v (union (chosen vs ds) J))) by (intros u; unfold add, union; now rewrite orb_assoc).
        rewrite B', B. unfold m_cost. lia.
    + split; [eapply trans_no_sound; exact A|]. rewrite B. unfold m_cost. lia.
Qed.

Fixpoint rem_all (vs : list nat) (I : state) : state := match vs with [] => I | v :: r => rem_all r (rem v I) end.

Fixpoint decs (I : state) (vs : list nat) : list bool := match vs with [] => [] | v :: r => I v :: decs (rem v I) r end.

(* completeness: every independent set I of the start state is followed by a feasible run (deciding v iff v is still in the set); its value
   plus the weight of the undecided rest is the weight of I *)
Theorem misp_run_complete g : forall vs s I, IS g s I ->
  exists s' c, m_run g s vs (decs I vs) = Some (s', c) /\ IS g s' (rem_all vs I) /\ weight g I = c + weight g (rem_all vs I).
Proof.
  induction vs as [|v vs IH]; intros s I HI; cbn [decs m_run rem_all].
  - exists s, 0. split; [reflexivity|split; [exact HI|lia]].
  - destruct (trans_complete g s v I HI) as (D & A & W). apply existsb_eqb in D. rewrite D.
    destruct (IH _ _ A) as (s' & c & R & A' & W'). rewrite R. exists s', (m_cost g v (I v) + c). split; [reflexivity|split; [exact A'|lia]].
Qed.

(* when the diagram stops (next_variable = None: every state of the last layer is empty) nothing is left undecided *)
Lemma IS_empty g s I : empty_on g s -> IS g s I -> forall u, I u = false.
Proof. intros E [H1 _] u. destruct (I u) eqn:Iu; [|reflexivity]. destruct (H1 u Iu) as [L T]. rewrite (E u L) in T. discriminate. Qed.
Lemma weight_none g I : (forall u, I u = false) -> weight g I = 0.
Proof.
  intros E. unfold weight. rewrite (sum_upto_ext _ _ (fun _ => 0)) by (intros u _; now rewrite E).
  induction (g_n g) as [|k IH]; cbn [sum_upto]; lia.
Qed.
Lemma IS_none g s : IS g s (fun _ => false).
Proof. split; intros; discriminate. Qed.

(* The DP optimum IS the independent-set optimum, for every variable sequence that empties the state:
   (1) every feasible run ending in an empty state selects an independent set whose weight is the run's value;
   (2) every independent set is the selection of a feasible run with that value, provided the sequence empties the states it reaches. *)
Corollary misp_dp_sound g vs ds s s' c : vars_ok g vs -> m_run g s vs ds = Some (s', c) ->
  IS g s (chosen vs ds) /\ weight g (chosen vs ds) = c.
Proof.
  intros Hok R. destruct (misp_run_sound g vs ds s s' c (fun _ => false) Hok R (IS_none g s')) as [A B].
  split; [eapply IS_ext; [|exact A]; intros u; unfold union; apply orb_false_r|].
  rewrite (weight_ext g _ (union (chosen vs ds) (fun _ => false))) by (intros u; unfold union; now rewrite orb_false_r).
  rewrite B, weight_none by reflexivity. lia.
Qed.
Corollary misp_dp_complete g vs s I : IS g s I -> (forall s' c, m_run g s vs (decs I vs) = Some (s', c) -> empty_on g s') ->
  exists s' c, m_run g s vs (decs I vs) = Some (s', c) /\ c = weight g I.
Proof.
  intros HI E. destruct (misp_run_complete g vs s I HI) as (s' & c & R & A & W). exists s', c. split; [exact R|].
  rewrite (weight_none g (rem_all vs I)) in W by (eapply IS_empty; [eapply E; exact R|exact A]). lia.
Qed.
(* a sequence listing every vertex empties every state *)
Lemma run_removes g : forall vs ds s s' c, m_run g s vs ds = Some (s', c) -> forall u, s' u = true -> s u = true /\ ~ In u vs.
Proof.
  induction vs as [|v vs IH]; intros ds s s' c R u Hu; destruct ds as [|d ds]; cbn [m_run] in R; try discriminate.
  - inversion R; subst. split; [exact Hu|intros []].
  - destruct (existsb (Bool.eqb d) (m_dom s v)); [|discriminate].
    destruct (m_run g (m_trans g s v d) vs ds) as [[s2 c2]|] eqn:R2; [|discriminate]. inversion R; subst.
    destruct (IH _ _ _ _ R2 u Hu) as [T N]. unfold m_trans in T. apply andb_prop in T as [T _]. apply andb_prop in T as [T Q].
    split; [exact T|]. intros [->|X]; [|tauto]. rewrite Nat.eqb_refl in Q. discriminate.
Qed.
Corollary misp_dp_complete_all_vertices g vs s I : IS g s I -> (forall u, (u < g_n g)%nat -> In u vs) ->
  exists s' c, m_run g s vs (decs I vs) = Some (s', c) /\ c = weight g I.
Proof.
  intros HI All. apply misp_dp_complete; [exact HI|]. intros s' c R u L. destruct (s' u) eqn:E; [|reflexivity].
  destruct (run_removes g _ _ _ _ _ R u E) as [_ N]. exfalso. apply N, All, L.
Qed.

(* ---- the relaxation ---------------------------------------------------------------------------------------------------- *)
(* cov := le_st: the merged state contains every merged member; containment is a simulation *)
Theorem misp_merge_cov ss s : In s ss -> le_st s (m_merge ss).
Proof. intros H u Hu. unfold m_merge. apply existsb_exists. exists s. tauto. Qed.
Theorem misp_cov_refl s : le_st s s.
Proof. intros u H; exact H. Qed.
Theorem misp_cov_trans s t r : le_st s t -> le_st t r -> le_st s r.
Proof. intros A B u H. apply B, A, H. Qed.
Theorem misp_cov_sim g s t v d : le_st s t -> In d (m_dom s v) ->
  In d (m_dom t v) /\ le_st (m_trans g s v d) (m_trans g t v d).
Proof.
  intros L D. split.
  - unfold m_dom in *. destruct (s v) eqn:Sv; [rewrite (L v Sv); exact D|]. destruct D as [<-|[]]. destruct (t v); cbn; tauto.
  - intros u Hu. unfold m_trans in *. apply andb_prop in Hu as [Hu C]. apply andb_prop in Hu as [Hu B]. rewrite (L u Hu), B, C. reflexivity.
Qed.
(* the cost of an arc does not depend on the states, and relax leaves it unchanged: relaxed arcs cost exactly what the covered arcs cost *)
Theorem misp_relax_ge c : c <= m_relax c.
Proof. unfold m_relax; lia. Qed.
(* a relaxed state admits every completion of the states it covers *)
Theorem misp_cov_IS g s t I : le_st s t -> IS g s I -> IS g t I.
Proof. intros L [H1 H2]. split; [intros u Hu; destruct (H1 u Hu); split; [assumption|now apply L]|exact H2]. Qed.
(* long arcs: a state that does not contain v is left unchanged by its only decision, at no cost *)
Theorem misp_not_impacted g s v : m_impacted s v = false ->
  m_dom s v = [false] /\ (forall u, m_trans g s v false u = s u) /\ m_cost g v false = 0.
Proof.
  unfold m_impacted, m_dom, m_trans. intros Sv. rewrite Sv. split; [reflexivity|split; [|reflexivity]].
  intros u. rewrite andb_true_r. destruct (Nat.eqb_spec u v) as [E|E]; [subst u; rewrite Sv; reflexivity|apply andb_true_r].
Qed.

Theorem misp_rub_adm g s I : IS g s I -> weight g I <= m_rub g s.
Proof.
  intros [H1 _]. unfold weight, m_rub. apply sum_upto_le. intros u _. destruct (I u) eqn:Iu.
  - destruct (H1 u Iu) as [_ ->]. lia.
  - destruct (s u); lia.
Qed.
Theorem misp_rub_mono g s t : le_st s t -> m_rub g s <= m_rub g t.
Proof. intros L. unfold m_rub. apply sum_upto_le. intros u _. destruct (s u) eqn:Su; [rewrite (L u Su); lia|destruct (t u); lia]. Qed.
Theorem misp_rub_nonneg g s : 0 <= m_rub g s.
Proof. unfold m_rub. induction (g_n g) as [|k IH]; cbn [sum_upto]; [lia|]. destruct (s k); lia. Qed.
(* hence the bound of a state covers the value of every run from every state it covers *)
Corollary misp_rub_bounds_runs g s t vs ds s' c : le_st s t -> vars_ok g vs -> m_run g s vs ds = Some (s', c) -> c <= m_rub g t.
Proof.
  intros L Hok R. destruct (misp_dp_sound g vs ds s s' c Hok R) as [A B]. rewrite <- B.
  etransitivity; [apply misp_rub_adm; exact A|apply misp_rub_mono; exact L].
Qed.

(* the bound before fix a75761f (plain sum of the remaining weights) is NOT admissible: finding D6 *)
Definition g_neg : graph := {| g_n := 3; g_w := fun u => match u with O => 5 | S O => -6 | _ => 7 end; g_edges := [(1, 2); (2, 0)]%nat |}.
Theorem misp_prefix_rub_refuted : exists g s I, IS g s I /\ m_rub_prefix g s < weight g I.
Proof.
  exists g_neg, (m_init g_neg), (fun u => Nat.eqb u 2). split; [split|vm_compute; reflexivity].
  - intros u Hu. apply Nat.eqb_eq in Hu. subst. split; [cbn; lia|reflexivity].
  - intros u v Hu Hv. apply Nat.eqb_eq in Hu, Hv. congruence.
Qed.

(* isize: with sum |w| <= IMAX every value and bound the library computes on this model is a machine integer *)
Definition abs_total (g : graph) : Z := sum_upto (g_n g) (fun u => Z.abs (g_w g u)).
Lemma sum_upto_opp n f : sum_upto n (fun u => - f u) = - sum_upto n f.
Proof. induction n as [|k IH]; cbn [sum_upto]; [reflexivity|rewrite IH; lia]. Qed.
Theorem misp_values_in_range g I : - abs_total g <= weight g I <= abs_total g.
Proof.
  unfold weight, abs_total. split.
  - rewrite <- sum_upto_opp. apply sum_upto_le. intros u _. destruct (I u); lia.
  - apply sum_upto_le. intros u _. destruct (I u); lia.
Qed.
Theorem misp_rub_in_range g s : 0 <= m_rub g s <= abs_total g.
Proof. split; [apply misp_rub_nonneg|]. unfold m_rub, abs_total. apply sum_upto_le. intros u _. destruct (s u); lia. Qed.

(* ---- the dynamic variable order: branch on the vertex contained in the fewest states of the layer (first such vertex) ------------- *)
Definition count (ss : list state) (u : nat) : nat := length (filter (fun s => s u) ss).
Fixpoint argmin_from (ss : list state) (k : nat) (u : nat) (best : option (nat * nat)) : option (nat * nat) :=
  match k with
  | O => best
  | S k' =>
      let c := count ss u in
      let best' := if Nat.eqb c 0 then best
                   else match best with None => Some (u, c) | Some (_, cb) => if Nat.ltb c cb then Some (u, c) else best end in
      argmin_from ss k' (S u) best'
  end.
Definition m_next_var (g : graph) (ss : list state) : option nat := option_map fst (argmin_from ss (g_n g) 0 None).

Lemma argmin_from_inv ss : forall k u best,
  (forall v c, best = Some (v, c) -> c = count ss v /\ c <> 0%nat /\ (v < u)%nat) ->
  (best = None -> forall v, (v < u)%nat -> count ss v = 0%nat) ->
  (forall v c, argmin_from ss k u best = Some (v, c) -> c = count ss v /\ c <> 0%nat /\ (v < u + k)%nat) /\
  (argmin_from ss k u best = None -> forall v, (v < u + k)%nat -> count ss v = 0%nat).
Proof.
  induction k as [|k IH]; intros u best HS HN; cbn [argmin_from].
  - rewrite Nat.add_0_r. split; assumption.
  - replace (u + S k)%nat with (S u + k)%nat by lia. apply IH.
    + intros v c. destruct (Nat.eqb_spec (count ss u) 0) as [Z|NZ].
      * intros E. destruct (HS v c E) as (A & B & C). repeat split; try assumption; lia.
      * destruct best as [[vb cb]|].
        -- destruct (Nat.ltb (count ss u) cb); intros E.
           ++ inversion E; subst. repeat split; try assumption; lia.
           ++ destruct (HS v c E) as (A & B & C). repeat split; try assumption; lia.
        -- intros E. inversion E; subst. repeat split; try assumption; lia.
    + destruct (Nat.eqb_spec (count ss u) 0) as [Z|NZ].
      * intros E v Hv. destruct (Nat.eq_dec v u) as [->|]; [exact Z|apply HN; [exact E|lia]].
      * destruct best as [[vb cb]|]; [destruct (Nat.ltb (count ss u) cb)|]; discriminate.
Qed.

Lemma count_pos ss u : count ss u <> 0%nat -> exists s, In s ss /\ s u = true.
Proof.
  unfold count. intros H. destruct (filter (fun s => s u) ss) as [|s r] eqn:F; [cbn in H; congruence|].
  assert (I : In s (filter (fun s => s u) ss)) by (rewrite F; left; reflexivity). apply filter_In in I. exists s. exact I.
Qed.
Lemma count_zero ss u s : count ss u = 0%nat -> In s ss -> s u = false.
Proof.
  unfold count. intros H I. destruct (s u) eqn:E; [|reflexivity].
  assert (X : In s (filter (fun s => s u) ss)) by (apply filter_In; tauto). destruct (filter (fun s => s u) ss); [destruct X|cbn in H; discriminate].
Qed.

(* the chosen vertex is below n and still present in some state of the layer (so it has not been decided on the way to that state);
   when none is chosen every state of the layer is empty: the diagram stops exactly when nothing is left to decide *)
Theorem misp_next_var_some g ss v : m_next_var g ss = Some v -> (v < g_n g)%nat /\ exists s, In s ss /\ s v = true.
Proof.
  unfold m_next_var. intros H. destruct (argmin_from ss (g_n g) 0 None) as [[v' c]|] eqn:E; [|discriminate]. cbn in H. inversion H; subst.
  destruct (argmin_from_inv ss (g_n g) 0%nat None) as [A _]; [discriminate|intros _ x Hx; lia|].
  destruct (A v c E) as (C1 & C2 & C3). split; [lia|]. apply count_pos. congruence.
Qed.
Theorem misp_next_var_none g ss : m_next_var g ss = None -> forall s, In s ss -> empty_on g s.
Proof.
  unfold m_next_var. intros H s I u L. destruct (argmin_from ss (g_n g) 0 None) as [[v' c]|] eqn:E; [discriminate|].
  destruct (argmin_from_inv ss (g_n g) 0%nat None) as [_ B]; [discriminate|intros _ x Hx; lia|].
  eapply count_zero; [apply B; [exact E|lia]|exact I].
Qed.

(* ---- executable views for the correspondence check and non-vacuity ------------------------------------------------------------ *)
Definition of_list (l : list nat) : state := fun u => existsb (Nat.eqb u) l.
Definition to_list (g : graph) (s : state) : list nat := filter s (seq 0 (g_n g)).
Definition mk_graph (n : nat) (ws : list Z) (es : list (nat * nat)) : graph := {| g_n := n; g_w := fun u => nth u ws 1; g_edges := es |}.
(* brute force over all subsets of the vertices *)
Fixpoint subsets (l : list nat) : list (list nat) := match l with [] => [[]] | x :: r => subsets r ++ map (cons x) (subsets r) end.
Definition indepb (g : graph) (l : list nat) : bool := forallb (fun u => forallb (fun v => Nat.eqb u v || negb (adj g u v)) l) l.
Definition best_enum (g : graph) (s : state) : Z :=
  fold_right Z.max 0 (map (fun l => weight g (of_list l)) (filter (indepb g) (subsets (to_list g s)))).

(* best_enum IS the maximum weight of an independent set of the state: an upper bound of all, attained by one *)
Lemma of_list_spec l u : of_list l u = true <-> In u l.
Proof.
  unfold of_list. rewrite existsb_exists. split; [intros (x & Hx & E); apply Nat.eqb_eq in E; now subst|intros H; exists u; split; [exact H|apply Nat.eqb_refl]].
Qed.
Lemma to_list_spec g s u : In u (to_list g s) <-> (u < g_n g)%nat /\ s u = true.
Proof. unfold to_list. rewrite filter_In, in_seq. split; intros [A B]; split; try assumption; lia. Qed.
Lemma In_subsets_filter (f : nat -> bool) : forall L, In (filter f L) (subsets L).
Proof.
  induction L as [|x r IH]; cbn [filter subsets]; [left; reflexivity|]. apply in_or_app. destruct (f x); [right; apply in_map; exact IH|left; exact IH].
Qed.
Lemma subsets_incl : forall L l, In l (subsets L) -> incl l L.
Proof.
  induction L as [|x r IH]; cbn [subsets]; intros l H.
  - destruct H as [<-|[]]. intros u [].
  - apply in_app_or in H as [H|H]; [intros u Hu; right; now apply (IH l H)|].
    apply in_map_iff in H as (l' & <- & H'). intros u [<-|Hu]; [left; reflexivity|right; now apply (IH l' H')].
Qed.
Lemma fold_max_ge : forall L x, In x L -> x <= fold_right Z.max 0 L.
Proof. induction L as [|y r IH]; intros x []; cbn [fold_right]; [subst; lia|specialize (IH x H); lia]. Qed.
Lemma fold_max_in : forall L, fold_right Z.max 0 L = 0 \/ In (fold_right Z.max 0 L) L.
Proof.
  induction L as [|y r IH]; cbn [fold_right]; [left; reflexivity|].
  destruct (Z.max_spec y (fold_right Z.max 0 r)) as [[_ ->]|[_ ->]]; [destruct IH as [->|H]; [left; reflexivity|right; right; exact H]|right; left; reflexivity].
Qed.
Lemma indepb_spec g l : indepb g l = true <-> forall u v, In u l -> In v l -> u <> v -> adj g u v = false.
Proof.
  unfold indepb. rewrite forallb_forall. split.
  - intros H u v Hu Hv Ne. specialize (H u Hu). rewrite forallb_forall in H. specialize (H v Hv).
    apply orb_prop in H as [E|E]; [apply Nat.eqb_eq in E; congruence|now apply negb_true_iff in E].
  - intros H u Hu. apply forallb_forall. intros v Hv. destruct (Nat.eqb_spec u v) as [E|E]; [reflexivity|]. cbn [orb]. apply negb_true_iff. now apply H.
Qed.

Theorem best_enum_upper g s I : IS g s I -> weight g I <= best_enum g s.
Proof.
  intros [H1 H2]. unfold best_enum. set (l := filter I (to_list g s)).
  assert (Hl : forall u, In u l <-> I u = true).
  { intros u. unfold l. rewrite filter_In, to_list_spec. split; [tauto|]. intros Iu. destruct (H1 u Iu). tauto. }
  assert (E : weight g I = weight g (of_list l)).
  { apply weight_ext. intros u. destruct (I u) eqn:Iu.
    - symmetry. apply of_list_spec, Hl, Iu.
    - destruct (of_list l u) eqn:O; [|reflexivity]. apply of_list_spec, Hl in O. congruence. }
  rewrite E. apply fold_max_ge. apply (in_map (fun l0 => weight g (of_list l0))). apply filter_In. split; [apply In_subsets_filter|].
  apply indepb_spec. intros u v Hu Hv. apply H2; now apply Hl.
Qed.
Theorem best_enum_attained g s : exists I, IS g s I /\ weight g I = best_enum g s.
Proof.
  unfold best_enum. destruct (fold_max_in (map (fun l => weight g (of_list l)) (filter (indepb g) (subsets (to_list g s))))) as [Z|H].
  - exists (fun _ => false). split; [apply IS_none|]. rewrite Z. now apply weight_none.
  - apply in_map_iff in H as (l & E & Hl). apply filter_In in Hl as [Hs Hi]. exists (of_list l). split; [|exact E].
    apply subsets_incl in Hs. split.
    + intros u Hu. apply of_list_spec in Hu. now apply to_list_spec, Hs.
    + intros u v Hu Hv. apply of_list_spec in Hu, Hv. apply (proj1 (indepb_spec g l) Hi); assumption.
Qed.
(* so: the value of every feasible run from s is at most best_enum g s, and some run over any sequence listing all vertices has that value *)
Corollary misp_dp_optimum g s vs : vars_ok g vs -> (forall u, (u < g_n g)%nat -> In u vs) ->
  (forall ds s' c, m_run g s vs ds = Some (s', c) -> c <= best_enum g s) /\
  (exists ds s' c, m_run g s vs ds = Some (s', c) /\ c = best_enum g s).
Proof.
  intros Hok All. split.
  - intros ds s' c R. destruct (misp_dp_sound g vs ds s s' c Hok R) as [A <-]. now apply best_enum_upper.
  - destruct (best_enum_attained g s) as (I & HI & W). destruct (misp_dp_complete_all_vertices g vs s I HI All) as (s' & c & R & E).
    exists (decs I vs), s', c. split; [exact R|congruence].
Qed.

Definition g_ex : graph := mk_graph 4 [3; 4; 2; -1] [(0, 1); (1, 2)]%nat.
Example misp_example :
  (best_enum g_ex (m_init g_ex) = 5) /\ (m_rub g_ex (m_init g_ex) = 9) /\ (to_list g_ex (m_trans g_ex (m_init g_ex) 1%nat true) = [3%nat]) /\
  (m_run g_ex (m_init g_ex) [1; 0]%nat [true; true] = None) /\
  (option_map snd (m_run g_ex (m_init g_ex) [1; 0; 2; 3]%nat [false; true; true; false]) = Some 5).
Proof. vm_compute. repeat split. Qed.
