(* SolverNoDup.v — the sequential branch-and-bound theorems for the NoDupFringe configuration (sc_nodup cfg = true).

   SolverProofs.v proves seq_solver_correct / seq_solver_correct_primal (C01 / C14) and Assembly.v the unconditional
   C01_sequential_optimal for the SimpleFringe configuration only (config_ok contains sc_nodup cfg = false).  This file
   proves the same statements when the fringe is the faithful NoDupFringe model of Fringe.v / Fringe2.v (indexed binary
   heap + states map keyed by (state, depth)), which COALESCES a pushed node with the entry that has the same key.

   Storey 0 (section KeyedIface): the fringe interface.  Ghost state fl f = the abstract content of the heap
     (FringeProofs.abs) read back as solver sub-problems; representation invariant krep f = FringeProofs.nd_core
     (structural invariant: no operation can panic) + every stored key is (state, own depth).
       k_push_spec   push never panics, keeps krep, and  pushed (fl f) (fl f') n :
                       either  fl f' ~ n :: fl f                                   (fresh key)
                       or      fl f ~ old :: rest, fl f' ~ coalesce old n :: rest   (same state, same depth)
       k_pop_spec    pop on a non-empty fringe never panics, keeps krep, returns x with fl f ~ x :: fl f'
       fl_len        nd_len f = length (fl f)
     Only nd_core is used, never the heap order: the B&B argument (like the SimpleFringe one) does not need the popped
     element to be maximal, hence NO hypothesis on the state ranking (no antisymmetry / transitivity of sc_ranking).
   Storey 1 (sections NoDupFringe, SolverNoDup): the NoDupFringe meets SolverProofs.fringe_ok (nodup_fringe_ok: keys
     key_same = same state and depth, content rep_nodup = krep + fl, pops not claimed maximal), hence
     seq_solver_correct_nodup, seq_solver_correct_primal_nodup, maximize_correct_nodup, seq_solver_partial_correct_nodup:
     the statements of SolverProofs.v with sc_nodup cfg = true, under two extra premises:
       st_eqb_spec   st_eqb decides equality of states (the fringe's map is keyed by states; FringeProofs needs it)
       coalesce_ok   two good sub-problems with equal state and equal depth have the same value-to-go:
                       best a = Some oa -> best b = Some (oa - sp_value a + sp_value b)
     The completeness invariant says "some open node has best >= OPT" (Wit), not "= OPT": when the entry that witnessed
     OPT is coalesced with a node of larger value, the survivor's best is larger (it cannot be, by best_le_opt, but that
     hypothesis is not needed this way).
   Storey 2 (section MainNoDup): C01_sequential_optimal_nodup (+ _run, C14_primal_nodup): Assembly.C01_sequential_optimal
     with sc_nodup cfg = true, every other hypothesis unchanged.  The contracts K0..K5 are imported from Assembly.v through
     the configuration with the flag flipped (mk_input does not read sc_nodup: the statements are convertible).
   Storey 3: the table instance ex_ti run with NoDupFringe returns the optimum 12 (vm_compute), the theorem instantiated
     on the whole table family, and a run in which a coalescing push does happen.
   Stdlib only, no axioms. *)
Require Import DDO.Base DDO.Fringe DDO.FringeProofs DDO.Fringe2 DDO.DP DDO.Cache DDO.Dom DDO.Mdd DDO.Solver DDO.SolverProofs.
From Coq Require Import Permutation Arith.
Open Scope Z_scope.

(* push = insert-or-coalesce on the abstract content *)
Definition pushed {St : Type} (L L' : list (@subproblem St)) (n : @subproblem St) : Prop :=
  Permutation L' (n :: L) \/
  exists old rest, Permutation L (old :: rest) /\ sp_state old = sp_state n /\ sp_depth old = sp_depth n /\
                   Permutation L' (coalesce old n :: rest).

Section KeyedIface.
  Context {St : Type}.
  Variable st_eqb : St -> St -> bool.
  Hypothesis st_eqb_spec : forall a b, st_eqb a b = true <-> a = b.
  Variable st_cmp : St -> St -> comparison.

  Local Notation KK := (@K St).
  Local Notation keqb := (key_eqb st_eqb).
  Local Notation kc := (kcmp st_cmp).
  Local Notation keqb_spec := (key_eqb_spec st_eqb st_eqb_spec).

  (* ghost state: the content of the fringe, as solver sub-problems *)
  Definition fl (f : @nodup KK) : list (@subproblem St) := map unembed (abs f).
  Definition keys_ok (f : @nodup KK) : Prop := forall x, In x (abs f) -> sp_depth x = snd (sp_state x).
  Definition krep (f : @nodup KK) : Prop := nd_core keqb f /\ keys_ok f.

  Lemma krep_empty : krep nd_empty.
  Proof. split; [apply nd_core_empty|]. intros x Hx. destruct Hx. Qed.

  Lemma fl_empty : fl nd_empty = [].
  Proof. reflexivity. Qed.

  (* stated at the type St * nat, the way Solver.v mentions the fringe *)
  Lemma fl_len (f : @nodup KK) : krep f -> @nd_len (St * nat) f = length (fl f).
  Proof. intros [Hc _]. unfold fl. rewrite map_length. exact (abs_len keqb f Hc). Qed.

  Lemma unembed_coalesce (old : @subproblem KK) (n : @subproblem St) :
    unembed (coalesce old (embed n)) = coalesce (unembed old) n.
  Proof.
    unfold coalesce.
    change (sp_value (embed n)) with (sp_value n). change (sp_value (unembed old)) with (sp_value old).
    destruct (sp_value n >? sp_value old); reflexivity.
  Qed.

  Lemma k_push_spec f n : krep f ->
    exists f', k_push st_eqb st_cmp f n = Some f' /\ krep f' /\ pushed (fl f) (fl f') n.
  Proof.
    intros [Hc Hk]. unfold k_push.
    destruct (nd_push_core keqb keqb_spec kc f (embed n) Hc) as [f' [Hp Hc']].
    exists f'. split; [exact Hp|].
    destruct (states_get keqb (nd_states f) (sp_state (embed n))) as [id|] eqn:Hget.
    - destruct (abs_push_occupied keqb kc f (embed n) id f' Hc Hget Hp) as (old & rest & Hst & HP & HP' & _).
      assert (Hold : In old (abs f)).
      { eapply Permutation_in; [apply Permutation_sym; exact HP|left; reflexivity]. }
      split; [split; [exact Hc'|]|].
      + intros x Hx. eapply Permutation_in in Hx; [|exact HP']. destruct Hx as [Hx|Hx].
        * subst x. change (dep_ok (@snd St nat) (coalesce old (embed n))).
          apply coalesce_dep_ok; [apply Hk; exact Hold|reflexivity].
        * apply Hk. eapply Permutation_in; [apply Permutation_sym; exact HP|right; exact Hx].
      + right. exists (unembed old), (map unembed rest). split; [|split; [|split]].
        * unfold fl. change (unembed old :: map unembed rest) with (map unembed (old :: rest)).
          apply Permutation_map. exact HP.
        * exact (f_equal fst Hst).
        * etransitivity; [exact (Hk old Hold)|]. exact (f_equal snd Hst).
        * unfold fl. rewrite <- unembed_coalesce.
          change (unembed (coalesce old (embed n)) :: map unembed rest)
            with (map unembed (coalesce old (embed n) :: rest)).
          apply Permutation_map. exact HP'.
    - destruct (abs_push_vacant keqb keqb_spec kc f (embed n) f' Hc Hget Hp) as [HP _].
      split; [split; [exact Hc'|]|].
      + intros x Hx. eapply Permutation_in in Hx; [|exact HP]. destruct Hx as [Hx|Hx].
        * subst x. reflexivity.
        * apply Hk. exact Hx.
      + left. unfold fl. apply Permutation_trans with (map unembed (embed n :: abs f)).
        * apply Permutation_map. exact HP.
        * cbn [map]. rewrite unembed_embed. apply Permutation_refl.
  Qed.

  Lemma k_pop_spec f : krep f -> nd_len f <> O ->
    exists x f', k_pop st_eqb st_cmp f = Some (f', Some x) /\ krep f' /\ Permutation (fl f) (x :: fl f').
  Proof.
    intros [Hc Hk] Hne.
    destruct (nd_heap f) as [|id t] eqn:Hheap.
    { exfalso. apply Hne. unfold nd_len. rewrite Hheap. reflexivity. }
    destruct (nd_pop_nonempty keqb kc f id t Hc Hheap)
      as [x [f0 [f1 [Hx [Hpop [Hok0 [Hn0 [Hperm [_ [Hok1 [Hsc [Hl1 _]]]]]]]]]]]].
    destruct (nd_pop_core keqb keqb_spec kc f Hc) as [f' [r [Hp' Hc']]].
    rewrite Hpop in Hp'. inversion Hp'; subst f' r. clear Hp'.
    pose proof (abs_popped keqb f id x f0 f1 Hx Hperm Hsc) as HP.
    exists (unembed x), (popped_state keqb f f1 id x).
    split; [unfold k_pop; rewrite Hpop; reflexivity|].
    split; [split; [exact Hc'|]|].
    - intros y Hy. apply Hk. eapply Permutation_in; [apply Permutation_sym; exact HP|right; exact Hy].
    - unfold fl. change (unembed x :: map unembed (abs (popped_state keqb f f1 id x)))
        with (map unembed (x :: abs (popped_state keqb f f1 id x))).
      apply Permutation_map. exact HP.
  Qed.
End KeyedIface.

(* the NoDupFringe meets SolverProofs.fringe_ok.  key_same: the key of the states map *)
Definition key_same {St : Type} (a b : @subproblem St) : Prop := sp_state a = sp_state b /\ sp_depth a = sp_depth b.

Lemma pushed_key {St : Type} (L L' : list (@subproblem St)) n : pushed L L' n -> pushed_by key_same L L' n.
Proof.
  intros [HP|(old & rest & HP & Hs & Hd & HP')]; [left; exact HP|].
  right. exists old, rest. split; [exact HP|]. split; [split; assumption|exact HP'].
Qed.

Lemma key_same_sym {St : Type} (a b : @subproblem St) : key_same a b -> key_same b a.
Proof. intros [H1 H2]. split; symmetry; assumption. Qed.

Lemma key_same_depth {St : Type} (a b : @subproblem St) : key_same a b -> sp_depth a = sp_depth b.
Proof. intros [_ H]. exact H. Qed.

Section NoDupFringe.
  Context {St : Type}.
  Variable st_eqb : St -> St -> bool.
  Hypothesis st_eqb_spec : forall a b, st_eqb a b = true <-> a = b.
  Variable cfg : @sconfig St.
  Hypothesis Hnodup : sc_nodup cfg = true.
  Local Notation rk := (sc_ranking cfg).

  Lemma fr_len_nd s : fr_len cfg s = nd_len (s_nodup s).
  Proof. unfold fr_len. rewrite Hnodup. reflexivity. Qed.

  Lemma fr_push_nd s n :
    fr_push st_eqb cfg s n =
    match k_push st_eqb rk (s_nodup s) n with
    | Some f => set_fringe s (s_simple s) f
    | None => crashed s
    end.
  Proof. unfold fr_push. rewrite Hnodup. reflexivity. Qed.

  Lemma fr_pop_nd s :
    fr_pop st_eqb cfg s =
    match k_pop st_eqb rk (s_nodup s) with
    | Some (f, r) => (set_fringe s (s_simple s) f, r)
    | None => (crashed s, None)
    end.
  Proof. unfold fr_pop. rewrite Hnodup. reflexivity. Qed.

  (* the content of the fringe is the ghost state fl; the list field is not used *)
  Definition rep_nodup (l : list (@subproblem St)) (f : @nodup (St * nat)) (L : list (@subproblem St)) : Prop :=
    krep st_eqb f /\ L = fl f.

  (* no hypothesis on the ranking: the popped element is not claimed to be maximal ([ord] := False) *)
  Lemma nodup_fringe_ok (good : @subproblem St -> Prop) (best : @subproblem St -> option Z) :
    (forall a b, good a -> good b -> sp_state a = sp_state b -> sp_depth a = sp_depth b ->
       forall oa, best a = Some oa -> best b = Some (oa - sp_value a + sp_value b)) ->
    fringe_ok st_eqb cfg good best key_same rep_nodup False.
  Proof.
    intros Hco. unfold fringe_ok, rep_nodup.
    split; [exact key_same_sym|]. split; [exact key_same_depth|].
    split; [intros a b Hga Hgb [Hs Hd]; exact (Hco a b Hga Hgb Hs Hd)|].
    split; [split; [apply krep_empty|reflexivity]|].
    split; [intros s L [Hr ->]; rewrite fr_len_nd; exact (fl_len st_eqb _ Hr)|]. split.
    - intros s L n [Hr ->].
      destruct (k_push_spec st_eqb st_eqb_spec rk (s_nodup s) n Hr) as (f' & Hp & Hr' & Hpd).
      exists (s_simple s), f', (fl f'). split; [rewrite fr_push_nd, Hp; reflexivity|].
      split; [split; [exact Hr'|reflexivity]|exact (pushed_key _ _ _ Hpd)].
    - intros s L [Hr ->] Hne.
      assert (Hlen : nd_len (s_nodup s) <> O).
      { rewrite (fl_len st_eqb _ Hr). destruct (fl (s_nodup s)); [contradiction|discriminate]. }
      destruct (k_pop_spec st_eqb st_eqb_spec rk (s_nodup s) Hr Hlen) as (x & f' & Hpop & Hr' & Hperm).
      exists x, (s_simple s), f', (fl f'). split; [rewrite fr_pop_nd, Hpop; reflexivity|].
      split; [split; [exact Hr'|reflexivity]|]. split; [exact Hperm|intros []].
  Qed.
End NoDupFringe.

Section SolverNoDup.
  Context {St : Type}.
  Variable st_eqb : St -> St -> bool.
  Hypothesis st_eqb_spec : forall a b, st_eqb a b = true <-> a = b.
  Variable cfg : @sconfig St.
  Local Notation N := (nb_vars (sc_problem cfg)).

  (* as SolverProofs.config_ok, with the NoDupFringe *)
  Definition config_ok_nodup : Prop :=
    sc_use_cache cfg = false /\ sc_domrule cfg = None /\ sc_cutoff cfg = 0%nat /\ sc_nodup cfg = true.
  Hypothesis cfg_ok : config_ok_nodup.
  Lemma no_cache_nd : sc_use_cache cfg = false. Proof. apply cfg_ok. Qed.

  Lemma nodup_fringe : sc_nodup cfg = true. Proof. apply cfg_ok. Qed.

  (* abstract semantics, as in SolverProofs.v *)
  Variable good : @subproblem St -> Prop.
  Variable best : @subproblem St -> option Z.
  Variable feasible : list decision -> Z -> Prop.
  Local Notation OPT' := (OPT cfg best).

  Hypothesis good_root : good (root_node cfg).
  Hypothesis feasible_le_opt : forall sol v, feasible sol v -> exists o, OPT' = Some o /\ v <= o.
  Hypothesis opt_in_isize : forall o, OPT' = Some o -> IMIN < o <= IMAX.
  Hypothesis good_set_ub : forall c u, good c -> good (set_ub c u).
  Hypothesis best_set_ub : forall c u, best (set_ub c u) = best c.
  (* beyond SolverProofs.v: the value-to-go of a sub-problem is a function of its (state, depth) *)
  Hypothesis coalesce_ok : forall a b, good a -> good b -> sp_state a = sp_state b -> sp_depth a = sp_depth b ->
    forall oa, best a = Some oa -> best b = Some (oa - sp_value a + sp_value b).

  (* diagram contracts, as in SolverProofs.v *)
  Variable M : nat.

  Hypothesis K0 : forall ct n lb c ds polls m out,
    dd_ct ct -> good n -> (sp_depth n <= N)%nat ->
    compile st_eqb (mk_input cfg ct n lb) 0 0 c ds polls = (m, out) ->
    out = Compiled /\ m_crash m = false.
  Hypothesis K1 : forall ct n lb c ds polls m out,
    dd_ct ct -> good n -> (sp_depth n <= N)%nat ->
    compile st_eqb (mk_input cfg ct n lb) 0 0 c ds polls = (m, out) ->
    forall v, dd_best_exact_value (mk_input cfg ct n lb) m = Some v ->
    exists sol, dd_best_exact_solution (mk_input cfg ct n lb) m = Some sol /\ feasible sol v.
  Hypothesis K2 : forall ct n lb c ds polls m out,
    dd_ct ct -> good n -> (sp_depth n <= N)%nat ->
    compile st_eqb (mk_input cfg ct n lb) 0 0 c ds polls = (m, out) ->
    dd_is_exact m = true ->
    forall o, best n = Some o -> o > lb -> dd_best_exact_value (mk_input cfg ct n lb) m = Some o.
  Hypothesis K3_good : forall n lb c ds polls m out,
    good n -> (sp_depth n <= N)%nat ->
    compile st_eqb (mk_input cfg Relaxed n lb) 0 0 c ds polls = (m, out) ->
    dd_is_exact m = false ->
    forall x, In x (drain_cutset (mk_input cfg Relaxed n lb) m) -> good x.
  Hypothesis K3_depth : forall n lb c ds polls m out,
    good n -> (sp_depth n <= N)%nat ->
    compile st_eqb (mk_input cfg Relaxed n lb) 0 0 c ds polls = (m, out) ->
    dd_is_exact m = false ->
    forall x, In x (drain_cutset (mk_input cfg Relaxed n lb) m) -> (sp_depth n < sp_depth x <= N)%nat.
  Hypothesis K3_ub : forall n lb c ds polls m out,
    good n -> (sp_depth n <= N)%nat ->
    compile st_eqb (mk_input cfg Relaxed n lb) 0 0 c ds polls = (m, out) ->
    dd_is_exact m = false ->
    forall x, In x (drain_cutset (mk_input cfg Relaxed n lb) m) ->
    forall o, best x = Some o -> o > lb -> o <= sp_ub x.
  Hypothesis K4 : forall n lb c ds polls m out,
    good n -> (sp_depth n <= N)%nat ->
    compile st_eqb (mk_input cfg Relaxed n lb) 0 0 c ds polls = (m, out) ->
    dd_is_exact m = false ->
    forall o, best n = Some o -> o > lb ->
    (forall e, dd_best_exact_value (mk_input cfg Relaxed n lb) m = Some e -> e < o) ->
    exists x, In x (drain_cutset (mk_input cfg Relaxed n lb) m) /\ best x = Some o.
  Hypothesis K5 : forall n lb c ds polls m out,
    good n -> (sp_depth n <= N)%nat ->
    compile st_eqb (mk_input cfg Relaxed n lb) 0 0 c ds polls = (m, out) ->
    dd_is_exact m = false ->
    (length (drain_cutset (mk_input cfg Relaxed n lb) m) <= M)%nat.

  Local Notation FL s := (fl (s_nodup s)).
  Local Notation Rep f := (krep st_eqb f).

  (* what a push does to the invariant's ingredients: SolverProofs.Coalescing, read for the keys (state, depth).
     Wit is SolverProofs.Leads: o is still reachable through n (the best completion of n is worth at least o and
     n's bound does not hide it) *)
  Definition Wit (o : Z) (n : @subproblem St) : Prop :=
    exists o', best n = Some o' /\ o <= o' /\ o <= sp_ub n.

  (* the per-depth counter grows by exactly the growth of the fringe length: 1 on a fresh key, 0 on a coalescing push *)
  Lemma pushed_cnt_same (L L' : list (@subproblem St)) (n : @subproblem St) :
    pushed L L' n -> cnt (sp_depth n) L' = (cnt (sp_depth n) L + (length L' - length L))%nat.
  Proof.
    intros Hp. rewrite (pushed_by_cnt key_same key_same_depth L L' n (sp_depth n) (pushed_key _ _ _ Hp)).
    destruct (Nat.eq_dec (sp_depth n) (sp_depth n)); [reflexivity|contradiction].
  Qed.

  Lemma pushed_cnt_other (L L' : list (@subproblem St)) (n : @subproblem St) d : pushed L L' n -> sp_depth n <> d -> cnt d L' = cnt d L.
  Proof.
    intros Hp Hne. rewrite (pushed_by_cnt key_same key_same_depth L L' n d (pushed_key _ _ _ Hp)).
    destruct (Nat.eq_dec (sp_depth n) d); [contradiction|lia].
  Qed.

  Definition QInv (s : @sstate St) : Prop :=
    Rep (s_nodup s) /\ FringeOK cfg good (FL s) /\ OpenOK cfg (s_open s) (FL s).

  Definition Core (s : @sstate St) : Prop :=
    s_crash s = false /\ s_abort s = false /\ Incumbent feasible (s_lb s) (s_sol s) /\ QInv s.

  (* completeness: the optimum is either already matched by the incumbent, or some open sub-problem (of the fringe, or of
     [extra] = the node being processed) still leads to a solution at least as good, and its ub does not hide it *)
  Definition Compl (s : @sstate St) (extra : list (@subproblem St)) : Prop :=
    forall o, OPT' = Some o ->
      o <= s_lb s \/ exists n, (In n extra \/ In n (FL s)) /\ Wit o n.

  (* these are the invariants of SolverProofs.Loop for the content fl *)
  Lemma CoreL_nodup s L :
    CoreL cfg good feasible (rep_nodup st_eqb) s L <-> L = FL s /\ Core s.
  Proof.
    unfold Core, QInv, CoreL, QL, rep_nodup. split.
    - intros (H1 & H2 & H3 & (H4 & ->) & H5 & H6). auto 10.
    - intros (-> & H1 & H2 & H3 & H4 & H5 & H6). auto 10.
  Qed.

  Lemma Compl_nodup s extra : Compl s extra -> ComplL cfg best s (FL s) extra.
  Proof.
    intros H o Ho. destruct (H o Ho) as [Hle|(n & Hn & Hw)]; [left; exact Hle|].
    right. exists n. split; [apply in_or_app; exact Hn|exact Hw].
  Qed.

  Lemma phase s ct n s' inp m o :
    Core s -> dd_ct ct -> good n -> (sp_depth n <= N)%nat ->
    run_compile st_eqb cfg s ct n = (s', inp, m, o) ->
    o = Compiled /\ inp = mk_input cfg ct n (s_lb s) /\
    compile st_eqb (mk_input cfg ct n (s_lb s)) 0 0 (s_cache s) (s_dom s) (s_polls s) = (m, Compiled) /\
    Core (maybe_update_best s' inp m) /\ s_nodup (maybe_update_best s' inp m) = s_nodup s /\
    s_lb s <= s_lb (maybe_update_best s' inp m) /\
    (forall e, dd_best_exact_value inp m = Some e -> e <= s_lb (maybe_update_best s' inp m)).
  Proof using K0 K1.
    intros HCore Hct Hg Hd Hrc.
    pose proof (run_compile_spec _ _ _ _ _ _ _ _ _ Hrc) as (_ & Hc & _).
    destruct (run_compile_frame _ _ _ _ _ _ _ _ _ Hrc) as [R0 _].
    destruct (K0 _ _ _ _ _ _ _ _ Hct Hg Hd Hc) as [-> _].
    assert (HCL : CoreL cfg good feasible (rep_nodup st_eqb) s (FL s)) by (apply CoreL_nodup; auto).
    destruct (phase_gen st_eqb cfg good feasible (rep_nodup st_eqb)
                (fun ct n lb c ds polls m out Hct Hg Hd Hc => proj2 (K0 ct n lb c ds polls m out Hct Hg Hd Hc))
                (fun ct n lb c ds polls m => K1 ct n lb c ds polls m Compiled)
                s _ ct n s' inp m Compiled HCL Hct Hg Hd Hrc) as (Hinp & Hc' & _ & _ & _ & Hcomp).
    destruct (Hcomp eq_refl) as (HC & Hlb & _ & Hev).
    apply CoreL_nodup in HC. destruct HC as [_ HC].
    split; [reflexivity|]. split; [exact Hinp|]. split; [exact Hc'|]. split; [exact HC|].
    split; [rewrite (proj1 (mub_frame s' inp m)); exact R0|]. split; [exact Hlb|exact Hev].
  Qed.

  (* total correctness with an explicit fuel bound (the same as for SimpleFringe), any feasible or absent warm start *)
  Theorem maximize_correct_nodup primal : primal_ok feasible primal ->
    forall fuel, (fuel0 cfg M <= fuel)%nat -> result_ok cfg best feasible (maximize st_eqb cfg fuel primal).
  Proof.
    exact (maximize_exact st_eqb cfg no_cache_nd good best feasible
             (sem_K cfg good best feasible good_root feasible_le_opt opt_in_isize good_set_ub best_set_ub)
             M key_same (rep_nodup st_eqb) False
             (nodup_fringe_ok st_eqb st_eqb_spec cfg nodup_fringe good best coalesce_ok)
             (contracts_K st_eqb cfg good best feasible K0 K1 K2 K3_good K3_depth K3_ub K4)
             (exact_K st_eqb cfg good M K0 K3_depth K5) primal).
  Qed.

  (* partial correctness: for ANY fuel, a run that was not cut short by the fuel is correct *)
  Theorem seq_solver_partial_correct_nodup primal : primal_ok feasible primal ->
    forall fuel, r_outoffuel (maximize st_eqb cfg fuel primal) = false ->
    result_ok cfg best feasible (maximize st_eqb cfg fuel primal).
  Proof.
    exact (maximize_exact_partial st_eqb cfg no_cache_nd good best feasible
             (sem_K cfg good best feasible good_root feasible_le_opt opt_in_isize good_set_ub best_set_ub)
             M key_same (rep_nodup st_eqb) False
             (nodup_fringe_ok st_eqb st_eqb_spec cfg nodup_fringe good best coalesce_ok)
             (contracts_K st_eqb cfg good best feasible K0 K1 K2 K3_good K3_depth K3_ub K4)
             (exact_K st_eqb cfg good M K0 K3_depth K5) primal).
  Qed.

  (* C01, NoDupFringe *)
  Theorem seq_solver_correct_nodup :
    exists f0, forall fuel, (f0 <= fuel)%nat ->
      let r := maximize st_eqb cfg fuel None in
      r_crash r = false /\ r_outoffuel r = false /\ r_exact r = true /\ r_value r = OPT' /\
      (forall v, OPT' = Some v ->
         r_lb r = v /\ r_ub r = v /\ exists sol, r_sol r = Some (sort_by dec_var_cmp sol) /\ feasible sol v) /\
      (OPT' = None -> r_sol r = None /\ r_lb r = IMIN).
  Proof.
    exists (fuel0 cfg M). intros fuel Hfuel. apply (maximize_correct_nodup None); [|exact Hfuel].
    intros pv psol H; discriminate.
  Qed.

  (* C14, NoDupFringe *)
  Theorem seq_solver_correct_primal_nodup pv psol : feasible psol pv ->
    exists f0, forall fuel, (f0 <= fuel)%nat ->
      let r := maximize st_eqb cfg fuel (Some (pv, psol)) in
      r_crash r = false /\ r_outoffuel r = false /\ r_exact r = true /\ r_value r = OPT' /\
      (forall v, OPT' = Some v ->
         r_lb r = v /\ r_ub r = v /\ exists sol, r_sol r = Some (sort_by dec_var_cmp sol) /\ feasible sol v) /\
      (OPT' = None -> r_sol r = None /\ r_lb r = IMIN).
  Proof.
    intros Hf. exists (fuel0 cfg M). intros fuel Hfuel. apply (maximize_correct_nodup (Some (pv, psol))); [|exact Hfuel].
    intros pv' psol' H; inversion H; subst. exact Hf.
  Qed.
End SolverNoDup.

Print Assumptions seq_solver_correct_nodup.
Print Assumptions seq_solver_correct_primal_nodup.
Print Assumptions maximize_correct_nodup.
Print Assumptions seq_solver_partial_correct_nodup.

(* The unconditional theorem: Assembly.C01_sequential_optimal with the NoDupFringe.  The diagram contracts K0..K5 of
   Assembly.v are statements about Mdd.compile on mk_input cfg .., and mk_input does not read sc_nodup; some of them
   (K1, K3_good, K3_depth, K5) nevertheless carry the section hypothesis sc_nodup cfg = false (through cfg0_ok).  They
   are imported through the configuration with the flag flipped, whose contracts are convertible to those of cfg. *)
Require Import DDO.MddProgress DDO.MddSim DDO.SolverCutoff DDO.Assembly.

Definition flip_nodup {St : Type} (c : @sconfig St) : @sconfig St := {|
  sc_flavour := sc_flavour c; sc_problem := sc_problem c; sc_relax := sc_relax c; sc_ranking := sc_ranking c;
  sc_domcmp := sc_domcmp c; sc_domrule := sc_domrule c; sc_width := sc_width c; sc_use_cache := sc_use_cache c;
  sc_nodup := false; sc_cutoff := sc_cutoff c |}.

(* compilations do not depend on the kind of fringe *)
Lemma mk_input_flip {St : Type} (c : @sconfig St) ct n lb : mk_input (flip_nodup c) ct n lb = mk_input c ct n lb.
Proof. reflexivity. Qed.

(* MddSim.best (value + Bellman value of (depth, state)) satisfies coalesce_ok, for all sub-problems *)
Lemma best_coalesce_ok {St : Type} (cfg : @sconfig St) (a b : @subproblem St) :
  sp_state a = sp_state b -> sp_depth a = sp_depth b ->
  forall oa, MddSim.best cfg a = Some oa -> MddSim.best cfg b = Some (oa - sp_value a + sp_value b).
Proof.
  unfold MddSim.best, oadd. cbv zeta. intros Hs Hd oa. rewrite Hs, Hd.
  match goal with |- context [option_map _ ?h] => destruct h as [hv|] end; cbn [option_map]; [|discriminate].
  intros E. inversion E; subst oa. f_equal. lia.
Qed.

Section MainNoDup.
  Context {St : Type}.
  Variable st_eqb : St -> St -> bool.
  Hypothesis st_eqb_spec : forall a b, st_eqb a b = true <-> a = b.
  Variable cfg : @sconfig St.
  Local Notation pb := (sc_problem cfg).
  Local Notation rlx := (sc_relax cfg).
  Local Notation N := (nb_vars (sc_problem cfg)).

  (* as Assembly.Main, except for the fringe *)
  Hypothesis cfg_clean : sc_flavour cfg = CleanLEL \/ sc_flavour cfg = CleanFC.
  Hypothesis cfg_nocache : sc_use_cache cfg = false.
  Hypothesis cfg_nodom : sc_domrule cfg = None.
  Hypothesis cfg_nodup : sc_nodup cfg = true.
  Hypothesis cfg_width : (1 <= sc_width cfg)%nat.
  Hypothesis nv_static : forall k l1 l2, next_variable pb k l1 = next_variable pb k l2.
  Hypothesis nv_some : forall k l, (k < N)%nat -> exists x, next_variable pb k l = Some x.
  Hypothesis nv_none : forall k l, (N <= k)%nat -> next_variable pb k l = None.
  Hypothesis Hwf : wf_relaxation cfg.
  Variable D : nat.
  Hypothesis dom_bound : forall x s, (length (domain pb x s) <= D)%nat.
  Variable B : Z.
  Hypothesis HB : 2 * B <= IMAX.
  Hypothesis guard0 : forall ds s' v', frun pb 0 (init_state pb) (init_value pb) ds = Some (s', v') -> - B <= v' <= B.
  Hypothesis cfg_nocut : sc_cutoff cfg = 0%nat.

  Local Notation cfgF := (flip_nodup cfg).
  Local Notation good := (sgood pb).
  Local Notation feas := (sfeasible pb).
  Local Notation bst := (MddSim.best cfg).

  Lemma cfg_ok_nd : config_ok_nodup cfg.
  Proof. repeat split; assumption. Qed.

  Lemma flipF : sc_nodup cfgF = false. Proof. reflexivity. Qed.

  Lemma HwfF : wf_relaxation cfgF. Proof. exact Hwf. Qed.

  Lemma K0n : forall ct n lb c ds polls m out,
    dd_ct ct -> good n -> (sp_depth n <= N)%nat ->
    compile st_eqb (mk_input cfg ct n lb) 0 0 c ds polls = (m, out) -> out = Compiled /\ m_crash m = false.
  Proof.
    exact (Assembly.K0 st_eqb st_eqb_spec cfgF cfg_clean cfg_nocache cfg_nodom cfg_width nv_some nv_none cfg_nocut).
  Qed.

  Lemma K1n : forall ct n lb c ds polls m out,
    dd_ct ct -> good n -> (sp_depth n <= N)%nat ->
    compile st_eqb (mk_input cfg ct n lb) 0 0 c ds polls = (m, out) ->
    forall v, dd_best_exact_value (mk_input cfg ct n lb) m = Some v ->
    exists sol, dd_best_exact_solution (mk_input cfg ct n lb) m = Some sol /\ feas sol v.
  Proof.
    exact (Assembly.K1 st_eqb st_eqb_spec cfgF cfg_clean cfg_nocache cfg_nodom flipF cfg_width nv_static nv_some nv_none
             B HB guard0 cfg_nocut).
  Qed.

  Lemma K2n : forall ct n lb c ds polls m out,
    dd_ct ct -> good n -> (sp_depth n <= N)%nat ->
    compile st_eqb (mk_input cfg ct n lb) 0 0 c ds polls = (m, out) ->
    dd_is_exact m = true ->
    forall o, bst n = Some o -> o > lb -> dd_best_exact_value (mk_input cfg ct n lb) m = Some o.
  Proof.
    exact (Assembly.K2 st_eqb st_eqb_spec cfgF cfg_clean cfg_nocache cfg_nodom cfg_width nv_static nv_some nv_none
             HwfF B HB guard0 cfg_nocut).
  Qed.

  Lemma K3_goodn : forall n lb c ds polls m out,
    good n -> (sp_depth n <= N)%nat ->
    compile st_eqb (mk_input cfg Relaxed n lb) 0 0 c ds polls = (m, out) ->
    dd_is_exact m = false ->
    forall x, In x (drain_cutset (mk_input cfg Relaxed n lb) m) -> good x.
  Proof.
    exact (Assembly.K3_good st_eqb st_eqb_spec cfgF cfg_clean cfg_nocache cfg_nodom flipF cfg_width nv_static nv_some nv_none
             B HB guard0 cfg_nocut).
  Qed.

  Lemma K3_depthn : forall n lb c ds polls m out,
    good n -> (sp_depth n <= N)%nat ->
    compile st_eqb (mk_input cfg Relaxed n lb) 0 0 c ds polls = (m, out) ->
    dd_is_exact m = false ->
    forall x, In x (drain_cutset (mk_input cfg Relaxed n lb) m) -> (sp_depth n < sp_depth x <= N)%nat.
  Proof.
    exact (Assembly.K3_depth st_eqb st_eqb_spec cfgF cfg_clean cfg_nocache cfg_nodom flipF cfg_width nv_some nv_none cfg_nocut).
  Qed.

  Lemma K3_ubn : forall n lb c ds polls m out,
    good n -> (sp_depth n <= N)%nat ->
    compile st_eqb (mk_input cfg Relaxed n lb) 0 0 c ds polls = (m, out) ->
    dd_is_exact m = false ->
    forall x, In x (drain_cutset (mk_input cfg Relaxed n lb) m) ->
    forall o, bst x = Some o -> o > lb -> o <= sp_ub x.
  Proof.
    exact (Assembly.K3_ub st_eqb st_eqb_spec cfgF cfg_clean cfg_nocache cfg_nodom cfg_width nv_static nv_some nv_none
             HwfF B HB guard0 cfg_nocut).
  Qed.

  Lemma K4n : forall n lb c ds polls m out,
    good n -> (sp_depth n <= N)%nat ->
    compile st_eqb (mk_input cfg Relaxed n lb) 0 0 c ds polls = (m, out) ->
    dd_is_exact m = false ->
    forall o, bst n = Some o -> o > lb ->
    (forall e, dd_best_exact_value (mk_input cfg Relaxed n lb) m = Some e -> e < o) ->
    exists x, In x (drain_cutset (mk_input cfg Relaxed n lb) m) /\ bst x = Some o.
  Proof.
    exact (Assembly.K4 st_eqb st_eqb_spec cfgF cfg_clean cfg_nocache cfg_nodom cfg_width nv_static nv_some nv_none
             HwfF B HB guard0 cfg_nocut).
  Qed.

  Lemma K5n : forall n lb c ds polls m out,
    good n -> (sp_depth n <= N)%nat ->
    compile st_eqb (mk_input cfg Relaxed n lb) 0 0 c ds polls = (m, out) ->
    dd_is_exact m = false ->
    (length (drain_cutset (mk_input cfg Relaxed n lb) m) <= Kbound cfg D)%nat.
  Proof.
    exact (Assembly.K5 st_eqb st_eqb_spec cfgF cfg_clean cfg_nocache cfg_nodom flipF cfg_width nv_some nv_none
             D dom_bound cfg_nocut).
  Qed.

  (* strong form: the returned solution is a feasible run in EXACT integer arithmetic *)
  Theorem C01_sequential_optimal_nodup_run :
    exists f0, forall fuel, (f0 <= fuel)%nat ->
      let r := maximize st_eqb cfg fuel None in
      r_crash r = false /\ r_outoffuel r = false /\ r_exact r = true /\ r_value r = opt_enum pb /\
      (forall v, opt_enum pb = Some v ->
         r_lb r = v /\ r_ub r = v /\ exists sol, r_sol r = Some (sort_by dec_var_cmp sol) /\ feas sol v) /\
      (opt_enum pb = None -> r_sol r = None /\ r_lb r = IMIN).
  Proof.
    destruct (seq_solver_correct_nodup st_eqb st_eqb_spec cfg cfg_ok_nd good bst feas
                (Assembly.good_root cfg) (Assembly.feasible_le_opt cfg nv_static nv_none)
                (Assembly.opt_in_isize cfg cfg_width nv_static nv_some nv_none B HB guard0)
                (fun c u => sgood_set_ub pb c u) (Assembly.best_set_ub cfg)
                (fun a b _ _ => best_coalesce_ok cfg a b)
                (Kbound cfg D) K0n K1n K2n K3_goodn K3_depthn K3_ubn K4n K5n) as [f0 Hf].
    exists f0. intros fuel Hfuel. specialize (Hf fuel Hfuel). rewrite OPT_is_opt_enum in Hf. exact Hf.
  Qed.

  (* C01, NoDupFringe: the statement of Assembly.C01_sequential_optimal *)
  Theorem C01_sequential_optimal_nodup :
    exists f0, forall fuel, (f0 <= fuel)%nat ->
      let r := maximize st_eqb cfg fuel None in
      r_crash r = false /\ r_outoffuel r = false /\ r_exact r = true /\ r_value r = opt_enum pb /\
      (forall v, opt_enum pb = Some v ->
         r_lb r = v /\ r_ub r = v /\
         exists sol, r_sol r = Some (sort_by dec_var_cmp sol) /\ MddProgress.feasible pb sol v) /\
      (opt_enum pb = None -> r_sol r = None /\ r_lb r = IMIN).
  Proof.
    destruct C01_sequential_optimal_nodup_run as [f0 Hf]. exists f0. intros fuel Hfuel.
    exact (result_ok_weaken cfg (fun _ => opt_enum pb) feas _ _ (sfeasible_feasible pb B HB guard0) (Hf fuel Hfuel)).
  Qed.

  (* C14, NoDupFringe: with a feasible primal solution given to the solver *)
  Theorem C14_primal_nodup_run : forall pv psol, feas psol pv ->
    exists f0, forall fuel, (f0 <= fuel)%nat ->
      let r := maximize st_eqb cfg fuel (Some (pv, psol)) in
      r_crash r = false /\ r_outoffuel r = false /\ r_exact r = true /\ r_value r = opt_enum pb /\
      (forall v, opt_enum pb = Some v ->
         r_lb r = v /\ r_ub r = v /\ exists sol, r_sol r = Some (sort_by dec_var_cmp sol) /\ feas sol v) /\
      (opt_enum pb = None -> r_sol r = None /\ r_lb r = IMIN).
  Proof.
    intros pv psol Hp.
    destruct (seq_solver_correct_primal_nodup st_eqb st_eqb_spec cfg cfg_ok_nd good bst feas
                (Assembly.good_root cfg) (Assembly.feasible_le_opt cfg nv_static nv_none)
                (Assembly.opt_in_isize cfg cfg_width nv_static nv_some nv_none B HB guard0)
                (fun c u => sgood_set_ub pb c u) (Assembly.best_set_ub cfg)
                (fun a b _ _ => best_coalesce_ok cfg a b)
                (Kbound cfg D) K0n K1n K2n K3_goodn K3_depthn K3_ubn K4n K5n pv psol Hp) as [f0 Hf].
    exists f0. intros fuel Hfuel. specialize (Hf fuel Hfuel). rewrite OPT_is_opt_enum in Hf. exact Hf.
  Qed.

  Theorem C14_primal_nodup : forall pv psol, feas psol pv ->
    exists f0, forall fuel, (f0 <= fuel)%nat ->
      let r := maximize st_eqb cfg fuel (Some (pv, psol)) in
      r_crash r = false /\ r_outoffuel r = false /\ r_exact r = true /\ r_value r = opt_enum pb /\
      (forall v, opt_enum pb = Some v ->
         r_lb r = v /\ r_ub r = v /\
         exists sol, r_sol r = Some (sort_by dec_var_cmp sol) /\ MddProgress.feasible pb sol v) /\
      (opt_enum pb = None -> r_sol r = None /\ r_lb r = IMIN).
  Proof.
    intros pv psol Hp. destruct (C14_primal_nodup_run pv psol Hp) as [f0 Hf]. exists f0. intros fuel Hfuel.
    exact (result_ok_weaken cfg (fun _ => opt_enum pb) feas _ _ (sfeasible_feasible pb B HB guard0) (Hf fuel Hfuel)).
  Qed.
End MainNoDup.

(* non-vacuity: the table family of TableWf.v *)
Require Import DDO.Table DDO.Run DDO.TableWf.

(* the theorem on the whole family: tb_sconfig ti flv (cache := false) (nodup := TRUE) (dominance := false) width 0 *)
Theorem C01_table_instances_nodup (ti : tinst) (C : Z) (Hwf : t_wf ti C) (flv : flavour)
    (Hflv : flv = CleanLEL \/ flv = CleanFC) (width : nat) (Hwidth : (1 <= width)%nat) :
  exists f0, forall fuel, (f0 <= fuel)%nat ->
    let r := maximize tstate_eqb (tb_sconfig ti flv false true false width 0) fuel None in
    r_crash r = false /\ r_outoffuel r = false /\ r_exact r = true /\ r_value r = opt_enum (t_problem ti) /\
    (forall v, opt_enum (t_problem ti) = Some v ->
       r_lb r = v /\ r_ub r = v /\
       exists sol, r_sol r = Some (sort_by dec_var_cmp sol) /\ MddProgress.feasible (t_problem ti) sol v) /\
    (opt_enum (t_problem ti) = None -> r_sol r = None /\ r_lb r = IMIN).
Proof.
  destruct (table_premises ti C Hwf flv Hflv width Hwidth 0%nat)
    as (P1 & P2 & P3 & P4 & P5 & P6 & P7 & P8 & P9 & P10 & P11 & P12 & P13).
  exact (C01_sequential_optimal_nodup tstate_eqb P1 (tb_sconfig ti flv false true false width 0) P2 P3 P4 eq_refl P6 P7 P8 P9
           P10 (length (t_trans ti)) P11 (tB ti C) P12 P13 eq_refl).
Qed.

(* the instance of TableWf.v (optimum 12): by the theorem ... *)
Example ex_C01_nodup :
  exists f0, forall fuel, (f0 <= fuel)%nat ->
    let r := maximize tstate_eqb (tb_sconfig ex_ti CleanLEL false true false 1 0) fuel None in
    r_crash r = false /\ r_outoffuel r = false /\ r_exact r = true /\
    r_value r = Some 12 /\ r_lb r = 12 /\ r_ub r = 12.
Proof.
  destruct (C01_table_instances_nodup ex_ti 7 ex_wf CleanLEL (or_introl eq_refl) 1 (le_n 1)) as [f0 Hf].
  exists f0. intros fuel Hfuel. destruct (Hf fuel Hfuel) as (A1 & A2 & A3 & A4 & A5 & _).
  rewrite ex_opt in A4. destruct (A5 12 ex_opt) as (B1 & B2 & _). cbv zeta. repeat split; assumption.
Qed.

(* ... and by running the executable model with the NoDupFringe *)
Example ex_run_nodup :
  let r := maximize tstate_eqb (tb_sconfig ex_ti CleanLEL false true false 1 0) 40 None in
  (r_crash r, r_outoffuel r, r_exact r, r_value r, r_lb r, r_ub r) = (false, false, true, Some 12, 12, 12).
Proof. vm_compute. reflexivity. Qed.

(* ex_ti is closed at the root (nothing but the root is ever pushed).  An instance on which a COALESCING push happens:
   4 variables (static order 0..3), width 2, last-exact-layer cut-sets:
     x0: 0 -0-> 1 (+0)   0 -1-> 2 (+0)
     x1: 1 -0-> 3 (+0)   1 -1-> 4 (+3)   2 -0-> 3 (+1)   2 -1-> 5 (+3)
     x2: 3 -0-> 6 (+0)   3 -1-> 7 (+0)   3 -2-> 11 (+0)  4 -0-> 8 (+1)   5 -0-> 9 (+1)
     x3: 6 -0-> 10 (+7)  7, 11, 8, 9 -0-> 10 (+0)
   the best path is x0 = 1, x1 = 0, x2 = 0, x3 = 0 with value 0 + 1 + 0 + 7 = 8.  The root's cut-set is {[1], [2]} (depth 1);
   [1] is processed first and leaves ([3], depth 2, value 0, ub 7) in the fringe; then [2] is processed and pushes
   ([3], depth 2, value 1, ub 8), which has the same key. *)
Definition co_ti : tinst := {|
  t_nvars := 4; t_nbase := 13; t_init := 0; t_initval := 0; t_slack := 0; t_rubkind := 0; t_domkind := 0;
  t_usevalue := false; t_ncoord := 0; t_order := [0; 1; 2; 3]%nat;
  t_trans := [ (0%nat, 0, 0, 1, 0); (0%nat, 0, 1, 2, 0);
               (1%nat, 1, 0, 3, 0); (1%nat, 1, 1, 4, 3); (1%nat, 2, 0, 3, 1); (1%nat, 2, 1, 5, 3);
               (2%nat, 3, 0, 6, 0); (2%nat, 3, 1, 7, 0); (2%nat, 3, 2, 11, 0); (2%nat, 4, 0, 8, 1); (2%nat, 5, 0, 9, 1);
               (3%nat, 6, 0, 10, 7); (3%nat, 7, 0, 10, 0); (3%nat, 11, 0, 10, 0); (3%nat, 8, 0, 10, 0); (3%nat, 9, 0, 10, 0) ];
  t_notimp := []; t_rub := []; t_key := []; t_coords := []; t_mergekind := 0; t_pos := []; t_up := [] |}.

Example co_wf : t_wf co_ti 7.
Proof. apply t_wfb_spec. vm_compute. reflexivity. Qed.

Example co_opt : opt_enum (t_problem co_ti) = Some 8.
Proof. vm_compute. reflexivity. Qed.

(* the state of the solver after [k] iterations of the main loop *)
Definition co_state (nodupf : bool) (k : nat) : @sstate tstate :=
  let cfg := tb_sconfig co_ti CleanLEL false nodupf false 2 0 in
  fst (main_loop tstate_eqb cfg k (initialize_solver tstate_eqb cfg (init_sstate cfg))).
Definition co_entry {S : Type} (n : @subproblem S) := (sp_state n, sp_depth n, sp_value n, sp_ub n).

(* after 2 iterations both fringes hold [2] (depth 1) and [3] (depth 2, value 0, ub 7); the third iteration processes [2]:
   the SimpleFringe then holds two copies of ([3], depth 2), the NoDupFringe a single entry with the larger value and the
   larger ub, and open_by_layer[2] stays 1 (after - before = 0) *)
Example co_coalesces :
  (map co_entry (s_simple (co_state false 2)) = [([3], 2%nat, 0, 7); ([2], 1%nat, 0, 9)] /\
   map co_entry (fl (s_nodup (co_state true 2))) = [([2], 1%nat, 0, 9); ([3], 2%nat, 0, 7)]) /\
  (map co_entry (s_simple (co_state false 3)) = [([3], 2%nat, 1, 8); ([3], 2%nat, 0, 7)] /\
   s_open (co_state false 3) = [0; 0; 2; 0; 0]%nat) /\
  (map co_entry (fl (s_nodup (co_state true 3))) = [([3], 2%nat, 1, 8)] /\
   s_open (co_state true 3) = [0; 0; 1; 0; 0]%nat).
Proof. vm_compute. repeat split; reflexivity. Qed.

(* both runs end with the optimum; the NoDupFringe run explores one node less *)
Example co_run :
  let r := maximize tstate_eqb (tb_sconfig co_ti CleanLEL false true false 2 0) 40 None in
  let r' := maximize tstate_eqb (tb_sconfig co_ti CleanLEL false false false 2 0) 40 None in
  (r_crash r, r_outoffuel r, r_exact r, r_value r, r_lb r, r_ub r, r_explored r) = (false, false, true, Some 8, 8, 8, 4%nat) /\
  (r_crash r', r_outoffuel r', r_exact r', r_value r', r_lb r', r_ub r', r_explored r') = (false, false, true, Some 8, 8, 8, 5%nat).
Proof. vm_compute. split; reflexivity. Qed.

(* ... as the theorem says it must *)
Example co_C01_nodup :
  exists f0, forall fuel, (f0 <= fuel)%nat ->
    let r := maximize tstate_eqb (tb_sconfig co_ti CleanLEL false true false 2 0) fuel None in
    r_crash r = false /\ r_outoffuel r = false /\ r_exact r = true /\ r_value r = Some 8 /\ r_lb r = 8 /\ r_ub r = 8.
Proof.
  destruct (C01_table_instances_nodup co_ti 7 co_wf CleanLEL (or_introl eq_refl) 2 (le_S 1 1 (le_n 1))) as [f0 Hf].
  exists f0. intros fuel Hfuel. destruct (Hf fuel Hfuel) as (A1 & A2 & A3 & A4 & A5 & _).
  rewrite co_opt in A4. destruct (A5 8 co_opt) as (B1 & B2 & _). cbv zeta. repeat split; assumption.
Qed.

Print Assumptions C01_sequential_optimal_nodup.
Print Assumptions C01_sequential_optimal_nodup_run.
Print Assumptions C14_primal_nodup.
Print Assumptions C14_primal_nodup_run.
Print Assumptions C01_table_instances_nodup.
Print Assumptions ex_C01_nodup.
Print Assumptions ex_run_nodup.
Print Assumptions co_coalesces.
Print Assumptions co_run.
Print Assumptions co_C01_nodup.
