(* Width.v — the width-heuristic combinators of ddo/src/implementation/heuristics/width.rs.
   usize arithmetic is written explicitly: in a debug build `k * w` panics on overflow (None),
   in a release build it wraps modulo 2^64. *)
Require Import DDO.Base.
Open Scope Z_scope.

Definition USIZE : Z := 18446744073709551616.   (* 2^64 *)
Definition in_usize (z : Z) : Prop := 0 <= z < USIZE.

(* Times(k, inner).max_width = 1.max(k * inner) *)
Definition times_debug (k w : Z) : option Z := if k * w <? USIZE then Some (Z.max 1 (k * w)) else None.
Definition times_release (k w : Z) : Z := Z.max 1 ((k * w) mod USIZE).
(* DivBy(k, inner).max_width = 1.max(inner / k) ; k = 0 panics in both profiles *)
Definition divby (k w : Z) : option Z := if k =? 0 then None else Some (Z.max 1 (w / k)).

Lemma times_debug_nonzero k w r : times_debug k w = Some r -> 1 <= r.
Proof. unfold times_debug. destruct (k * w <? USIZE); intros [= <-]. apply Z.le_max_l. Qed.
Lemma times_release_nonzero k w : 1 <= times_release k w.
Proof. apply Z.le_max_l. Qed.
Lemma times_release_in_usize k w : in_usize (times_release k w).
Proof.
  destruct (Z.mod_pos_bound (k * w) USIZE eq_refl) as [_ H]. split.
  - apply Z.le_trans with 1; [discriminate|apply Z.le_max_l].
  - apply Z.max_lub_lt; [reflexivity|exact H].
Qed.
Lemma divby_nonzero k w r : divby k w = Some r -> 1 <= r.
Proof. unfold divby. destruct (k =? 0); intros [= <-]. apply Z.le_max_l. Qed.
Lemma times_agree k w r : 0 <= k -> 0 <= w -> times_debug k w = Some r -> times_release k w = r.
Proof.
  unfold times_debug, times_release. intros Hk Hw. destruct (k * w <? USIZE) eqn:E; intros [= <-].
  apply Z.ltb_lt in E. rewrite Z.mod_small; [reflexivity|]. split; [apply Z.mul_nonneg_nonneg; assumption|exact E].
Qed.
