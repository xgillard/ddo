(* Fringe2.v — model of NoDupFringe as it stands in /repo (no_duplicate.rs: the de-duplication map is keyed by
   (state, depth); before the fix of D4 the key was the state alone): the faithful heap model of Fringe.v
   instantiated at the key type St * nat, with the solver's sub-problems embedded by pairing their state with
   their depth.
   Every theorem of FringeProofs.v applies to it verbatim (they are generic in the state type). *)
From Coq Require Import Permutation.
Require Import DDO.Base DDO.Fringe DDO.FringeProofs.
Open Scope Z_scope.

Section Keyed.
  Context {St : Type}.
  Variable st_eqb : St -> St -> bool.
  Hypothesis st_eqb_spec : forall a b, st_eqb a b = true <-> a = b.
  Variable st_cmp : St -> St -> comparison.

  Definition K : Type := (St * nat)%type.
  Definition key_eqb (a b : K) : bool := st_eqb (fst a) (fst b) && Nat.eqb (snd a) (snd b).
  Definition kst_cmp (a b : K) : comparison := st_cmp (fst a) (fst b).

  Definition embed (n : @subproblem St) : @subproblem K :=
    {| sp_state := (sp_state n, sp_depth n); sp_value := sp_value n; sp_path := sp_path n; sp_ub := sp_ub n; sp_depth := sp_depth n |}.
  Definition unembed (n : @subproblem K) : @subproblem St :=
    {| sp_state := fst (sp_state n); sp_value := sp_value n; sp_path := sp_path n; sp_ub := sp_ub n; sp_depth := sp_depth n |}.

  Definition kcmp : @subproblem K -> @subproblem K -> comparison := maxub_cmp kst_cmp.

  Definition knodup := @nodup K.
  Definition k_empty : knodup := nd_empty.
  Definition k_len (f : knodup) : nat := nd_len f.
  Definition k_push (f : knodup) (n : @subproblem St) : option knodup := nd_push key_eqb kcmp f (embed n).
  Definition k_pop (f : knodup) : option (knodup * option (@subproblem St)) :=
    match nd_pop key_eqb kcmp f with
    | Some (f', r) => Some (f', option_map unembed r)
    | None => None
    end.

  Lemma unembed_embed n : unembed (embed n) = n.
  Proof. destruct n; reflexivity. Qed.

  (* MaxUB on the embedded sub-problems is MaxUB on the original ones *)
  Lemma kcmp_embed a b : kcmp (embed a) (embed b) = maxub_cmp st_cmp a b.
  Proof. reflexivity. Qed.

  Lemma key_eqb_spec a b : key_eqb a b = true <-> a = b.
  Proof.
    destruct a as [s d], b as [s' d']. unfold key_eqb; simpl. rewrite andb_true_iff, st_eqb_spec, Nat.eqb_eq.
    split; [intros [-> ->]; reflexivity|intros H; inversion H; auto].
  Qed.

  Hypothesis st_cmp_antisym : forall a b, st_cmp a b = CompOpp (st_cmp b a).
  Hypothesis st_cmp_trans : forall a b c, st_cmp a b <> Gt -> st_cmp b c <> Gt -> st_cmp a c <> Gt.
  Lemma kst_cmp_antisym a b : kst_cmp a b = CompOpp (kst_cmp b a).
  Proof. apply st_cmp_antisym. Qed.
  Lemma kst_cmp_trans a b c : kst_cmp a b <> Gt -> kst_cmp b c <> Gt -> kst_cmp a c <> Gt.
  Proof. apply st_cmp_trans. Qed.

  (* the operations the solver performs, embedded *)
  Definition embed_op (o : @fop St) : @fop K :=
    match o with FPush n => FPush (embed n) | FPop => FPop | FClear => FClear end.

  (* the key of every embedded sub-problem determines its depth *)
  Definition kdep (k : K) : nat := snd k.
  Lemma embed_dep_ok n : dep_ok kdep (embed n).
  Proof. reflexivity. Qed.
  Lemma dep_ok_key x : dep_ok kdep x -> sp_state x = (fst (sp_state x), sp_depth x).
  Proof. unfold dep_ok, kdep. intros ->. apply surjective_pairing. Qed.

  (* C11, for every operation sequence: no panic, the representation invariant holds, the run is simulated by
     the abstract coalescing priority queue (nothing lost, nothing invented, pop returns a maximum) *)
  Theorem keyed_run_refines_pq (ops : list (@fop St)) :
    exists (f : knodup) obs q,
      nd_run key_eqb kcmp nd_empty (map embed_op ops) = Some (f, obs) /\
      nd_inv key_eqb kcmp f /\
      pq_run kcmp [] (map embed_op ops) q obs /\ Permutation (abs f) q.
  Proof.
    apply maxub_nodup_never_loses_or_invents.
    - apply key_eqb_spec.
    - apply kst_cmp_antisym.
    - apply kst_cmp_trans.
  Qed.

  (* entries are only ever coalesced when they denote the same sub-problem: every element held or popped has a key
     consistent with its own depth, and a coalescing push (ps_push_coal of pq_step) requires equal keys *)
  Theorem keyed_dedup_only_same_subproblem (ops : list (@fop St)) f obs :
    nd_run key_eqb kcmp nd_empty (map embed_op ops) = Some (f, obs) ->
    (forall x, In x (abs f) -> sp_state x = (fst (sp_state x), sp_depth x)) /\
    (forall k x, In (k, Some (Some x)) obs -> sp_state x = (fst (sp_state x), sp_depth x)).
  Proof.
    intros Hrun.
    destruct (maxub_dedup_only_same_subproblem key_eqb key_eqb_spec kst_cmp kst_cmp_antisym kst_cmp_trans kdep
                (map embed_op ops) f obs) as [H1 H2]; [|exact Hrun|].
    - intros n Hin. apply in_map_iff in Hin. destruct Hin as ([n0| |] & [= <-] & _). apply embed_dep_ok.
    - split; [intros x Hx; apply dep_ok_key, H1, Hx|intros k x Hx; apply dep_ok_key, (H2 k), Hx].
  Qed.
End Keyed.
