(* ParNoDup.v — the parallel branch-and-bound theorems (C03 / C04 / C05, parallel) for the NoDupFringe configuration
   (sc_nodup cfg = true): the model Par.v (ddo/src/implementation/solver/parallel.rs) with the faithful indexed-heap model
   of NoDupFringe (Fringe.v / Fringe2.v, keyed by (state, depth)), which COALESCES a pushed node with the entry that has
   the same key.  ParProofs.v, ParAnytime.v and Assembly.v prove these statements for the SimpleFringe only.
   For EVERY schedule, EVERY fuel, EVERY number of workers T (upper_bounds sized like the number of workers).

   METHOD.  The invariants of ParProofs.v / ParAnytime.v are predicates on [view s], whose first field is the content of
   the fringe, and their preservation is proved for ParProofs.gstep, the transitions over an abstract fringe.  With
   sc_nodup cfg = true the field p_simple is never read nor written, so the abstract content of the heap is written into
   it:   gh s := s with p_simple := fl (p_nodup s)   (ghost state).
     par_step_cases_nd : under NInv (= PInv (gh s) /\ krep (p_nodup s)) par_step refines gstep on the ghost states --
        a pop of the heap takes an element out of fl f (k_pop_spec), a ub-maximal one IF the heap is ordered and the ranking
        a total preorder (the [ord] of gstep); the fold of enqueue_cutset is a sequence of insert-or-coalesce pushes on the
        keys (state, depth), and open_by_layer grows by the growth of the heap -- keeps krep, and keeps the heap order kord.
   What is left to this file: the heap against its abstract content (get_workload_spec_nd, enq_fold_nd), that keys may be
   coalesced (key_same_ok, from coalesce_ok), and the top of the heap at an abort (in step_finv).

   STOREY 1
   (A) ANY cutoff; premises of ParProofs part A + st_eqb_spec; NO premise on the ranking, NO coalesce_ok:
         par_no_deadlock_nodup, par_never_crashes_nodup, par_maximize_no_deadlock_no_crash_nodup,
         complete_only_when_idle_nodup
   (B) cutoff = 0; premises of ParProofs.par_terminates + st_eqb_spec; NO premise on the ranking, NO coalesce_ok:
         par_terminates_nodup      the SAME bound fuelP T (a coalescing push does not increase the measure Mu)
   (C) ANY cutoff; premises of ParAnytime.par_anytime_sound + st_eqb_spec + coalesce_ok + rank_ok:
         par_anytime_sound_nodup, par_anytime_sound_any_end_nodup
       invariant FInv T = NInv /\ kord /\ T workers /\ ParAnytime.AInv (gh s); its witness of the optimum
       (ParProofs.witness = SolverNoDup.Wit) asks for best n >= OPT, not best n = OPT: the survivor of a coalescing push
       may be worth more.
   (D) cutoff = 0; premises of ParProofs.par_optimal + st_eqb_spec + coalesce_ok + rank_ok:
         par_optimal_primal_nodup, par_optimal_nodup, par_correct_nodup     (from FInv + BInv: no abort ever happens)
   WHERE rank_ok IS FORCED: (i) get_workload discards the WHOLE fringe when the popped node has ub <= best_lb -- sound only
   if the popped node is ub-maximal, which for the indexed heap is the heap order (CutoffNoDup.k_pop_max, proved in
   FringeProofs.v for a ranking that is antisymmetric and transitive); (ii) abort_search covers the fringe by the ub of
   its top.  So rank_ok is needed for optimality too, not only for the anytime bounds (unlike the sequential solver,
   whose uninterrupted theorem SolverNoDup.seq_solver_correct_nodup does not need it: the sequential get_workload does
   not discard).  Deadlock-freedom, crash-freedom and termination do not need it.
   STOREY 2 (section MainParNoDup; hypotheses of Assembly.Main with sc_nodup cfg = true, contracts via flip_nodup):
         C04_parallel_no_deadlock_no_crash_nodup, C04_parallel_run_no_deadlock_nodup, C04_parallel_terminates_nodup,
         C03_parallel_optimal_finished_nodup, C03_parallel_optimal_nodup,
         C05_parallel_anytime_nodup, C05_parallel_anytime_any_end_nodup      (the last four: + rk_antisym, rk_trans)
   STOREY 3: the table family (C04_table_par_*_nodup, C03_table_par_nodup, C05_table_par_nodup) and the coalescing instance
         co_ti of SolverNoDup.v run by two (and three) workers: co_par_coalesces shows the coalescing push of worker 1
         happening while worker 0 still holds its node; co_par_run: optimum 8; co_par_cutoff: an aborted run.
   Stdlib only, no axioms (Print Assumptions at the end). *)
Require Import DDO.Base DDO.Fringe DDO.FringeProofs DDO.Fringe2 DDO.DP DDO.Cache DDO.Dom DDO.Mdd DDO.Solver DDO.Par.
Require Import DDO.SolverProofs DDO.SolverCutoff DDO.ParProofs.
Require Import DDO.MddProgress DDO.MddSim DDO.Assembly DDO.SolverNoDup DDO.CutoffNoDup DDO.ParAnytime.
From Coq Require Import Permutation Arith Lia List ZArith Bool.
Import ListNotations.
Open Scope Z_scope.

Section ParNoDup.
  Context {St : Type}.
  Variable st_eqb : St -> St -> bool.
  Hypothesis st_eqb_spec : forall a b, st_eqb a b = true <-> a = b.
  Variable cfg : @sconfig St.

  Notation pstate := (@pstate St).
  Notation pc := (@pc St).
  Notation subproblem := (@subproblem St).
  Local Notation N := (nb_vars (sc_problem cfg)).
  Local Notation rk := (sc_ranking cfg).

  (* configuration: no cache, NoDupFringe *)
  Hypothesis no_cache : sc_use_cache cfg = false.
  Hypothesis nodup_fringe : sc_nodup cfg = true.

  Variable good : subproblem -> Prop.
  Hypothesis good_root : good (root_node cfg).
  Hypothesis good_set_ub : forall c u, good c -> good (set_ub c u).

  Local Notation PInv := (ParProofs.PInv st_eqb cfg good).
  Local Notation Rep f := (krep st_eqb f).
  Local Notation Ord f := (kord rk f).

  (* the ghost state: the abstract content of the NoDupFringe is written into the (unused) SimpleFringe field, so that
     the views / invariants of ParProofs.v apply *)
  Definition FLs (s : pstate) : list subproblem := fl (p_nodup s).
  Definition gh (s : pstate) : pstate := with_fringe s (fl (p_nodup s)) (p_nodup s).

  Lemma view_gh s : view (gh s) =
    mkV (FLs s) (p_ongoing s) (p_open s) (p_ongoing_by_layer s) (p_lb s) (p_ub s) (p_sol s)
        (length (p_upper_bounds s)) (p_abort s) (p_crash s) (p_workers s).
  Proof. reflexivity. Qed.

  Definition NInv (s : pstate) : Prop := PInv (gh s) /\ Rep (p_nodup s).

  (* PInv (gh s), spelt out on s *)
  Lemma PInv_gh s : PInv (gh s) ->
    p_crash s = false /\ p_ongoing s = cntp is_busy (p_workers s) /\
    length (p_open s) = S N /\ length (p_ongoing_by_layer s) = S N /\
    (forall d, (d <= N)%nat -> nth_error (p_ongoing_by_layer s) d = Some (cntp (busy_at d) (p_workers s))) /\
    Forall (pc_ok st_eqb cfg good (p_lb s)) (p_workers s) /\
    FringeOK cfg good (FLs s) /\
    (p_abort s = true \/ forall d, (d <= N)%nat -> nth_error (p_open s) d = Some (cnt d (FLs s))) /\
    length (p_upper_bounds s) = length (p_workers s) /\
    (In PParked (p_workers s) -> (0 < p_ongoing s)%nat).
  Proof. intros H. exact H. Qed.

  Ltac psimp := cbn [mk set_worker p_crashed with_fringe with_open with_cache_fal pf_clear gh
                     p_simple p_nodup p_ongoing p_explored p_open p_ongoing_by_layer p_fal p_lb p_ub p_sol
                     p_upper_bounds p_abort p_cache p_dom p_polls p_crash p_tie p_workers].

  Lemma pf_len_nd s : pf_len cfg s = nd_len (p_nodup s).
  Proof. unfold pf_len. rewrite nodup_fringe. reflexivity. Qed.
  Lemma pf_push_nd s n : pf_push st_eqb cfg s n =
    match k_push st_eqb rk (p_nodup s) n with
    | Some f => with_fringe s (p_simple s) f
    | None => p_crashed s
    end.
  Proof. unfold pf_push. rewrite nodup_fringe. reflexivity. Qed.
  Lemma pf_pop_nd s : pf_pop st_eqb cfg s =
    match k_pop st_eqb rk (p_nodup s) with
    | Some (f, r) => (with_fringe s (p_simple s) f, r)
    | None => (p_crashed s, None)
    end.
  Proof. unfold pf_pop. rewrite nodup_fringe. reflexivity. Qed.

  Lemma rep_len_nil f : Rep f -> nd_len f = O -> fl f = [].
  Proof. intros Hr H. pose proof (fl_len st_eqb f Hr) as E. apply length_zero_iff_nil. rewrite <- E. exact H. Qed.

  (* what the order of the heap gives, when the ranking is a total preorder *)
  Lemma pop_max f f' x : rank_ok cfg -> Rep f -> Ord f -> k_pop st_eqb rk f = Some (f', Some x) ->
    Ord f' /\ forall y, In y (fl f) -> sp_ub y <= sp_ub x.
  Proof. intros [Ha Ht]. apply (k_pop_max st_eqb st_eqb_spec rk Ha Ht). Qed.
  Lemma push_ord f n f' : rank_ok cfg -> Rep f -> Ord f -> k_push st_eqb rk f n = Some f' -> Ord f'.
  Proof. intros [Ha Ht]. apply (k_push_ord st_eqb st_eqb_spec rk Ha Ht). Qed.

  Lemma clean_loop_shape fuel : forall s,
    (N < length (p_open s))%nat -> (N < length (p_ongoing_by_layer s))%nat ->
    exists c fal, p_clean_cache_loop cfg fuel s = with_cache_fal s c fal.
  Proof.
    induction fuel as [|fuel IH]; intros s Ho Hb; cbn [p_clean_cache_loop].
    - exists (p_cache s), (p_fal s). destruct s; reflexivity.
    - destruct (Nat.ltb (p_fal s) N) eqn:E.
      2:{ exists (p_cache s), (p_fal s). destruct s; reflexivity. }
      apply Nat.ltb_lt in E.
      destruct (nth_error_lt_Some (p_open s) (p_fal s)) as [a Ha]; [lia|].
      destruct (nth_error_lt_Some (p_ongoing_by_layer s) (p_fal s)) as [b Hb']; [lia|].
      rewrite Ha, Hb'. destruct (Nat.eqb (a + b) 0).
      2:{ exists (p_cache s), (p_fal s). destruct s; reflexivity. }
      rewrite no_cache.
      destruct (IH (with_cache_fal s (p_cache s) (S (p_fal s)))) as (c & fal & Hc); [psimp; exact Ho|psimp; exact Hb|].
      exists c, fal. rewrite Hc. reflexivity.
  Qed.

  Inductive gw_spec_nd (s s1 : pstate) : @gw_result St -> Prop :=
  | GN_complete : p_ongoing s = O -> FLs s = [] -> p_abort s = false -> p_nodup s1 = p_nodup s ->
      view (gh s1) = mkV (FLs s) (p_ongoing s) (p_open s) (p_ongoing_by_layer s) (p_lb s) (p_lb s) (p_sol s)
                         (length (p_upper_bounds s)) (p_abort s) (p_crash s) (p_workers s) ->
      gw_spec_nd s s1 GWComplete
  | GN_aborted : p_abort s = true -> p_nodup s1 = p_nodup s -> view (gh s1) = view (gh s) -> gw_spec_nd s s1 GWAborted
  | GN_wait : p_abort s = false -> FLs s = [] -> (0 < p_ongoing s)%nat -> p_nodup s1 = p_nodup s ->
      view (gh s1) = view (gh s) -> gw_spec_nd s s1 GWWait
  | GN_starve x f' : p_abort s = false -> k_pop st_eqb rk (p_nodup s) = Some (f', Some x) -> Rep f' ->
      Permutation (FLs s) (x :: fl f') -> sp_ub x <= p_lb s -> p_nodup s1 = nd_empty ->
      view (gh s1) = mkV [] (p_ongoing s) (map (fun _ => O) (p_open s)) (p_ongoing_by_layer s) (p_lb s) (p_ub s) (p_sol s)
                         (length (p_upper_bounds s)) (p_abort s) (p_crash s) (p_workers s) ->
      gw_spec_nd s s1 GWStarvation
  | GN_item x f' k : p_abort s = false -> k_pop st_eqb rk (p_nodup s) = Some (f', Some x) -> Rep f' ->
      Permutation (FLs s) (x :: fl f') -> p_lb s < sp_ub x ->
      nth_error (p_open s) (sp_depth x) = Some (S k) -> p_nodup s1 = f' ->
      view (gh s1) = mkV (fl f') (S (p_ongoing s)) (upd_nth (sp_depth x) (fun _ => k) (p_open s))
                         (upd_nth (sp_depth x) S (p_ongoing_by_layer s)) (p_lb s) (p_ub s) (p_sol s)
                         (length (p_upper_bounds s)) (p_abort s) (p_crash s) (p_workers s) ->
      gw_spec_nd s s1 (GWItem x).

  Lemma get_workload_spec_nd s w s1 r : NInv s -> (w < length (p_workers s))%nat ->
    get_workload st_eqb cfg s w = (s1, r) -> gw_spec_nd s s1 r.
  Proof.
    intros [HI Hrep] Hw. destruct (PInv_gh s HI) as (I1 & I2 & I3 & I4 & I5 & I6 & I7 & I8 & I9 & I10).
    unfold get_workload.
    destruct (clean_loop_shape (S N) s) as (c & fal & Hsc); [lia|lia|]. rewrite Hsc. psimp.
    rewrite I1, pf_len_nd. psimp.
    destruct (p_abort s) eqn:Eab.
    { rewrite andb_false_r. intros H; inversion H; subst. apply GN_aborted; [exact Eab|reflexivity|].
      rewrite !view_gh. psimp. unfold FLs. psimp. reflexivity. }
    destruct (Nat.eqb (nd_len (p_nodup s)) 0) eqn:El.
    { apply Nat.eqb_eq in El. pose proof (rep_len_nil _ Hrep El) as Hnil.
      destruct (Nat.eqb (p_ongoing s) 0) eqn:Eo; cbn [andb negb]; intros H; inversion H; subst.
      - apply Nat.eqb_eq in Eo. apply GN_complete; [exact Eo|exact Hnil|exact Eab|reflexivity|]. rewrite view_gh. psimp. unfold FLs. psimp. rewrite Eab, I1. reflexivity.
      - apply Nat.eqb_neq in Eo. apply GN_wait; [exact Eab|exact Hnil|lia|reflexivity|]. rewrite !view_gh. psimp. unfold FLs. psimp. reflexivity. }
    rewrite andb_false_r. cbn [andb]. rewrite pf_pop_nd. psimp.
    apply Nat.eqb_neq in El.
    destruct (k_pop_spec st_eqb st_eqb_spec rk (p_nodup s) Hrep El) as (x & f' & Hpop & Hrep' & Hperm).
    rewrite Hpop. rewrite (gw_select_S st_eqb cfg no_cache). psimp.
    destruct (sp_ub x <=? p_lb s) eqn:Eub.
    { intros H; inversion H; subst. apply Z.leb_le in Eub. eapply GN_starve; [exact Eab|exact Hpop|exact Hrep'|exact Hperm|exact Eub|reflexivity|].
      rewrite view_gh. psimp. unfold FLs. psimp. rewrite ?Eab, ?I1. reflexivity. }
    apply Z.leb_gt in Eub. psimp.
    destruct (nth_error (p_upper_bounds s) w) as [u|] eqn:Eu.
    2:{ apply nth_error_None in Eu. lia. }
    destruct I8 as [I8|I8]; [discriminate|].
    assert (Hx : In x (FLs s)) by (eapply Permutation_in; [apply Permutation_sym; exact Hperm|left; reflexivity]).
    destruct (I7 x Hx) as [_ Hdx].
    rewrite (I8 _ Hdx), (I5 _ Hdx), (cnt_perm _ _ _ Hperm), cnt_cons_same.
    intros H; inversion H; subst.
    eapply GN_item; [exact Eab|exact Hpop|exact Hrep'|exact Hperm|exact Eub| |reflexivity|].
    - rewrite (I8 _ Hdx), (cnt_perm _ _ _ Hperm), cnt_cons_same. reflexivity.
    - rewrite view_gh. psimp. unfold FLs. psimp. rewrite ?upd_nth_length, ?Eab, ?I1. reflexivity.
  Qed.

  (* the fields a push does not touch *)
  Definition Same (s s' : pstate) : Prop :=
    p_ongoing s' = p_ongoing s /\ p_ongoing_by_layer s' = p_ongoing_by_layer s /\ p_lb s' = p_lb s /\ p_ub s' = p_ub s /\
    p_sol s' = p_sol s /\ p_upper_bounds s' = p_upper_bounds s /\ p_abort s' = p_abort s /\ p_crash s' = p_crash s /\
    p_workers s' = p_workers s.
  Lemma Same_refl s : Same s s. Proof. repeat split. Qed.
  Lemma Same_trans s s1 s2 : Same s s1 -> Same s1 s2 -> Same s s2.
  Proof.
    intros (A1 & A2 & A3 & A4 & A5 & A6 & A7 & A8 & A9) (B1 & B2 & B3 & B4 & B5 & B6 & B7 & B8 & B9).
    unfold Same. rewrite B1, B2, B3, B4, B5, B6, B7, B8, B9. repeat split; assumption.
  Qed.
  Lemma Same_view s s' : Same s s' ->
    view (gh s') = mkV (FLs s') (p_ongoing s) (p_open s') (p_ongoing_by_layer s) (p_lb s) (p_ub s) (p_sol s)
                       (length (p_upper_bounds s)) (p_abort s) (p_crash s) (p_workers s).
  Proof.
    intros (S1 & S2 & S3 & S4 & S5 & S6 & S7 & S8 & S9). rewrite view_gh, S1, S2, S3, S4, S5, S6, S7, S8, S9. reflexivity.
  Qed.

  Definition OpenTrack (s s' : pstate) : Prop :=
    length (p_open s') = length (p_open s) /\
    forall d, nth_error (p_open s) d = Some (cnt d (FLs s)) -> nth_error (p_open s') d = Some (cnt d (FLs s')).

  Lemma enq_step_false lb ub s c : (Z.min ub (sp_ub c) >? lb) = false -> enq_stepP st_eqb cfg lb ub s c = s.
  Proof. intros E. unfold enq_stepP. rewrite E. reflexivity. Qed.

  Lemma enq_step_true lb ub s c : (Z.min ub (sp_ub c) >? lb) = true ->
    Rep (p_nodup s) -> (sp_depth c < length (p_open s))%nat ->
    Rep (p_nodup (enq_stepP st_eqb cfg lb ub s c)) /\
    (rank_ok cfg -> Ord (p_nodup s) -> Ord (p_nodup (enq_stepP st_eqb cfg lb ub s c))) /\
    pushed_by key_same (FLs s) (FLs (enq_stepP st_eqb cfg lb ub s c)) (set_ub c (Z.min ub (sp_ub c))) /\
    OpenTrack s (enq_stepP st_eqb cfg lb ub s c) /\ Same s (enq_stepP st_eqb cfg lb ub s c).
  Proof.
    intros E Hrep Hd. unfold enq_stepP. rewrite E. fold (set_ub c (Z.min ub (sp_ub c))).
    set (c' := set_ub c (Z.min ub (sp_ub c))).
    rewrite pf_push_nd.
    destruct (k_push_spec st_eqb st_eqb_spec rk (p_nodup s) c' Hrep) as (f' & Hpush & Hrep' & Hpd).
    rewrite Hpush. rewrite !pf_len_nd. psimp.
    destruct (nth_error_lt_Some _ _ Hd) as [k0 Hk0]. rewrite Hk0. psimp.
    split; [exact Hrep'|]. split; [intros Hrk Ho; exact (push_ord _ _ _ Hrk Hrep Ho Hpush)|].
    split; [exact (pushed_key _ _ _ Hpd)|]. split; [|repeat split].
    split; [apply upd_nth_length|].
    intros d Hcd. unfold FLs in *. psimp.
    pose proof (fl_len st_eqb f' Hrep') as L1. pose proof (fl_len st_eqb (p_nodup s) Hrep) as L0.
    destruct (Nat.eq_dec (sp_depth c) d) as [Heq|Hne].
    - subst d. erewrite nth_error_upd_nth_same; [|exact Hcd]. f_equal.
      change (sp_depth c) with (sp_depth c'). rewrite (pushed_cnt_same _ _ c' Hpd).
      rewrite L1, L0. reflexivity.
    - rewrite nth_error_upd_nth_other by exact Hne. rewrite Hcd. f_equal. symmetry.
      apply (pushed_cnt_other _ _ c' d Hpd). exact Hne.
  Qed.

  Lemma enq_fold_nd lb ub cs : forall s, Rep (p_nodup s) ->
    (forall c, In c cs -> (sp_depth c < length (p_open s))%nat) ->
    Rep (p_nodup (fold_left (enq_stepP st_eqb cfg lb ub) cs s)) /\
    (rank_ok cfg -> Ord (p_nodup s) -> Ord (p_nodup (fold_left (enq_stepP st_eqb cfg lb ub) cs s))) /\
    pushes key_same (FLs s) (FLs (fold_left (enq_stepP st_eqb cfg lb ub) cs s)) (kept lb ub cs) /\
    OpenTrack s (fold_left (enq_stepP st_eqb cfg lb ub) cs s) /\ Same s (fold_left (enq_stepP st_eqb cfg lb ub) cs s).
  Proof.
    induction cs as [|c cs IH]; intros s Hrep Hd; cbn [fold_left].
    - split; [exact Hrep|]. split; [auto|]. split; [apply pushes_nil|]. split; [split; auto|apply Same_refl].
    - rewrite kept_cons. destruct (Z.min ub (sp_ub c) >? lb) eqn:E.
      + destruct (enq_step_true lb ub s c E Hrep (Hd c (or_introl eq_refl))) as (R1 & O1 & P1 & [T1 T1'] & S1).
        destruct (IH (enq_stepP st_eqb cfg lb ub s c) R1) as (R2 & O2 & P2 & [T2 T2'] & S2).
        { intros c0 Hc0. rewrite T1. apply Hd. right. exact Hc0. }
        split; [exact R2|]. split; [intros Hrk Ho; apply O2; [exact Hrk|apply O1; assumption]|].
        split; [eapply pushes_cons; eauto|]. split; [split; [congruence|auto]|eapply Same_trans; eauto].
      + rewrite (enq_step_false lb ub s c E). apply IH; [exact Hrep|]. intros c0 Hc0. apply Hd. right. exact Hc0.
  Qed.

  (* one transition, described on the ghost states: the heap order makes a pop return a node with the largest upper bound *)
  Local Notation gstepN s w s' :=
    (ParProofs.gstep st_eqb cfg key_same (rank_ok cfg /\ Ord (p_nodup s)) (gh s) w (gh s')).

  Lemma view_gh_set_worker s w p : view (gh (set_worker s w p)) =
    mkV (FLs s) (p_ongoing s) (p_open s) (p_ongoing_by_layer s) (p_lb s) (p_ub s) (p_sol s)
        (length (p_upper_bounds s)) (p_abort s) (p_crash s) (upd_nth w (fun _ => p) (p_workers s)).
  Proof. reflexivity. Qed.

  Lemma view_gh_setw s1 w p a b c d e f g h i j k : view (gh s1) = mkV a b c d e f g h i j k ->
    view (gh (set_worker s1 w p)) = mkV a b c d e f g h i j (upd_nth w (fun _ => p) k).
  Proof.
    intros H.
    exact (f_equal (fun v => mkV (v_simple v) (v_ongoing v) (v_open v) (v_obl v) (v_lb v) (v_ub v) (v_sol v) (v_nubs v)
                                 (v_abort v) (v_crash v) (upd_nth w (fun _ => p) (v_workers v))) H).
  Qed.

  Lemma set_worker_if (b : bool) s1 w (p1 p2 : pc) :
    (if b then set_worker s1 w p1 else set_worker s1 w p2) = set_worker s1 w (if b then p1 else p2).
  Proof. destruct b; reflexivity. Qed.
  Lemma set_worker_outcome (o : outcome) s1 w (p1 p2 : pc) :
    match o with Compiled => set_worker s1 w p1 | _ => set_worker s1 w p2 end =
    set_worker s1 w (match o with Compiled => p1 | _ => p2 end).
  Proof. destruct o; reflexivity. Qed.

  Lemma p_compile_nd s ct n lb s1 inp m o :
    p_compile st_eqb cfg s ct n lb = (s1, inp, m, o) ->
    inp = mk_input cfg ct n lb /\
    compile st_eqb (mk_input cfg ct n lb) 0 0 (p_cache s) (p_dom s) (p_polls s) = (m, o) /\
    p_nodup s1 = p_nodup s /\
    view (gh s1) = mkV (FLs s) (p_ongoing s) (p_open s) (p_ongoing_by_layer s) (p_lb s) (p_ub s) (p_sol s)
                       (length (p_upper_bounds s)) (p_abort s) (p_crash s || m_crash m)%bool (p_workers s).
  Proof.
    unfold p_compile.
    destruct (compile st_eqb (mk_input cfg ct n lb) 0 0 (p_cache s) (p_dom s) (p_polls s)) as [m0 o0] eqn:E.
    intros H; inversion H; subst. auto.
  Qed.

  Lemma mub_nd (s : pstate) inp m : p_nodup (p_maybe_update_best s inp m) = p_nodup s.
  Proof. unfold p_maybe_update_best. destruct (_ >? _); reflexivity. Qed.

  Lemma view_gh_mub s inp m : view (gh (p_maybe_update_best s inp m)) =
    mkV (FLs s) (p_ongoing s) (p_open s) (p_ongoing_by_layer s) (mub_lb (p_lb s) inp m) (p_ub s)
        (mub_sol (p_lb s) (p_sol s) inp m) (length (p_upper_bounds s)) (p_abort s) (p_crash s) (p_workers s).
  Proof.
    unfold p_maybe_update_best, mub_lb, mub_sol.
    destruct (opt_default IMIN (dd_best_exact_value inp m) >? p_lb s); reflexivity.
  Qed.

  Lemma k_pop_total f : Rep f -> exists f' r, k_pop st_eqb rk f = Some (f', r).
  Proof.
    intros [Hc _].
    destruct (nd_pop_core (key_eqb st_eqb) (key_eqb_spec st_eqb st_eqb_spec) (kcmp rk) f Hc) as [f' [r [Hp _]]].
    exists f', (option_map unembed r). unfold k_pop. rewrite Hp. reflexivity.
  Qed.

  (* PART A: no deadlock, no crash (ANY cutoff) *)
  Section PartA.
  Hypothesis HA_nocrash : forall ct n lb c ds polls m out,
    dd_ct ct -> good n -> (sp_depth n <= N)%nat ->
    compile st_eqb (mk_input cfg ct n lb) 0 0 c ds polls = (m, out) -> m_crash m = false.
  Hypothesis HA_cut : forall n lb c ds polls m,
    good n -> (sp_depth n <= N)%nat ->
    compile st_eqb (mk_input cfg Relaxed n lb) 0 0 c ds polls = (m, Compiled) ->
    dd_is_exact m = false ->
    forall x, In x (drain_cutset (mk_input cfg Relaxed n lb) m) -> good x /\ (sp_depth x <= N)%nat.

  Lemma par_step_cases_nd s w s' st : NInv s -> par_step st_eqb cfg s w = Some (s', st) ->
    gstepN s w s' /\ Rep (p_nodup s') /\ (rank_ok cfg -> Ord (p_nodup s) -> Ord (p_nodup s')).
  Proof.
    intros [HI Hrep]. destruct (PInv_gh s HI) as (I1 & I2 & I3 & I4 & I5 & I6 & I7 & I8 & I9 & I10).
    unfold par_step. destruct (nth_error (p_workers s) w) as [p|] eqn:Ew; [|discriminate].
    assert (Hw : (w < length (p_workers s))%nat) by (eapply nth_error_Some_lt; eauto).
    pose proof (Forall_nth_error _ _ _ _ I6 Ew) as Hok.
    (* the heap is left alone *)
    assert (Hplain : forall s1 p', p_nodup s1 = p_nodup s -> gstepN s w (set_worker s1 w p') ->
              gstepN s w (set_worker s1 w p') /\ Rep (p_nodup (set_worker s1 w p')) /\
              (rank_ok cfg -> Ord (p_nodup s) -> Ord (p_nodup (set_worker s1 w p')))).
    { intros s1 p' Hn Hps. psimp. rewrite Hn. split; [exact Hps|]. split; [exact Hrep|auto]. }
    destruct p; try discriminate.
    - (* PGetWork *)
      destruct (get_workload st_eqb cfg s w) as [s1 r] eqn:Eg.
      apply (get_workload_spec_nd s w s1 r (conj HI Hrep) Hw) in Eg. intros [= <- <-].
      destruct Eg as [G1 G2 G3 Hn Hv|G1 Hn Hv|G1 G2 G3 Hn Hv|x f' G1 G2 Hr' G3 G4 Hn Hv|x f' k G1 G2 Hr' G3 G4 G5 Hn Hv].
      + apply (Hplain _ _ Hn). apply GT_complete; auto. exact (view_gh_setw _ _ _ _ _ _ _ _ _ _ _ _ _ _ Hv).
      + apply (Hplain _ _ Hn). apply GT_aborted; auto. exact (view_gh_setw _ _ _ _ _ _ _ _ _ _ _ _ _ _ Hv).
      + apply (Hplain _ _ Hn). apply GT_wait; auto. exact (view_gh_setw _ _ _ _ _ _ _ _ _ _ _ _ _ _ Hv).
      + psimp. rewrite Hn. split; [|split; [exact (krep_empty st_eqb)|intros _ _; exact (kord_empty st_eqb rk)]].
        apply (GT_starve st_eqb cfg _ _ (gh s) w _ x (fl f')); auto.
        * intros [Hrk Ho]. exact (proj2 (pop_max _ _ _ Hrk Hrep Ho G2)).
        * exact (view_gh_setw _ _ _ _ _ _ _ _ _ _ _ _ _ _ Hv).
      + psimp. rewrite Hn. split; [|split; [exact Hr'|intros Hrk Ho; exact (proj1 (pop_max _ _ _ Hrk Hrep Ho G2))]].
        apply (GT_item st_eqb cfg _ _ (gh s) w _ x (fl f') k); auto. exact (view_gh_setw _ _ _ _ _ _ _ _ _ _ _ _ _ _ Hv).
    - (* PReadLb1 *)
      intros [= <- <-]. destruct (sp_ub n <=? p_lb s) eqn:E.
      + apply Z.leb_le in E. apply (Hplain _ _ eq_refl). apply GT_prune with (n := n); auto.
      + apply Z.leb_gt in E.
        destruct (p_compile st_eqb cfg s Restricted n (p_lb s)) as [[[s1 inp] m] o] eqn:Ec.
        apply p_compile_nd in Ec. destruct Ec as (-> & Hc & Hn & Hv). rewrite set_worker_outcome.
        apply (Hplain _ _ Hn). eapply GT_compile1; eauto. exact (view_gh_setw _ _ _ _ _ _ _ _ _ _ _ _ _ _ Hv).
    - (* PUpdate1 *)
      intros [= <- <-]. rewrite set_worker_if. apply (Hplain _ _ (mub_nd s inp m)).
      eapply GT_update1; eauto. exact (view_gh_setw _ _ _ _ _ _ _ _ _ _ _ _ _ _ (view_gh_mub s inp m)).
    - (* PReadLb2 *)
      destruct (p_compile st_eqb cfg s Relaxed n (p_lb s)) as [[[s1 inp] m] o] eqn:Ec.
      apply p_compile_nd in Ec. destruct Ec as (-> & Hc & Hn & Hv). intros [= <- <-]. rewrite set_worker_outcome.
      apply (Hplain _ _ Hn). eapply GT_compile2; eauto. exact (view_gh_setw _ _ _ _ _ _ _ _ _ _ _ _ _ _ Hv).
    - (* PUpdate2 *)
      intros [= <- <-]. rewrite set_worker_if. apply (Hplain _ _ (mub_nd s inp m)).
      eapply GT_update2; eauto. exact (view_gh_setw _ _ _ _ _ _ _ _ _ _ _ _ _ _ (view_gh_mub s inp m)).
    - (* PEnqueue: a fold of insert-or-coalesce pushes; open_by_layer grows by the growth of the heap *)
      intros [= <- <-].
      cbn [pc_ok] in Hok. destruct Hok as (Hg & Hd & (lb0 & c & ds & polls & Hlb0 & -> & Hc) & Hex & Hev).
      rewrite p_enqueue_cutset_fold. psimp.
      destruct (enq_fold_nd (p_lb s) (sp_ub n) (drain_cutset (mk_input cfg Relaxed n lb0) m) s Hrep)
        as (R & O & P & [T1 T2] & HS).
      { intros x Hx. destruct (HA_cut _ _ _ _ _ _ Hg Hd Hc Hex x Hx) as [_ Hdx]. lia. }
      split; [|split; [exact R|exact O]].
      apply (GT_enqueue st_eqb cfg _ _ (gh s) w _ n _ m _ _ Ew P T1 T2).
      exact (view_gh_setw _ _ _ _ _ _ _ _ _ _ _ _ _ _ (Same_view _ _ HS)).
    - (* PAbort *)
      rewrite pf_pop_nd. destruct (k_pop_total _ Hrep) as (f' & r & Hp). rewrite Hp. intros [= <- <-]. psimp.
      split; [|split; [exact (krep_empty st_eqb)|intros _ _; exact (kord_empty st_eqb rk)]].
      eapply GT_abort; [exact Ew|]. reflexivity.
    - (* PNotify *)
      assert (Hb : busy_node (PNotify n exit_after) = Some n) by reflexivity.
      pose proof (busy_cnt_pos cfg _ _ _ Ew eq_refl) as P1. rewrite <- I2 in P1.
      pose proof (busy_at_cnt_pos cfg _ _ _ _ Ew Hb) as P2.
      cbn [pc_ok] in Hok. destruct Hok as [Hg Hd]. rewrite (I5 _ Hd).
      destruct (p_ongoing s) as [|k] eqn:Eo; [lia|].
      destruct (cntp (busy_at (sp_depth n)) (p_workers s)) as [|j] eqn:Ej; [lia|].
      destruct (nth_error_lt_Some (p_upper_bounds s) w) as [u Hu]; [lia|]. rewrite Hu. intros [= <- <-].
      apply Hplain; [reflexivity|]. eapply GT_notify; eauto.
      + psimp. rewrite (I5 _ Hd), Ej. reflexivity.
      + rewrite view_gh_set_worker. unfold FLs. psimp. rewrite upd_nth_length. reflexivity.
  Qed.

  Lemma step_pinv_nd ord s w s' : PInv (gh s) -> ParProofs.gstep st_eqb cfg key_same ord (gh s) w (gh s') -> PInv (gh s').
  Proof. apply (gstep_inv st_eqb cfg good good_set_ub HA_nocrash HA_cut key_same ord (gh s) w (gh s') key_same_depth). Qed.

  Theorem par_step_inv_nd s w s' st : NInv s -> par_step st_eqb cfg s w = Some (s', st) -> NInv s'.
  Proof.
    intros HN H. destruct (par_step_cases_nd _ _ _ _ HN H) as (Hst & Hr & _).
    split; [exact (step_pinv_nd _ _ _ _ (proj1 HN) Hst)|exact Hr].
  Qed.

  Lemma init_nd c n primal : exists f,
    k_push st_eqb rk nd_empty (root_node cfg) = Some f /\ Rep f /\ fl f = [root_node cfg] /\
    p_nodup (init_pstate st_eqb cfg c n primal) = f /\
    p_upper_bounds (init_pstate st_eqb cfg c n primal) = repeat IMIN c /\
    view (gh (init_pstate st_eqb cfg c n primal)) =
      mkV [root_node cfg] O (upd_nth O S (repeat O (S N))) (repeat O (S N)) (init_lb primal) IMAX (init_sol primal)
          c false false (repeat PGetWork n).
  Proof.
    destruct (k_push_spec st_eqb st_eqb_spec rk nd_empty (root_node cfg) (krep_empty st_eqb)) as (f & Hpush & Hrep & Hpd).
    assert (Hfl : fl f = [root_node cfg]).
    { change (fl nd_empty) with (@nil subproblem) in Hpd. destruct Hpd as [HP|(old & rest & HP & _)].
      - apply Permutation_length_1_inv. apply Permutation_sym. exact HP.
      - apply Permutation_nil in HP. discriminate. }
    exists f. split; [exact Hpush|]. split; [exact Hrep|]. split; [exact Hfl|].
    unfold init_pstate. rewrite nodup_fringe, Hpush.
    destruct primal as [[v sl]|]; [destruct (v >? IMIN) eqn:E|]; rewrite view_gh; unfold FLs; psimp;
      unfold init_lb, init_sol; rewrite ?E, ?repeat_length, Hfl; auto.
  Qed.

  Lemma NInv_init T primal : NInv (init_pstate st_eqb cfg T T primal).
  Proof.
    destruct (init_nd T T primal) as (f & _ & Hrep & _ & Hn & _ & Hv). split; [|rewrite Hn; exact Hrep].
    unfold ParProofs.PInv. rewrite Hv. exact (PInvV_init st_eqb cfg good good_root T _ _).
  Qed.

  Lemma par_run_inv_nd fuel s sched last trace s' tr e : NInv s ->
    par_run st_eqb cfg fuel s sched last trace = (s', tr, e) -> NInv s' /\ e <> PDeadlock.
  Proof.
    intros HN E. destruct (par_run_preserves st_eqb cfg NInv par_step_inv_nd _ _ _ _ _ _ _ _ HN E) as (HN' & _ & Hlive).
    split; [exact HN'|]. apply Hlive. intros s0 [HI0 _]. exact (ParProofs.no_deadlock_state st_eqb cfg good (gh s0) HI0).
  Qed.

  (* C04, NoDupFringe, first half: for every schedule, thread count and fuel the run never deadlocks ... *)
  Theorem par_no_deadlock_nodup T primal fuel sched s' tr e :
    par_run st_eqb cfg fuel (init_pstate st_eqb cfg T T primal) sched None [] = (s', tr, e) ->
    e = PFinished \/ e = POutOfFuel.
  Proof.
    intros H. apply par_run_inv_nd in H; [|apply NInv_init]. destruct H as [_ H]. destruct e; auto. congruence.
  Qed.

  (* ... and no worker ever panics (in particular: no operation of the indexed heap panics, no counter underflows) *)
  Theorem par_never_crashes_nodup T primal fuel sched s' tr e :
    par_run st_eqb cfg fuel (init_pstate st_eqb cfg T T primal) sched None [] = (s', tr, e) -> p_crash s' = false.
  Proof.
    intros H. apply par_run_inv_nd in H; [|apply NInv_init]. destruct H as [[H _] _]. apply H.
  Qed.

  Corollary par_maximize_no_deadlock_no_crash_nodup T primal fuel sched :
    pr_end (par_maximize st_eqb cfg fuel T T primal sched) <> PDeadlock /\
    pr_crash (par_maximize st_eqb cfg fuel T T primal sched) = false.
  Proof.
    unfold par_maximize.
    destruct (par_run st_eqb cfg fuel (init_pstate st_eqb cfg T T primal) sched None []) as [[s' tr] e] eqn:E.
    cbn [pr_end pr_crash]. apply par_run_inv_nd in E; [|apply NInv_init]. destruct E as [[HI _] He]. split; [exact He|apply HI].
  Qed.

  Inductive reachable_nd (T : nat) (primal : option (Z * list decision)) : pstate -> Prop :=
  | RN_init : reachable_nd T primal (init_pstate st_eqb cfg T T primal)
  | RN_step s w s' st : reachable_nd T primal s -> par_step st_eqb cfg s w = Some (s', st) -> reachable_nd T primal s'.

  Lemma reachable_NInv T primal s : reachable_nd T primal s -> NInv s.
  Proof. induction 1; [apply NInv_init|eapply par_step_inv_nd; eauto]. Qed.

  (* C04, second half: completion is declared only when nothing is open or in progress *)
  Theorem complete_only_when_idle_nodup T primal s w s1 : reachable_nd T primal s -> (w < length (p_workers s))%nat ->
    get_workload st_eqb cfg s w = (s1, GWComplete) ->
    p_ongoing s = O /\ FLs s = [] /\ pf_len cfg s = O /\ p_abort s = false /\
    (forall w' p, nth_error (p_workers s) w' = Some p -> busy_node p = None /\ p <> PParked).
  Proof.
    intros HR Hw Hg. pose proof (reachable_NInv _ _ _ HR) as HN.
    pose proof (get_workload_spec_nd s w s1 _ HN Hw Hg) as Hs. inversion Hs as [G1 G2 G3 Hn Hv| | | |].
    destruct HN as [HI Hrep].
    split; [exact G1|]. split; [exact G2|]. split.
    { rewrite pf_len_nd. pose proof (fl_len st_eqb _ Hrep) as E. unfold FLs in G2. rewrite G2 in E. exact E. }
    split; [exact G3|]. exact (PInv_idle st_eqb cfg good (gh s) HI G1).
  Qed.
  End PartA.

  (* PART B: termination (cutoff = 0) *)
  Section PartB.
  Hypothesis no_cutoff : sc_cutoff cfg = O.
  Variable M : nat.
  Hypothesis K0 : forall ct n lb c ds polls m out,
    dd_ct ct -> good n -> (sp_depth n <= N)%nat ->
    compile st_eqb (mk_input cfg ct n lb) 0 0 c ds polls = (m, out) ->
    out = Compiled /\ m_crash m = false.
  Hypothesis K3_good : forall n lb c ds polls m out,
    good n -> (sp_depth n <= N)%nat ->
    compile st_eqb (mk_input cfg Relaxed n lb) 0 0 c ds polls = (m, out) ->
    dd_is_exact m = false ->
    forall x, In x (drain_cutset (mk_input cfg Relaxed n lb) m) -> good x.
  Hypothesis K3_depth : forall n lb c ds polls m out,
    good n -> (sp_depth n <= N)%nat ->
    compile st_eqb (mk_input cfg Relaxed n lb) 0 0 c ds polls = (m, out) ->
    dd_is_exact m = false ->
    forall x, In x (drain_cutset (mk_input cfg Relaxed n lb) m) -> (sp_depth n < sp_depth x <= N)%nat.
  Hypothesis K5 : forall n lb c ds polls m out,
    good n -> (sp_depth n <= N)%nat ->
    compile st_eqb (mk_input cfg Relaxed n lb) 0 0 c ds polls = (m, out) ->
    dd_is_exact m = false ->
    (length (drain_cutset (mk_input cfg Relaxed n lb) m) <= M)%nat.

  Local Notation HA_nocrash_B := (HA_nocrash_K st_eqb cfg good K0).
  Local Notation HA_cut_B := (HA_cut_K st_eqb cfg good K3_good K3_depth).

  Local Notation MuT T := (Mu cfg M T).

  Lemma par_run_terminates_nd T fuel s sched last trace s' tr e : NInv s -> BInv T (gh s) ->
    (MuT T (view (gh s)) < fuel)%nat ->
    par_run st_eqb cfg fuel s sched last trace = (s', tr, e) -> e = PFinished.
  Proof.
    intros HN HB.
    apply (par_run_finishes st_eqb cfg (fun s => NInv s /\ BInv T (gh s)) (fun s => MuT T (view (gh s)))); [| |split; assumption].
    - intros s0 [[HI0 _] _]. exact (ParProofs.no_deadlock_state st_eqb cfg good (gh s0) HI0).
    - intros s0 w s1 st [HN0 HB0] Hst. destruct (par_step_cases_nd HA_cut_B _ _ _ _ HN0 Hst) as (Hns & Hr & _).
      pose proof (step_pinv_nd HA_nocrash_B HA_cut_B _ _ _ _ (proj1 HN0) Hns) as HI1.
      split; [split; [split; assumption|exact (gstep_binv st_eqb cfg good K0 _ _ T _ _ _ (proj1 HN0) HB0 Hns)]|].
      exact (Mu_decreases st_eqb cfg good no_cutoff M K0 K3_depth K5 _ _ T _ _ _ key_same_depth (proj1 HN0) HB0 Hns).
  Qed.

  Lemma BInv_init_nd T primal : BInv T (gh (init_pstate st_eqb cfg T T primal)).
  Proof.
    destruct (init_nd T T primal) as (f & _ & _ & _ & _ & _ & Hv). unfold BInv. rewrite Hv. apply BInvV_init.
  Qed.

  (* B, NoDupFringe: every run, whatever the schedule, finishes within fuelP T transitions (the SAME bound as for the
     SimpleFringe: a coalescing push does not increase the measure) *)
  Theorem par_terminates_nodup T primal fuel sched : (fuelP cfg M T <= fuel)%nat ->
    pr_end (par_maximize st_eqb cfg fuel T T primal sched) = PFinished.
  Proof.
    intros Hf. unfold par_maximize.
    destruct (par_run st_eqb cfg fuel (init_pstate st_eqb cfg T T primal) sched None []) as [[s' tr] e] eqn:E.
    cbn [pr_end].
    eapply (par_run_terminates_nd T); [apply NInv_init|apply BInv_init_nd| |exact E].
    destruct (init_nd T T primal) as (f & _ & _ & _ & _ & _ & Hv).
    rewrite (Mu_start cfg no_cutoff M T _ (f_equal v_simple Hv) (f_equal v_workers Hv)). unfold fuelP in Hf. lia.
  Qed.
  End PartB.
End ParNoDup.

(* PART C: the bounds (ANY cutoff) *)
Section ParNoDupSem.
  Context {St : Type}.
  Variable st_eqb : St -> St -> bool.
  Hypothesis st_eqb_spec : forall a b, st_eqb a b = true <-> a = b.
  Variable cfg : @sconfig St.

  Notation pstate := (@pstate St).
  Notation pc := (@pc St).
  Notation subproblem := (@subproblem St).
  Local Notation N := (nb_vars (sc_problem cfg)).
  Local Notation rk := (sc_ranking cfg).

  Hypothesis no_cache : sc_use_cache cfg = false.
  Hypothesis nodup_fringe : sc_nodup cfg = true.

  Variable good : subproblem -> Prop.
  Variable best : subproblem -> option Z.
  Variable feasible : list decision -> Z -> Prop.
  Hypothesis HK : contracts st_eqb good best feasible cfg.
  Hypothesis HS : semantics good best feasible cfg.
  (* beyond the premises of ParAnytime.v (as in SolverNoDup.v / CutoffNoDup.v) *)
  Hypothesis Hco : CutoffNoDup.coalesce_ok good best.
  Hypothesis Hrk : rank_ok cfg.

  Local Notation OPT := (@OPT St cfg best).
  Local Notation PInv := (ParProofs.PInv st_eqb cfg good).
  Local Notation pstep := (ParProofs.pstep st_eqb cfg).
  Local Notation NInv := (NInv st_eqb cfg good).
  Local Notation Incumbent := (Incumbent feasible).
  Local Notation CalmV := (CalmV cfg best).
  Local Notation AbV := (AbV cfg best).
  Local Notation Rep f := (krep st_eqb f).
  Local Notation Ord f := (kord rk f).
  Local Notation HA_cut := (HA_cut_c st_eqb cfg good best feasible HK).
  Local Notation gstepN s w s' :=
    (ParProofs.gstep st_eqb cfg key_same (rank_ok cfg /\ Ord (p_nodup s)) (gh s) w (gh s')).

  Local Notation good_set_ub_c := (good_set_ub_c cfg good best feasible HS).

  Lemma K1c : KC1 st_eqb good feasible cfg. Proof. apply HK. Qed.
  Lemma feasible_le_opt_c : forall sol v, feasible sol v -> exists o, OPT = Some o /\ v <= o. Proof. apply HS. Qed.

  Lemma step_cases_c s w s' st : NInv s -> par_step st_eqb cfg s w = Some (s', st) ->
    gstepN s w s' /\ Rep (p_nodup s') /\ (Ord (p_nodup s) -> Ord (p_nodup s')).
  Proof.
    intros HN H.
    destruct (par_step_cases_nd st_eqb st_eqb_spec cfg no_cache nodup_fringe good HA_cut _ _ _ _ HN H) as (A & B & C).
    split; [exact A|]. split; [exact B|]. exact (C Hrk).
  Qed.
  Lemma pstep_pinv_c s w s' : PInv s -> pstep s w s' -> PInv s'.
  Proof.
    intros HI Hst. exact (step_pinv st_eqb cfg good best feasible HK HS no_key True s w s' (fun a b (H : no_key a b) => match H with end)
                            HI (pstep_gstep st_eqb cfg True s w s' Hst)).
  Qed.

  (* the keys (state, depth) of the NoDupFringe may be coalesced *)
  Lemma key_same_ok : key_ok good best key_same.
  Proof.
    split; [exact key_same_sym|]. split; [exact key_same_depth|].
    intros a b Hga Hgb [Hs Hd]. exact (Hco a b Hga Hgb Hs Hd).
  Qed.

  Definition FInv (T : nat) (s : pstate) : Prop :=
    NInv s /\ Ord (p_nodup s) /\ length (p_workers s) = T /\ AInv cfg best feasible (gh s).

  Lemma step_finv T s w s' st : FInv T s -> par_step st_eqb cfg s w = Some (s', st) -> FInv T s'.
  Proof.
    intros (HN & Hord & Hlen & HA) Hstep. pose proof HN as [HI Hrep].
    destruct (step_cases_c _ _ _ _ HN Hstep) as (Hns & Hrep' & Hord').
    split; [split; [exact (step_pinv st_eqb cfg good best feasible HK HS _ _ _ _ _ key_same_depth HI Hns)|exact Hrep']|].
    split; [exact (Hord' Hord)|]. split; [rewrite <- Hlen; exact (proj1 (gstep_fields st_eqb cfg _ _ _ _ _ Hns))|].
    apply (gstep_ainv st_eqb cfg good best feasible HK HS _ _ (gh s) w (gh s') (snd (pf_pop st_eqb cfg s)) key_same_ok
             (conj Hrk Hord) HI HA Hns (step_ubs st_eqb cfg _ _ _ _ Hstep)).
    intros n Ew. split; [exact (step_abort_ub st_eqb cfg s w s' st n Hstep Ew)|].
    (* abort_search: the top of the heap dominates its content (heap order) *)
    rewrite (pf_pop_nd st_eqb cfg nodup_fringe). intros x Hx. change (In x (fl (p_nodup s))) in Hx.
    assert (Hne : nd_len (p_nodup s) <> O).
    { pose proof (fl_len st_eqb _ Hrep) as E. destruct (fl (p_nodup s)); [destruct Hx|]. cbn [length] in E. lia. }
    destruct (k_pop_spec st_eqb st_eqb_spec rk (p_nodup s) Hrep Hne) as (t & f' & Hpop & _ & _). rewrite Hpop.
    exists t. split; [reflexivity|]. exact (proj2 (pop_max st_eqb st_eqb_spec cfg _ _ _ Hrk Hrep Hord Hpop) x Hx).
  Qed.

  Lemma FInv_init T primal : primal_okP feasible primal -> FInv T (init_pstate st_eqb cfg T T primal).
  Proof.
    intros Hp.
    destruct (init_nd st_eqb st_eqb_spec cfg nodup_fringe T T primal) as (f & Hpush & Hrep & Hfl & Hn & Hubs & Hv).
    split; [exact (NInv_init st_eqb st_eqb_spec cfg nodup_fringe good (proj1 HS) T primal)|].
    split.
    { rewrite Hn. exact (push_ord st_eqb st_eqb_spec cfg _ _ _ Hrk (krep_empty st_eqb) (kord_empty st_eqb rk) Hpush). }
    split; [|exact (AInv_init_view cfg good best feasible HS _ _ _ _ T primal Hp Hv)].
    exact (eq_trans (f_equal (fun v => length (v_workers v)) Hv) (repeat_length _ _)).
  Qed.

  Lemma finv_sound T s : (1 <= T)%nat -> FInv T s -> SoundS cfg best feasible s.
  Proof.
    intros HT ([HI Hrep] & _ & Hlen & HA).
    apply (ainv_sound st_eqb cfg good best feasible HS (gh s)); [|exact HI|exact HA].
    change (p_workers s <> []). intros E. rewrite E in Hlen. cbn [length] in Hlen. lia.
  Qed.

  (* what a run that ended without any abort has computed (used for the optimality theorem) *)
  Lemma finv_final T s : (1 <= T)%nat -> FInv T s -> all_exited s = true -> p_abort s = false -> FinalP cfg best feasible s.
  Proof.
    intros HT ([HI _] & _ & Hlen & HInc & _ & HR) Hall Eab.
    destruct HR as [HC|(A1 & _)]; [|change (p_abort s = true) in A1; congruence].
    destruct (calm_final cfg best (gh s)) as [E3 Hopt]; [|exact HC|exact Hall|].
    { change (p_workers s <> []). intros E. rewrite E in Hlen. cbn [length] in Hlen. lia. }
    split; [apply HI|]. split; [exact Eab|]. split; [exact E3|]. split; [exact HInc|exact Hopt].
  Qed.

  Theorem par_anytime_sound_any_end_nodup T primal fuel sched :
    (1 <= T)%nat -> primal_okP feasible primal ->
    sound_result cfg best feasible (par_maximize st_eqb cfg fuel T T primal sched).
  Proof.
    intros HT Hp. unfold par_maximize.
    destruct (par_run st_eqb cfg fuel (init_pstate st_eqb cfg T T primal) sched None []) as [[s' tr] e] eqn:E.
    destruct (par_run_preserves st_eqb cfg (FInv T) (step_finv T) _ _ _ _ _ _ _ _ (FInv_init T primal Hp) E) as (HF & Hall & _).
    apply (sound_of_state cfg good best feasible HS); [|exact Hall]. exact (finv_sound T s' HT HF).
  Qed.

  Theorem par_anytime_sound_nodup T primal fuel sched :
    (1 <= T)%nat -> primal_okP feasible primal ->
    let r := par_maximize st_eqb cfg fuel T T primal sched in
    pr_end r = PFinished ->
    pr_crash r = false /\ pr_lb r <= pr_ub r /\
    (forall o, OPT = Some o -> pr_lb r <= o <= pr_ub r) /\
    (OPT = None -> pr_value r = None /\ pr_sol r = None) /\
    (forall v, pr_value r = Some v ->
       pr_lb r = v /\ exists sol, pr_sol r = Some (sort_by dec_var_cmp sol) /\ feasible sol v) /\
    (pr_exact r = true -> pr_value r = OPT).
  Proof.
    intros HT Hp r He.
    destruct (par_anytime_sound_any_end_nodup T primal fuel sched HT Hp) as (A1 & A2 & A3 & A4 & A5 & A6).
    split; [exact A1|]. split; [exact A2|]. split; [exact A3|]. split; [exact A4|]. split; [exact A5|]. exact (A6 He).
  Qed.
End ParNoDupSem.

(* PART D: optimality (cutoff = 0; the premises of ParProofs.par_optimal
   + coalesce_ok + rank_ok) *)
Section ParNoDupOpt.
  Context {St : Type}.
  Variable st_eqb : St -> St -> bool.
  Hypothesis st_eqb_spec : forall a b, st_eqb a b = true <-> a = b.
  Variable cfg : @sconfig St.
  Notation pstate := (@pstate St).
  Notation subproblem := (@subproblem St).
  Local Notation N := (nb_vars (sc_problem cfg)).

  Hypothesis no_cache : sc_use_cache cfg = false.
  Hypothesis nodup_fringe : sc_nodup cfg = true.

  Variable good : subproblem -> Prop.
  Hypothesis good_root : good (root_node cfg).
  Hypothesis good_set_ub : forall c u, good c -> good (set_ub c u).
  Variable best : subproblem -> option Z.
  Variable feasible : list decision -> Z -> Prop.
  Notation OPT := (@OPT St cfg best).

  Hypothesis no_cutoff : sc_cutoff cfg = O.
  Hypothesis feasible_le_opt : forall sol v, feasible sol v -> exists o, OPT = Some o /\ v <= o.
  Hypothesis opt_in_isize : forall o, OPT = Some o -> IMIN < o <= IMAX.
  Hypothesis best_set_ub : forall c u, best (set_ub c u) = best c.
  (* as in SolverNoDup.v: the value-to-go of a sub-problem is a function of its (state, depth) *)
  Hypothesis coalesce_ok : forall a b, good a -> good b -> sp_state a = sp_state b -> sp_depth a = sp_depth b ->
    forall oa, best a = Some oa -> best b = Some (oa - sp_value a + sp_value b).
  (* as in CutoffNoDup.v: the state ranking is a total preorder -- the whole-fringe discard of get_workload is sound only
     because the popped node is ub-maximal, and for the indexed heap that is the heap order *)
  Hypothesis Hrk : rank_ok cfg.

  Variable M : nat.
  Hypothesis K0 : forall ct n lb c ds polls m out,
    dd_ct ct -> good n -> (sp_depth n <= N)%nat ->
    compile st_eqb (mk_input cfg ct n lb) 0 0 c ds polls = (m, out) ->
    out = Compiled /\ m_crash m = false.
  Hypothesis K1 : forall ct n lb c ds polls m out,
    dd_ct ct -> good n -> (sp_depth n <= N)%nat ->
    compile st_eqb (mk_input cfg ct n lb) 0 0 c ds polls = (m, out) ->
    forall v, dd_best_exact_value (mk_input cfg ct n lb) m = Some v ->
    exists sol, dd_best_exact_solution (mk_input cfg ct n lb) m = Some sol /\ feasible sol v.
  Hypothesis K2 : forall ct n lb c ds polls m out,
    dd_ct ct -> good n -> (sp_depth n <= N)%nat ->
    compile st_eqb (mk_input cfg ct n lb) 0 0 c ds polls = (m, out) ->
    dd_is_exact m = true ->
    forall o, best n = Some o -> o > lb -> dd_best_exact_value (mk_input cfg ct n lb) m = Some o.
  Hypothesis K3_good : forall n lb c ds polls m out,
    good n -> (sp_depth n <= N)%nat ->
    compile st_eqb (mk_input cfg Relaxed n lb) 0 0 c ds polls = (m, out) ->
    dd_is_exact m = false ->
    forall x, In x (drain_cutset (mk_input cfg Relaxed n lb) m) -> good x.
  Hypothesis K3_depth : forall n lb c ds polls m out,
    good n -> (sp_depth n <= N)%nat ->
    compile st_eqb (mk_input cfg Relaxed n lb) 0 0 c ds polls = (m, out) ->
    dd_is_exact m = false ->
    forall x, In x (drain_cutset (mk_input cfg Relaxed n lb) m) -> (sp_depth n < sp_depth x <= N)%nat.
  Hypothesis K3_ub : forall n lb c ds polls m out,
    good n -> (sp_depth n <= N)%nat ->
    compile st_eqb (mk_input cfg Relaxed n lb) 0 0 c ds polls = (m, out) ->
    dd_is_exact m = false ->
    forall x, In x (drain_cutset (mk_input cfg Relaxed n lb) m) ->
    forall o, best x = Some o -> o > lb -> o <= sp_ub x.
  Hypothesis K4 : forall n lb c ds polls m out,
    good n -> (sp_depth n <= N)%nat ->
    compile st_eqb (mk_input cfg Relaxed n lb) 0 0 c ds polls = (m, out) ->
    dd_is_exact m = false ->
    forall o, best n = Some o -> o > lb ->
    (forall e, dd_best_exact_value (mk_input cfg Relaxed n lb) m = Some e -> e < o) ->
    exists x, In x (drain_cutset (mk_input cfg Relaxed n lb) m) /\ best x = Some o.
  Hypothesis K5 : forall n lb c ds polls m out,
    good n -> (sp_depth n <= N)%nat ->
    compile st_eqb (mk_input cfg Relaxed n lb) 0 0 c ds polls = (m, out) ->
    dd_is_exact m = false ->
    (length (drain_cutset (mk_input cfg Relaxed n lb) m) <= M)%nat.

  Local Notation HKc := (contracts_of_K st_eqb cfg good best feasible K0 K1 K2 K3_good K3_depth K3_ub K4).
  Local Notation HSc := (semantics_of_K cfg good good_root good_set_ub best feasible feasible_le_opt opt_in_isize best_set_ub).
  Local Notation FInvT T := (FInv st_eqb cfg good best feasible T).

  Lemma step_fb T s w s' st : FInvT T s /\ BInv T (gh s) -> par_step st_eqb cfg s w = Some (s', st) ->
    FInvT T s' /\ BInv T (gh s').
  Proof.
    intros [HF HB] Hst.
    split; [exact (step_finv st_eqb st_eqb_spec cfg no_cache nodup_fringe good best feasible HKc HSc coalesce_ok Hrk T _ _ _ _ HF Hst)|].
    destruct HF as (HN & _).
    destruct (par_step_cases_nd st_eqb st_eqb_spec cfg no_cache nodup_fringe good
                (HA_cut_c st_eqb cfg good best feasible HKc) _ _ _ _ HN Hst) as (Hns & _).
    exact (gstep_binv st_eqb cfg good K0 _ _ T _ _ _ (proj1 HN) HB Hns).
  Qed.

  (* C03 (and the warm-start variant), NoDupFringe: every finished run, whatever the schedule, the number of workers and
     the fuel, returns the optimum *)
  Theorem par_optimal_primal_nodup T primal fuel sched : (1 <= T)%nat -> primal_okP feasible primal ->
    pr_end (par_maximize st_eqb cfg fuel T T primal sched) = PFinished ->
    presult_ok cfg best feasible (par_maximize st_eqb cfg fuel T T primal sched).
  (* [Proof using]: the list is what the closed statement keeps of the section's premises (K5 and M stay out, sc_cutoff
     cfg = 0 stays in), whatever the script touches; section MainParNoDup applies it with explicit arguments. *)
  Proof using st_eqb_spec no_cache nodup_fringe good_root good_set_ub no_cutoff feasible_le_opt opt_in_isize best_set_ub
              coalesce_ok Hrk K0 K1 K2 K3_good K3_depth K3_ub K4.
    intros HT Hp. unfold par_maximize.
    destruct (par_run st_eqb cfg fuel (init_pstate st_eqb cfg T T primal) sched None []) as [[s' tr] e] eqn:E.
    cbn [pr_end]. intros He. subst e.
    destruct (par_run_preserves st_eqb cfg _ (step_fb T) _ _ _ _ _ _ _ _
                (conj (FInv_init st_eqb st_eqb_spec cfg nodup_fringe good best feasible HSc Hrk T primal Hp)
                      (BInv_init_nd st_eqb st_eqb_spec cfg nodup_fringe T primal)) E) as ((HF0 & HB) & Hall & _).
    assert (Eab : p_abort s' = false) by apply HB.
    pose proof (finv_final st_eqb cfg good best feasible T s' HT HF0 (Hall eq_refl) Eab) as HF.
    exact (final_result cfg best feasible feasible_le_opt opt_in_isize s' _ _ HF).
  Qed.

  Theorem par_optimal_nodup T fuel sched : (1 <= T)%nat ->
    pr_end (par_maximize st_eqb cfg fuel T T None sched) = PFinished ->
    presult_ok cfg best feasible (par_maximize st_eqb cfg fuel T T None sched).
  Proof. intros HT. apply par_optimal_primal_nodup; [exact HT|]. intros pv psol H; discriminate. Qed.

  (* B + C: total correctness for every schedule and every number of workers, NoDupFringe; same fuel bound *)
  Theorem par_correct_nodup T primal fuel sched : (1 <= T)%nat -> primal_okP feasible primal -> (fuelP cfg M T <= fuel)%nat ->
    pr_end (par_maximize st_eqb cfg fuel T T primal sched) = PFinished /\
    presult_ok cfg best feasible (par_maximize st_eqb cfg fuel T T primal sched).
  Proof.
    intros HT Hp Hf.
    pose proof (par_terminates_nodup st_eqb st_eqb_spec cfg no_cache nodup_fringe good good_root good_set_ub no_cutoff M
                  K0 K3_good K3_depth K5 T primal fuel sched Hf) as He.
    split; [exact He|]. apply par_optimal_primal_nodup; assumption.
  Qed.
End ParNoDupOpt.

(* STOREY 2: the clean flavours of Mdd.compile.
   The hypotheses of Assembly.Main with sc_nodup cfg = true (+ the total-preorder ranking where the heap order matters);
   the contracts are imported through flip_nodup (mk_input does not read sc_nodup). *)
Section MainParNoDup.
  Context {St : Type}.
  Variable st_eqb : St -> St -> bool.
  Hypothesis st_eqb_spec : forall a b, st_eqb a b = true <-> a = b.
  Variable cfg : @sconfig St.
  Local Notation pb := (sc_problem cfg).
  Local Notation N := (nb_vars (sc_problem cfg)).

  Hypothesis cfg_clean : sc_flavour cfg = CleanLEL \/ sc_flavour cfg = CleanFC.
  Hypothesis cfg_nocache : sc_use_cache cfg = false.
  Hypothesis cfg_nodom : sc_domrule cfg = None.
  Hypothesis cfg_nodup : sc_nodup cfg = true.
  Hypothesis cfg_width : (1 <= sc_width cfg)%nat.
  (* beyond Assembly.Main, used by C03 and C05 only: StateRanking::compare is a total preorder *)
  Hypothesis rk_antisym : forall a b, sc_ranking cfg a b = CompOpp (sc_ranking cfg b a).
  Hypothesis rk_trans : forall a b c, sc_ranking cfg a b <> Gt -> sc_ranking cfg b c <> Gt -> sc_ranking cfg a c <> Gt.
  Hypothesis nv_static : forall k l1 l2, next_variable pb k l1 = next_variable pb k l2.
  Hypothesis nv_some : forall k l, (k < N)%nat -> exists x, next_variable pb k l = Some x.
  Hypothesis nv_none : forall k l, (N <= k)%nat -> next_variable pb k l = None.
  Hypothesis Hwf : wf_relaxation cfg.
  Variable D : nat.
  Hypothesis dom_bound : forall x s, (length (domain pb x s) <= D)%nat.
  Variable B : Z.
  Hypothesis HB : 2 * B <= IMAX.
  Hypothesis guard0 : forall ds s' v', frun pb 0 (init_state pb) (init_value pb) ds = Some (s', v') -> - B <= v' <= B.

  Local Notation cfgF := (flip_nodup cfg).
  Local Notation good := (sgood pb).
  Local Notation feas := (sfeasible pb).
  Local Notation bst := (MddSim.best cfg).

  Lemma HwfF_p : wf_relaxation cfgF. Proof. exact Hwf. Qed.

  Lemma HA_nocrash_n : forall ct n lb c ds polls m out,
    dd_ct ct -> good n -> (sp_depth n <= N)%nat ->
    compile st_eqb (mk_input cfg ct n lb) 0 0 c ds polls = (m, out) -> m_crash m = false.
  Proof. exact (Assembly.HA_nocrash st_eqb st_eqb_spec cfgF cfg_clean cfg_nocache cfg_nodom eq_refl cfg_width nv_some nv_none). Qed.

  Lemma HA_cut_n : forall n lb c ds polls m,
    good n -> (sp_depth n <= N)%nat ->
    compile st_eqb (mk_input cfg Relaxed n lb) 0 0 c ds polls = (m, Compiled) ->
    dd_is_exact m = false ->
    forall x, In x (drain_cutset (mk_input cfg Relaxed n lb) m) -> good x /\ (sp_depth x <= N)%nat.
  Proof.
    exact (Assembly.HA_cut st_eqb st_eqb_spec cfgF cfg_clean cfg_nocache cfg_nodom eq_refl cfg_width nv_static nv_some nv_none
             B HB guard0).
  Qed.

  (* C04, first half, NoDupFringe: the parallel protocol neither deadlocks nor crashes, ANY cutoff, NO premise on the ranking *)
  Theorem C04_parallel_no_deadlock_no_crash_nodup : forall T primal fuel sched,
    pr_end (par_maximize st_eqb cfg fuel T T primal sched) <> PDeadlock /\
    pr_crash (par_maximize st_eqb cfg fuel T T primal sched) = false.
  Proof.
    exact (par_maximize_no_deadlock_no_crash_nodup st_eqb st_eqb_spec cfg cfg_nocache cfg_nodup good (Assembly.good_root cfg)
             (fun c u => sgood_set_ub pb c u) HA_nocrash_n HA_cut_n).
  Qed.

  Theorem C04_parallel_run_no_deadlock_nodup : forall T primal fuel sched s' tr e,
    par_run st_eqb cfg fuel (init_pstate st_eqb cfg T T primal) sched None [] = (s', tr, e) ->
    (e = PFinished \/ e = POutOfFuel) /\ p_crash s' = false.
  Proof.
    intros T primal fuel sched s' tr e H. split.
    - exact (par_no_deadlock_nodup st_eqb st_eqb_spec cfg cfg_nocache cfg_nodup good (Assembly.good_root cfg)
               (fun c u => sgood_set_ub pb c u) HA_nocrash_n HA_cut_n T primal fuel sched s' tr e H).
    - exact (par_never_crashes_nodup st_eqb st_eqb_spec cfg cfg_nocache cfg_nodup good (Assembly.good_root cfg)
               (fun c u => sgood_set_ub pb c u) HA_nocrash_n HA_cut_n T primal fuel sched s' tr e H).
  Qed.

  (* C05 (parallel), NoDupFringe: ANY cutoff *)
  Let HK : contracts st_eqb good bst feas cfg :=
    contracts_hold_nodup st_eqb st_eqb_spec cfg cfg_clean cfg_nocache cfg_nodom cfg_width nv_static nv_some nv_none Hwf B HB guard0.
  Let HSem : semantics good bst feas cfg := semantics_hold cfg cfg_width nv_static nv_some nv_none B HB guard0.
  Let rko : rank_ok cfg := conj rk_antisym rk_trans.
  Let cok : CutoffNoDup.coalesce_ok good bst := fun a b _ _ => best_coalesce_ok cfg a b.

  Theorem C05_parallel_anytime_any_end_nodup : forall T primal fuel sched,
    (1 <= T)%nat -> primal_okP feas primal ->
    sound_result_enum cfg (par_maximize st_eqb cfg fuel T T primal sched).
  Proof.
    intros T primal fuel sched HT Hp. apply (sound_result_to_enum cfg B HB guard0).
    exact (par_anytime_sound_any_end_nodup st_eqb st_eqb_spec cfg cfg_nocache cfg_nodup good bst feas HK HSem cok rko
             T primal fuel sched HT Hp).
  Qed.

  Theorem C05_parallel_anytime_nodup : forall T primal fuel sched,
    (1 <= T)%nat -> primal_okP feas primal ->
    let r := par_maximize st_eqb cfg fuel T T primal sched in
    pr_end r = PFinished ->
    pr_crash r = false /\
    pr_lb r <= pr_ub r /\
    (forall o, opt_enum pb = Some o -> pr_lb r <= o <= pr_ub r) /\
    (opt_enum pb = None -> pr_value r = None /\ pr_sol r = None) /\
    (forall v, pr_value r = Some v ->
       pr_lb r = v /\ exists sol, pr_sol r = Some (sort_by dec_var_cmp sol) /\ feas sol v /\ MddProgress.feasible pb sol v) /\
    (pr_exact r = true -> pr_value r = opt_enum pb).
  Proof.
    intros T primal fuel sched HT Hp r He.
    destruct (C05_parallel_anytime_any_end_nodup T primal fuel sched HT Hp) as (A1 & A2 & A3 & A4 & A5 & A6).
    split; [exact A1|]. split; [exact A2|]. split; [exact A3|]. split; [exact A4|]. split; [exact A5|]. exact (A6 He).
  Qed.

  (* no cutoff: C03 / C04 (termination) *)
  Hypothesis cfg_nocut : sc_cutoff cfg = 0%nat.

  Local Notation K0' := (SolverNoDup.K0n st_eqb st_eqb_spec cfg cfg_clean cfg_nocache cfg_nodom cfg_width nv_some nv_none cfg_nocut).
  Local Notation K1' := (SolverNoDup.K1n st_eqb st_eqb_spec cfg cfg_clean cfg_nocache cfg_nodom cfg_width nv_static nv_some nv_none
                           B HB guard0 cfg_nocut).
  Local Notation K2' := (SolverNoDup.K2n st_eqb st_eqb_spec cfg cfg_clean cfg_nocache cfg_nodom cfg_width nv_static nv_some nv_none
                           Hwf B HB guard0 cfg_nocut).
  Local Notation K3g' := (SolverNoDup.K3_goodn st_eqb st_eqb_spec cfg cfg_clean cfg_nocache cfg_nodom cfg_width nv_static nv_some nv_none
                           B HB guard0 cfg_nocut).
  Local Notation K3d' := (SolverNoDup.K3_depthn st_eqb st_eqb_spec cfg cfg_clean cfg_nocache cfg_nodom cfg_width nv_some nv_none cfg_nocut).
  Local Notation K3u' := (SolverNoDup.K3_ubn st_eqb st_eqb_spec cfg cfg_clean cfg_nocache cfg_nodom cfg_width nv_static nv_some nv_none
                           Hwf B HB guard0 cfg_nocut).
  Local Notation K4' := (SolverNoDup.K4n st_eqb st_eqb_spec cfg cfg_clean cfg_nocache cfg_nodom cfg_width nv_static nv_some nv_none
                           Hwf B HB guard0 cfg_nocut).
  Local Notation K5' := (SolverNoDup.K5n st_eqb st_eqb_spec cfg cfg_clean cfg_nocache cfg_nodom cfg_width nv_some nv_none
                           D dom_bound cfg_nocut).

  (* C04 (termination), NoDupFringe: every run finishes within the SAME number of transitions as with the SimpleFringe;
     NO premise on the ranking *)
  Theorem C04_parallel_terminates_nodup : forall T primal fuel sched,
    (fuelP cfg (Kbound cfg D) T <= fuel)%nat ->
    pr_end (par_maximize st_eqb cfg fuel T T primal sched) = PFinished.
  Proof.
    intros T primal fuel sched Hf.
    exact (par_terminates_nodup st_eqb st_eqb_spec cfg cfg_nocache cfg_nodup good (Assembly.good_root cfg)
             (fun c u => sgood_set_ub pb c u) cfg_nocut (Kbound cfg D) K0' K3g' K3d' K5' T primal fuel sched Hf).
  Qed.

  (* C03 (partial correctness), NoDupFringe: every finished run returns the optimum *)
  Theorem C03_parallel_optimal_finished_nodup : forall T primal fuel sched,
    (1 <= T)%nat -> primal_okP feas primal ->
    let r := par_maximize st_eqb cfg fuel T T primal sched in
    pr_end r = PFinished ->
    pr_crash r = false /\ pr_exact r = true /\ pr_value r = opt_enum pb /\
    (forall v, opt_enum pb = Some v ->
       pr_lb r = v /\ pr_ub r = v /\
       exists sol, pr_sol r = Some (sort_by dec_var_cmp sol) /\ feas sol v /\ MddProgress.feasible pb sol v) /\
    (opt_enum pb = None -> pr_sol r = None /\ pr_lb r = IMIN).
  Proof.
    intros T primal fuel sched HT Hp r He. apply (presult_unfold cfg B HB guard0).
    exact (par_optimal_primal_nodup st_eqb st_eqb_spec cfg cfg_nocache cfg_nodup good (Assembly.good_root cfg)
             (fun c u => sgood_set_ub pb c u) bst feas cfg_nocut
             (Assembly.feasible_le_opt cfg nv_static nv_none)
             (Assembly.opt_in_isize cfg cfg_width nv_static nv_some nv_none B HB guard0)
             (Assembly.best_set_ub cfg) (fun a b _ _ => best_coalesce_ok cfg a b) rko
             K0' K1' K2' K3g' K3d' K3u' K4' T primal fuel sched HT Hp He).
  Qed.

  (* C03 + C04 (total correctness), NoDupFringe *)
  Theorem C03_parallel_optimal_nodup : forall T primal fuel sched,
    (1 <= T)%nat -> primal_okP feas primal -> (fuelP cfg (Kbound cfg D) T <= fuel)%nat ->
    let r := par_maximize st_eqb cfg fuel T T primal sched in
    pr_end r = PFinished /\
    pr_crash r = false /\ pr_exact r = true /\ pr_value r = opt_enum pb /\
    (forall v, opt_enum pb = Some v ->
       pr_lb r = v /\ pr_ub r = v /\
       exists sol, pr_sol r = Some (sort_by dec_var_cmp sol) /\ feas sol v /\ MddProgress.feasible pb sol v) /\
    (opt_enum pb = None -> pr_sol r = None /\ pr_lb r = IMIN).
  Proof.
    intros T primal fuel sched HT Hp Hf r.
    pose proof (C04_parallel_terminates_nodup T primal fuel sched Hf) as He. split; [exact He|].
    exact (C03_parallel_optimal_finished_nodup T primal fuel sched HT Hp He).
  Qed.
End MainParNoDup.


(* STOREY 3: non-vacuity -- the table family of TableWf.v *)
Require Import DDO.Table DDO.Run DDO.TableWf.

Section TableParNoDup.
  Variable ti : tinst.
  Variable C : Z.
  Hypothesis Hwf : t_wf ti C.
  Variable flv : flavour.
  Hypothesis Hflv : flv = CleanLEL \/ flv = CleanFC.
  Variable width : nat.
  Hypothesis Hwidth : (1 <= width)%nat.

  (* tb_sconfig ti flv (cache := false) (nodup := TRUE) (dominance := false) width cutoff *)
  Local Notation tcfg := (tb_sconfig ti flv false true false width).

  Local Ltac table_side cutoff :=
    destruct (table_premises ti C Hwf flv Hflv width Hwidth cutoff)
      as (P1 & P2 & P3 & P4 & P5 & P6 & P7 & P8 & P9 & P10 & P11 & P12 & P13).

  (* C04 on the whole family, NoDupFringe: every cutoff, schedule, fuel, number of workers, warm start *)
  Theorem C04_table_par_no_deadlock_no_crash_nodup : forall cutoff T primal fuel sched,
    pr_end (par_maximize tstate_eqb (tcfg cutoff) fuel T T primal sched) <> PDeadlock /\
    pr_crash (par_maximize tstate_eqb (tcfg cutoff) fuel T T primal sched) = false.
  Proof.
    intros cutoff. table_side cutoff.
    exact (C04_parallel_no_deadlock_no_crash_nodup tstate_eqb P1 (tcfg cutoff) P2 P3 P4 eq_refl P6 P7 P8 P9 (tB ti C) P12 P13).
  Qed.

  Theorem C04_table_par_terminates_nodup : forall T primal fuel sched,
    (fuelP (tcfg 0) (Kbound (tcfg 0) (length (t_trans ti))) T <= fuel)%nat ->
    pr_end (par_maximize tstate_eqb (tcfg 0) fuel T T primal sched) = PFinished.
  Proof.
    table_side 0%nat.
    exact (C04_parallel_terminates_nodup tstate_eqb P1 (tcfg 0) P2 P3 P4 eq_refl P6 P7 P8 P9 (length (t_trans ti)) P11
             (tB ti C) P12 P13 eq_refl).
  Qed.

  (* C03 on the whole family, NoDupFringe: every finished run returns the optimum (the table ranking is lexicographic on
     lists of integers: a total preorder) *)
  Theorem C03_table_par_nodup : forall T fuel sched, (1 <= T)%nat ->
    let r := par_maximize tstate_eqb (tcfg 0) fuel T T None sched in
    pr_end r = PFinished ->
    pr_crash r = false /\ pr_exact r = true /\ pr_value r = opt_enum (t_problem ti) /\
    (forall v, opt_enum (t_problem ti) = Some v ->
       pr_lb r = v /\ pr_ub r = v /\
       exists sol, pr_sol r = Some (sort_by dec_var_cmp sol) /\ MddProgress.feasible (t_problem ti) sol v).
  Proof.
    intros T fuel sched HT r He. table_side 0%nat.
    assert (Hp : primal_okP (sfeasible (t_problem ti)) None) by (intros pv psol E; discriminate).
    destruct (C03_parallel_optimal_finished_nodup tstate_eqb P1 (tcfg 0) P2 P3 P4 eq_refl P6 t_ranking_antisym t_ranking_trans
                P7 P8 P9 P10 (tB ti C) P12 P13 eq_refl T None fuel sched HT Hp He) as (A1 & A2 & A3 & A4 & _).
    split; [exact A1|]. split; [exact A2|]. split; [exact A3|].
    intros v Hv. destruct (A4 v Hv) as (E1 & E2 & sol & S1 & _ & S3). split; [exact E1|]. split; [exact E2|]. exists sol. auto.
  Qed.

  (* C05 (parallel) on the whole family, NoDupFringe: every cutoff, every schedule, every fuel *)
  Theorem C05_table_par_nodup : forall cutoff T fuel sched, (1 <= T)%nat ->
    sound_result_enum (tcfg cutoff) (par_maximize tstate_eqb (tcfg cutoff) fuel T T None sched).
  Proof.
    intros cutoff T fuel sched HT. table_side cutoff.
    assert (Hp : primal_okP (sfeasible (t_problem ti)) None) by (intros pv psol E; discriminate).
    exact (C05_parallel_anytime_any_end_nodup tstate_eqb P1 (tcfg cutoff) P2 P3 P4 eq_refl P6 t_ranking_antisym t_ranking_trans
             P7 P8 P9 P10 (tB ti C) P12 P13 T None fuel sched HT Hp).
  Qed.
End TableParNoDup.

(* the coalescing instance co_ti of SolverNoDup.v, two workers.
   Schedule co_sched: worker 0 processes the root (7 transitions) and leaves [1] (ub 11) and [2] (ub 9) in the fringe; worker 0
   takes [1], worker 1 takes [2]; the two workers then advance in lock-step (restricted compilation, update, relaxed
   compilation, update, enqueue).  Transition 18 = worker 0 enqueues ([3], depth 2, value 0, ub 7); transition 19 = worker 1
   enqueues ([3], depth 2, value 1, ub 8): a COALESCING push, performed while worker 0 still holds its node [1]
   (pc = PNotify, ongoing = 2, ongoing_by_layer[1] = 2).  Afterwards the default policy applies. *)
Definition co_pcfg (nodupf : bool) (cutoff : nat) : @sconfig tstate := tb_sconfig co_ti CleanLEL false nodupf false 2 cutoff.
Definition co_sched : list nat := [0;0;0;0;0;0;0; 0;1; 0;1;0;1;0;1;0;1;0;1]%nat.

(* the state after k transitions: (pcs, nodes held, fringe content, open_by_layer, ongoing, ongoing_by_layer) *)
Definition co_par_after (nodupf : bool) (k : nat) :=
  let '(s, _, _) := par_run tstate_eqb (co_pcfg nodupf 0) k (init_pstate tstate_eqb (co_pcfg nodupf 0) 2 2 None) co_sched None [] in
  (map pc_tag (p_workers s), map (fun p => option_map co_entry (busy_node p)) (p_workers s),
   if nodupf then map co_entry (fl (p_nodup s)) else map co_entry (p_simple s),
   p_open s, p_ongoing s, p_ongoing_by_layer s).

Example co_par_coalesces :
  (* before: worker 0 at PNotify holding [1], worker 1 at PEnqueue holding [2]; the fringe holds ([3], 2, 0, 7) *)
  co_par_after true 18 =
    ([8; 6]%nat, [Some ([1], 1%nat, 0, 11); Some ([2], 1%nat, 0, 9)], [([3], 2%nat, 0, 7)],
     [0; 0; 1; 0; 0]%nat, 2%nat, [0; 2; 0; 0; 0]%nat) /\
  (* after worker 1's enqueue_cutset: ONE entry, with the larger value and the larger ub; open_by_layer[2] stays 1 *)
  co_par_after true 19 =
    ([8; 8]%nat, [Some ([1], 1%nat, 0, 11); Some ([2], 1%nat, 0, 9)], [([3], 2%nat, 1, 8)],
     [0; 0; 1; 0; 0]%nat, 2%nat, [0; 2; 0; 0; 0]%nat) /\
  (* the SimpleFringe, same schedule: two copies, open_by_layer[2] = 2 *)
  co_par_after false 19 =
    ([8; 8]%nat, [Some ([1], 1%nat, 0, 11); Some ([2], 1%nat, 0, 9)], [([3], 2%nat, 1, 8); ([3], 2%nat, 0, 7)],
     [0; 0; 2; 0; 0]%nat, 2%nat, [0; 2; 0; 0; 0]%nat).
Proof. vm_compute. repeat split; reflexivity. Qed.

Definition psumm (r : @presult) := (pr_end r, pr_crash r, pr_exact r, pr_value r, pr_lb r, pr_ub r).

(* the run returns the optimum 8 -- under the interleaving schedule, under the default one, and with three workers *)
Example co_par_run :
  psumm (par_maximize tstate_eqb (co_pcfg true 0) 200 2 2 None co_sched) = (PFinished, false, true, Some 8, 8, 8) /\
  psumm (par_maximize tstate_eqb (co_pcfg true 0) 200 2 2 None []) = (PFinished, false, true, Some 8, 8, 8) /\
  psumm (par_maximize tstate_eqb (co_pcfg true 0) 200 3 3 None (co_sched ++ [2; 1; 0; 2; 2; 1]%nat)) = (PFinished, false, true, Some 8, 8, 8) /\
  map fst (firstn 19 (pr_trace (par_maximize tstate_eqb (co_pcfg true 0) 200 2 2 None co_sched))) = co_sched.
Proof. vm_compute. repeat split; reflexivity. Qed.

(* ... as the theorem says it must (the conclusion comes from C03_table_par_nodup, only `the run finished' is computed) *)
Example co_par_by_theorem :
  let r := par_maximize tstate_eqb (co_pcfg true 0) 200 2 2 None co_sched in
  pr_crash r = false /\ pr_exact r = true /\ pr_value r = Some 8 /\ pr_lb r = 8 /\ pr_ub r = 8.
Proof.
  assert (He : pr_end (par_maximize tstate_eqb (co_pcfg true 0) 200 2 2 None co_sched) = PFinished) by (vm_compute; reflexivity).
  destruct (C03_table_par_nodup co_ti 7 co_wf CleanLEL (or_introl eq_refl) 2 (le_S 1 1 (le_n 1)) 2 200 co_sched
              (le_S 1 1 (le_n 1)) He) as (A1 & A2 & A3 & A4).
  rewrite co_opt in A3. destruct (A4 8 co_opt) as (B1 & B2 & _). exact (conj A1 (conj A2 (conj A3 (conj B1 B2)))).
Qed.

(* the anytime theorem: cutoff 22 stops worker 1 while it compiles the coalesced entry ([3], 2, 1, 8); worker 0 still holds
   [1] (bound 11): the run is not exact, lb = 4 <= 8 <= 11 = ub *)
Example co_par_cutoff :
  let r := par_maximize tstate_eqb (co_pcfg true 22) 200 2 2 None co_sched in
  psumm r = (PFinished, false, false, Some 4, 4, 11) /\ pr_lb r <= 8 <= pr_ub r.
Proof.
  split; [vm_compute; reflexivity|].
  destruct (C05_table_par_nodup co_ti 7 co_wf CleanLEL (or_introl eq_refl) 2 (le_S 1 1 (le_n 1)) 22 2 200 co_sched
              (le_S 1 1 (le_n 1))) as (_ & _ & A3 & _).
  exact (A3 8 co_opt).
Qed.

Check @par_no_deadlock_nodup.
Check @par_never_crashes_nodup.
Check @par_terminates_nodup.
Check @par_optimal_nodup.
Check @par_optimal_primal_nodup.
Check @par_correct_nodup.
Check @par_anytime_sound_nodup.
Check @par_anytime_sound_any_end_nodup.
Check @C03_parallel_optimal_nodup.
Check @C03_parallel_optimal_finished_nodup.
Check @C04_parallel_terminates_nodup.
Check @C04_parallel_no_deadlock_no_crash_nodup.
Check @C04_parallel_run_no_deadlock_nodup.
Check @C05_parallel_anytime_nodup.
Check @C05_parallel_anytime_any_end_nodup.

Print Assumptions par_step_cases_nd.
Print Assumptions par_no_deadlock_nodup.
Print Assumptions par_never_crashes_nodup.
Print Assumptions par_maximize_no_deadlock_no_crash_nodup.
Print Assumptions complete_only_when_idle_nodup.
Print Assumptions par_terminates_nodup.
Print Assumptions par_optimal_nodup.
Print Assumptions par_optimal_primal_nodup.
Print Assumptions par_correct_nodup.
Print Assumptions par_anytime_sound_nodup.
Print Assumptions par_anytime_sound_any_end_nodup.
Print Assumptions C03_parallel_optimal_nodup.
Print Assumptions C03_parallel_optimal_finished_nodup.
Print Assumptions C04_parallel_terminates_nodup.
Print Assumptions C04_parallel_no_deadlock_no_crash_nodup.
Print Assumptions C04_parallel_run_no_deadlock_nodup.
Print Assumptions C05_parallel_anytime_nodup.
Print Assumptions C05_parallel_anytime_any_end_nodup.
Print Assumptions C04_table_par_no_deadlock_no_crash_nodup.
Print Assumptions C04_table_par_terminates_nodup.
Print Assumptions C03_table_par_nodup.
Print Assumptions C05_table_par_nodup.
Print Assumptions co_par_coalesces.
Print Assumptions co_par_run.
Print Assumptions co_par_by_theorem.
Print Assumptions co_par_cutoff.
