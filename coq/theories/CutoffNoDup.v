(* CutoffNoDup.v — the sequential solver model WITH a cutoff, for the NoDupFringe configuration (sc_nodup cfg = true).

   SolverCutoff.v proves the anytime theorems (C05, sequential part) and the monotonicity of the reported bounds in the
   cutoff point (C19) for the SimpleFringe only (config_c contains sc_nodup cfg = false); SolverNoDup.v proves the
   UNINTERRUPTED theorem (C01 / C14) for the NoDupFringe.  This file proves the cutoff theorems for the NoDupFringe.

   Storey 0 (OrderedIface): what the upper-bound argument needs from the fringe, and SolverNoDup.v does not provide:
       kord f          = FringeProofs.heap_ord (MaxUB on keyed sub-problems): the heap order of the indexed binary heap
       k_push_ord      a push (fresh or COALESCING) keeps kord          (FringeProofs.maxub_nd_push_inv)
       k_pop_max       a pop keeps kord and returns x with  sp_ub y <= sp_ub x  for every y of the abstract content
                       (FringeProofs.maxub_pop_is_max + maxub_le_lex)   — the counterpart of SolverProofs.pq_pop_max
     These two facts are proved in FringeProofs.v for the MaxUB comparator over a state ranking that is a total
     preorder; hence the extra premise rank_ok (antisymmetry + transitivity of sc_ranking cfg).  The uninterrupted
     theorem of SolverNoDup.v does not need it (there the popped element need not be maximal); here the reported upper
     bound at the cutoff is the ub of the LAST POPPED node, and it is sound only because that node was ub-maximal.
     (Not proved here: only the sp_ub-projection of the heap order is used, and every comparison MaxUB makes is decided
     by sp_ub whenever the two ubs differ, whatever the ranking does; so rank_ok is presumably dispensable, at the price
     of redoing the bubble_up / bubble_down order proofs of FringeProofs.v for the projected order.)
   Storey 1 (AnytimeNoDup): seq_anytime_sound_nodup, seq_anytime_lb_le_ub_nodup (C05) and cutoff_monotone_nodup,
     cutoff_monotone_gen_nodup, cutoff_eventually_full_nodup (C19): the statements of SolverCutoff.v with
     sc_nodup cfg = true, under the extra premises st_eqb_spec, coalesce_ok (as in SolverNoDup.v) and rank_ok.
       Invariant J = Core /\ Compl /\ HO /\ UbB : SolverNoDup's Core / Compl (with the weakened witness Wit), HO = kord of
       the fringe, UbB = every entry of the abstract content has sp_ub <= s_ub.  A coalescing push replaces an entry by
       one whose ub is max(ub new, ub old); both are <= the ub of the node being processed, so UbB survives: the
       monotonicity of the upper bound holds for the NoDupFringe as it does for the SimpleFringe.
     The argument is the anytime half of SolverProofs.Loop and SolverCutoff.Later, read for the ordered NoDupFringe
     (rep_ord: the heap order is part of the representation invariant).
   Storey 2 (MainCutoffNoDup): C05_sequential_anytime_nodup, C19_monotone_nodup, C19_monotone_gen_nodup,
     C19_eventually_full_nodup: the Assembly.v theorems with sc_nodup cfg = true; contracts imported through flip_nodup.
   Storey 3: the table family (C05_table_instances_nodup, C19_table_instances_nodup) and the coalescing instance co_ti
     run with the NoDupFringe at every cutoff index (co_cutoff_bounds).
   Stdlib only, no axioms (Print Assumptions at the end). *)
Require Import DDO.Base DDO.Fringe DDO.FringeProofs DDO.Fringe2 DDO.DP DDO.Cache DDO.Dom DDO.Mdd DDO.Solver DDO.SolverProofs.
Require Import DDO.MddProgress DDO.MddSim DDO.SolverCutoff DDO.Assembly DDO.SolverNoDup.
From Coq Require Import Permutation Arith.
Open Scope Z_scope.

Section OrderedIface.
  Context {St : Type}.
  Variable st_eqb : St -> St -> bool.
  Hypothesis st_eqb_spec : forall a b, st_eqb a b = true <-> a = b.
  Variable st_cmp : St -> St -> comparison.
  Hypothesis st_cmp_antisym : forall a b, st_cmp a b = CompOpp (st_cmp b a).
  Hypothesis st_cmp_trans : forall a b c, st_cmp a b <> Gt -> st_cmp b c <> Gt -> st_cmp a c <> Gt.

  Local Notation KK := (@K St).
  Local Notation keqb := (key_eqb st_eqb).
  Local Notation kr := (kst_cmp st_cmp).
  Local Notation kc := (kcmp st_cmp).
  Local Notation keqb_spec := (key_eqb_spec st_eqb st_eqb_spec).
  Local Notation kr_antisym := (kst_cmp_antisym st_cmp st_cmp_antisym).
  Local Notation kr_trans := (kst_cmp_trans st_cmp st_cmp_trans).

  (* the heap order of the indexed binary heap, for MaxUB on the keyed sub-problems *)
  Definition kord (f : @nodup KK) : Prop := heap_ord kc f.

  Lemma kord_empty : kord nd_empty.
  Proof. exact (nd_inv_ord keqb kc nd_empty (nd_inv_empty keqb kc)). Qed.

  Lemma k_push_ord f n f' : krep st_eqb f -> kord f -> k_push st_eqb st_cmp f n = Some f' -> kord f'.
  Proof.
    intros [Hc _] Ho Hp.
    assert (Hinv : nd_inv keqb kc f) by (apply nd_inv_iff; split; assumption).
    destruct (maxub_nd_push_inv keqb keqb_spec kr kr_antisym kr_trans f (embed n) Hinv) as (f2 & Hp2 & Hinv2).
    unfold k_push in Hp. unfold kcmp in Hp. rewrite Hp2 in Hp. inversion Hp; subst f2.
    exact (nd_inv_ord keqb kc f' Hinv2).
  Qed.

  (* the counterpart of SolverProofs.pq_pop_max *)
  Lemma k_pop_max f f' x : krep st_eqb f -> kord f -> k_pop st_eqb st_cmp f = Some (f', Some x) ->
    kord f' /\ forall y, In y (fl f) -> sp_ub y <= sp_ub x.
  Proof.
    intros [Hc _] Ho Hp.
    assert (Hinv : nd_inv keqb kc f) by (apply nd_inv_iff; split; assumption).
    unfold k_pop in Hp.
    destruct (nd_pop keqb kc f) as [[f1 r]|] eqn:Epop; [|discriminate].
    destruct r as [x0|]; cbn [option_map] in Hp; [|discriminate]. inversion Hp; subst f1 x. clear Hp.
    destruct (maxub_pop_is_max keqb keqb_spec kr kr_antisym kr_trans f f' x0 Hinv Epop) as (Hinv' & [_ Hmax] & _).
    split; [exact (nd_inv_ord keqb kc f' Hinv')|].
    intros y Hy. unfold fl in Hy. apply in_map_iff in Hy. destruct Hy as (y0 & <- & Hy0).
    specialize (Hmax y0 Hy0). apply (maxub_le_lex kr) in Hmax.
    change (sp_ub (unembed y0)) with (sp_ub y0). change (sp_ub (unembed x0)) with (sp_ub x0). lia.
  Qed.
End OrderedIface.

Section AnytimeNoDup.
  Context {St : Type}.
  Variable st_eqb : St -> St -> bool.
  Hypothesis st_eqb_spec : forall a b, st_eqb a b = true <-> a = b.

  (* configuration: no cache, NoDupFringe, no dominance rule, ANY cutoff *)
  Definition config_cn (cfg : @sconfig St) : Prop :=
    sc_use_cache cfg = false /\ sc_domrule cfg = None /\ sc_nodup cfg = true.

  (* extra premise: the state ranking is a total preorder (what Rust's Ord contract demands of StateRanking::compare).
     FringeProofs.v proves the heap order of the NoDupFringe under exactly these two facts. *)
  Definition rank_ok (cfg : @sconfig St) : Prop :=
    (forall a b, sc_ranking cfg a b = CompOpp (sc_ranking cfg b a)) /\
    (forall a b c, sc_ranking cfg a b <> Gt -> sc_ranking cfg b c <> Gt -> sc_ranking cfg a c <> Gt).

  Variable good : @subproblem St -> Prop.
  Variable best : @subproblem St -> option Z.
  Variable feasible : list decision -> Z -> Prop.

  (* as in SolverNoDup.v: the value-to-go of a sub-problem is a function of its (state, depth) *)
  Definition coalesce_ok : Prop :=
    forall a b, good a -> good b -> sp_state a = sp_state b -> sp_depth a = sp_depth b ->
    forall oa, best a = Some oa -> best b = Some (oa - sp_value a + sp_value b).

  (* the ordered NoDupFringe meets SolverProofs.fringe_ok with sp_ub-maximal pops: the heap order is part of the
     representation invariant *)
  Definition rep_ord (cfg : @sconfig St) (l : list (@subproblem St)) (f : @nodup (St * nat)) (L : list (@subproblem St)) : Prop :=
    krep st_eqb f /\ kord (sc_ranking cfg) f /\ L = fl f.

  Lemma ordered_fringe_ok cfg : sc_nodup cfg = true -> rank_ok cfg -> coalesce_ok ->
    fringe_ok st_eqb cfg good best key_same (rep_ord cfg) True.
  Proof.
    intros Hnodup [Hra Hrt] Hco. unfold fringe_ok, rep_ord.
    split; [exact key_same_sym|]. split; [exact key_same_depth|].
    split; [intros a b Hga Hgb [Hs Hd]; exact (Hco a b Hga Hgb Hs Hd)|].
    split; [split; [apply krep_empty|split; [exact (kord_empty st_eqb (sc_ranking cfg))|reflexivity]]|].
    split; [intros s L (Hr & _ & ->); rewrite (fr_len_nd cfg Hnodup); exact (fl_len st_eqb _ Hr)|]. split.
    - intros s L n (Hr & Ho & ->).
      destruct (k_push_spec st_eqb st_eqb_spec (sc_ranking cfg) (s_nodup s) n Hr) as (f' & Hp & Hr' & Hpd).
      exists (s_simple s), f', (fl f'). split; [rewrite (fr_push_nd st_eqb cfg Hnodup), Hp; reflexivity|].
      split; [|exact (pushed_key _ _ _ Hpd)].
      split; [exact Hr'|]. split; [exact (k_push_ord st_eqb st_eqb_spec _ Hra Hrt _ _ f' Hr Ho Hp)|reflexivity].
    - intros s L (Hr & Ho & ->) Hne.
      assert (Hlen : nd_len (s_nodup s) <> O).
      { rewrite (fl_len st_eqb _ Hr). destruct (fl (s_nodup s)); [contradiction|discriminate]. }
      destruct (k_pop_spec st_eqb st_eqb_spec (sc_ranking cfg) (s_nodup s) Hr Hlen) as (x & f' & Hpop & Hr' & Hperm).
      destruct (k_pop_max st_eqb st_eqb_spec _ Hra Hrt (s_nodup s) f' x Hr Ho Hpop) as [Ho' Hmax].
      exists x, (s_simple s), f', (fl f'). split; [rewrite (fr_pop_nd st_eqb cfg Hnodup), Hpop; reflexivity|].
      split; [split; [exact Hr'|split; [exact Ho'|reflexivity]]|]. split; [exact Hperm|intros _; exact Hmax].
  Qed.

  Section Fixed.
  Variable cfg : @sconfig St.
  Hypothesis cfg_c : config_cn cfg.
  Hypothesis Hrk : rank_ok cfg.
  Hypothesis HK : contracts st_eqb good best feasible cfg.
  Hypothesis HS : semantics good best feasible cfg.
  Hypothesis Hco : coalesce_ok.

  Local Notation rk := (sc_ranking cfg).
  Local Notation FL s := (fl (s_nodup s)).
  Local Notation NCore := (SolverNoDup.Core st_eqb cfg good feasible).
  Local Notation NCompl := (SolverNoDup.Compl cfg best).
  Local Notation OPTC := (OPT cfg best).

  Lemma no_cache_n : sc_use_cache cfg = false. Proof. apply cfg_c. Qed.
  Lemma nodup_n : sc_nodup cfg = true. Proof. apply cfg_c. Qed.

  (* the anytime invariant *)
  Definition HO (s : @sstate St) : Prop := kord rk (s_nodup s).
  (* every entry of the abstract content of the fringe is bounded by the reported upper bound *)
  Definition UbB (s : @sstate St) : Prop := forall n, In n (FL s) -> sp_ub n <= s_ub s.
  Definition J (s : @sstate St) : Prop := NCore s /\ NCompl s [] /\ HO s /\ UbB s.

  Lemma J_JL s : J s -> JL cfg good best feasible (rep_ord cfg) s.
  Proof.
    intros ((H1 & H2 & H3 & H4 & H5 & H6) & HCo & Hord & HU). exists (FL s).
    split; [unfold CoreL, QL, rep_ord; auto 10|]. split; [exact (Compl_nodup cfg best s [] HCo)|exact HU].
  Qed.

  (* along ANY run: s_lb never decreases, max(s_lb, s_ub) never increases; a run that finished (normally or by
     abort_search) ends in a state with sound bounds *)
  Lemma main_loop_spec_n fuel s s' e : J s -> main_loop st_eqb cfg fuel s = (s', e) ->
    s_lb s <= s_lb s' /\ eub s' <= eub s /\ (e = Finished -> FinalA cfg best feasible s').
  Proof.
    intros HJ. exact (main_loop_bounds st_eqb cfg no_cache_n good best feasible HS O key_same (rep_ord cfg) True
                        (ordered_fringe_ok cfg nodup_n Hrk Hco) HK I fuel s s' e (J_JL s HJ)).
  Qed.

  (* C05, storey 1, NoDupFringe *)
  Theorem seq_anytime_sound_nodup fuel primal : primal_ok feasible primal ->
    let r := maximize st_eqb cfg fuel primal in
    r_outoffuel r = false ->
    r_crash r = false /\
    (forall o, OPTC = Some o -> r_lb r <= o <= r_ub r) /\
    (OPTC = None -> r_value r = None /\ r_sol r = None) /\
    (forall v, r_value r = Some v ->
       r_lb r = v /\ exists sol, r_sol r = Some (sort_by dec_var_cmp sol) /\ feasible sol v) /\
    (r_exact r = true -> r_value r = OPTC).
  Proof.
    intros Hp r Hnf.
    destruct (anytime_sound st_eqb cfg no_cache_n good best feasible HS O key_same (rep_ord cfg) True
                (ordered_fringe_ok cfg nodup_n Hrk Hco) HK I fuel primal Hp Hnf) as (A1 & A2 & A3 & A4 & A5 & _).
    auto.
  Qed.

  (* the reported interval is never empty *)
  Theorem seq_anytime_lb_le_ub_nodup fuel primal : primal_ok feasible primal ->
    let r := maximize st_eqb cfg fuel primal in
    r_outoffuel r = false -> r_lb r <= r_ub r.
  Proof.
    intros Hp r Hnf.
    apply (anytime_sound st_eqb cfg no_cache_n good best feasible HS O key_same (rep_ord cfg) True
             (ordered_fringe_ok cfg nodup_n Hrk Hco) HK I fuel primal Hp Hnf).
  Qed.

  (* run-internal monotonicity; as for the SimpleFringe, s_ub itself is NOT monotone along a run
     (SolverCutoff.SubCounterexample does not depend on the fringe), max(s_lb, s_ub) is *)
  Lemma main_loop_lb_monotone_nodup fuel s s' e : J s -> main_loop st_eqb cfg fuel s = (s', e) -> s_lb s <= s_lb s'.
  Proof. intros HJ H. destruct (main_loop_spec_n _ _ _ _ HJ H) as (H1 & _). exact H1. Qed.

  Lemma main_loop_ub_monotone_partial_nodup fuel s s' e : J s -> main_loop st_eqb cfg fuel s = (s', e) ->
    Z.max (s_lb s') (s_ub s') <= Z.max (s_lb s) (s_ub s) /\ s_ub s' <= Z.max (s_lb s) (s_ub s) /\
    (e = Finished -> s_lb s' <= s_ub s').
  Proof.
    intros HJ H. destruct (main_loop_spec_n _ _ _ _ HJ H) as (_ & H2 & H3). unfold eub in H2.
    split; [exact H2|]. split; [lia|]. intros He. apply (H3 He).
  Qed.
  End Fixed.

  (* C19: monotonicity in the cutoff point *)
  Section Mono.
  Variable cfg : @sconfig St.
  Hypothesis cfg_c : config_cn cfg.
  Hypothesis Hrk : rank_ok cfg.
  Hypothesis HKall : forall k, contracts st_eqb good best feasible (with_cutoff cfg k).
  Hypothesis HS : semantics good best feasible cfg.
  Hypothesis Hco : coalesce_ok.

  (* R st_eqb cfg k fuel primal = maximize st_eqb (with_cutoff cfg k) fuel primal  (SolverCutoff.R) *)
  Notation Rn := (R st_eqb cfg).

  (* C19 (i): cutting later never loosens the bounds.  k2 = 0 (no cutoff at all) is allowed; no assumption on fuel *)
  Theorem cutoff_monotone_gen_nodup k1 k2 fuel primal : primal_ok feasible primal -> later k1 k2 ->
    r_lb (Rn k1 fuel primal) <= r_lb (Rn k2 fuel primal) /\ r_ub (Rn k2 fuel primal) <= r_ub (Rn k1 fuel primal).
  Proof.
    exact (cutoff_monotone_later st_eqb good best feasible cfg (proj1 cfg_c) key_same (rep_ord cfg) True I HS
             (ordered_fringe_ok cfg (proj2 (proj2 cfg_c)) Hrk Hco) HKall k1 k2 fuel primal).
  Qed.

  Theorem cutoff_monotone_nodup k fuel primal : primal_ok feasible primal -> (1 <= k)%nat ->
    r_lb (Rn k fuel primal) <= r_lb (Rn (S k) fuel primal) /\ r_ub (Rn (S k) fuel primal) <= r_ub (Rn k fuel primal).
  Proof. intros Hp Hk. apply cutoff_monotone_gen_nodup; [exact Hp|]. split; [lia|right; lia]. Qed.

  (* C19 (ii): beyond some cutoff value the run IS the uninterrupted run, in every result field
     (needs nothing but sc_use_cache cfg = false) *)
  Theorem cutoff_eventually_full_nodup fuel primal :
    exists K, forall k, (K < k)%nat -> Rn k fuel primal = Rn 0 fuel primal.
  Proof. exact (eventually_full st_eqb cfg (proj1 cfg_c) fuel primal). Qed.
  End Mono.
End AnytimeNoDup.

Print Assumptions seq_anytime_sound_nodup.
Print Assumptions seq_anytime_lb_le_ub_nodup.
Print Assumptions main_loop_lb_monotone_nodup.
Print Assumptions main_loop_ub_monotone_partial_nodup.
Print Assumptions cutoff_monotone_gen_nodup.
Print Assumptions cutoff_monotone_nodup.
Print Assumptions cutoff_eventually_full_nodup.

(* The Assembly.v theorems with the NoDupFringe.
   The contracts (for every cutoff) are statements about Mdd.compile on mk_input cfg .., and mk_input does not read
   sc_nodup; Assembly.contracts_hold / contracts_all carry the hypothesis sc_nodup cfg = false, so they are imported
   through SolverNoDup.flip_nodup, whose contracts are convertible to those of cfg. *)
Section MainCutoffNoDup.
  Context {St : Type}.
  Variable st_eqb : St -> St -> bool.
  Hypothesis st_eqb_spec : forall a b, st_eqb a b = true <-> a = b.
  Variable cfg : @sconfig St.
  Local Notation pb := (sc_problem cfg).
  Local Notation N := (nb_vars (sc_problem cfg)).

  (* as Assembly.Main / Assembly.Cutoffs, except for the fringe *)
  Hypothesis cfg_clean : sc_flavour cfg = CleanLEL \/ sc_flavour cfg = CleanFC.
  Hypothesis cfg_nocache : sc_use_cache cfg = false.
  Hypothesis cfg_nodom : sc_domrule cfg = None.
  Hypothesis cfg_nodup : sc_nodup cfg = true.
  Hypothesis cfg_width : (1 <= sc_width cfg)%nat.
  (* extra: StateRanking::compare is a total preorder (the heap order of the NoDupFringe depends on it) *)
  Hypothesis rk_antisym : forall a b, sc_ranking cfg a b = CompOpp (sc_ranking cfg b a).
  Hypothesis rk_trans : forall a b c, sc_ranking cfg a b <> Gt -> sc_ranking cfg b c <> Gt -> sc_ranking cfg a c <> Gt.
  (* the user's model, as in Assembly.v *)
  Hypothesis nv_static : forall k l1 l2, next_variable pb k l1 = next_variable pb k l2.
  Hypothesis nv_some : forall k l, (k < N)%nat -> exists x, next_variable pb k l = Some x.
  Hypothesis nv_none : forall k l, (N <= k)%nat -> next_variable pb k l = None.
  Hypothesis Hwf : wf_relaxation cfg.
  Variable B : Z.
  Hypothesis HB : 2 * B <= IMAX.
  Hypothesis guard0 : forall ds s' v', frun pb 0 (init_state pb) (init_value pb) ds = Some (s', v') -> - B <= v' <= B.

  Local Notation cfgF := (flip_nodup cfg).
  Local Notation good := (sgood pb).
  Local Notation feas := (sfeasible pb).
  Local Notation bst := (MddSim.best cfg).

  Lemma HwfF_c : wf_relaxation cfgF. Proof. exact Hwf. Qed.

  Lemma contracts_hold_nodup : contracts st_eqb good bst feas cfg.
  Proof.
    exact (contracts_hold st_eqb st_eqb_spec cfgF cfg_clean cfg_nocache cfg_nodom eq_refl cfg_width
             nv_static nv_some nv_none HwfF_c B HB guard0).
  Qed.

  Lemma contracts_all_nodup k : contracts st_eqb good bst feas (with_cutoff cfg k).
  Proof.
    exact (contracts_all st_eqb st_eqb_spec cfgF cfg_clean cfg_nocache cfg_nodom eq_refl cfg_width
             nv_static nv_some nv_none HwfF_c B HB guard0 k).
  Qed.

  Let sem : semantics good bst feas cfg := semantics_hold cfg cfg_width nv_static nv_some nv_none B HB guard0.
  Let cc : config_cn cfg := conj cfg_nocache (conj cfg_nodom cfg_nodup).
  Let rko : rank_ok cfg := conj rk_antisym rk_trans.
  Let cok : coalesce_ok good bst := fun a b _ _ => best_coalesce_ok cfg a b.

  (* C05 (sequential), NoDupFringe: anytime soundness, ANY cutoff — the statement of Assembly.C05_sequential_anytime *)
  Theorem C05_sequential_anytime_nodup : forall fuel primal,
    primal_ok feas primal ->
    let r := maximize st_eqb cfg fuel primal in
    r_outoffuel r = false ->
    r_crash r = false /\
    r_lb r <= r_ub r /\
    (forall o, opt_enum pb = Some o -> r_lb r <= o <= r_ub r) /\
    (opt_enum pb = None -> r_value r = None /\ r_sol r = None) /\
    (forall v, r_value r = Some v ->
       r_lb r = v /\ exists sol, r_sol r = Some (sort_by dec_var_cmp sol) /\ feas sol v /\ MddProgress.feasible pb sol v) /\
    (r_exact r = true -> r_value r = opt_enum pb).
  Proof.
    intros fuel primal Hp r Hf.
    destruct (seq_anytime_sound_nodup st_eqb st_eqb_spec good bst feas cfg cc rko contracts_hold_nodup sem cok fuel primal Hp Hf)
      as (A1 & A2 & A3 & A4 & A5).
    pose proof (seq_anytime_lb_le_ub_nodup st_eqb st_eqb_spec good bst feas cfg cc rko contracts_hold_nodup sem cok fuel primal Hp Hf)
      as A6.
    rewrite OPT_is_opt_enum in A2, A3, A5.
    split; [exact A1|]. split; [exact A6|]. split; [exact A2|]. split; [exact A3|]. split; [|exact A5].
    intros v Hv. destruct (A4 v Hv) as (E & sol & S1 & S2). split; [exact E|]. exists sol. split; [exact S1|].
    split; [exact S2|]. apply (sfeasible_feasible pb B HB guard0). exact S2.
  Qed.

  (* C19, NoDupFringe: a later cutoff never gives worse bounds — the statements of Assembly.C19_monotone(_gen) *)
  Theorem C19_monotone_gen_nodup : forall k1 k2 fuel primal,
    primal_ok feas primal -> later k1 k2 ->
    r_lb (maximize st_eqb (with_cutoff cfg k1) fuel primal) <= r_lb (maximize st_eqb (with_cutoff cfg k2) fuel primal) /\
    r_ub (maximize st_eqb (with_cutoff cfg k2) fuel primal) <= r_ub (maximize st_eqb (with_cutoff cfg k1) fuel primal).
  Proof.
    intros k1 k2 fuel primal Hp Hl.
    exact (cutoff_monotone_gen_nodup st_eqb st_eqb_spec good bst feas cfg cc rko contracts_all_nodup sem cok k1 k2 fuel primal Hp Hl).
  Qed.

  Theorem C19_monotone_nodup : forall k fuel primal,
    primal_ok feas primal -> (1 <= k)%nat ->
    r_lb (maximize st_eqb (with_cutoff cfg k) fuel primal) <= r_lb (maximize st_eqb (with_cutoff cfg (S k)) fuel primal) /\
    r_ub (maximize st_eqb (with_cutoff cfg (S k)) fuel primal) <= r_ub (maximize st_eqb (with_cutoff cfg k) fuel primal).
  Proof.
    intros k fuel primal Hp Hk.
    exact (cutoff_monotone_nodup st_eqb st_eqb_spec good bst feas cfg cc rko contracts_all_nodup sem cok k fuel primal Hp Hk).
  Qed.

  Theorem C19_eventually_full_nodup : forall fuel primal,
    exists K, forall k, (K < k)%nat ->
      maximize st_eqb (with_cutoff cfg k) fuel primal = maximize st_eqb (with_cutoff cfg 0) fuel primal.
  Proof. intros fuel primal. exact (cutoff_eventually_full_nodup st_eqb cfg cc fuel primal). Qed.
End MainCutoffNoDup.

Print Assumptions C05_sequential_anytime_nodup.
Print Assumptions C19_monotone_nodup.
Print Assumptions C19_monotone_gen_nodup.
Print Assumptions C19_eventually_full_nodup.

(* non-vacuity: the table family of TableWf.v *)
Require Import DDO.Table DDO.Run DDO.TableWf.

(* the ranking of the family (Vec<u32> : Ord, lexicographic) is a total preorder *)
Lemma lex_cmp_Z_antisym : forall a b : list Z, lex_cmp Zcmp a b = CompOpp (lex_cmp Zcmp b a).
Proof.
  induction a as [|x a IH]; intros [|y b]; cbn [lex_cmp CompOpp]; try reflexivity.
  rewrite (IH b). generalize (lex_cmp Zcmp b a). intros c.
  unfold Zcmp. rewrite (Z.compare_antisym y x).
  destruct (y ?= x); cbn [CompOpp cmp_then]; reflexivity.
Qed.

Lemma lex_cmp_Z_trans : forall a b c : list Z,
  lex_cmp Zcmp a b <> Gt -> lex_cmp Zcmp b c <> Gt -> lex_cmp Zcmp a c <> Gt.
Proof.
  induction a as [|x a IH]; intros [|y b] [|z c]; cbn [lex_cmp]; try congruence.
  unfold Zcmp.
  destruct (Z.compare_spec x y) as [E1|E1|E1]; destruct (Z.compare_spec y z) as [E2|E2|E2];
    destruct (Z.compare_spec x z) as [E3|E3|E3]; cbn [cmp_then]; intros H1 H2;
    try congruence; try (exfalso; lia).
  exact (IH b c H1 H2).
Qed.

Lemma t_ranking_antisym : forall a b : tstate, t_ranking a b = CompOpp (t_ranking b a).
Proof. exact lex_cmp_Z_antisym. Qed.
Lemma t_ranking_trans : forall a b c : tstate, t_ranking a b <> Gt -> t_ranking b c <> Gt -> t_ranking a c <> Gt.
Proof. exact lex_cmp_Z_trans. Qed.

Section TableCutoffNoDup.
  Variable ti : tinst.
  Variable C : Z.
  Hypothesis Hwf : t_wf ti C.
  Variable flv : flavour.
  Hypothesis Hflv : flv = CleanLEL \/ flv = CleanFC.
  Variable width : nat.
  Hypothesis Hwidth : (1 <= width)%nat.

  (* tb_sconfig ti flv (cache := false) (nodup := TRUE) (dominance := false) width cutoff *)
  Local Notation tcfg := (tb_sconfig ti flv false true false width).

  Local Ltac table_side cutoff :=
    destruct (table_premises ti C Hwf flv Hflv width Hwidth cutoff)
      as (P1 & P2 & P3 & P4 & P5 & P6 & P7 & P8 & P9 & P10 & P11 & P12 & P13).

  (* C05 with the NoDupFringe on the whole family: anytime soundness under any cutoff *)
  Theorem C05_table_instances_nodup : forall cutoff fuel,
    let r := maximize tstate_eqb (tcfg cutoff) fuel None in
    r_outoffuel r = false ->
    r_crash r = false /\ r_lb r <= r_ub r /\
    (forall o, opt_enum (t_problem ti) = Some o -> r_lb r <= o <= r_ub r) /\
    (r_exact r = true -> r_value r = opt_enum (t_problem ti)).
  Proof.
    intros cutoff fuel r Hf. table_side cutoff.
    assert (Hp : primal_ok (sfeasible (t_problem ti)) None) by (intros pv psol E; discriminate).
    destruct (C05_sequential_anytime_nodup tstate_eqb P1 (tcfg cutoff) P2 P3 P4 eq_refl P6 t_ranking_antisym t_ranking_trans
                P7 P8 P9 P10 (tB ti C) P12 P13 fuel None Hp Hf) as (A1 & A2 & A3 & _ & _ & A6).
    auto.
  Qed.

  (* C19 with the NoDupFringe on the whole family *)
  Theorem C19_table_instances_nodup :
    (forall k1 k2 fuel, later k1 k2 ->
       r_lb (maximize tstate_eqb (tcfg k1) fuel None) <= r_lb (maximize tstate_eqb (tcfg k2) fuel None) /\
       r_ub (maximize tstate_eqb (tcfg k2) fuel None) <= r_ub (maximize tstate_eqb (tcfg k1) fuel None)) /\
    (forall fuel, exists K, forall k, (K < k)%nat ->
       maximize tstate_eqb (tcfg k) fuel None = maximize tstate_eqb (tcfg 0) fuel None).
  Proof.
    table_side 0%nat.
    assert (Hp : primal_ok (sfeasible (t_problem ti)) None) by (intros pv psol E; discriminate).
    split.
    - intros k1 k2 fuel Hl.
      exact (C19_monotone_gen_nodup tstate_eqb P1 (tcfg 0) P2 P3 P4 eq_refl P6 t_ranking_antisym t_ranking_trans
               P7 P8 P9 P10 (tB ti C) P12 P13 k1 k2 fuel None Hp Hl).
    - intros fuel.
      exact (C19_eventually_full_nodup tstate_eqb (tcfg 0) P3 P4 eq_refl fuel None).
  Qed.
End TableCutoffNoDup.

(* the coalescing instance co_ti of SolverNoDup.v
   (4 variables, width 2, optimum 8; processing [2] pushes ([3], depth 2, value 1, ub 8) onto the entry
   ([3], depth 2, value 0, ub 7), SolverNoDup.co_coalesces), run with the NoDupFringe under EVERY cutoff.
   The uninterrupted run polls the cutoff 24 times (co_full): cutoff k in 1..24 fires at poll k, cutoff 25 never fires. *)
Definition co_cfg (nodupf : bool) (k : nat) : @sconfig tstate := tb_sconfig co_ti CleanLEL false nodupf false 2 k.
(* (lower bound, upper bound, exact?, nodes popped) reported with cutoff k *)
Definition co_report (nodupf : bool) (k : nat) : Z * Z * bool * nat :=
  let r := maximize tstate_eqb (co_cfg nodupf k) 40 None in (r_lb r, r_ub r, r_exact r, r_explored r).

Example co_full :
  let r := maximize tstate_eqb (co_cfg true 0) 40 None in
  (r_lb r, r_ub r, r_exact r, r_polls r, r_explored r, r_crash r, r_outoffuel r) = (8, 8, true, 24%nat, 4%nat, false, false).
Proof. vm_compute. reflexivity. Qed.

(* the reported bounds at every cutoff index 1..25: the lower bound goes IMIN, 4, 8 and the upper bound
   IMAX, 11, 9, 8 — the last popped node ([3], depth 2) is the COALESCED entry, whose ub 8 = max 8 7 *)
Example co_cutoff_bounds :
  map (co_report true) (seq 1 25) =
     repeat (IMIN, IMAX, false, 1%nat) 4 ++ repeat (4, IMAX, false, 1%nat) 4
  ++ repeat (4, 11, false, 2%nat) 6 ++ repeat (4, 9, false, 3%nat) 6 ++ repeat (4, 8, false, 4%nat) 4
  ++ [(8, 8, true, 4%nat)].
Proof. vm_compute. reflexivity. Qed.

(* the SimpleFringe reports the same bounds at every cutoff; only the uninterrupted run differs (it pops the stale
   duplicate of [3] as a fifth node) *)
Example co_cutoff_bounds_simple :
  map (fun k => let '(lb, ub, ex, _) := co_report false k in (lb, ub, ex)) (seq 1 25) =
  map (fun k => let '(lb, ub, ex, _) := co_report true k in (lb, ub, ex)) (seq 1 25) /\
  co_report false 25 = (8, 8, true, 5%nat).
Proof.
  split; [|vm_compute; reflexivity].
  (* the NoDupFringe side is co_cutoff_bounds: only the SimpleFringe runs are evaluated here *)
  transitivity (map (fun '(lb, ub, ex, _) => (lb, ub, ex)) (map (co_report true) (seq 1 25))).
  - rewrite co_cutoff_bounds. vm_compute. reflexivity.
  - exact (map_map (co_report true) _ (seq 1 25)).
Qed.

(* ... as the theorems say they must: every reported interval contains the optimum 8, and the sequence is monotone *)
Example co_C05_nodup : forall k fuel,
  let r := maximize tstate_eqb (co_cfg true k) fuel None in
  r_outoffuel r = false -> r_crash r = false /\ r_lb r <= 8 <= r_ub r /\ (r_exact r = true -> r_value r = Some 8).
Proof.
  intros k fuel r Hf.
  destruct (C05_table_instances_nodup co_ti 7 co_wf CleanLEL (or_introl eq_refl) 2 (le_S 1 1 (le_n 1)) k fuel Hf)
    as (A1 & _ & A3 & A4).
  rewrite co_opt in A4. split; [exact A1|]. split; [exact (A3 8 co_opt)|exact A4].
Qed.

Example co_C19_nodup : forall k fuel, (1 <= k)%nat ->
  r_lb (maximize tstate_eqb (co_cfg true k) fuel None) <= r_lb (maximize tstate_eqb (co_cfg true (S k)) fuel None) /\
  r_ub (maximize tstate_eqb (co_cfg true (S k)) fuel None) <= r_ub (maximize tstate_eqb (co_cfg true k) fuel None).
Proof.
  intros k fuel Hk.
  destruct (C19_table_instances_nodup co_ti 7 co_wf CleanLEL (or_introl eq_refl) 2 (le_S 1 1 (le_n 1))) as [Hm _].
  apply (Hm k (S k) fuel). split; [lia|right; lia].
Qed.

Print Assumptions k_push_ord.
Print Assumptions k_pop_max.
Print Assumptions C05_table_instances_nodup.
Print Assumptions C19_table_instances_nodup.
Print Assumptions co_full.
Print Assumptions co_cutoff_bounds.
Print Assumptions co_cutoff_bounds_simple.
Print Assumptions co_C05_nodup.
Print Assumptions co_C19_nodup.
