(* Cache.v — model of SimpleCache (ddo/src/implementation/cache/simple.rs), of
   Threshold's derived order and of Cache::must_explore (ddo/src/abstraction/cache.rs);
   its sequential specification and the refinement / commutation theorems (C18, C09 level 1). *)
Require Import DDO.Base.
Open Scope Z_scope.

Record threshold := { th_value : Z; th_explored : bool }.

(* #[derive(PartialOrd, Ord)] on struct Threshold { value, explored }: lexicographic, false < true *)
Definition bool_cmp (a b : bool) : comparison :=
  match a, b with false, true => Lt | true, false => Gt | _, _ => Eq end.
Definition th_cmp (a b : threshold) : comparison :=
  cmp_then (Zcmp (th_value a) (th_value b)) (bool_cmp (th_explored a) (th_explored b)).
(* Ord::max(self, other): returns other when self <= other *)
Definition th_max (a b : threshold) : threshold := if is_gt (th_cmp a b) then a else b.
Definition th_le (a b : threshold) : Prop := th_cmp a b <> Gt.

(* The derived order is that of the integer 2 * value + [explored], so [th_max] is the join of a total order. *)
Definition th_key (t : threshold) : Z := 2 * th_value t + (if th_explored t then 1 else 0).

Lemma th_cmp_key a b : th_cmp a b = Z.compare (th_key a) (th_key b).
Proof.
  destruct a as [va ea], b as [vb eb]; unfold th_cmp, th_key, Zcmp, cmp_then; cbn [th_value th_explored].
  destruct (Z.compare_spec va vb) as [->|Hc|Hc].
  - rewrite Z.add_compare_mono_l. destruct ea, eb; reflexivity.
  - symmetry. apply Z.compare_lt_iff. destruct ea, eb; lia.
  - symmetry. apply Z.compare_gt_iff. destruct ea, eb; lia.
Qed.

Lemma th_cmp_refl a : th_cmp a a = Eq.
Proof. rewrite th_cmp_key. apply Z.compare_refl. Qed.

Lemma th_cmp_Eq a b : th_cmp a b = Eq -> a = b.
Proof.
  destruct a as [va ea], b as [vb eb]; unfold th_cmp, Zcmp, cmp_then; cbn [th_value th_explored].
  destruct (Z.compare_spec va vb) as [->| |]; try discriminate.
  destruct ea, eb; try discriminate; reflexivity.
Qed.

Lemma th_cmp_Gt_iff a b : th_cmp a b = Gt <->
  (th_value a > th_value b \/ (th_value a = th_value b /\ th_explored a = true /\ th_explored b = false)).
Proof.
  unfold th_cmp, Zcmp, Z.gt.
  destruct (Z.compare_spec (th_value a) (th_value b)) as [E|E|E]; simpl.
  - split; [|intros [H|(_ & -> & ->)]; [discriminate H|reflexivity]].
    destruct (th_explored a), (th_explored b); try discriminate. auto.
  - split; [discriminate|]. intros [H|[H _]]; [discriminate H|lia].
  - split; auto.
Qed.

Lemma th_key_inj a b : th_key a = th_key b -> a = b.
Proof. intros H. apply th_cmp_Eq. rewrite th_cmp_key, H. apply Z.compare_refl. Qed.

Lemma th_le_key a b : th_le a b <-> th_key a <= th_key b.
Proof. unfold th_le. rewrite th_cmp_key. symmetry. apply Z.compare_le_iff. Qed.

Lemma th_le_refl a : th_le a a.
Proof. apply th_le_key, Z.le_refl. Qed.

Lemma th_le_trans a b c : th_le a b -> th_le b c -> th_le a c.
Proof. intros H1 H2. apply th_le_key in H1, H2. apply th_le_key. exact (Z.le_trans _ _ _ H1 H2). Qed.

Lemma th_max_key a b : th_key (th_max a b) = Z.max (th_key a) (th_key b).
Proof.
  unfold th_max, Z.max. rewrite th_cmp_key.
  destruct (Z.compare_spec (th_key a) (th_key b)); cbn [is_gt]; auto.
Qed.

Lemma th_max_comm a b : th_max a b = th_max b a.
Proof. apply th_key_inj. rewrite !th_max_key. apply Z.max_comm. Qed.

Lemma th_max_assoc a b c : th_max a (th_max b c) = th_max (th_max a b) c.
Proof. apply th_key_inj. rewrite !th_max_key. apply Z.max_assoc. Qed.

Lemma th_max_idem a : th_max a a = a.
Proof. apply th_key_inj. rewrite th_max_key. apply Z.max_id. Qed.

Lemma th_max_ub a b : th_le a (th_max a b) /\ th_le b (th_max a b).
Proof. split; apply th_le_key; rewrite th_max_key; [apply Z.le_max_l|apply Z.le_max_r]. Qed.

Section Cache.
  Context {St : Type}.
  Variable eqb : St -> St -> bool.
  Hypothesis eqb_spec : forall a b, eqb a b = true <-> a = b.

  (* one DashMap per depth, as an association list with unique keys *)
  Definition layer := list (St * threshold).
  Definition cache := list layer.

  Definition init_cache (nvars : nat) : cache := repeat ([] : layer) (S nvars).

  Fixpoint lget (l : layer) (s : St) : option threshold :=
    match l with
    | [] => None
    | (k, t) :: l' => if eqb k s then Some t else lget l' s
    end.

  (* entry(state).and_modify(e := max new e).or_insert(new) *)
  Fixpoint lupdate (l : layer) (s : St) (t : threshold) : layer :=
    match l with
    | [] => [(s, t)]
    | (k, t0) :: l' => if eqb k s then (k, th_max t t0) :: l' else (k, t0) :: lupdate l' s t
    end.

  (* None = the Rust code panics (index out of bounds on thresholds_by_layer[depth]) *)
  Definition get_threshold (c : cache) (s : St) (d : nat) : option (option threshold) :=
    match nth_error c d with None => None | Some l => Some (lget l s) end.

  Definition update_threshold (c : cache) (s : St) (d : nat) (v : Z) (e : bool) : option cache :=
    match nth_error c d with
    | None => None
    | Some _ => Some (upd_nth d (fun l => lupdate l s {| th_value := v; th_explored := e |}) c)
    end.

  Definition clear_layer (c : cache) (d : nat) : option cache :=
    match nth_error c d with None => None | Some _ => Some (upd_nth d (fun _ => []) c) end.

  Definition clear (c : cache) : cache := map (fun _ => []) c.

  (* Cache::must_explore *)
  Definition must_explore_th (ot : option threshold) (value : Z) : bool :=
    match ot with
    | Some t => (value >? th_value t) || ((value =? th_value t) && negb (th_explored t))
    | None => true
    end.
  Definition must_explore (c : cache) (s : St) (d : nat) (value : Z) : option bool :=
    option_map (fun ot => must_explore_th ot value) (get_threshold c s d).

  Inductive cop :=
  | OpUpdate (s : St) (d : nat) (v : Z) (e : bool)
  | OpClearLayer (d : nat)
  | OpClear.

  Definition cstep (c : cache) (o : cop) : option cache :=
    match o with
    | OpUpdate s d v e => update_threshold c s d v e
    | OpClearLayer d => clear_layer c d
    | OpClear => Some (clear c)
    end.

  Fixpoint crun (c : cache) (ops : list cop) : option cache :=
    match ops with
    | [] => Some c
    | o :: ops' => match cstep c o with None => None | Some c' => crun c' ops' end
    end.

  (* Sequential specification:
     the maximum (in th_cmp order) of all thresholds recorded for (s, d) since d was last cleared.
     Written as a recursion over the history, most recent operation last. *)
  Definition omax_th (a : option threshold) (t : threshold) : option threshold :=
    match a with None => Some t | Some t0 => Some (th_max t t0) end.

  Fixpoint spec_get_from (acc : option threshold) (ops : list cop) (s : St) (d : nat) : option threshold :=
    match ops with
    | [] => acc
    | OpUpdate s' d' v e :: ops' =>
        if Nat.eqb d' d && eqb s' s
        then spec_get_from (omax_th acc {| th_value := v; th_explored := e |}) ops' s d
        else spec_get_from acc ops' s d
    | OpClearLayer d' :: ops' => if Nat.eqb d' d then spec_get_from None ops' s d else spec_get_from acc ops' s d
    | OpClear :: ops' => spec_get_from None ops' s d
    end.
  Definition spec_get (ops : list cop) (s : St) (d : nat) : option threshold := spec_get_from None ops s d.

  (* all depths mentioned by the operations exist (the solver never uses a depth > nb_variables) *)
  Definition op_in_range (n : nat) (o : cop) : Prop :=
    match o with OpUpdate _ d _ _ => (d < n)%nat | OpClearLayer d => (d < n)%nat | OpClear => True end.

  Lemma eqb_refl a : eqb a a = true. Proof. apply eqb_spec; reflexivity. Qed.

  Lemma lget_lupdate l s t s' : lget (lupdate l s t) s' = if eqb s s' then omax_th (lget l s') t else lget l s'.
  Proof.
    induction l as [|[k t0] l IH]; simpl.
    - destruct (eqb s s'); reflexivity.
    - destruct (eqb k s) eqn:E; simpl.
      + apply eqb_spec in E; subst k. destruct (eqb s s'); reflexivity.
      + destruct (eqb k s') eqn:E'; [|exact IH].
        destruct (eqb s s') eqn:E2; [|reflexivity].
        apply eqb_spec in E', E2. subst. rewrite eqb_refl in E. discriminate.
  Qed.

  (* the observable content: [get_threshold] without the panic *)
  Definition cget (c : cache) (s : St) (d : nat) : option threshold :=
    match nth_error c d with None => None | Some l => lget l s end.

  Lemma get_threshold_cget c s d : (d < length c)%nat -> get_threshold c s d = Some (cget c s d).
  Proof. intros H. unfold get_threshold, cget. destruct (nth_error_lt_Some c d H) as [l ->]. reflexivity. Qed.

  Lemma cget_upd_nth c n f l s d : nth_error c n = Some l ->
    cget (upd_nth n f c) s d = if Nat.eqb n d then lget (f l) s else cget c s d.
  Proof.
    intros E. unfold cget. destruct (Nat.eqb_spec n d) as [<-|Hne].
    - rewrite (nth_error_upd_nth_same _ _ _ _ E). reflexivity.
    - rewrite nth_error_upd_nth_other by exact Hne. reflexivity.
  Qed.

  Lemma cget_init n s d : cget (init_cache n) s d = None.
  Proof.
    unfold cget, init_cache. destruct (nth_error (repeat ([] : layer) (S n)) d) eqn:E; auto.
    apply nth_error_In in E. apply repeat_spec in E. subst. reflexivity.
  Qed.

  Lemma init_cache_length n : length (init_cache n) = S n.
  Proof. apply repeat_length. Qed.

  Lemma cstep_length c o c' : cstep c o = Some c' -> length c' = length c.
  Proof.
    destruct o as [s d v e|d|]; simpl; unfold update_threshold, clear_layer, clear.
    1-2: destruct (nth_error c d); intros [= <-]; apply upd_nth_length.
    intros [= <-]. apply map_length.
  Qed.

  Lemma cstep_in_range c o : op_in_range (length c) o -> exists c', cstep c o = Some c'.
  Proof.
    destruct o as [s d v e|d|]; simpl; unfold update_threshold, clear_layer; intros H.
    1-2: destruct (nth_error_lt_Some c d H) as [l ->]; eauto.
    eauto.
  Qed.

  (* one step of the cache is one step of the specification, on every key *)
  Lemma cget_cstep c o c' s d : cstep c o = Some c' -> cget c' s d = spec_get_from (cget c s d) [o] s d.
  Proof.
    destruct o as [s' d' v e|d'|]; simpl; unfold update_threshold, clear_layer.
    - destruct (nth_error c d') as [l|] eqn:El; [|discriminate]. intros [= <-].
      rewrite (cget_upd_nth _ _ _ _ s d El), lget_lupdate.
      destruct (Nat.eqb_spec d' d) as [<-|]; [|reflexivity]. unfold cget. rewrite El. reflexivity.
    - destruct (nth_error c d') as [l|] eqn:El; [|discriminate]. intros [= <-].
      rewrite (cget_upd_nth _ _ _ _ s d El). reflexivity.
    - intros [= <-]. unfold cget, clear.
      rewrite nth_error_map. destruct (nth_error c d); reflexivity.
  Qed.

  Lemma cget_step c o c' s d : cstep c o = Some c' -> (d < length c)%nat ->
    cget c' s d =
    match o with
    | OpUpdate s' d' v e => if Nat.eqb d' d && eqb s' s
                            then omax_th (cget c s d) {| th_value := v; th_explored := e |} else cget c s d
    | OpClearLayer d' => if Nat.eqb d' d then None else cget c s d
    | OpClear => None
    end.
  Proof. intros H _. rewrite (cget_cstep _ _ _ s d H). destruct o; reflexivity. Qed.

  Lemma crun_length c ops c' : crun c ops = Some c' -> length c' = length c.
  Proof.
    revert c. induction ops as [|o ops IH]; intros c; simpl.
    - intros [= <-]. reflexivity.
    - destruct (cstep c o) as [c1|] eqn:Es; [|discriminate].
      intros H. rewrite (IH _ H). apply (cstep_length _ _ _ Es).
  Qed.

  Lemma crun_in_range c ops : Forall (op_in_range (length c)) ops -> exists c', crun c ops = Some c'.
  Proof.
    revert c. induction ops as [|o ops IH]; intros c HF; simpl.
    - eauto.
    - inversion HF as [|? ? Ho HF']; subst.
      destruct (cstep_in_range c o Ho) as [c1 Hc1]. rewrite Hc1.
      apply IH. rewrite (cstep_length _ _ _ Hc1). exact HF'.
  Qed.

  Lemma crun_spec_from c ops c' s d : crun c ops = Some c' -> cget c' s d = spec_get_from (cget c s d) ops s d.
  Proof.
    revert c. induction ops as [|o ops IH]; intros c; simpl.
    - intros [= <-]. reflexivity.
    - destruct (cstep c o) as [c1|] eqn:Es; [|discriminate].
      intros Hrun. rewrite (IH c1 Hrun), (cget_cstep _ _ _ s d Es).
      destruct o as [s' d' v e|d'|]; simpl.
      + destruct (Nat.eqb d' d && eqb s' s); reflexivity.
      + destruct (Nat.eqb d' d); reflexivity.
      + reflexivity.
  Qed.

  (* C18, sequential part: after any operation sequence, every (state, depth) reads back the spec value *)
  Theorem cache_refines_spec nvars ops c s d :
    crun (init_cache nvars) ops = Some c -> (d <= nvars)%nat ->
    get_threshold c s d = Some (spec_get ops s d).
  Proof.
    intros Hrun Hd. pose proof (crun_length _ _ _ Hrun) as Hl. rewrite init_cache_length in Hl.
    rewrite get_threshold_cget by lia. rewrite (crun_spec_from _ _ _ s d Hrun), cget_init. reflexivity.
  Qed.

  (* no crash as long as depths are in range *)
  Theorem cache_total nvars ops : Forall (op_in_range (S nvars)) ops ->
    exists c, crun (init_cache nvars) ops = Some c.
  Proof. intros H. apply crun_in_range. rewrite init_cache_length. exact H. Qed.

  (* clearing one layer affects no other *)
  Theorem clear_layer_other_layers c d c' s d' :
    clear_layer c d = Some c' -> d' <> d -> get_threshold c' s d' = get_threshold c s d'.
  Proof.
    unfold clear_layer, get_threshold. destruct (nth_error c d); intros [= <-] Hne.
    rewrite nth_error_upd_nth_other by auto. reflexivity.
  Qed.

  (* a stored threshold never decreases *)
  Theorem update_monotone c s d v e c' t :
    update_threshold c s d v e = Some c' -> cget c s d = Some t ->
    exists t', cget c' s d = Some t' /\ th_le t t'.
  Proof.
    intros Hu Hg. rewrite (cget_cstep c (OpUpdate s d v e) c' s d Hu). simpl.
    rewrite Nat.eqb_refl, eqb_refl, Hg.
    eexists. split; [reflexivity|apply th_max_ub].
  Qed.

  (* Concurrency: every trait method is one atomic map operation (assumption A-dashmap), so a
     concurrent history is an interleaving of atomic steps; updates commute, hence the final cache
     content does not depend on the interleaving.  Stated on the observable content [cget]. *)
  Lemma omax_th_comm a t1 t2 : omax_th (omax_th a t1) t2 = omax_th (omax_th a t2) t1.
  Proof.
    destruct a as [t0|]; simpl; f_equal.
    - rewrite !th_max_assoc, (th_max_comm t2 t1). reflexivity.
    - apply th_max_comm.
  Qed.

  Lemma omax_th_idem a t : omax_th (omax_th a t) t = omax_th a t.
  Proof.
    destruct a as [t0|]; simpl; f_equal.
    - rewrite th_max_assoc, th_max_idem. reflexivity.
    - apply th_max_idem.
  Qed.

  Theorem updates_commute c s1 d1 v1 e1 s2 d2 v2 e2 ca cb s d :
    crun c [OpUpdate s1 d1 v1 e1; OpUpdate s2 d2 v2 e2] = Some ca ->
    crun c [OpUpdate s2 d2 v2 e2; OpUpdate s1 d1 v1 e1] = Some cb ->
    (d < length c)%nat ->
    cget ca s d = cget cb s d.
  Proof.
    intros Ha Hb _. rewrite (crun_spec_from _ _ _ s d Ha), (crun_spec_from _ _ _ s d Hb). simpl.
    destruct (Nat.eqb d1 d && eqb s1 s); destruct (Nat.eqb d2 d && eqb s2 s); auto.
    apply omax_th_comm.
  Qed.

  Theorem update_idempotent c s0 d0 v e c1 c2 s d :
    crun c [OpUpdate s0 d0 v e] = Some c1 -> crun c1 [OpUpdate s0 d0 v e] = Some c2 ->
    (d < length c)%nat -> cget c2 s d = cget c1 s d.
  Proof.
    intros H1 H2 _. rewrite (crun_spec_from _ _ _ s d H2), (crun_spec_from _ _ _ s d H1). simpl.
    destruct (Nat.eqb d0 d && eqb s0 s); auto.
    apply omax_th_idem.
  Qed.
End Cache.
