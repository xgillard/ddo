(* VizProofs.v — C20: faithfulness of as_graphviz (Viz.v), via a structured view of the output.

   (1) an abstract syntax [stmt] for the statements the printer emits, [viz_ast] computing the statement list
       directly from the diagram, a renderer [render], and the exact string equation
         as_graphviz_is_render : as_graphviz show inp m cfg = option_map render (viz_ast show inp m cfg)
       (every diagram, no well-formedness needed);
   (2) the clauses of C20 as theorems about [viz_ast]:
         declared_exactly_once, node_attrs, edges_complete, edges_are_arcs(_wf), edges_into_complete, best_marks,
         terminal_iff, terminal_edges, clusters_only_on_request(_wf);
   (3) light-weight syntactic well-formedness of the rendered string (prefix / suffix, statement = tab .. ";" newline,
       even number of double quotes and exactly one newline per non-cluster statement when [show] is clean);
   (4) C20_as_graphviz_faithful: the clauses for a completed compilation, which is well formed (wf_compile) and has a layer
       (compile_layers_nonempty), both from MddStruct.v;
   (5) non-vacuity: evaluation on compiled table instances.
   Stdlib only; no axiom. *)
From Coq Require Import String Ascii DecimalString.
Require Import DDO.Base DDO.Fringe DDO.DP DDO.Cache DDO.Dom DDO.Mdd DDO.Viz DDO.MddStruct DDO.Table DDO.TableWf DDO.Run.
Open Scope Z_scope.
Open Scope string_scope.

(* ================================================================ (0) strings and lists *)
Lemma sapp_assoc (a b c : string) : (a ++ b) ++ c = a ++ (b ++ c).
Proof. induction a as [|x a IH]; simpl; [reflexivity|rewrite IH; reflexivity]. Qed.

Lemma sapp_nil_r (a : string) : a ++ "" = a.
Proof. induction a as [|x a IH]; simpl; [reflexivity|rewrite IH; reflexivity]. Qed.

Lemma sconcat_app (l1 l2 : list string) : sconcat (l1 ++ l2)%list = sconcat l1 ++ sconcat l2.
Proof. induction l1 as [|x l1 IH]; simpl; [reflexivity|rewrite IH, sapp_assoc; reflexivity]. Qed.

Lemma sconcat_map_app {A} (f : A -> string) (l1 l2 : list A) :
  sconcat (map f (l1 ++ l2)%list) = sconcat (map f l1) ++ sconcat (map f l2).
Proof. rewrite map_app. apply sconcat_app. Qed.

Lemma sconcat_map_flat_map {A B} (f : B -> string) (g : A -> list B) (l : list A) :
  sconcat (map f (flat_map g l)) = sconcat (map (fun x => sconcat (map f (g x))) l).
Proof. induction l as [|x l IH]; simpl; [reflexivity|]. rewrite sconcat_map_app, IH. reflexivity. Qed.

Lemma sconcat_map_ext {A} (f g : A -> string) (l : list A) :
  (forall x, In x l -> f x = g x) -> sconcat (map f l) = sconcat (map g l).
Proof. intros H. f_equal. apply map_ext_in. exact H. Qed.

Lemma flat_map_nil {A B} (f : A -> list B) (l : list A) : Forall (fun x => f x = []) l -> flat_map f l = [].
Proof. intros F. induction F as [|x l Hx _ IH]; simpl; [reflexivity|]. rewrite Hx, IH. reflexivity. Qed.

Lemma filter_nil {A} (p : A -> bool) (l : list A) : Forall (fun x => p x = false) l -> filter p l = [].
Proof. intros F. induction F as [|x l Hx _ IH]; simpl; [reflexivity|]. rewrite Hx, IH. reflexivity. Qed.

Lemma filter_filter_impl {A} (p q : A -> bool) (l : list A) :
  (forall x, p x = true -> q x = true) -> filter p (filter q l) = filter p l.
Proof.
  intros H. induction l as [|x l IH]; simpl; [reflexivity|].
  destruct (q x) eqn:Q; simpl; rewrite IH; [reflexivity|].
  destruct (p x) eqn:Px; [|reflexivity]. rewrite (H x Px) in Q. discriminate.
Qed.

Lemma rev_cons_last {A} (l : list A) (x : A) (r : list A) (d : A) :
  rev l = (x :: r)%list -> last l d = x /\ l <> [].
Proof.
  intros H. assert (E : l = (rev r ++ [x])%list).
  { rewrite <- (rev_involutive l), H. reflexivity. }
  subst l. split; [apply last_last|]. intros C. apply app_eq_nil in C. destruct C as [_ C]. discriminate.
Qed.

Lemma zmax_list_none (l : list Z) : zmax_list l = None -> l = [].
Proof. destruct l as [|x l]; simpl; [reflexivity|]. destruct (zmax_list l); discriminate. Qed.

(* ================================================================ (1) the abstract syntax and its renderer *)
Inductive stmt :=
| SNode (id : nat) (attrs : string)
| SEdge (from to : nat) (best : bool) (d : decision) (cost : Z)
| SCluster (key : string) (ids : list nat)
| STerminalDecl
| STerminalEdge (from : nat) (best : bool).

Definition term_decl_line : string :=
  tab ++ "terminal [shape=" ++ dq ++ "circle" ++ dq ++ ", label=" ++ dq ++ dq ++ ", style=" ++ dq ++ "filled" ++ dq
  ++ ", color=" ++ dq ++ "black" ++ dq ++ ", group=" ++ dq ++ "terminal" ++ dq ++ "];" ++ nl.

(* one statement, with the very helpers of Viz.v: viz_node's format, viz_edge, cluster, the two terminal lines *)
Definition render_stmt (s : stmt) : string :=
  match s with
  | SNode id attrs => tab ++ nstr id ++ " [" ++ attrs ++ "];" ++ nl
  | SEdge f t b d c => viz_edge {| e_from := f; e_to := t; e_dec := d; e_cost := c |} b
  | SCluster key ids => cluster key ids
  | STerminalDecl => term_decl_line
  | STerminalEdge id b =>
      if b then tab ++ nstr id ++ " -> terminal [penwidth=3];" ++ nl
      else tab ++ nstr id ++ " -> terminal;" ++ nl
  end.

Definition viz_header : string := "digraph {" ++ nl ++ tab ++ "ranksep = 3;" ++ nl ++ nl.
Definition viz_footer : string := "}" ++ nl.
Definition render (ast : list stmt) : string := viz_header ++ sconcat (map render_stmt ast) ++ viz_footer.

(* projections of a statement list *)
Definition node_id_of (s : stmt) : list nat := match s with SNode id _ => [id] | _ => [] end.
Definition declared_ids (ast : list stmt) : list nat := flat_map node_id_of ast.
Definition is_node (s : stmt) : bool := match s with SNode _ _ => true | _ => false end.
Definition is_edge (s : stmt) : bool := match s with SEdge _ _ _ _ _ => true | _ => false end.
Definition is_cluster (s : stmt) : bool := match s with SCluster _ _ => true | _ => false end.
Definition is_tdecl (s : stmt) : bool := match s with STerminalDecl => true | _ => false end.
Definition is_term (s : stmt) : bool := match s with STerminalDecl | STerminalEdge _ _ => true | _ => false end.
Definition is_edge_into (t : nat) (s : stmt) : bool := match s with SEdge _ t' _ _ _ => Nat.eqb t' t | _ => false end.
Definition edge_stmts (ast : list stmt) : list stmt := filter is_edge ast.
Definition edges_into (t : nat) (ast : list stmt) : list stmt := filter (is_edge_into t) ast.
Definition term_edge_of (s : stmt) : list (nat * bool) := match s with STerminalEdge id b => [(id, b)] | _ => [] end.
Definition term_edges (ast : list stmt) : list (nat * bool) := flat_map term_edge_of ast.
Definition count_tdecl (ast : list stmt) : nat := List.length (filter is_tdecl ast).

Lemma declared_ids_app a b : declared_ids (a ++ b)%list = (declared_ids a ++ declared_ids b)%list.
Proof. apply flat_map_app. Qed.


(* ---------------------------------------------------------------- counting characters (used by part 3) *)
Fixpoint count_char (c : ascii) (s : string) : nat :=
  match s with
  | EmptyString => 0%nat
  | String a s' => ((if Ascii.eqb a c then 1 else 0) + count_char c s')%nat
  end.

Lemma count_app c a b : count_char c (a ++ b) = (count_char c a + count_char c b)%nat.
Proof. induction a as [|x a IH]; simpl; [reflexivity|]. rewrite IH. lia. Qed.

Definition dqc : ascii := ascii_of_nat 34.     (* the double quote *)
Definition nlc : ascii := ascii_of_nat 10.     (* the newline *)
Lemma dq_is_dqc : dq = String dqc "". Proof. reflexivity. Qed.
Lemma nl_is_nlc : nl = String nlc "". Proof. reflexivity. Qed.

Definition special (c : ascii) : Prop := c = dqc \/ c = nlc.
Lemma special_dq : special dqc. Proof. left; reflexivity. Qed.
Lemma special_nl : special nlc. Proof. right; reflexivity. Qed.

Lemma count_uint c d : special c -> count_char c (NilEmpty.string_of_uint d) = 0%nat.
Proof.
  intros [-> | ->]; induction d; cbn [NilEmpty.string_of_uint count_char]; rewrite ?IHd; reflexivity.
Qed.

Lemma count_zstr c z : special c -> count_char c (zstr z) = 0%nat.
Proof.
  intros Hc. unfold zstr, NilZero.string_of_int.
  assert (U : forall d, count_char c (NilZero.string_of_uint d) = 0%nat).
  { intros d. unfold NilZero.string_of_uint. destruct d; try (apply count_uint; exact Hc).
    destruct Hc as [-> | ->]; reflexivity. }
  destruct (Z.to_int z) as [d|d]; [apply U|]. cbn [count_char]. rewrite U. destruct Hc as [-> | ->]; reflexivity.
Qed.

Lemma count_nstr c n : special c -> count_char c (nstr n) = 0%nat.
Proof. intros; unfold nstr; apply count_zstr; assumption. Qed.

Lemma count_extreme c x : special c -> count_char c (extreme x) = 0%nat.
Proof.
  intros Hc. unfold extreme. destruct (x =? IMAX)%Z; [destruct Hc as [-> | ->]; reflexivity|].
  destruct (x =? IMIN)%Z; [destruct Hc as [-> | ->]; reflexivity|]. apply count_zstr; exact Hc.
Qed.

Lemma count_sjoin c sep (l : list string) :
  count_char c sep = 0%nat -> Forall (fun s => count_char c s = 0%nat) l -> count_char c (sjoin sep l) = 0%nat.
Proof.
  intros Hsep F. induction F as [|x l Hx F IH]; [reflexivity|].
  destruct l as [|y l']; [exact Hx|].
  change (sjoin sep (x :: y :: l')) with (x ++ sep ++ sjoin sep (y :: l')).
  rewrite !count_app, Hx, Hsep, IH. reflexivity.
Qed.

Lemma count_sjoin_nstr c (ids : list nat) : special c -> count_char c (sjoin ";" (map nstr ids)) = 0%nat.
Proof.
  intros Hc. apply count_sjoin.
  - destruct Hc as [-> | ->]; reflexivity.
  - apply Forall_forall. intros s Hs. apply in_map_iff in Hs. destruct Hs as [n [<- _]]. apply count_nstr; exact Hc.
Qed.

(* a statement: a tab, a body, a semicolon, a newline *)
Definition ends_semi_nl (s : string) : Prop := exists body, s = body ++ ";" ++ nl.
Definition line_ok (s : string) : Prop := exists body, s = tab ++ body ++ ";" ++ nl.

Lemma ends_app a b : ends_semi_nl b -> ends_semi_nl (a ++ b).
Proof. intros [body ->]. exists (a ++ body). rewrite sapp_assoc. reflexivity. Qed.
Lemma ends_rbracket : ends_semi_nl ("];" ++ nl).
Proof. exists "]". reflexivity. Qed.
Lemma ends_rbrace : ends_semi_nl ("};" ++ nl).
Proof. exists "}". reflexivity. Qed.
Lemma ends_term3 : ends_semi_nl (" -> terminal [penwidth=3];" ++ nl).
Proof. exists " -> terminal [penwidth=3]". reflexivity. Qed.
Lemma ends_term1 : ends_semi_nl (" -> terminal;" ++ nl).
Proof. exists " -> terminal". reflexivity. Qed.
Lemma line_ok_intro r : ends_semi_nl r -> line_ok (tab ++ r).
Proof. intros [body ->]. exists body. reflexivity. Qed.

Definition stmt_syntax_ok (s : stmt) : Prop :=
  line_ok (render_stmt s) /\
  Nat.even (count_char dqc (render_stmt s)) = true /\
  count_char nlc (render_stmt s) = (if is_cluster s then 5 else 1)%nat.

(* the three clauses from one count of the special characters, [k c] of them for the character c *)
Lemma syntax_ok_intro s (k : ascii -> nat) :
  line_ok (render_stmt s) -> (forall c, special c -> count_char c (render_stmt s) = k c) ->
  Nat.even (k dqc) = true -> k nlc = (if is_cluster s then 5 else 1)%nat -> stmt_syntax_ok s.
Proof. intros L C E N. split; [exact L|]. rewrite !C by (left + right; reflexivity). split; assumption. Qed.

Lemma count_render_node c id a : special c -> count_char c (render_stmt (SNode id a)) = (count_char c a + count_char c nl)%nat.
Proof.
  intros Hc. cbn [render_stmt]. rewrite !count_app, count_nstr by exact Hc.
  generalize (count_char c a). intros k. destruct Hc as [-> | ->]; cbv -[Nat.add]; lia.
Qed.

Lemma syntax_ok_edge f t b d c : stmt_syntax_ok (SEdge f t b d c).
Proof.
  apply (syntax_ok_intro _ (fun c => if Ascii.eqb c dqc then 2 else 1)%nat); [| |reflexivity|reflexivity].
  - cbn [render_stmt]. unfold viz_edge. apply line_ok_intro. repeat first [apply ends_rbracket|apply ends_app].
  - intros c0 Hc. cbn [render_stmt]. unfold viz_edge. cbn [e_from e_to e_dec e_cost].
    rewrite !count_app, !count_nstr, !count_zstr by exact Hc. destruct b, Hc as [-> | ->]; reflexivity.
Qed.

Lemma syntax_ok_cluster k x l : stmt_syntax_ok (SCluster (nstr k) (x :: l)).
Proof.
  apply (syntax_ok_intro _ (fun c => if Ascii.eqb c dqc then 0 else 5)%nat); [| |reflexivity|reflexivity].
  - cbn [render_stmt]. unfold cluster. apply line_ok_intro. repeat first [apply ends_rbrace|apply ends_app].
  - intros c Hc. cbn [render_stmt]. unfold cluster.
    rewrite !count_app, count_nstr, count_sjoin_nstr by exact Hc. destruct Hc as [-> | ->]; reflexivity.
Qed.

Lemma syntax_ok_tdecl : stmt_syntax_ok STerminalDecl.
Proof.
  apply (syntax_ok_intro _ (fun c => count_char c term_decl_line)); [|reflexivity|reflexivity|reflexivity].
  cbn [render_stmt]. unfold term_decl_line. apply line_ok_intro. repeat first [apply ends_rbracket|apply ends_app].
Qed.

Lemma syntax_ok_tedge id b : stmt_syntax_ok (STerminalEdge id b).
Proof.
  apply (syntax_ok_intro _ (fun c => if Ascii.eqb c dqc then 0 else 1)%nat); [| |reflexivity|reflexivity].
  - cbn [render_stmt]. destruct b; apply line_ok_intro; repeat first [apply ends_term3|apply ends_term1|apply ends_app].
  - intros c Hc. cbn [render_stmt]. destruct b; rewrite !count_app, count_nstr by exact Hc; destruct Hc as [-> | ->]; reflexivity.
Qed.

Lemma even_sconcat_map (f : stmt -> string) (l : list stmt) :
  Forall (fun s => Nat.even (count_char dqc (f s)) = true) l ->
  Nat.even (count_char dqc (sconcat (map f l))) = true.
Proof.
  intros F. induction F as [|x l Hx F IH]; [reflexivity|].
  cbn [map sconcat]. rewrite count_app, Nat.even_add, Hx, IH. reflexivity.
Qed.

Lemma render_even_dq (ast : list stmt) :
  Forall stmt_syntax_ok ast -> Nat.even (count_char dqc (render ast)) = true.
Proof.
  intros F. unfold render. rewrite !count_app, !Nat.even_add.
  rewrite even_sconcat_map; [reflexivity|]. eapply Forall_impl; [|exact F]. intros s [_ [E _]]. exact E.
Qed.

Lemma render_shape (ast : list stmt) :
  prefix "digraph {" (render ast) = true /\
  exists mid, render ast = "digraph {" ++ nl ++ tab ++ "ranksep = 3;" ++ nl ++ nl ++ mid ++ "}" ++ nl.
Proof.
  split; [reflexivity|]. exists (sconcat (map render_stmt ast)). unfold render, viz_header, viz_footer.
  rewrite !sapp_assoc. reflexivity.
Qed.

Section VizProofs.
  Context {St : Type}.
  Variable show : St -> string.
  Variable inp : @cinput St.

  Notation mddT := (@mdd St).
  Notation gn := (get_node inp).
  Notation nnodes m := (List.length (m_nodes m)).

  (* hidden by the configuration *)
  Definition hidden (m : mddT) (cfg : vizconfig) (id : nat) : bool :=
    negb (show_deleted cfg) && f_deleted (n_flags (gn m id)).

  (* `Some(edge) == node.best` on edge values *)
  Definition edge_best (m : mddT) (id eid : nat) : bool :=
    match option_map (get_edge m) (n_best (gn m id)) with
    | Some b => edge_eqb (get_edge m eid) b
    | None => false
    end.

  Definition edge_stmt (m : mddT) (id eid : nat) : stmt :=
    let e := get_edge m eid in SEdge (e_from e) (e_to e) (edge_best m id eid) (e_dec e) (e_cost e).

  Definition node_stmts (m : mddT) (cfg : vizconfig) (id : nat) : list stmt :=
    SNode id (node_attributes show inp m id cfg) :: map (edge_stmt m id) (n_inb (gn m id)).

  Definition body_ast (m : mddT) (cfg : vizconfig) : list stmt :=
    flat_map (fun id => if hidden m cfg id then [] else node_stmts m cfg id) (seq 0 (nnodes m)).

  Definition cluster_stmt (key : string) (ids : list nat) : list stmt :=
    match ids with [] => [] | _ => [SCluster key ids] end.

  Fixpoint clusters_clean_ast (m : mddT) (i : nat) (layers : list (list nat)) : list stmt :=
    match layers with
    | [] => []
    | l :: ls => (cluster_stmt (nstr i) (filter (is_merged_or_deleted inp m) l) ++ clusters_clean_ast m (S i) ls)%list
    end.

  Definition clusters_pooled_ast (m : mddT) : list stmt :=
    let ids := filter (is_merged_or_deleted inp m) (seq 0 (nnodes m)) in
    flat_map (fun d => cluster_stmt (nstr d) (filter (fun id => Nat.eqb (n_depth (gn m id)) d) ids))
             (depths_sorted inp m ids).

  Definition clusters_ast (m : mddT) (cfg : vizconfig) : list stmt :=
    if show_deleted cfg && group_merged cfg then
      (if is_pooled (ci_flavour inp) then clusters_pooled_ast m else clusters_clean_ast m 0 (m_layers m))
    else [].

  Definition last_layer (m : mddT) : list nat := last (m_layers m) [].

  Definition terminal_drawn (m : mddT) : bool :=
    match last_layer m with
    | [] => false
    | _ => is_pooled (ci_flavour inp) || match m_best m with Some _ => true | None => false end
    end.

  Definition last_vmax (m : mddT) : Z :=
    opt_default IMAX (zmax_list (map (fun id => n_vtop (gn m id)) (last_layer m))).

  Definition terminal_ast (m : mddT) : list stmt :=
    if terminal_drawn m then
      STerminalDecl :: map (fun id => STerminalEdge id (Z.eqb (n_vtop (gn m id)) (last_vmax m))) (last_layer m)
    else [].

  (* None = layers.last().unwrap() panics *)
  Definition viz_ast (m : mddT) (cfg : vizconfig) : option (list stmt) :=
    match m_layers m with
    | [] => None
    | _ => Some (body_ast m cfg ++ clusters_ast m cfg ++ terminal_ast m)%list
    end.

  (* ---------------------------------------------------------------- rendering the three parts *)
  Lemma render_node_stmt m cfg id :
    render_stmt (SNode id (node_attributes show inp m id cfg)) = viz_node show inp m id cfg.
  Proof. reflexivity. Qed.

  Lemma render_edge_stmt m id eid :
    render_stmt (edge_stmt m id eid) = viz_edge (get_edge m eid) (edge_best m id eid).
  Proof. reflexivity. Qed.

  Lemma render_node_stmts m cfg id :
    sconcat (map render_stmt (node_stmts m cfg id)) = viz_node show inp m id cfg ++ viz_edges_of inp m id.
  Proof.
    unfold node_stmts. rewrite map_cons. change (sconcat (?x :: ?l)) with (x ++ sconcat l).
    rewrite render_node_stmt. f_equal. rewrite map_map. unfold viz_edges_of. reflexivity.
  Qed.

  Lemma render_body m cfg :
    sconcat (map render_stmt (body_ast m cfg)) =
    sconcat (map (fun id =>
        let n := gn m id in
        if negb (show_deleted cfg) && f_deleted (n_flags n) then ""
        else viz_node show inp m id cfg ++ viz_edges_of inp m id) (seq 0 (nnodes m))).
  Proof.
    unfold body_ast. rewrite sconcat_map_flat_map. apply sconcat_map_ext. intros id _.
    unfold hidden. cbv zeta. destruct (negb (show_deleted cfg) && f_deleted (n_flags (gn m id))); [reflexivity|].
    apply render_node_stmts.
  Qed.

  Lemma render_cluster_stmt key ids : sconcat (map render_stmt (cluster_stmt key ids)) = cluster key ids.
  Proof.
    destruct ids as [|i ids]; [reflexivity|]. unfold cluster_stmt. cbn [map sconcat render_stmt]. apply sapp_nil_r.
  Qed.

  Lemma render_clusters_clean m i layers :
    sconcat (map render_stmt (clusters_clean_ast m i layers)) = clusters_clean inp m i layers.
  Proof.
    revert i. induction layers as [|l ls IH]; intros i; [reflexivity|].
    cbn [clusters_clean_ast clusters_clean]. rewrite sconcat_map_app, render_cluster_stmt, IH. reflexivity.
  Qed.

  Lemma render_clusters_pooled m :
    sconcat (map render_stmt (clusters_pooled_ast m)) = clusters_pooled inp m.
  Proof.
    unfold clusters_pooled_ast, clusters_pooled. cbv zeta. rewrite sconcat_map_flat_map.
    apply sconcat_map_ext. intros d _. apply render_cluster_stmt.
  Qed.

  Lemma render_clusters m cfg :
    sconcat (map render_stmt (clusters_ast m cfg)) =
    (if show_deleted cfg && group_merged cfg then
       (if is_pooled (ci_flavour inp) then clusters_pooled inp m else clusters_clean inp m 0 (m_layers m))
     else "").
  Proof.
    unfold clusters_ast. destruct (show_deleted cfg && group_merged cfg); [|reflexivity].
    destruct (is_pooled (ci_flavour inp)); [apply render_clusters_pooled|apply render_clusters_clean].
  Qed.

  Lemma render_terminal_stmts (b : nat -> bool) (L : list nat) :
    sconcat (map render_stmt (STerminalDecl :: map (fun id => STerminalEdge id (b id)) L)) =
    term_decl_line ++ sconcat (map (fun id => render_stmt (STerminalEdge id (b id))) L).
  Proof. cbn [map sconcat render_stmt]. rewrite map_map. reflexivity. Qed.

  Lemma render_terminal m :
    m_layers m <> [] -> viz_terminal inp m = Some (sconcat (map render_stmt (terminal_ast m))).
  Proof.
    intros Hne. unfold viz_terminal, terminal_ast, terminal_drawn, last_vmax, last_layer.
    destruct (rev (m_layers m)) as [|lastl rest] eqn:Hr.
    { exfalso. apply Hne. rewrite <- (rev_involutive (m_layers m)), Hr. reflexivity. }
    destruct (rev_cons_last _ _ _ [] Hr) as [Hl _]. rewrite Hl.
    destruct lastl as [|x lastl]; [reflexivity|].
    replace (negb (is_pooled (ci_flavour inp)) && match m_best m with None => true | Some _ => false end)
      with (negb (is_pooled (ci_flavour inp) || match m_best m with Some _ => true | None => false end))
      by (destruct (is_pooled (ci_flavour inp)), (m_best m); reflexivity).
    destruct (is_pooled (ci_flavour inp) || _); [|reflexivity].
    (* the literal prefix of the terminal line computes: no associativity rewriting is needed *)
    cbn [negb]. cbv zeta. rewrite render_terminal_stmts. reflexivity.
  Qed.

  (* the exact string equation: the printer is the renderer applied to the statement list *)
  Theorem as_graphviz_is_render m cfg :
    as_graphviz show inp m cfg = option_map render (viz_ast m cfg).
  Proof.
    unfold as_graphviz, viz_ast. cbv zeta.
    destruct (m_layers m) as [|l0 ls] eqn:HL.
    - unfold viz_terminal. rewrite HL. reflexivity.
    - rewrite render_terminal by (rewrite HL; discriminate).
      rewrite <- HL. cbn [option_map]. f_equal. unfold render.
      rewrite !sconcat_map_app, render_body, render_clusters.
      unfold viz_header, viz_footer. rewrite !sapp_assoc. reflexivity.
  Qed.

  (* ================================================================ (2) the clauses, on viz_ast *)
  Lemma viz_ast_inv m cfg ast :
    viz_ast m cfg = Some ast ->
    ast = (body_ast m cfg ++ clusters_ast m cfg ++ terminal_ast m)%list /\ m_layers m <> [].
  Proof.
    unfold viz_ast. destruct (m_layers m); [discriminate|]. intros H; inversion H. split; [reflexivity|discriminate].
  Qed.

  Lemma viz_ast_some m cfg : m_layers m <> [] -> exists ast, viz_ast m cfg = Some ast.
  Proof. unfold viz_ast. destruct (m_layers m); [congruence|]. eexists; reflexivity. Qed.

  (* ---------------------------------------------------------------- statement kinds of the three parts *)
  (* what holds of the statements each part can emit holds of every statement of the part *)
  Lemma body_Forall (P : stmt -> Prop) m cfg :
    (forall id, P (SNode id (node_attributes show inp m id cfg))) -> (forall id eid, P (edge_stmt m id eid)) ->
    Forall P (body_ast m cfg).
  Proof.
    intros Hn He. unfold body_ast. apply Forall_flat_map. apply Forall_forall. intros id _.
    destruct (hidden m cfg id); [constructor|]. constructor; [apply Hn|].
    apply Forall_forall. intros s Hs. apply in_map_iff in Hs. destruct Hs as [e [<- _]]. apply He.
  Qed.

  Lemma clusters_Forall (P : stmt -> Prop) m cfg :
    (forall k x l, P (SCluster (nstr k) (x :: l))) -> Forall P (clusters_ast m cfg).
  Proof.
    intros Hc.
    assert (C : forall k ids, Forall P (cluster_stmt (nstr k) ids)) by (intros k [|x l]; repeat constructor; apply Hc).
    unfold clusters_ast. destruct (show_deleted cfg && group_merged cfg); [|constructor].
    destruct (is_pooled (ci_flavour inp)).
    - unfold clusters_pooled_ast. cbv zeta. apply Forall_flat_map. apply Forall_forall. intros d _. apply C.
    - generalize 0%nat. induction (m_layers m) as [|l ls IH]; intros i; cbn [clusters_clean_ast]; [constructor|].
      apply Forall_app. split; [apply C|apply IH].
  Qed.

  Lemma terminal_Forall (P : stmt -> Prop) m :
    P STerminalDecl -> (forall id b, P (STerminalEdge id b)) -> Forall P (terminal_ast m).
  Proof.
    intros Hd He. unfold terminal_ast. destruct (terminal_drawn m); [|constructor]. constructor; [exact Hd|].
    apply Forall_forall. intros s Hs. apply in_map_iff in Hs. destruct Hs as [e [<- _]]. apply He.
  Qed.

  Lemma body_kinds m cfg : Forall (fun s => is_node s || is_edge s = true) (body_ast m cfg).
  Proof. apply body_Forall; reflexivity. Qed.
  Lemma clusters_kinds m cfg : Forall (fun s => is_cluster s = true) (clusters_ast m cfg).
  Proof. apply clusters_Forall; reflexivity. Qed.
  Lemma terminal_kinds m : Forall (fun s => is_term s = true) (terminal_ast m).
  Proof. apply terminal_Forall; reflexivity. Qed.

  (* ---------------------------------------------------------------- declared nodes *)
  Definition visible (m : mddT) (cfg : vizconfig) (id : nat) : bool := negb (hidden m cfg id).

  Lemma visible_spec m cfg id :
    visible m cfg id = true <-> (show_deleted cfg = true \/ f_deleted (n_flags (gn m id)) = false).
  Proof.
    unfold visible, hidden. destruct (show_deleted cfg); destruct (f_deleted (n_flags (gn m id))); cbn; intuition discriminate.
  Qed.

  Lemma declared_ids_edges m id l : declared_ids (map (edge_stmt m id) l) = [].
  Proof.
    apply flat_map_nil, Forall_forall. intros s Hs. apply in_map_iff in Hs. destruct Hs as [e [<- _]]. reflexivity.
  Qed.

  Lemma declared_ids_body_gen m cfg (l : list nat) :
    declared_ids (flat_map (fun id => if hidden m cfg id then [] else node_stmts m cfg id) l) = filter (visible m cfg) l.
  Proof.
    induction l as [|id l IH]; [reflexivity|]. cbn [flat_map filter]. rewrite declared_ids_app, IH.
    unfold visible at 2. destruct (hidden m cfg id); cbn [negb]; [reflexivity|].
    unfold node_stmts. change (declared_ids (SNode id ?a :: ?r)) with (id :: declared_ids r).
    rewrite declared_ids_edges. reflexivity.
  Qed.

  Lemma declared_ids_ast m cfg ast :
    viz_ast m cfg = Some ast -> declared_ids ast = filter (visible m cfg) (seq 0 (nnodes m)).
  Proof.
    intros H. apply viz_ast_inv in H. destruct H as [-> _]. rewrite !declared_ids_app.
    unfold body_ast. rewrite declared_ids_body_gen.
    assert (E1 : declared_ids (clusters_ast m cfg) = []).
    { apply flat_map_nil, clusters_Forall; reflexivity. }
    assert (E2 : declared_ids (terminal_ast m) = []).
    { apply flat_map_nil, terminal_Forall; reflexivity. }
    rewrite E1, E2, !app_nil_r. reflexivity.
  Qed.

  (* every node that is not hidden by the configuration is declared exactly once, and nothing else is *)
  Theorem declared_exactly_once m cfg ast :
    viz_ast m cfg = Some ast ->
    NoDup (declared_ids ast) /\
    forall id, In id (declared_ids ast) <->
               (id < nnodes m)%nat /\ (show_deleted cfg = true \/ f_deleted (n_flags (gn m id)) = false).
  Proof.
    intros H. rewrite (declared_ids_ast _ _ _ H). split.
    - apply NoDup_filter, seq_NoDup.
    - intros id. rewrite filter_In, in_seq, visible_spec. intuition lia.
  Qed.

  (* a node of the diagram is declared or hidden by the configuration *)
  Lemma declared_or_hidden m cfg ast id :
    viz_ast m cfg = Some ast -> (id < nnodes m)%nat -> In id (declared_ids ast) \/ hidden m cfg id = true.
  Proof.
    intros H Hid. destruct (hidden m cfg id) eqn:Hh; [right; reflexivity|left].
    apply (declared_exactly_once _ _ _ H). split; [exact Hid|]. apply visible_spec. unfold visible. rewrite Hh. reflexivity.
  Qed.

  Lemma In_body_node m cfg id a :
    In (SNode id a) (body_ast m cfg) -> a = node_attributes show inp m id cfg.
  Proof.
    unfold body_ast. intros H. apply in_flat_map in H. destruct H as [id' [_ H]].
    destruct (hidden m cfg id'); [destruct H|]. destruct H as [H|H]; [inversion H; reflexivity|].
    apply in_map_iff in H. destruct H as [e [H _]]. discriminate.
  Qed.

  Lemma In_ast_split m cfg ast s :
    viz_ast m cfg = Some ast -> In s ast ->
    (In s (body_ast m cfg) /\ is_node s || is_edge s = true) \/
    (In s (clusters_ast m cfg) /\ is_cluster s = true) \/
    (In s (terminal_ast m) /\ is_term s = true).
  Proof.
    intros H Hs. apply viz_ast_inv in H. destruct H as [-> _].
    apply in_app_or in Hs. destruct Hs as [Hs|Hs].
    { left. split; [exact Hs|]. exact (proj1 (Forall_forall _ _) (body_kinds m cfg) s Hs). }
    apply in_app_or in Hs. destruct Hs as [Hs|Hs].
    { right; left. split; [exact Hs|]. exact (proj1 (Forall_forall _ _) (clusters_kinds m cfg) s Hs). }
    right; right. split; [exact Hs|]. exact (proj1 (Forall_forall _ _) (terminal_kinds m) s Hs).
  Qed.

  (* the attribute list of a declaration is the one of that node *)
  Theorem node_attrs m cfg ast id a :
    viz_ast m cfg = Some ast -> In (SNode id a) ast -> a = node_attributes show inp m id cfg.
  Proof.
    intros H Hs. destruct (In_ast_split _ _ _ _ H Hs) as [[Hb _]|[[_ K]|[_ K]]]; try discriminate.
    eapply In_body_node; eauto.
  Qed.

  (* ---------------------------------------------------------------- edges *)
  Lemma edge_stmts_edges m id l : edge_stmts (map (edge_stmt m id) l) = map (edge_stmt m id) l.
  Proof. unfold edge_stmts. induction l as [|e l IH]; [reflexivity|]. cbn [map filter]. cbn [edge_stmt is_edge]. rewrite IH. reflexivity. Qed.

  Lemma edge_stmts_body_gen m cfg (l : list nat) :
    edge_stmts (flat_map (fun id => if hidden m cfg id then [] else node_stmts m cfg id) l) =
    flat_map (fun id => map (edge_stmt m id) (n_inb (gn m id))) (filter (visible m cfg) l).
  Proof.
    induction l as [|id l IH]; [reflexivity|]. cbn [flat_map filter]. unfold edge_stmts in *. rewrite filter_app, IH.
    unfold visible at 2. destruct (hidden m cfg id); cbn [negb]; [reflexivity|].
    cbn [flat_map]. f_equal. unfold node_stmts. cbn [filter is_edge]. apply edge_stmts_edges.
  Qed.

  (* the drawn edges are, in order, the inbound edges of the declared nodes: nothing is missing, nothing is drawn twice *)
  Theorem edges_complete m cfg ast :
    viz_ast m cfg = Some ast ->
    edge_stmts ast = flat_map (fun id => map (edge_stmt m id) (n_inb (gn m id))) (declared_ids ast).
  Proof.
    intros H. rewrite (declared_ids_ast _ _ _ H). apply viz_ast_inv in H. destruct H as [-> _].
    unfold edge_stmts. rewrite !filter_app.
    assert (E1 : filter is_edge (clusters_ast m cfg) = []).
    { apply filter_nil, clusters_Forall; reflexivity. }
    assert (E2 : filter is_edge (terminal_ast m) = []).
    { apply filter_nil, terminal_Forall; reflexivity. }
    rewrite E1, E2, !app_nil_r. apply edge_stmts_body_gen.
  Qed.

  (* every drawn edge is an arc of the diagram, drawn below the declaration of a declared node that lists it as inbound,
     with the source, target, decision and cost of that arc *)
  Theorem edges_are_arcs m cfg ast from to best d cost :
    viz_ast m cfg = Some ast -> In (SEdge from to best d cost) ast ->
    exists id eid,
      In id (declared_ids ast) /\ In eid (n_inb (gn m id)) /\
      get_edge m eid = {| e_from := from; e_to := to; e_dec := d; e_cost := cost |} /\
      best = edge_best m id eid.
  Proof.
    intros H Hs.
    assert (Hs' : In (SEdge from to best d cost) (edge_stmts ast)).
    { unfold edge_stmts. apply filter_In. split; [exact Hs|reflexivity]. }
    rewrite (edges_complete _ _ _ H) in Hs'. apply in_flat_map in Hs'. destruct Hs' as [id [Hid Hs']].
    apply in_map_iff in Hs'. destruct Hs' as [eid [He Heid]].
    exists id, eid. split; [exact Hid|]. split; [exact Heid|].
    unfold edge_stmt in He. cbv zeta in He. inversion He; subst. split; [|reflexivity].
    destruct (get_edge m eid); reflexivity.
  Qed.

  Lemma wf_inb_lt m id eid :
    wf inp m -> (id < nnodes m)%nat -> In eid (n_inb (gn m id)) -> (eid < List.length (m_edges m))%nat.
  Proof.
    intros W Hid He. pose proof (wf_nodes _ _ W) as F. rewrite Forall_forall in F.
    assert (Hn : In (gn m id) (m_nodes m)) by (unfold get_node; apply nth_In; exact Hid).
    destruct (F _ Hn) as [_ K]. unfold ids_ok in K. rewrite Forall_forall in K. apply K. exact He.
  Qed.

  Lemma wf_edge_ends m eid :
    wf inp m -> (eid < List.length (m_edges m))%nat ->
    (e_from (get_edge m eid) < nnodes m)%nat /\ (e_to (get_edge m eid) < nnodes m)%nat.
  Proof.
    intros W He. pose proof (wf_edges _ _ W) as F. rewrite Forall_forall in F.
    apply F. unfold get_edge. apply nth_In. exact He.
  Qed.

  (* for a well-formed diagram: the arc is inbound to the declared node [to] itself, its identifier is an entry of the edge
     table, and its source is a node of the diagram, i.e. declared or hidden by the configuration *)
  Theorem edges_are_arcs_wf m cfg ast from to best d cost :
    wf inp m -> viz_ast m cfg = Some ast -> In (SEdge from to best d cost) ast ->
    In to (declared_ids ast) /\
    (exists eid, In eid (n_inb (gn m to)) /\ (eid < List.length (m_edges m))%nat /\
                 get_edge m eid = {| e_from := from; e_to := to; e_dec := d; e_cost := cost |} /\
                 best = edge_best m to eid) /\
    (from < nnodes m)%nat /\ (to < nnodes m)%nat /\
    (In from (declared_ids ast) \/ hidden m cfg from = true).
  Proof.
    intros W H Hs. destruct (edges_are_arcs _ _ _ _ _ _ _ _ H Hs) as [id [eid [Hid [Heid [Hg Hb]]]]].
    pose proof (proj1 (proj2 (declared_exactly_once _ _ _ H) id) Hid) as [Hlt _].
    pose proof (wf_inb_to _ _ W id eid Hlt Heid) as Hto. rewrite Hg in Hto. cbn in Hto. subst id.
    pose proof (wf_inb_lt _ _ _ W Hlt Heid) as Hel.
    pose proof (wf_edge_ends _ _ W Hel) as [Hf _]. rewrite Hg in Hf. cbn in Hf.
    split; [exact Hid|]. split; [exists eid; auto|]. split; [exact Hf|]. split; [exact Hlt|].
    eapply declared_or_hidden; eauto.
  Qed.

  Lemma edges_into_edge_stmts t ast : edges_into t ast = edges_into t (edge_stmts ast).
  Proof.
    unfold edges_into, edge_stmts. symmetry. apply filter_filter_impl. intros [] H; try discriminate; reflexivity.
  Qed.

  (* the edges drawn below node [id] all enter [id] *)
  Lemma edges_into_node m id t l :
    (forall eid, In eid l -> e_to (get_edge m eid) = id) ->
    edges_into t (map (edge_stmt m id) l) = if Nat.eqb id t then map (edge_stmt m id) l else [].
  Proof.
    intros H. unfold edges_into. induction l as [|e l IH]; [destruct (Nat.eqb id t); reflexivity|]. cbn [map filter].
    cbn [edge_stmt is_edge_into]. rewrite (H e (or_introl eq_refl)), IH by (intros; apply H; right; assumption).
    destruct (Nat.eqb id t); reflexivity.
  Qed.

  Lemma edges_into_app t a b : edges_into t (a ++ b) = (edges_into t a ++ edges_into t b)%list.
  Proof. apply filter_app. Qed.

  Lemma edges_into_flat_gen m t (D : list nat) :
    wf inp m -> (forall id, In id D -> (id < nnodes m)%nat) -> NoDup D ->
    edges_into t (flat_map (fun id => map (edge_stmt m id) (n_inb (gn m id))) D) =
    if in_dec Nat.eq_dec t D then map (edge_stmt m t) (n_inb (gn m t)) else [].
  Proof.
    intros W. induction D as [|id D IH]; intros Hlt ND; [reflexivity|].
    cbn [flat_map]. rewrite edges_into_app. inversion ND as [|? ? Hnot ND']; subst.
    rewrite IH; [|intros; apply Hlt; right; assumption|exact ND'].
    rewrite edges_into_node by (intros eid He; apply (wf_inb_to _ _ W); [apply Hlt; left; reflexivity|exact He]).
    destruct (Nat.eqb_spec id t) as [->|E].
    - destruct (in_dec Nat.eq_dec t D) as [I|_]; [contradiction|].
      destruct (in_dec Nat.eq_dec t (t :: D)) as [_|N]; [apply app_nil_r|exfalso; apply N; left; reflexivity].
    - cbn [app].
      destruct (in_dec Nat.eq_dec t D) as [I|N]; destruct (in_dec Nat.eq_dec t (id :: D)) as [I'|N']; try reflexivity.
      + exfalso; apply N'; right; exact I.
      + exfalso. destruct I' as [I'|I']; [congruence|contradiction].
  Qed.

  (* conversely: below a declared node, every one of its inbound edges is drawn exactly once (and no other edge points to it) *)
  Theorem edges_into_complete m cfg ast t :
    wf inp m -> viz_ast m cfg = Some ast -> In t (declared_ids ast) ->
    edges_into t ast = map (edge_stmt m t) (n_inb (gn m t)) /\
    List.length (edges_into t ast) = List.length (n_inb (gn m t)).
  Proof.
    intros W H Ht.
    assert (E : edges_into t ast = map (edge_stmt m t) (n_inb (gn m t))).
    { rewrite edges_into_edge_stmts, (edges_complete _ _ _ H).
      destruct (declared_exactly_once _ _ _ H) as [ND Hspec].
      rewrite edges_into_flat_gen; [|exact W|intros id Hid; apply Hspec in Hid; tauto|exact ND].
      destruct (in_dec Nat.eq_dec t (declared_ids ast)); [reflexivity|contradiction]. }
    split; [exact E|]. rewrite E. apply map_length.
  Qed.

  (* no edge is drawn towards a node that is not declared *)
  Theorem edges_into_hidden m cfg ast t :
    wf inp m -> viz_ast m cfg = Some ast -> ~ In t (declared_ids ast) -> edges_into t ast = [].
  Proof.
    intros W H Ht. rewrite edges_into_edge_stmts, (edges_complete _ _ _ H).
    destruct (declared_exactly_once _ _ _ H) as [ND Hspec].
    rewrite edges_into_flat_gen; [|exact W|intros id Hid; apply Hspec in Hid; tauto|exact ND].
    destruct (in_dec Nat.eq_dec t (declared_ids ast)); [contradiction|reflexivity].
  Qed.

  (* the thick pen marks exactly the edges equal (as values) to the best edge of the node they enter *)
  Theorem best_marks m cfg ast from to best d cost :
    wf inp m -> viz_ast m cfg = Some ast -> In (SEdge from to best d cost) ast ->
    (best = true <->
     exists b, n_best (gn m to) = Some b /\
               edge_eqb {| e_from := from; e_to := to; e_dec := d; e_cost := cost |} (get_edge m b) = true).
  Proof.
    intros W H Hs. destruct (edges_are_arcs_wf _ _ _ _ _ _ _ _ W H Hs) as [_ [[eid [_ [_ [Hg Hb]]]] _]].
    subst best. unfold edge_best. rewrite Hg. destruct (n_best (gn m to)) as [b|]; cbn [option_map].
    - split; [intros E; exists b; auto|intros [b' [E1 E2]]; inversion E1; subst; exact E2].
    - split; [discriminate|intros [b' [E1 _]]; discriminate].
  Qed.

  (* ---------------------------------------------------------------- terminal *)
  Lemma terminal_drawn_spec m :
    terminal_drawn m = true <->
    last (m_layers m) [] <> [] /\ (is_pooled (ci_flavour inp) = true \/ m_best m <> None).
  Proof.
    unfold terminal_drawn, last_layer. destruct (last (m_layers m) []) as [|x l].
    - split; [discriminate|intros [C _]; congruence].
    - destruct (is_pooled (ci_flavour inp)); destruct (m_best m); cbn [orb]; split; intros K; try reflexivity;
        try discriminate; try (split; [discriminate|]; auto; right; discriminate).
      destruct K as [_ [K|K]]; [discriminate|congruence].
  Qed.

  Theorem terminal_iff m cfg ast :
    viz_ast m cfg = Some ast ->
    (In STerminalDecl ast <->
     last (m_layers m) [] <> [] /\ (is_pooled (ci_flavour inp) = true \/ m_best m <> None)) /\
    count_tdecl ast = (if terminal_drawn m then 1%nat else 0%nat).
  Proof.
    intros H. rewrite <- terminal_drawn_spec. split.
    - split.
      + intros Hs. destruct (In_ast_split _ _ _ _ H Hs) as [[_ K]|[[_ K]|[Ht _]]]; try discriminate.
        unfold terminal_ast in Ht. destruct (terminal_drawn m); [reflexivity|destruct Ht].
      + intros Hd. apply viz_ast_inv in H. destruct H as [-> _]. apply in_or_app; right. apply in_or_app; right.
        unfold terminal_ast. rewrite Hd. left; reflexivity.
    - apply viz_ast_inv in H. destruct H as [-> _]. unfold count_tdecl. rewrite !filter_app.
      assert (E1 : filter is_tdecl (body_ast m cfg) = []).
      { apply filter_nil, body_Forall; reflexivity. }
      assert (E2 : filter is_tdecl (clusters_ast m cfg) = []).
      { apply filter_nil, clusters_Forall; reflexivity. }
      rewrite E1, E2. cbn [app]. unfold terminal_ast. destruct (terminal_drawn m); [|reflexivity].
      cbn [filter is_tdecl]. cbn [List.length]. f_equal.
      induction (last_layer m) as [|x l IH]; [reflexivity|]. cbn [map filter is_tdecl]. exact IH.
  Qed.

  Lemma term_edges_ast m cfg ast :
    viz_ast m cfg = Some ast ->
    term_edges ast =
    if terminal_drawn m then map (fun id => (id, Z.eqb (n_vtop (gn m id)) (last_vmax m))) (last (m_layers m) []) else [].
  Proof.
    intros H. apply viz_ast_inv in H. destruct H as [-> _]. unfold term_edges. rewrite !flat_map_app.
    assert (E1 : flat_map term_edge_of (body_ast m cfg) = []).
    { apply flat_map_nil, body_Forall; reflexivity. }
    assert (E2 : flat_map term_edge_of (clusters_ast m cfg) = []).
    { apply flat_map_nil, clusters_Forall; reflexivity. }
    rewrite E1, E2. cbn [app]. unfold terminal_ast. destruct (terminal_drawn m); [|reflexivity].
    cbn [flat_map term_edge_of app]. fold (last_layer m).
    induction (last_layer m) as [|x l IH]; [reflexivity|]. cbn [map flat_map term_edge_of app]. rewrite IH. reflexivity.
  Qed.

  (* when the terminal is drawn there is exactly one terminal edge per node of the last layer, in order, thick exactly for
     the nodes of maximal value; when it is not drawn there is no terminal edge *)
  Theorem terminal_edges m cfg ast :
    viz_ast m cfg = Some ast ->
    (In STerminalDecl ast ->
       map fst (term_edges ast) = last (m_layers m) [] /\
       forall id b, In (id, b) (term_edges ast) ->
         (b = true <-> forall id', In id' (last (m_layers m) []) -> n_vtop (gn m id') <= n_vtop (gn m id))) /\
    (~ In STerminalDecl ast -> term_edges ast = []) /\
    (forall id b, In (STerminalEdge id b) ast <-> In (id, b) (term_edges ast)).
  Proof.
    intros H. pose proof (term_edges_ast _ _ _ H) as E.
    pose proof (proj1 (terminal_iff _ _ _ H)) as T. rewrite <- terminal_drawn_spec in T.
    split; [|split].
    - intros Hd. apply T in Hd. rewrite Hd in E. rewrite E. split.
      + rewrite map_map. cbn [fst]. apply map_id.
      + intros id b Hin. apply in_map_iff in Hin. destruct Hin as [id0 [Heq Hin]]. inversion Heq; subst id0 b. clear Heq.
        unfold last_vmax, last_layer.
        destruct (zmax_list (map (fun id => n_vtop (gn m id)) (last (m_layers m) []))) as [mx|] eqn:Z.
        * cbn [opt_default]. destruct (zmax_list_spec _ _ Z) as [I1 I2]. rewrite Z.eqb_eq. split.
          { intros Heq id' Hid'. rewrite Heq. apply I2. apply in_map_iff. exists id'. auto. }
          { intros Hall. apply in_map_iff in I1. destruct I1 as [id'' [E'' I'']].
            specialize (Hall id'' I''). rewrite E'' in Hall.
            assert (n_vtop (gn m id) <= mx) by (apply I2; apply in_map_iff; exists id; auto). lia. }
        * apply zmax_list_none in Z. apply map_eq_nil in Z. rewrite Z in Hin. destruct Hin.
    - intros Hn. destruct (terminal_drawn m); [exfalso; apply Hn; apply T; reflexivity|exact E].
    - intros id b. unfold term_edges. rewrite in_flat_map. split.
      + intros Hs. exists (STerminalEdge id b). split; [exact Hs|left; reflexivity].
      + intros [s [Hs Hin]]. destruct s; cbn in Hin; try contradiction. destruct Hin as [Hin|[]]. inversion Hin; subst. exact Hs.
  Qed.

  (* ---------------------------------------------------------------- clusters *)
  Lemma In_cluster_stmt key ids key' ids' :
    In (SCluster key ids) (cluster_stmt key' ids') -> key = key' /\ ids = ids' /\ ids <> [].
  Proof.
    destruct ids' as [|x l]; cbn; [contradiction|]. intros [H|[]]. inversion H; subst. repeat split. discriminate.
  Qed.

  Lemma In_clusters_clean m key ids i layers :
    In (SCluster key ids) (clusters_clean_ast m i layers) ->
    exists l, In l layers /\ ids = filter (is_merged_or_deleted inp m) l /\ ids <> [].
  Proof.
    revert i. induction layers as [|l ls IH]; intros i H; [destruct H|].
    cbn [clusters_clean_ast] in H. apply in_app_or in H. destruct H as [H|H].
    - apply In_cluster_stmt in H. destruct H as [_ [-> Hne]]. exists l. split; [left; reflexivity|auto].
    - destruct (IH _ H) as [l' [Hl' K]]. exists l'. split; [right; exact Hl'|exact K].
  Qed.

  (* a cluster: on request only, not empty, merged-or-deleted members taken from all nodes (pooled) or from one layer (clean) *)
  Lemma In_clusters_ast m cfg key ids :
    In (SCluster key ids) (clusters_ast m cfg) ->
    show_deleted cfg = true /\ group_merged cfg = true /\ ids <> [] /\
    exists L, incl ids (filter (is_merged_or_deleted inp m) L) /\ (L = seq 0 (nnodes m) \/ In L (m_layers m)).
  Proof.
    unfold clusters_ast. destruct (show_deleted cfg && group_merged cfg) eqn:Hon; [|intros []].
    apply andb_prop in Hon. destruct Hon as [-> ->]. intros Hc. split; [reflexivity|]. split; [reflexivity|].
    destruct (is_pooled (ci_flavour inp)).
    - unfold clusters_pooled_ast in Hc. cbv zeta in Hc. apply in_flat_map in Hc. destruct Hc as [dd [_ Hc]].
      apply In_cluster_stmt in Hc. destruct Hc as [_ [-> Hne]]. split; [exact Hne|].
      exists (seq 0 (nnodes m)). split; [|left; reflexivity]. intros id Hid. apply filter_In in Hid. apply Hid.
    - apply In_clusters_clean in Hc. destruct Hc as [l [Hl [-> Hne]]]. split; [exact Hne|].
      exists l. split; [apply incl_refl|right; exact Hl].
  Qed.

  (* clusters are emitted only on request, are never empty, and group merged-or-deleted nodes *)
  Theorem clusters_only_on_request m cfg ast key ids :
    viz_ast m cfg = Some ast -> In (SCluster key ids) ast ->
    show_deleted cfg = true /\ group_merged cfg = true /\ ids <> [] /\
    forall id, In id ids -> is_merged_or_deleted inp m id = true.
  Proof.
    intros H Hs. destruct (In_ast_split _ _ _ _ H Hs) as [[_ K]|[[Hc _]|[_ K]]]; try discriminate.
    destruct (In_clusters_ast _ _ _ _ Hc) as (A & B & C & L & HL & _).
    repeat (split; [assumption|]). intros id Hid. apply HL, filter_In in Hid. apply Hid.
  Qed.

  (* for a well-formed diagram the members of a cluster are declared nodes *)
  Theorem clusters_only_on_request_wf m cfg ast key ids :
    wf inp m -> viz_ast m cfg = Some ast -> In (SCluster key ids) ast ->
    forall id, In id ids -> (id < nnodes m)%nat /\ In id (declared_ids ast).
  Proof.
    intros W H Hs id Hid.
    destruct (In_ast_split _ _ _ _ H Hs) as [[_ K]|[[Hc _]|[_ K]]]; try discriminate.
    destruct (In_clusters_ast _ _ _ _ Hc) as (Hsd & _ & _ & L & HL & HLL).
    apply HL, filter_In in Hid. destruct Hid as [Hid _].
    assert (Hlt : (id < nnodes m)%nat).
    { destruct HLL as [-> | Hl]; [apply in_seq in Hid; lia|].
      pose proof (wf_layers _ _ W) as F. rewrite Forall_forall in F. specialize (F L Hl).
      unfold ids_ok in F. rewrite Forall_forall in F. apply F. exact Hid. }
    split; [exact Hlt|]. apply (declared_exactly_once _ _ _ H). split; [exact Hlt|left; exact Hsd].
  Qed.


  (* ================================================================ (3) light-weight syntax of the rendered string *)
  Definition show_clean (c : ascii) : Prop := forall s : St, count_char c (show s) = 0%nat.

  Lemma count_node_label c (n : @node St) cfg :
    special c -> show_clean c -> count_char c (node_label show n cfg) = 0%nat.
  Proof.
    intros Hc Hs.
    assert (opt : forall (b : bool) s, count_char c s = 0%nat -> count_char c (if b then s else "") = 0%nat)
      by (intros [|] s E; [exact E|reflexivity]).
    unfold node_label. rewrite !count_app, Hs, !opt; [reflexivity|..];
      rewrite !count_app, ?count_zstr, ?count_extreme by exact Hc; destruct Hc as [-> | ->]; reflexivity.
  Qed.

  Lemma count_node_group c (m : mddT) (n : @node St) : special c -> count_char c (node_group m n) = 0%nat.
  Proof.
    intros Hc. unfold node_group. destruct (n_best n); [apply count_nstr; exact Hc|]. destruct Hc as [-> | ->]; reflexivity.
  Qed.

  Lemma count_node_attributes_dq m id cfg :
    show_clean dqc -> Nat.even (count_char dqc (node_attributes show inp m id cfg)) = true.
  Proof.
    intros Hs. unfold node_attributes. cbv zeta. rewrite !count_app.
    rewrite count_node_group, count_node_label by (auto using special_dq).
    repeat match goal with |- context [if ?b then _ else _] => destruct b end; reflexivity.
  Qed.

  Lemma count_node_attributes_nl m id cfg :
    show_clean nlc -> count_char nlc (node_attributes show inp m id cfg) = 0%nat.
  Proof.
    intros Hs. unfold node_attributes. cbv zeta. rewrite !count_app.
    rewrite count_node_group, count_node_label by (auto using special_nl).
    repeat match goal with |- context [if ?b then _ else _] => destruct b end; reflexivity.
  Qed.

  Lemma syntax_ok_node m cfg id :
    show_clean dqc -> show_clean nlc -> stmt_syntax_ok (SNode id (node_attributes show inp m id cfg)).
  Proof.
    intros Hd Hn.
    apply (syntax_ok_intro _ (fun c => count_char c (node_attributes show inp m id cfg) + count_char c nl)%nat).
    - cbn [render_stmt]. apply line_ok_intro. repeat first [apply ends_rbracket|apply ends_app].
    - intros c. apply count_render_node.
    - rewrite Nat.add_0_r. apply count_node_attributes_dq; exact Hd.
    - rewrite count_node_attributes_nl by exact Hn. reflexivity.
  Qed.

  (* every statement of the output is `tab .. ";" newline`; when the user's Debug printer emits neither a double quote nor a
     newline, every statement holds an even number of double quotes, and every statement but a cluster is a single line *)
  Theorem stmts_syntax_ok m cfg ast :
    show_clean dqc -> show_clean nlc -> viz_ast m cfg = Some ast -> Forall stmt_syntax_ok ast.
  Proof.
    intros Hd Hn H. apply viz_ast_inv in H. destruct H as [-> _].
    apply Forall_app; split; [|apply Forall_app; split].
    - apply body_Forall; [intros id; apply syntax_ok_node; assumption|intros id eid; apply syntax_ok_edge].
    - apply clusters_Forall, syntax_ok_cluster.
    - apply terminal_Forall; [apply syntax_ok_tdecl|apply syntax_ok_tedge].
  Qed.

  (* ================================================================ (4) the clauses for a completed compilation *)
  Theorem C20_as_graphviz_faithful st_eqb tb tb2 c ds polls m cfg :
    compile st_eqb inp tb tb2 c ds polls = (m, Compiled) ->
    exists ast,
      as_graphviz show inp m cfg = Some (render ast) /\
      viz_ast m cfg = Some ast /\
      (* every node that is not hidden by the configuration is declared exactly once, with its own attributes *)
      NoDup (declared_ids ast) /\
      (forall id, In id (declared_ids ast) <->
                  (id < nnodes m)%nat /\ (show_deleted cfg = true \/ f_deleted (n_flags (gn m id)) = false)) /\
      (forall id a, In (SNode id a) ast -> a = node_attributes show inp m id cfg) /\
      (* every drawn edge is an arc of the diagram entering a declared node, from a declared or hidden node, with the
         decision and cost of that arc; thick iff equal to the best edge of its target *)
      (forall from to best d cost, In (SEdge from to best d cost) ast ->
         In to (declared_ids ast) /\
         (exists eid, In eid (n_inb (gn m to)) /\ (eid < List.length (m_edges m))%nat /\
                      get_edge m eid = {| e_from := from; e_to := to; e_dec := d; e_cost := cost |}) /\
         (from < nnodes m)%nat /\ (In from (declared_ids ast) \/ hidden m cfg from = true) /\
         (best = true <->
          exists b, n_best (gn m to) = Some b /\
                    edge_eqb {| e_from := from; e_to := to; e_dec := d; e_cost := cost |} (get_edge m b) = true)) /\
      (* every inbound edge of a declared node is drawn exactly once *)
      (forall t, In t (declared_ids ast) ->
         edges_into t ast = map (edge_stmt m t) (n_inb (gn m t)) /\
         List.length (edges_into t ast) = List.length (n_inb (gn m t))) /\
      (* the terminal node *)
      (In STerminalDecl ast <->
       last (m_layers m) [] <> [] /\ (is_pooled (ci_flavour inp) = true \/ m_best m <> None)) /\
      (In STerminalDecl ast ->
         count_tdecl ast = 1%nat /\
         map fst (term_edges ast) = last (m_layers m) [] /\
         forall id b, In (STerminalEdge id b) ast ->
           (b = true <-> forall id', In id' (last (m_layers m) []) -> n_vtop (gn m id') <= n_vtop (gn m id))) /\
      (~ In STerminalDecl ast -> forall id b, ~ In (STerminalEdge id b) ast) /\
      (* clusters *)
      (forall key ids, In (SCluster key ids) ast ->
         show_deleted cfg = true /\ group_merged cfg = true /\ ids <> [] /\
         forall id, In id ids -> is_merged_or_deleted inp m id = true /\ In id (declared_ids ast)).
  Proof.
    intros HC. pose proof (wf_compile _ _ _ _ _ _ _ _ _ HC) as W.
    pose proof (compile_layers_nonempty _ _ _ _ _ _ _ _ HC) as HL.
    destruct (viz_ast_some m cfg HL) as [ast H]. exists ast.
    split; [rewrite as_graphviz_is_render, H; reflexivity|]. split; [exact H|].
    destruct (declared_exactly_once _ _ _ H) as [ND Hspec].
    split; [exact ND|]. split; [exact Hspec|]. split; [intros id a; apply node_attrs; exact H|].
    split.
    { intros from to best d cost Hs.
      destruct (edges_are_arcs_wf _ _ _ _ _ _ _ _ W H Hs) as [A [[eid [B1 [B2 [B3 _]]]] [C1 [_ C3]]]].
      split; [exact A|]. split; [exists eid; auto|]. split; [exact C1|]. split; [exact C3|].
      eapply best_marks; eauto. }
    split; [intros t Ht; exact (edges_into_complete _ _ _ _ W H Ht)|].
    destruct (terminal_iff _ _ _ H) as [T1 T2]. destruct (terminal_edges _ _ _ H) as [E1 [E2 E3]].
    split; [exact T1|]. split.
    { intros Hd. destruct (E1 Hd) as [F1 F2]. split.
      - rewrite T2. apply T1 in Hd. apply terminal_drawn_spec in Hd. rewrite Hd. reflexivity.
      - split; [exact F1|]. intros id b Hin. apply F2. apply E3. exact Hin. }
    split.
    { intros Hn id b Hin. apply E3 in Hin. rewrite (E2 Hn) in Hin. destruct Hin. }
    intros key ids Hs. destruct (clusters_only_on_request _ _ _ _ _ H Hs) as [K1 [K2 [K3 K4]]].
    split; [exact K1|]. split; [exact K2|]. split; [exact K3|]. intros id Hid. split; [apply K4; exact Hid|].
    apply (clusters_only_on_request_wf _ _ _ _ _ W H Hs id Hid).
  Qed.

  (* syntactic well-formedness of the output of a completed compilation *)
  Theorem C20_as_graphviz_syntax st_eqb tb tb2 c ds polls m cfg :
    show_clean dqc -> show_clean nlc ->
    compile st_eqb inp tb tb2 c ds polls = (m, Compiled) ->
    exists ast,
      as_graphviz show inp m cfg = Some (render ast) /\ viz_ast m cfg = Some ast /\
      render ast = ("digraph {" ++ nl ++ tab ++ "ranksep = 3;" ++ nl ++ nl) ++ sconcat (map render_stmt ast) ++ "}" ++ nl /\
      Forall stmt_syntax_ok ast /\
      Nat.even (count_char dqc (render ast)) = true.
  Proof.
    intros Hd Hn HC. pose proof (compile_layers_nonempty _ _ _ _ _ _ _ _ HC) as HL.
    destruct (viz_ast_some m cfg HL) as [ast H]. exists ast.
    split; [rewrite as_graphviz_is_render, H; reflexivity|]. split; [exact H|]. split; [reflexivity|].
    pose proof (stmts_syntax_ok _ _ _ Hd Hn H) as F. split; [exact F|]. apply render_even_dq. exact F.
  Qed.

End VizProofs.

(* ================================================================ (5) non-vacuity: evaluation on compiled table instances *)
(* the Debug printer of the table states is clean: neither a double quote nor a newline *)
Lemma t_show_clean c : special c -> show_clean t_show c.
Proof.
  intros Hc s. unfold t_show. rewrite !count_app, count_sjoin.
  - destruct Hc as [-> | ->]; reflexivity.
  - destruct Hc as [-> | ->]; reflexivity.
  - apply Forall_forall. intros x Hx. apply in_map_iff in Hx. destruct Hx as [z [<- _]]. apply count_zstr; exact Hc.
Qed.

(* statements with the attribute lists blanked, to keep the displayed lists short *)
Definition skel (s : stmt) : stmt := match s with SNode id _ => SNode id "" | _ => s end.
Definition E (f t : nat) (b : bool) (var : nat) (val cost : Z) : stmt := SEdge f t b {| d_var := var; d_val := val |} cost.

Definition ex_root : @subproblem tstate := {| sp_state := [0]; sp_value := 0; sp_path := []; sp_ub := IMAX; sp_depth := 0 |}.
Definition cfg_on : vizconfig :=
  {| show_value := true; show_locb := true; show_rub := true; show_threshold := true; show_deleted := true; group_merged := true |}.
Definition cfg_off : vizconfig :=
  {| show_value := false; show_locb := false; show_rub := false; show_threshold := false; show_deleted := false; group_merged := false |}.

(* ex_ti (TableWf.v), clean flavour, Relaxed, width 1: layer 2 = nodes 3 4 5 merged into the new node 6 *)
Definition ex_inp1 : @cinput tstate := tb_input ex_ti CleanLEL Relaxed 1 IMIN false false 0 ex_root.
Definition ex_m1 : @mdd tstate := fst (tb_compile ex_inp1 0 0 (tb_cache_init ex_ti) (tb_dom_init ex_ti) 0).

Example ex1_compiled : compile tstate_eqb ex_inp1 0 0 (tb_cache_init ex_ti) (tb_dom_init ex_ti) 0 = (ex_m1, Compiled).
Proof. vm_compute. reflexivity. Qed.

(* show_deleted on: 9 declarations, the deleted nodes 3 4 5 with their own inbound edges, one cluster, the terminal *)
Example ex1_ast_on :
  option_map (map skel) (viz_ast t_show ex_inp1 ex_m1 cfg_on) =
  Some [SNode 0 ""; SNode 1 ""; E 0 1 true 0 0 0; SNode 2 ""; E 0 2 true 0 1 5;
        SNode 3 ""; E 2 3 true 1 0 0; SNode 4 ""; E 1 4 true 1 1 4; E 2 4 false 1 1 (-3); SNode 5 ""; E 1 5 true 1 0 0;
        SNode 6 ""; E 1 6 false 1 0 0; E 2 6 false 1 1 (-3); E 1 6 false 1 1 4; E 2 6 true 1 0 0;
        SNode 7 ""; E 6 7 true 2 0 2; SNode 8 ""; E 6 8 true 2 1 7;
        SCluster "2" [3; 4; 5; 6]%nat; STerminalDecl; STerminalEdge 7 false; STerminalEdge 8 true].
Proof. vm_compute. reflexivity. Qed.

(* show_deleted off: 6 declarations; nodes 3 4 5 and the edges entering them are gone, no cluster *)
Example ex1_ast_off :
  option_map (map skel) (viz_ast t_show ex_inp1 ex_m1 cfg_off) =
  Some [SNode 0 ""; SNode 1 ""; E 0 1 true 0 0 0; SNode 2 ""; E 0 2 true 0 1 5;
        SNode 6 ""; E 1 6 false 1 0 0; E 2 6 false 1 1 (-3); E 1 6 false 1 1 4; E 2 6 true 1 0 0;
        SNode 7 ""; E 6 7 true 2 0 2; SNode 8 ""; E 6 8 true 2 1 7;
        STerminalDecl; STerminalEdge 7 false; STerminalEdge 8 true].
Proof. vm_compute. reflexivity. Qed.

Example ex1_declared :
  option_map declared_ids (viz_ast t_show ex_inp1 ex_m1 cfg_on) = Some [0; 1; 2; 3; 4; 5; 6; 7; 8]%nat /\
  option_map declared_ids (viz_ast t_show ex_inp1 ex_m1 cfg_off) = Some [0; 1; 2; 6; 7; 8]%nat.
Proof. split; vm_compute; reflexivity. Qed.

(* the string equation, checked by evaluation on the instance (both configurations) *)
Example ex1_dot_on : tb_dot ex_inp1 ex_m1 cfg_on = option_map render (viz_ast t_show ex_inp1 ex_m1 cfg_on).
Proof. vm_compute. reflexivity. Qed.
Example ex1_dot_off : tb_dot ex_inp1 ex_m1 cfg_off = option_map render (viz_ast t_show ex_inp1 ex_m1 cfg_off).
Proof. vm_compute. reflexivity. Qed.

(* the premises of the two final theorems are met by the instance *)
Example ex1_faithful :
  exists ast, tb_dot ex_inp1 ex_m1 cfg_on = Some (render ast) /\ viz_ast t_show ex_inp1 ex_m1 cfg_on = Some ast /\
              Forall stmt_syntax_ok ast /\ Nat.even (count_char dqc (render ast)) = true.
Proof.
  unfold tb_dot.
  destruct (C20_as_graphviz_syntax t_show ex_inp1 tstate_eqb 0 0 (tb_cache_init ex_ti) (tb_dom_init ex_ti) 0 ex_m1 cfg_on
              (t_show_clean _ special_dq) (t_show_clean _ special_nl) ex1_compiled) as [ast [A [B [_ [C D]]]]].
  exists ast. exact (conj A (conj B (conj C D))).
Qed.

(* the same instance, pooled flavour: same statements *)
Definition ex_inp1p : @cinput tstate := tb_input ex_ti Pooled Relaxed 1 IMIN false false 0 ex_root.
Definition ex_m1p : @mdd tstate := fst (tb_compile ex_inp1p 0 0 (tb_cache_init ex_ti) (tb_dom_init ex_ti) 0).
Example ex1p_ast :
  snd (tb_compile ex_inp1p 0 0 (tb_cache_init ex_ti) (tb_dom_init ex_ti) 0) = Compiled /\
  option_map (map skel) (viz_ast t_show ex_inp1p ex_m1p cfg_on) = option_map (map skel) (viz_ast t_show ex_inp1 ex_m1 cfg_on).
Proof. split; vm_compute; reflexivity. Qed.

(* dead-end instances: only variable 0 has transitions, every node of layer 1 is a dead end *)
Definition dead_ti (nvars : nat) : tinst := {|
  t_nvars := nvars; t_nbase := 2; t_init := 0; t_initval := 0; t_slack := 0; t_rubkind := 0; t_domkind := 0;
  t_usevalue := false; t_ncoord := 0; t_order := seq 0 nvars;
  t_trans := [ (0%nat, 0, 0, 0, 0); (0%nat, 0, 1, 1, 5) ];
  t_notimp := []; t_rub := []; t_key := []; t_coords := []; t_mergekind := 0; t_pos := []; t_up := [] |}.
Definition dead_run (nvars : nat) (flv : flavour) :=
  let inp := tb_input (dead_ti nvars) flv Exact 10 IMIN false false 0 ex_root in
  let '(m, o) := tb_compile inp 0 0 (tb_cache_init (dead_ti nvars)) (tb_dom_init (dead_ti nvars)) 0 in
  (o, m_layers m, m_best m, option_map (map skel) (viz_ast t_show inp m cfg_on),
   match tb_dot inp m cfg_on, option_map render (viz_ast t_show inp m cfg_on) with
   | Some a, Some b => String.eqb a b | _, _ => false end).

Definition dead_ast : list stmt := [SNode 0 ""; SNode 1 ""; E 0 1 true 0 0 0; SNode 2 ""; E 0 2 true 0 1 5].

(* clean, 2 variables: the last recorded layer [1; 2] is NOT empty but no best node exists: the terminal is absent *)
Example dead2_clean : dead_run 2 CleanLEL = (Compiled, [[0]; [1; 2]]%nat, None, Some dead_ast, true).
Proof. vm_compute. reflexivity. Qed.
(* clean, 3 variables: an empty last layer is recorded: the terminal is absent *)
Example dead3_clean : dead_run 3 CleanLEL = (Compiled, [[0]; [1; 2]; []]%nat, None, Some dead_ast, true).
Proof. vm_compute. reflexivity. Qed.
(* pooled: the empty last layer is recorded: the terminal is absent *)
Example dead2_pooled : dead_run 2 Pooled = (Compiled, [[0]; [1; 2]; []]%nat, None, Some dead_ast, true).
Proof. vm_compute. reflexivity. Qed.

Check @as_graphviz_is_render.
Check @declared_exactly_once.
Check @node_attrs.
Check @edges_complete.
Check @edges_are_arcs.
Check @edges_are_arcs_wf.
Check @edges_into_complete.
Check @edges_into_hidden.
Check @best_marks.
Check @terminal_iff.
Check @terminal_edges.
Check @clusters_only_on_request.
Check @clusters_only_on_request_wf.
Check @stmts_syntax_ok.
Check @render_shape.
Check @render_even_dq.
Check @C20_as_graphviz_faithful.
Check @C20_as_graphviz_syntax.

Print Assumptions as_graphviz_is_render.
Print Assumptions declared_exactly_once.
Print Assumptions node_attrs.
Print Assumptions edges_complete.
Print Assumptions edges_are_arcs.
Print Assumptions edges_are_arcs_wf.
Print Assumptions edges_into_complete.
Print Assumptions edges_into_hidden.
Print Assumptions best_marks.
Print Assumptions terminal_iff.
Print Assumptions terminal_edges.
Print Assumptions clusters_only_on_request.
Print Assumptions clusters_only_on_request_wf.
Print Assumptions stmts_syntax_ok.
Print Assumptions render_shape.
Print Assumptions render_even_dq.
Print Assumptions C20_as_graphviz_faithful.
Print Assumptions C20_as_graphviz_syntax.
Print Assumptions ex1_faithful.
Print Assumptions dead2_clean.
