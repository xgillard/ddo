(* Gap.v — model of Solver::gap (ddo/src/abstraction/solver.rs) in IEEE-754 binary32 (Flocq).

   Rust (after the fix commit, see KNOWN_FINDINGS.json "fixed: property=C17"):
       if ub == isize::MAX || lb == isize::MIN { 1.0 }
       else if ub == lb { 0.0 }
       else { let aub = ub.abs(); let alb = lb.abs(); let u = aub.max(alb);
              ub.abs_diff(lb) as f32 / u as f32 }
   [gap_old] is the code as it was before the fix (kept for the refutation witnesses).
   `as f32` on an integer is round-to-nearest-even: [binary_normalize mode_NE z 0 false]. *)
From Coq Require Import Rbase Rbasic_fun Lra.
From Flocq Require Import Core BinarySingleNaN.
Require Import DDO.Base.
Open Scope Z_scope.

Definition prec : Z := 24.
Definition emax : Z := 128.
Lemma Hprec : Prec_gt_0 prec. Proof. unfold Prec_gt_0, prec; lia. Qed.
Lemma Hmax : Prec_lt_emax prec emax. Proof. unfold Prec_lt_emax, prec, emax; lia. Qed.
#[global] Existing Instance Hprec.
#[global] Existing Instance Hmax.

Definition f32 := binary_float prec emax.
Definition of_int (z : Z) : f32 := binary_normalize prec emax Hprec Hmax mode_NE z 0 false.
Definition fdiv (x y : f32) : f32 := @Bdiv prec emax Hprec Hmax mode_NE x y.
Definition f_one : f32 := of_int 1.
Definition f_zero : f32 := B754_zero false.

Definition gap (lb ub : Z) : f32 :=
  if (ub =? IMAX) || (lb =? IMIN) then f_one
  else if ub =? lb then f_zero
  else fdiv (of_int (Z.abs (ub - lb))) (of_int (Z.max (Z.abs ub) (Z.abs lb))).

(* the code before the fix: (u - l) as f32 / u as f32 with u,l = max,min of the absolute values *)
Definition gap_old (lb ub : Z) : f32 :=
  if (ub =? IMAX) || (lb =? IMIN) then f_one
  else let u := Z.max (Z.abs ub) (Z.abs lb) in
       let l := Z.min (Z.abs ub) (Z.abs lb) in
       fdiv (of_int (u - l)) (of_int u).

Definition no_sentinel (lb ub : Z) : Prop := ub <> IMAX /\ lb <> IMIN.

Local Notation fexp := (SpecFloat.fexp prec emax).
Local Notation rnd := (round radix2 fexp (round_mode mode_NE)).

Lemma rnd_le x y : (x <= y)%R -> (rnd x <= rnd y)%R.
Proof. apply round_le; typeclasses eauto. Qed.

Lemma rnd_bpow e : -149 <= e -> rnd (bpow radix2 e) = bpow radix2 e.
Proof.
  intros He. apply round_generic; [typeclasses eauto|].
  apply generic_format_FLT_bpow; [exact Hprec|exact He].
Qed.

(* a value between two representable powers of two rounds to a value between them, so nothing overflows *)
Lemma rnd_bounds e x : -149 <= e -> (bpow radix2 e <= x <= bpow radix2 64)%R ->
  (bpow radix2 e <= rnd x <= bpow radix2 64)%R /\ Rlt_bool (Rabs (rnd x)) (bpow radix2 emax) = true.
Proof.
  intros He [H1 H2].
  assert (L : (bpow radix2 e <= rnd x)%R) by (rewrite <- (rnd_bpow e He); apply rnd_le, H1).
  assert (U : (rnd x <= bpow radix2 64)%R) by (rewrite <- (rnd_bpow 64) by lia; apply rnd_le, H2).
  split; [split; assumption|]. apply Rlt_bool_true.
  rewrite Rabs_pos_eq by (apply Rle_trans with (2 := L), bpow_ge_0).
  apply Rle_lt_trans with (1 := U), bpow_lt. reflexivity.
Qed.

Lemma finite_not_nan (x : f32) : is_finite x = true -> is_nan x = false.
Proof. destruct x; (reflexivity || discriminate). Qed.

Lemma of_int_pos z : 1 <= z <= 2 ^ 64 ->
  B2R (of_int z) = rnd (IZR z) /\ is_finite (of_int z) = true /\ Bsign (of_int z) = false /\
  (1 <= B2R (of_int z) <= bpow radix2 64)%R.
Proof.
  intros [Hlo Hhi].
  destruct (rnd_bounds 0 (IZR z)) as [Hb Hov]; [lia| |].
  { split; [apply (IZR_le 1), Hlo|]. rewrite <- (IZR_Zpower radix2 64) by lia. apply IZR_le, Hhi. }
  generalize (binary_normalize_correct prec emax Hprec Hmax mode_NE z 0 false). cbv zeta.
  replace (F2R (Float radix2 z 0)) with (IZR z) by (symmetry; apply Rmult_1_r).
  rewrite Hov. intros (H1 & H2 & H3). unfold of_int. rewrite H1, H2, H3.
  rewrite Rcompare_Gt by (apply IZR_lt; lia). auto.
Qed.

Lemma ratio_bounds x y u : (1 <= x <= u)%R -> (1 <= y <= u)%R -> (/ u <= x / y <= u)%R.
Proof.
  intros [Hx1 Hx2] [Hy1 Hy2]. unfold Rdiv. split.
  - apply Rle_trans with (1 * / y)%R; [rewrite Rmult_1_l; apply Rinv_le; lra|].
    apply Rmult_le_compat_r; [left; apply Rinv_0_lt_compat; lra|exact Hx1].
  - apply Rle_trans with (x * 1)%R; [|lra].
    apply Rmult_le_compat_l; [lra|]. rewrite <- Rinv_1. apply Rinv_le; lra.
Qed.

Lemma fdiv_pos x y :
  is_finite x = true -> is_finite y = true -> Bsign x = false -> Bsign y = false ->
  (1 <= B2R x <= bpow radix2 64)%R -> (1 <= B2R y <= bpow radix2 64)%R ->
  let q := fdiv x y in
  B2R q = rnd (B2R x / B2R y) /\ is_finite q = true /\ is_nan q = false /\ Bsign q = false /\
  (bpow radix2 (-64) <= B2R q)%R.
Proof.
  intros Fx Fy Sx Sy Hx Hy. cbv zeta.
  destruct (rnd_bounds (-64) (B2R x / B2R y)) as [[Hb _] Hov]; [lia| |].
  { pose proof (ratio_bounds _ _ _ Hx Hy) as H. rewrite <- (bpow_opp radix2 64) in H. exact H. }
  generalize (Bdiv_correct prec emax Hprec Hmax mode_NE x y ltac:(lra)).
  rewrite Hov. intros (H1 & H2 & H3). unfold fdiv.
  rewrite Fx in H2. rewrite H1, (H3 (finite_not_nan _ H2)), Sx, Sy. auto using finite_not_nan.
Qed.

(* the quotient of the general case; [gap_args] shows that isize bounds give arguments in this range *)
Lemma gap_ratio a m : 1 <= a <= 2 ^ 64 -> 1 <= m <= 2 ^ 64 ->
  let g := fdiv (of_int a) (of_int m) in
  is_finite g = true /\ is_nan g = false /\ Bsign g = false /\ (0 < B2R g)%R /\ (a <= m -> (B2R g <= 1)%R).
Proof.
  intros Ha Hm. cbv zeta.
  destruct (of_int_pos a Ha) as (A1 & A2 & A3 & A4). destruct (of_int_pos m Hm) as (B1 & B2 & B3 & B4).
  destruct (fdiv_pos _ _ A2 B2 A3 B3 A4 B4) as (Q1 & Q2 & Q3 & Q4 & Q5).
  repeat split; auto.
  - apply Rlt_le_trans with (2 := Q5), bpow_gt_0.
  - intros Hle. rewrite Q1. replace 1%R with (rnd 1) by (apply (rnd_bpow 0); lia). apply rnd_le.
    apply Rmult_le_reg_r with (B2R (of_int m)); [lra|].
    unfold Rdiv. rewrite Rmult_assoc, Rinv_l, Rmult_1_r, Rmult_1_l by lra.
    rewrite A1, B1. apply rnd_le, IZR_le, Hle.
Qed.

Lemma gap_args lb ub : in_isize lb -> in_isize ub -> ub <> lb ->
  1 <= Z.abs (ub - lb) <= 2 ^ 64 /\ 1 <= Z.max (Z.abs ub) (Z.abs lb) <= 2 ^ 64.
Proof. unfold in_isize, IMIN, IMAX. lia. Qed.

Lemma f_one_val : B2R f_one = 1%R /\ is_finite f_one = true /\ is_nan f_one = false /\ Bsign f_one = false.
Proof.
  destruct (of_int_pos 1) as (H1 & H2 & H3 & _); [lia|]. unfold f_one.
  rewrite H1. repeat split; auto using finite_not_nan. apply (rnd_bpow 0). lia.
Qed.

Lemma gap_cases lb ub (P : f32 -> Prop) :
  (ub = IMAX \/ lb = IMIN -> P f_one) ->
  (no_sentinel lb ub -> ub = lb -> P f_zero) ->
  (no_sentinel lb ub -> ub <> lb -> P (fdiv (of_int (Z.abs (ub - lb))) (of_int (Z.max (Z.abs ub) (Z.abs lb))))) ->
  P (gap lb ub).
Proof.
  unfold gap, no_sentinel. intros H1 H2 H3.
  destruct (Z.eqb_spec ub IMAX); [auto|]. destruct (Z.eqb_spec lb IMIN); [auto|].
  destruct (Z.eqb_spec ub lb); auto.
Qed.

Lemma gap_props lb ub : in_isize lb -> in_isize ub ->
  let g := gap lb ub in
  is_finite g = true /\ is_nan g = false /\ Bsign g = false /\ (0 <= B2R g)%R.
Proof.
  intros Hlb Hub. cbv zeta. apply gap_cases.
  - intros _. destruct f_one_val as (H1 & H2 & H3 & H4). rewrite H1. repeat split; auto. lra.
  - intros _ _. simpl. repeat split. lra.
  - intros _ Hne. destruct (gap_args lb ub Hlb Hub Hne) as [Ha Hm].
    destruct (gap_ratio _ _ Ha Hm) as (H1 & H2 & H3 & H4 & _). repeat split; auto. lra.
Qed.

(* ---- the five clauses of C17, for every pair of isize bounds ---- *)

Theorem gap_never_nan lb ub : in_isize lb -> in_isize ub -> is_nan (gap lb ub) = false.
Proof. intros Hlb Hub. apply (gap_props lb ub Hlb Hub). Qed.

Theorem gap_nonneg lb ub : in_isize lb -> in_isize ub ->
  is_finite (gap lb ub) = true /\ (0 <= B2R (gap lb ub))%R /\
  (gap lb ub = B754_zero true -> False).
Proof.
  intros Hlb Hub. destruct (gap_props lb ub Hlb Hub) as (H1 & _ & H3 & H4).
  repeat split; auto. intros H. rewrite H in H3. discriminate H3.
Qed.

Theorem gap_one_when_infinite lb ub : ub = IMAX \/ lb = IMIN -> B2R (gap lb ub) = 1%R.
Proof.
  intros H. apply gap_cases.
  - intros _. apply f_one_val.
  - intros [H1 H2]. destruct H; contradiction.
  - intros [H1 H2]. destruct H; contradiction.
Qed.

Theorem gap_zero_iff lb ub : in_isize lb -> in_isize ub -> no_sentinel lb ub ->
  (B2R (gap lb ub) = 0%R <-> lb = ub).
Proof.
  intros Hlb Hub [Hs1 Hs2]. apply gap_cases.
  - intros [H|H]; contradiction.
  - intros _ ->. split; reflexivity.
  - intros _ Hne. destruct (gap_args lb ub Hlb Hub Hne) as [Ha Hm].
    destruct (gap_ratio _ _ Ha Hm) as (_ & _ & _ & Hpos & _).
    split; [lra|]. intros E. symmetry in E. contradiction.
Qed.

Theorem gap_le_one_same_sign lb ub : in_isize lb -> in_isize ub -> lb <= ub ->
  (0 <= lb \/ ub <= 0) -> (B2R (gap lb ub) <= 1)%R.
Proof.
  intros Hlb Hub Hle Hsign. apply gap_cases.
  - intros _. rewrite (proj1 f_one_val). apply Rle_refl.
  - intros _ _. simpl. lra.
  - intros _ Hne. destruct (gap_args lb ub Hlb Hub Hne) as [Ha Hm].
    apply (gap_ratio _ _ Ha Hm). lia.
Qed.

(* ---- the code before the fix violates the property: refutation witnesses ---- *)
Lemma gap_old_nan_at_zero : is_nan (gap_old 0 0) = true.
Proof. vm_compute. reflexivity. Qed.
Lemma gap_old_zero_while_bounds_differ : gap_old (-5) 5 = B754_zero false.
Proof. vm_compute. reflexivity. Qed.
