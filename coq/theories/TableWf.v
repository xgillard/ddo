(* TableWf.v — non-vacuity of the premises of Assembly.v: the table-driven powerset family of Table.v satisfies every
   one of them, for the instances [t_wf ti C] (decidable: t_wfb):
     t_mergekind ti = 0 (merge = union), t_slack ti = 0 (relax = cost), t_rubkind ti = 0 (rough bound = IMAX),
     length (t_order ti) = t_nvars ti, every table cost in [-C, C] with 0 <= C <= IMAX,
     2 * (|t_initval ti| + C * t_nvars ti) <= IMAX.
   Covering relation: cov s s' := forall b, In b s' -> In b s (s is a superset of s'), on ARBITRARY lists (no sortedness
   side condition is needed: domains / transitions are set_of_list of unions over the members, costs are maxima over the
   members, and membership in set_of_list / insert_set / set_union does not depend on the argument being sorted).
   D := number of table rows (domains are duplicate-free lists of table values), B := tB ti C = |initval| + C * nvars.
   FINDING: the hypothesis relax_ge of MddSim.v (c <= relax .. c for EVERY integer c) is false of this family, as of any
   relaxation returning machine integers (table_not_wf_strong); the family meets the machine-integer variant
   wf_relaxation_isize of Assembly.v (table_wf_relaxation), which is why Assembly.v accepts either.
   Results: table_premises (all premises of Assembly.v for tb_sconfig ti flv false false false width cutoff),
   C01_table_instances, C05_table_instances, C03_table_instances, and a concrete 3-variable instance (ex_ti: optimum 12,
   ex_C01 / ex_C01_fc by the theorem, ex_run by running the model).  Stdlib only, no axioms. *)
Require Import DDO.Base DDO.Fringe DDO.DP DDO.Cache DDO.Dom DDO.Mdd DDO.MddExact DDO.Solver DDO.SolverProofs.
Require Import DDO.MddProgress DDO.MddSim DDO.SolverCutoff DDO.Par DDO.ParProofs DDO.Table DDO.Run DDO.Assembly.
From Coq Require Import Lia List Arith ZArith Bool Permutation Sorted.
Import ListNotations.
Local Open Scope Z_scope.

Lemma insert_set_In x y l : In y (insert_set x l) <-> y = x \/ In y l.
Proof.
  induction l as [|z l IH]; simpl; [intuition|].
  destruct (x <? z) eqn:E1; [simpl; intuition|].
  destruct (x =? z) eqn:E2.
  - apply Z.eqb_eq in E2. subst z. simpl. intuition.
  - simpl. rewrite IH. intuition.
Qed.

Lemma set_of_list_In y l : In y (set_of_list l) <-> In y l.
Proof.
  unfold set_of_list. induction l as [|z l IH]; simpl; [tauto|].
  rewrite insert_set_In, IH. intuition.
Qed.

Lemma set_union_In y a b : In y (set_union a b) <-> In y a \/ In y b.
Proof.
  unfold set_union. induction a as [|z a IH]; simpl; [tauto|].
  rewrite insert_set_In, IH. intuition.
Qed.

Lemma union_all_In y (L : list (list Z)) : In y (fold_right set_union [] L) <-> exists s, In s L /\ In y s.
Proof.
  induction L as [|a L IH]; simpl.
  - split; [tauto|intros (s & [] & _)].
  - rewrite set_union_In, IH. split.
    + intros [H|(s & H1 & H2)]; [exists a; auto|exists s; auto].
    + intros (s & [<-|H1] & H2); [left; exact H2|right; exists s; auto].
Qed.

Lemma insert_set_sorted x l : StronglySorted Z.lt l -> StronglySorted Z.lt (insert_set x l).
Proof.
  induction l as [|z l IH]; intros Hs; simpl.
  - constructor; constructor.
  - inversion Hs as [|? ? Hs' Hf]; subst.
    destruct (x <? z) eqn:E1.
    + apply Z.ltb_lt in E1. constructor; [exact Hs|]. constructor; [exact E1|].
      eapply Forall_impl; [|exact Hf]. intros a Ha. simpl in Ha. lia.
    + destruct (x =? z) eqn:E2; [exact Hs|].
      apply Z.ltb_ge in E1. apply Z.eqb_neq in E2.
      constructor; [apply IH; exact Hs'|].
      apply Forall_forall. intros a Ha. apply insert_set_In in Ha. destruct Ha as [->|Ha]; [lia|].
      rewrite Forall_forall in Hf. apply Hf; exact Ha.
Qed.

Lemma set_of_list_sorted l : StronglySorted Z.lt (set_of_list l).
Proof. unfold set_of_list. induction l; simpl; [constructor|apply insert_set_sorted; assumption]. Qed.

Lemma sorted_NoDup l : StronglySorted Z.lt l -> NoDup l.
Proof.
  induction 1 as [|a l Hs IH Hf]; constructor; [|exact IH].
  intros Hin. rewrite Forall_forall in Hf. specialize (Hf a Hin). lia.
Qed.

Lemma set_of_list_length_le l (U : list Z) : incl l U -> (length (set_of_list l) <= length U)%nat.
Proof.
  intros Hi. apply NoDup_incl_length; [apply sorted_NoDup, set_of_list_sorted|].
  intros y Hy. apply Hi. apply set_of_list_In. exact Hy.
Qed.

Lemma zmax_list_some l x : In x l -> exists m, zmax_list l = Some m.
Proof. destruct l as [|y l]; [intros []|]. intros _. simpl. destruct (zmax_list l); eexists; reflexivity. Qed.

Lemma zmax_list_mono l1 l2 x : In x l1 -> incl l1 l2 ->
  exists m1 m2, zmax_list l1 = Some m1 /\ zmax_list l2 = Some m2 /\ m1 <= m2.
Proof.
  intros Hx Hi. destruct (zmax_list_some l1 x Hx) as [m1 E1].
  destruct (zmax_list_some l2 x (Hi x Hx)) as [m2 E2].
  exists m1, m2. split; [exact E1|]. split; [exact E2|].
  destruct (zmax_list_spec l1 m1 E1) as [I1 _]. destruct (zmax_list_spec l2 m2 E2) as [_ I2].
  apply I2, Hi, I1.
Qed.

Section TableModel.
  Variable ti : tinst.
  Local Notation pb := (t_problem ti).

  Definition cov (s s' : tstate) : Prop := forall b, In b s' -> In b s.

  Lemma cov_refl s : cov s s.
  Proof. intros b H; exact H. Qed.

  Lemma rows_In x b v dst c :
    In (v, dst, c) (rows ti x b) <-> In (x, b, v, dst, c) (t_trans ti).
  Proof.
    unfold rows. rewrite sort_by_In, in_flat_map. split.
    - intros ([[[[x' b'] v'] d'] c'] & Hin & H).
      destruct (Nat.eqb x' x) eqn:E1; simpl in H; [|destruct H].
      destruct (b' =? b) eqn:E2; simpl in H; [|destruct H].
      destruct H as [H|[]]. inversion H; subst. apply Nat.eqb_eq in E1. apply Z.eqb_eq in E2. subst. exact Hin.
    - intros Hin. exists (x, b, v, dst, c). split; [exact Hin|].
      rewrite Nat.eqb_refl, Z.eqb_refl. simpl. left; reflexivity.
  Qed.

  Lemma domain_In x s v :
    In v (t_domain ti x s) <-> exists b dst c, In b s /\ In (v, dst, c) (rows ti x b).
  Proof.
    unfold t_domain. rewrite set_of_list_In, in_flat_map. split.
    - intros (b & Hb & H). apply in_map_iff in H. destruct H as ([[v' dst] c] & E & H). subst v'.
      exists b, dst, c. auto.
    - intros (b & dst & c & Hb & H). exists b. split; [exact Hb|]. apply in_map_iff. exists (v, dst, c). auto.
  Qed.

  Lemma transition_In s d t :
    In t (t_transition ti s d) <-> exists b c, In b s /\ In (d_val d, t, c) (rows ti (d_var d) b).
  Proof.
    unfold t_transition. rewrite set_of_list_In, in_flat_map. split.
    - intros (b & Hb & H). apply in_flat_map in H. destruct H as ([[v dst] c] & Hr & H).
      destruct (v =? d_val d) eqn:E; [|destruct H]. destruct H as [<-|[]]. apply Z.eqb_eq in E. subst v.
      exists b, c. auto.
    - intros (b & c & Hb & H). exists b. split; [exact Hb|]. apply in_flat_map. exists (d_val d, t, c).
      split; [exact H|]. rewrite Z.eqb_refl. left; reflexivity.
  Qed.

  Definition costs (s : tstate) (d : decision) : list Z :=
    flat_map (fun b => flat_map (fun '(v, _, c) => if v =? d_val d then [c] else []) (rows ti (d_var d) b)) s.

  Lemma costs_In s d c :
    In c (costs s d) <-> exists b dst, In b s /\ In (d_val d, dst, c) (rows ti (d_var d) b).
  Proof.
    unfold costs. rewrite in_flat_map. split.
    - intros (b & Hb & H). apply in_flat_map in H. destruct H as ([[v dst] c'] & Hr & H).
      destruct (v =? d_val d) eqn:E; [|destruct H]. destruct H as [<-|[]]. apply Z.eqb_eq in E. subst v.
      exists b, dst. auto.
    - intros (b & dst & Hb & H). exists b. split; [exact Hb|]. apply in_flat_map. exists (d_val d, dst, c).
      split; [exact H|]. rewrite Z.eqb_refl. left; reflexivity.
  Qed.

  Lemma t_cost_costs src dst d : t_cost ti src dst d = opt_default 0 (zmax_list (costs src d)).
  Proof. reflexivity. Qed.

  (* cov is a simulation: a superset has more values, reaches a superset, at a cost at least as high *)
  Lemma cov_sim s s' x v : cov s s' -> In v (domain pb x s') ->
    let d := {| d_var := x; d_val := v |} in
    In v (domain pb x s) /\ cov (transition pb s d) (transition pb s' d) /\
    transition_cost pb s' (transition pb s' d) d <= transition_cost pb s (transition pb s d) d.
  Proof.
    intros Hc Hv d. cbn [domain transition transition_cost t_problem] in *.
    apply domain_In in Hv. destruct Hv as (b & dst & c & Hb & Hr).
    split; [|split].
    - apply domain_In. exists b, dst, c. split; [apply Hc; exact Hb|exact Hr].
    - intros t Ht. apply transition_In in Ht. destruct Ht as (b' & c' & Hb' & Hr').
      apply transition_In. exists b', c'. split; [apply Hc; exact Hb'|exact Hr'].
    - rewrite !t_cost_costs.
      assert (Hin : In c (costs s' d)) by (apply costs_In; exists b, dst; auto).
      assert (Hi : incl (costs s' d) (costs s d)).
      { intros c0 H0. apply costs_In in H0. destruct H0 as (b0 & d0 & Hb0 & Hr0).
        apply costs_In. exists b0, d0. split; [apply Hc; exact Hb0|exact Hr0]. }
      destruct (zmax_list_mono _ _ c Hin Hi) as (m1 & m2 & E1 & E2 & Hle). rewrite E1, E2. exact Hle.
  Qed.

  Lemma nv_static k (l1 l2 : list tstate) : next_variable pb k l1 = next_variable pb k l2.
  Proof. reflexivity. Qed.

  Hypothesis Horder : length (t_order ti) = t_nvars ti.

  Lemma nv_some k (l : list tstate) : (k < nb_vars pb)%nat -> exists x, next_variable pb k l = Some x.
  Proof.
    cbn [nb_vars next_variable t_problem]. unfold t_next_variable. intros Hk.
    destruct (Nat.ltb_spec k (t_nvars ti)) as [_|H]; [|lia].
    destruct (nth_error (t_order ti) k) as [x|] eqn:E; [exists x; reflexivity|].
    apply nth_error_None in E. lia.
  Qed.

  Lemma nv_none k (l : list tstate) : (nb_vars pb <= k)%nat -> next_variable pb k l = None.
  Proof.
    cbn [nb_vars next_variable t_problem]. unfold t_next_variable. intros Hk.
    destruct (Nat.ltb_spec k (t_nvars ti)) as [H|_]; [lia|reflexivity].
  Qed.

  (* finite domains: at most one value per table row *)
  Lemma dom_bound x s : (length (domain pb x s) <= length (t_trans ti))%nat.
  Proof.
    cbn [domain t_problem]. unfold t_domain.
    rewrite <- (map_length (fun '(_, _, v, _, _) => v) (t_trans ti)).
    apply set_of_list_length_le. intros v Hv. apply in_flat_map in Hv. destruct Hv as (b & _ & H).
    apply in_map_iff in H. destruct H as ([[v' dst] c] & E & H). subst v'. apply rows_In in H.
    apply in_map_iff. exists (x, b, v, dst, c). auto.
  Qed.

  Variable C : Z.
  Hypothesis HC0 : 0 <= C.
  Hypothesis Hcosts : forall x b v dst c, In (x, b, v, dst, c) (t_trans ti) -> - C <= c <= C.

  Lemma t_cost_bound s d : - C <= transition_cost pb s (transition pb s d) d <= C.
  Proof.
    cbn [transition_cost t_problem]. rewrite t_cost_costs.
    destruct (zmax_list (costs s d)) as [m|] eqn:E; simpl; [|lia].
    destruct (zmax_list_spec _ _ E) as [Hin _]. apply costs_In in Hin. destruct Hin as (b & dst & _ & Hr).
    apply rows_In in Hr. eapply Hcosts; exact Hr.
  Qed.

  Lemma frun_range ds k s v s' v' :
    (k <= nb_vars pb)%nat -> frun pb k s v ds = Some (s', v') ->
    v - C * Z.of_nat (nb_vars pb - k) <= v' <= v + C * Z.of_nat (nb_vars pb - k).
  Proof.
    intros Hk Hr.
    pose proof (frun_bounded pb C t_cost_bound ds k s v s' v' Hr) as Hb.
    pose proof (frun_length pb nv_none ds k s v _ Hr Hk) as Hl.
    assert (Z.of_nat (length ds) <= Z.of_nat (nb_vars pb - k)) by lia. nia.
  Qed.

  Definition tB : Z := Z.abs (t_initval ti) + C * Z.of_nat (t_nvars ti).

  Lemma guard0 ds s' v' :
    frun pb 0 (init_state pb) (init_value pb) ds = Some (s', v') -> - tB <= v' <= tB.
  Proof.
    intros Hr. pose proof (frun_range ds 0%nat _ _ s' v' ltac:(lia) Hr) as H.
    rewrite Nat.sub_0_r in H. cbn [nb_vars init_value t_problem] in H. unfold tB. lia.
  Qed.

  (* the Bellman value of ANY state, at any depth, is at most C * (number of variables) *)
  Lemma H_range k s h : H pb k s = Some h -> h <= C * Z.of_nat (nb_vars pb).
  Proof.
    intros Hh. destruct (Nat.le_gt_cases k (nb_vars pb)) as [Hk|Hk].
    - destruct (H_attained pb nv_static nv_some nv_none (nb_vars pb - k) k s 0 h eq_refl Hk Hh) as (ds & s' & Hr & _).
      pose proof (frun_range ds k s 0 s' _ Hk Hr) as Hb.
      assert (Z.of_nat (nb_vars pb - k) <= Z.of_nat (nb_vars pb)) by lia. nia.
    - rewrite (H_end pb nv_none k s) in Hh by lia. inversion Hh; subst. lia.
  Qed.
End TableModel.

Section TableRelax.
  Variable ti : tinst.
  Local Notation pb := (t_problem ti).
  Local Notation rlx := (t_relaxation ti).

  Hypothesis Hmerge : t_mergekind ti = 0.
  Hypothesis Hslack : t_slack ti = 0.
  Hypothesis Hrub : t_rubkind ti = 0.

  Lemma merge_cov L s s' : In s L -> cov s s' -> cov (merge rlx L) s'.
  Proof.
    intros HL Hc b Hb. cbn [merge t_relaxation]. rewrite Hmerge. change (0 =? 1) with false. cbv iota.
    apply union_all_In. exists s. split; [exact HL|apply Hc; exact Hb].
  Qed.

  Lemma relax_isize src dst mg d c : in_isize (relax rlx src dst mg d c).
  Proof. cbn [relax t_relaxation]. unfold sat_add. apply clampZ_range. Qed.

  (* NOT for every integer c: relax returns a machine integer *)
  Lemma relax_ge_isize src dst mg d c : in_isize c -> c <= relax rlx src dst mg d c.
  Proof.
    intros Hc. cbn [relax t_relaxation]. rewrite Hslack. unfold sat_mul, sat_add. rewrite Z.mul_0_l.
    rewrite (clampZ_id 0) by (unfold in_isize, IMIN, IMAX; lia). rewrite Z.add_0_r. rewrite (clampZ_id c Hc). lia.
  Qed.

  Lemma relax_ge_fails : exists src dst mg d c, ~ (c <= relax rlx src dst mg d c).
  Proof.
    exists [], [], [], {| d_var := 0%nat; d_val := 0 |}, (IMAX + 1).
    pose proof (relax_isize [] [] [] {| d_var := 0%nat; d_val := 0 |} (IMAX + 1)) as [_ H]. lia.
  Qed.

  Lemma rub_is_max s : fast_upper_bound rlx s = IMAX.
  Proof. cbn [fast_upper_bound t_relaxation]. rewrite Hrub. reflexivity. Qed.
End TableRelax.

Lemma tstate_eqb_spec a b : tstate_eqb a b = true <-> a = b.
Proof.
  revert b. induction a as [|x a IH]; intros [|y b]; simpl; split; intros H; try reflexivity; try discriminate.
  - apply andb_true_iff in H. destruct H as [H1 H2]. apply Z.eqb_eq in H1. apply IH in H2. subst. reflexivity.
  - inversion H; subst. rewrite Z.eqb_refl. simpl. apply IH. reflexivity.
Qed.

Definition t_wf (ti : tinst) (C : Z) : Prop :=
  t_mergekind ti = 0 /\ t_slack ti = 0 /\ t_rubkind ti = 0 /\
  length (t_order ti) = t_nvars ti /\
  0 <= C <= IMAX /\
  (forall x b v dst c, In (x, b, v, dst, c) (t_trans ti) -> - C <= c <= C) /\
  2 * (Z.abs (t_initval ti) + C * Z.of_nat (t_nvars ti)) <= IMAX.

(* executable check *)
Definition t_wfb (ti : tinst) (C : Z) : bool :=
  (t_mergekind ti =? 0) && (t_slack ti =? 0) && (t_rubkind ti =? 0) &&
  Nat.eqb (length (t_order ti)) (t_nvars ti) &&
  (0 <=? C) && (C <=? IMAX) &&
  forallb (fun '(_, _, _, _, c) => (- C <=? c) && (c <=? C)) (t_trans ti) &&
  (2 * (Z.abs (t_initval ti) + C * Z.of_nat (t_nvars ti)) <=? IMAX).

Lemma t_wfb_spec ti C : t_wfb ti C = true -> t_wf ti C.
Proof.
  unfold t_wfb, t_wf. intros H.
  repeat (apply andb_true_iff in H; destruct H as [H ?]).
  repeat match goal with
  | H : (_ =? _) = true |- _ => apply Z.eqb_eq in H
  | H : (_ <=? _) = true |- _ => apply Z.leb_le in H
  | H : Nat.eqb _ _ = true |- _ => apply Nat.eqb_eq in H
  end.
  repeat split; try assumption.
  all: match goal with
       | Hf : forallb _ _ = true, Hin : In _ (t_trans _) |- _ =>
           rewrite forallb_forall in Hf; specialize (Hf _ Hin); simpl in Hf;
           apply andb_true_iff in Hf; destruct Hf as [A1 A2];
           apply Z.leb_le in A1; apply Z.leb_le in A2; assumption
       end.
Qed.

Section TableInstances.
  Variable ti : tinst.
  Variable C : Z.
  Hypothesis Hwf : t_wf ti C.
  Variable flv : flavour.
  Hypothesis Hflv : flv = CleanLEL \/ flv = CleanFC.
  Variable width : nat.
  Hypothesis Hwidth : (1 <= width)%nat.
  Variable cutoff : nat.
  Local Notation cfg := (tb_sconfig ti flv false false false width cutoff).
  Local Notation pb := (t_problem ti).

  Lemma Hmerge : t_mergekind ti = 0.                       Proof. apply Hwf. Qed.
  Lemma Hslack : t_slack ti = 0.                           Proof. apply Hwf. Qed.
  Lemma Hrub : t_rubkind ti = 0.                           Proof. apply Hwf. Qed.
  Lemma Horder : length (t_order ti) = t_nvars ti.         Proof. apply Hwf. Qed.
  Lemma HC : 0 <= C <= IMAX.                               Proof. apply Hwf. Qed.
  Lemma Hcosts : forall x b v dst c, In (x, b, v, dst, c) (t_trans ti) -> - C <= c <= C.
  Proof. apply Hwf. Qed.
  Lemma HB : 2 * tB ti C <= IMAX.                          Proof. apply Hwf. Qed.

  Lemma table_cfg_clean : sc_flavour cfg = CleanLEL \/ sc_flavour cfg = CleanFC.   Proof. exact Hflv. Qed.
  Lemma table_cfg_nocache : sc_use_cache cfg = false.                              Proof. reflexivity. Qed.
  Lemma table_cfg_nodom : sc_domrule cfg = None.                                   Proof. reflexivity. Qed.
  Lemma table_cfg_nodup : sc_nodup cfg = false.                                    Proof. reflexivity. Qed.
  Lemma table_cfg_width : (1 <= sc_width cfg)%nat.                                 Proof. exact Hwidth. Qed.

  (* the relaxation is well-formed in the machine-integer sense, with cov s s' := s' is a subset of s *)
  Lemma table_rub_adm k s s' h : cov s s' -> H pb k s' = Some h -> h <= fast_upper_bound (sc_relax cfg) s.
  Proof.
    intros _ Hh. cbn [sc_relax tb_sconfig]. rewrite (rub_is_max ti Hrub).
    pose proof (H_range ti Horder C (proj1 HC) Hcosts k s' h Hh) as Hr. cbn [nb_vars t_problem] in Hr.
    pose proof HB as HB'. unfold tB, IMAX in *. lia.
  Qed.

  Lemma table_wf_cover : wf_cover cfg cov.
  Proof.
    split; [exact cov_refl|]. split; [exact (cov_sim ti)|]. split; [exact (merge_cov ti Hmerge)|exact table_rub_adm].
  Qed.

  Lemma table_wf_relaxation : wf_relaxation cfg.
  Proof.
    exists cov. right. split; [exact table_wf_cover|]. split; [|split].
    - intros s d. pose proof (t_cost_bound ti Horder C (proj1 HC) Hcosts s d) as Hb.
      cbn [sc_problem tb_sconfig]. pose proof HC as HC'. unfold in_isize, IMIN, IMAX in *. lia.
    - intros src dst mg d c _. apply relax_isize.
    - intros src dst mg d c Hc. apply (relax_ge_isize ti Hslack). exact Hc.
  Qed.

  (* ... while the hypothesis relax_ge of MddSim.v, as it stands, is FALSE of this family *)
  Lemma table_not_wf_strong cov' : ~ wf_relaxation_strong cfg cov'.
  Proof.
    intros [_ Hge]. destruct (relax_ge_fails ti) as (src & dst & mg & d & c & Hn). apply Hn. apply Hge.
  Qed.

  (* all the premises of Assembly.v (section Main), for D := number of table rows and B := |initval| + C * nvars *)
  Theorem table_premises :
    (forall a b, tstate_eqb a b = true <-> a = b) /\
    (sc_flavour cfg = CleanLEL \/ sc_flavour cfg = CleanFC) /\
    sc_use_cache cfg = false /\ sc_domrule cfg = None /\ sc_nodup cfg = false /\ (1 <= sc_width cfg)%nat /\
    (forall k l1 l2, next_variable (sc_problem cfg) k l1 = next_variable (sc_problem cfg) k l2) /\
    (forall k l, (k < nb_vars (sc_problem cfg))%nat -> exists x, next_variable (sc_problem cfg) k l = Some x) /\
    (forall k l, (nb_vars (sc_problem cfg) <= k)%nat -> next_variable (sc_problem cfg) k l = None) /\
    wf_relaxation cfg /\
    (forall x s, (length (domain (sc_problem cfg) x s) <= length (t_trans ti))%nat) /\
    2 * tB ti C <= IMAX /\
    (forall ds s' v', frun (sc_problem cfg) 0 (init_state (sc_problem cfg)) (init_value (sc_problem cfg)) ds = Some (s', v') ->
                      - tB ti C <= v' <= tB ti C).
  Proof.
    split; [exact tstate_eqb_spec|]. split; [exact table_cfg_clean|]. split; [reflexivity|]. split; [reflexivity|].
    split; [reflexivity|]. split; [exact Hwidth|]. split; [exact (nv_static ti)|]. split; [exact (nv_some ti Horder)|].
    split; [exact (nv_none ti Horder)|]. split; [exact table_wf_relaxation|]. split; [exact (dom_bound ti)|].
    split; [exact HB|]. exact (guard0 ti Horder C (proj1 HC) Hcosts).
  Qed.
End TableInstances.

Section TableTheorems.
  Variable ti : tinst.
  Variable C : Z.
  Hypothesis Hwf : t_wf ti C.
  Variable flv : flavour.
  Hypothesis Hflv : flv = CleanLEL \/ flv = CleanFC.
  Variable width : nat.
  Hypothesis Hwidth : (1 <= width)%nat.

  Local Ltac table_side cutoff :=
    destruct (table_premises ti C Hwf flv Hflv width Hwidth cutoff)
      as (P1 & P2 & P3 & P4 & P5 & P6 & P7 & P8 & P9 & P10 & P11 & P12 & P13).

  (* C01: the sequential solver model returns the optimum of the exhaustive enumeration on every such instance *)
  Theorem C01_table_instances :
    exists f0, forall fuel, (f0 <= fuel)%nat ->
      let r := maximize tstate_eqb (tb_sconfig ti flv false false false width 0) fuel None in
      r_crash r = false /\ r_outoffuel r = false /\ r_exact r = true /\ r_value r = opt_enum (t_problem ti) /\
      (forall v, opt_enum (t_problem ti) = Some v ->
         r_lb r = v /\ r_ub r = v /\
         exists sol, r_sol r = Some (sort_by dec_var_cmp sol) /\ MddProgress.feasible (t_problem ti) sol v) /\
      (opt_enum (t_problem ti) = None -> r_sol r = None /\ r_lb r = IMIN).
  Proof.
    table_side 0%nat.
    exact (C01_sequential_optimal tstate_eqb P1 (tb_sconfig ti flv false false false width 0) P2 P3 P4 P5 P6 P7 P8 P9 P10
             (length (t_trans ti)) P11 (tB ti C) P12 P13 eq_refl).
  Qed.

  (* C05: anytime soundness under any cutoff *)
  Theorem C05_table_instances : forall cutoff fuel,
    let r := maximize tstate_eqb (tb_sconfig ti flv false false false width cutoff) fuel None in
    r_outoffuel r = false ->
    r_crash r = false /\ r_lb r <= r_ub r /\
    (forall o, opt_enum (t_problem ti) = Some o -> r_lb r <= o <= r_ub r) /\
    (r_exact r = true -> r_value r = opt_enum (t_problem ti)).
  Proof.
    intros cutoff fuel r Hf. table_side cutoff.
    assert (Hp : primal_ok (sfeasible (t_problem ti)) None) by (intros pv psol E; discriminate).
    destruct (C05_sequential_anytime tstate_eqb P1 (tb_sconfig ti flv false false false width cutoff) P2 P3 P4 P5 P6 P7 P8 P9 P10
                (tB ti C) P12 P13 fuel None Hp Hf) as (A1 & A2 & A3 & _ & _ & A6).
    auto.
  Qed.

  (* C03 / C04: the parallel protocol model, every schedule, every number of workers *)
  Theorem C03_table_instances : forall T fuel sched,
    (1 <= T)%nat ->
    (fuelP (tb_sconfig ti flv false false false width 0)
           (Kbound (tb_sconfig ti flv false false false width 0) (length (t_trans ti))) T <= fuel)%nat ->
    let r := par_maximize tstate_eqb (tb_sconfig ti flv false false false width 0) fuel T T None sched in
    pr_end r = PFinished /\ pr_crash r = false /\ pr_exact r = true /\ pr_value r = opt_enum (t_problem ti).
  Proof.
    intros T fuel sched HT Hfuel r. table_side 0%nat.
    assert (Hp : primal_okP (sfeasible (t_problem ti)) None) by (intros pv psol E; discriminate).
    destruct (C03_parallel_optimal tstate_eqb P1 (tb_sconfig ti flv false false false width 0) P2 P3 P4 P5 P6 P7 P8 P9 P10
                (length (t_trans ti)) P11 (tB ti C) P12 P13 eq_refl T None fuel sched HT Hp Hfuel) as (A1 & A2 & A3 & A4 & _).
    auto.
  Qed.
End TableTheorems.

(* a concrete instance
   3 variables (static order 0, 1, 2), 3 base states, 10 table rows (var, base, value, dst, cost):
     x0: 0 -0-> 0 (+0)   0 -1-> 1 (+5)
     x1: 0 -0-> 0 (+0)   0 -1-> 2 (+4)   1 -0-> 1 (+0)   1 -1-> 2 (-3)
     x2: 0 -0-> 0 (+1)   1 -0-> 1 (+2)   1 -1-> 2 (+7)   2 -0-> 2 (+0)
   the best path is x0 = 1, x1 = 0, x2 = 1 with value 5 + 0 + 7 = 12 *)
Definition ex_ti : tinst := {|
  t_nvars := 3; t_nbase := 3; t_init := 0; t_initval := 0; t_slack := 0; t_rubkind := 0; t_domkind := 0;
  t_usevalue := false; t_ncoord := 0; t_order := [0; 1; 2]%nat;
  t_trans := [ (0%nat, 0, 0, 0, 0); (0%nat, 0, 1, 1, 5);
               (1%nat, 0, 0, 0, 0); (1%nat, 0, 1, 2, 4); (1%nat, 1, 0, 1, 0); (1%nat, 1, 1, 2, -3);
               (2%nat, 0, 0, 0, 1); (2%nat, 1, 0, 1, 2); (2%nat, 1, 1, 2, 7); (2%nat, 2, 0, 2, 0) ];
  t_notimp := []; t_rub := []; t_key := []; t_coords := []; t_mergekind := 0; t_pos := []; t_up := [] |}.

Example ex_wf : t_wf ex_ti 7.
Proof. apply t_wfb_spec. vm_compute. reflexivity. Qed.

Example ex_opt : opt_enum (t_problem ex_ti) = Some 12.
Proof. vm_compute. reflexivity. Qed.

(* the final theorem applies: with width 1 (every layer is merged into a single node) the solver model returns 12 *)
Example ex_C01 :
  exists f0, forall fuel, (f0 <= fuel)%nat ->
    let r := maximize tstate_eqb (tb_sconfig ex_ti CleanLEL false false false 1 0) fuel None in
    r_crash r = false /\ r_outoffuel r = false /\ r_exact r = true /\
    r_value r = Some 12 /\ r_lb r = 12 /\ r_ub r = 12.
Proof.
  destruct (C01_table_instances ex_ti 7 ex_wf CleanLEL (or_introl eq_refl) 1 (le_n 1)) as [f0 Hf].
  exists f0. intros fuel Hfuel. destruct (Hf fuel Hfuel) as (A1 & A2 & A3 & A4 & A5 & _).
  rewrite ex_opt in A4. destruct (A5 12 ex_opt) as (B1 & B2 & _). cbv zeta. repeat split; assumption.
Qed.

(* ... and so does the frontier-cut-set flavour at width 2 *)
Example ex_C01_fc :
  exists f0, forall fuel, (f0 <= fuel)%nat ->
    let r := maximize tstate_eqb (tb_sconfig ex_ti CleanFC false false false 2 0) fuel None in
    r_crash r = false /\ r_outoffuel r = false /\ r_exact r = true /\ r_value r = Some 12.
Proof.
  destruct (C01_table_instances ex_ti 7 ex_wf CleanFC (or_intror eq_refl) 2 (le_S 1 1 (le_n 1))) as [f0 Hf].
  exists f0. intros fuel Hfuel. destruct (Hf fuel Hfuel) as (A1 & A2 & A3 & A4 & _).
  rewrite ex_opt in A4. cbv zeta. repeat split; assumption.
Qed.

(* cross-check by running the executable model (40 iterations of the main loop are plenty here) *)
Example ex_run :
  let r := maximize tstate_eqb (tb_sconfig ex_ti CleanLEL false false false 1 0) 40 None in
  (r_crash r, r_outoffuel r, r_exact r, r_value r, r_lb r, r_ub r) = (false, false, true, Some 12, 12, 12).
Proof. vm_compute. reflexivity. Qed.

Print Assumptions table_premises.
Print Assumptions table_not_wf_strong.
Print Assumptions C01_table_instances.
Print Assumptions C05_table_instances.
Print Assumptions C03_table_instances.
Print Assumptions ex_C01.
Print Assumptions ex_C01_fc.
Print Assumptions ex_run.
