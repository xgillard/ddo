(* MddStruct2.v — two complements to MddStruct.v about the call log of a compilation.

   (A) property C12, the clause "domains are enumerated ... only for states of that layer".
       [proto_ok] (MddStruct) checks the variable of every for_each_in_domain / transition /
       transition_cost call against the result of the last next_variable call; it says nothing
       about the STATE.  The checker [layer_ok] below runs over the chronological log and remembers
         ls_nv     : the states handed to the last next_variable call,
         ls_merged : the results of the merge calls logged since that call,
       and requires
         EvDomain x s / EvTransition s d s' / EvCost s s' d c :  s  is in ls_nv or in ls_merged
         EvMerge ms mg                                        :  every member of ms is in ls_nv or ls_merged
         EvRelax src dst mg d c rc                            :  dst is in ls_nv or in ls_merged
       (membership is Leibniz equality of states: node states are immutable in the model).
       Main theorem  compile_layer_states : for the three flavours, the three compilation types and
       the three outcomes, [layer_ok st0 (rev (m_log m))] for EVERY initial checker state st0, in
       particular for the empty one [ls_init], under which any user callback logged before the first
       next_variable call would be rejected.
       Every clause holds as stated, because
         (i)   clean: next_variable sees m_next before the filters / restrict / relax, the expanded
               identifiers are a sub-list of m_next plus possibly the fresh merged node;
         (ii)  pooled: next_variable sees the whole pool, the expanded identifiers are a sub-list of the
               impacted part of the pool plus possibly the fresh merged node;
         (iii) recycled merge: the expanded node is a kept node of the layer (its own state, which
               is in ls_nv, is used for the calls; the merge result is in ls_merged anyway).
       A slightly stronger fact is proved on the way ([squash_trace], MddStruct): the members of every
       merge and the dst of every relax are states handed to the LAST next_variable call (never an
       earlier merge result: there is at most one merge per layer).

   (B) property C13 for the pooled flavour: compile_width_relaxed_pooled, an instance of
       [compile_width_relaxed_gen] (MddStruct).  Under
       [forall x s, is_impacted_by x s = true] the pooled implementation records exactly one layer
       per iteration that expands something, as the clean ones do, so the number of exempted
       segments is the same (3 = the empty segment before the first next_variable call, the root
       layer, the first layer below it); [kp_width_tight] shows 3 cannot be lowered.

   Stdlib only, no axioms. *)
Require Import DDO.Base DDO.Fringe DDO.DP DDO.Cache DDO.Dom DDO.Mdd DDO.Viz DDO.MddStruct.
Require Import DDO.Table DDO.Run DDO.TableWf.
From Coq Require Import Lia List Arith ZArith Bool.
Import ListNotations.
Open Scope nat_scope.

Section LayerStates.
  Context {St : Type}.
  Variable st_eqb : St -> St -> bool.
  Variable inp : @cinput St.

  Notation mddT := (@mdd St).
  Notation gnode := (get_node inp).
  Notation pb := (ci_problem inp).
  Notation rlx := (ci_relax inp).
  Notation flv := (ci_flavour inp).
  Notation state_of m id := (n_state (get_node inp m id)).

  (* ================================================================ (A) the checker *)
  Record lstate := { ls_nv : list St; ls_merged : list St }.
  Definition ls_init : lstate := {| ls_nv := []; ls_merged := [] |}.

  (* [s] is a state of the current layer *)
  Definition avail (st : lstate) (s : St) : Prop := In s (ls_nv st) \/ In s (ls_merged st).

  Definition layer_check (st : lstate) (ev : event St) : Prop :=
    match ev with
    | EvDomain _ s => avail st s
    | EvTransition s _ _ => avail st s
    | EvCost s _ _ _ => avail st s
    | EvMerge ms _ => forall s, In s ms -> avail st s
    | EvRelax _ dst _ _ _ _ => avail st dst
    | _ => True
    end.

  Definition layer_step (st : lstate) (ev : event St) : lstate :=
    match ev with
    | EvNextVar _ sts _ => {| ls_nv := sts; ls_merged := [] |}
    | EvMerge _ mg => {| ls_nv := ls_nv st; ls_merged := mg :: ls_merged st |}
    | _ => st
    end.

  Fixpoint layer_ok (st : lstate) (evs : list (event St)) : Prop :=
    match evs with
    | [] => True
    | ev :: r => layer_check st ev /\ layer_ok (layer_step st ev) r
    end.

  Definition layer_run (st : lstate) (evs : list (event St)) : lstate := fold_left layer_step evs st.

  Lemma layer_ok_app st a b : layer_ok st (a ++ b) <-> layer_ok st a /\ layer_ok (layer_run st a) b.
  Proof.
    revert st; induction a as [|x a IH]; intros st; simpl.
    - tauto.
    - rewrite IH. unfold layer_run. simpl. tauto.
  Qed.
  Lemma layer_run_app st a b : layer_run st (a ++ b) = layer_run (layer_run st a) b.
  Proof. unfold layer_run. apply fold_left_app. Qed.

  (* cache and dominance traffic is transparent *)
  Lemma layer_neutral k : Forall (kind_in neutral_kinds) k ->
    forall st, layer_ok st k /\ layer_run st k = st.
  Proof.
    induction 1 as [|x k Hx _ IH]; intros st; simpl; [auto|].
    destruct x; unfold kind_in in Hx; simpl in Hx;
      try (exfalso; intuition discriminate); simpl; destruct (IH st); auto.
  Qed.

  Lemma layer_expand var st k :
    Forall (expand_event_ok inp var (avail st)) k -> layer_ok st k /\ layer_run st k = st.
  Proof.
    induction 1 as [|x k Hx _ IH]; simpl; [auto|].
    destruct IH as [A B].
    destruct x; simpl in Hx; try contradiction; simpl; split; auto; split; auto; apply Hx.
  Qed.

  (* the squash trace is accepted by the checker and records the merge result *)
  Lemma layer_squash st evs mgs :
    squash_trace inp (avail st) evs mgs ->
    layer_ok st evs /\ layer_run st evs = {| ls_nv := ls_nv st; ls_merged := mgs ++ ls_merged st |}.
  Proof.
    intros [[-> ->]|[ms [rel [-> [-> [_ [Hm F]]]]]]].
    - simpl. split; [auto|]. destruct st; reflexivity.
    - simpl. set (st1 := {| ls_nv := ls_nv st; ls_merged := merge rlx ms :: ls_merged st |}).
      assert (Hmono : forall s, avail st s -> avail st1 s).
      { intros s [A|A]; [left; exact A|right; right; exact A]. }
      assert (G : layer_ok st1 rel /\ layer_run st1 rel = st1).
      { induction F as [|x rel [src [dst [d [c [-> Hd]]]]] _ IH]; simpl; [auto|].
        destruct IH as [A B]. split; [|exact B]. split; [|exact A]. apply Hmono, Hm, Hd. }
      destruct G as [A B]. split; [split; [exact Hm|exact A]|]. unfold layer_run in *. simpl. exact B.
  Qed.

  Theorem layer_loop_layer_states : forall fuel m m' e,
    layer_loop st_eqb inp fuel m = (m', e) -> wf inp m ->
    exists k, m_log m' = k ++ m_log m /\ forall st, layer_ok st (rev k).
  Proof.
    induction fuel as [|fuel IH]; intros m m' e H W.
    - simpl in H. inversion H; subst. exists []. split; [reflexivity|]. simpl. auto.
    - rewrite layer_loop_iteration in H. cbv zeta in H.
      set (sts := map (fun id => state_of m id) (m_next m)) in *.
      destruct (next_variable pb (m_curr_depth m) sts) as [var|] eqn:Hov.
      2:{ inversion H; subst. exists [EvNextVar (m_curr_depth m) sts None].
          split; [reflexivity|]. simpl. auto. }
      set (m0 := add_log m (EvNextVar (m_curr_depth m) sts (Some var))) in *.
      set (m1 := with_polls m0 (S (m_polls m0))) in *.
      assert (W1 : wf inp m1) by (apply wf_with_polls, wf_add_log, W).
      destruct (_ && _).
      { inversion H; subst. exists [EvNextVar (m_curr_depth m) sts (Some var)].
        split; [reflexivity|]. simpl. auto. }
      destruct (loop_move st_eqb inp m1 var) as [m2 ol] eqn:Hmv.
      destruct (wf_loop_move _ _ _ _ _ _ Hmv W1) as [W2 Hl].
      destruct (loop_move_trace _ _ _ _ _ _ Hmv W1) as [kf [ks [mgs [E2 [Ff [Cs Ho]]]]]].
      change (m_log m1) with (EvNextVar (m_curr_depth m) sts (Some var) :: m_log m) in E2.
      set (st1 := {| ls_nv := sts; ls_merged := [] |}).
      assert (HS : forall s, states_of inp m1 (m_next m1) s -> In s sts).
      { intros s [id [Hid ->]]. unfold sts. apply in_map_iff. exists id. split; [reflexivity|exact Hid]. }
      set (st2 := {| ls_nv := sts; ls_merged := mgs |}).
      assert (Pmove : layer_ok st1 (rev kf ++ rev ks) /\ layer_run st1 (rev kf ++ rev ks) = st2).
      { destruct (layer_neutral (rev kf) (Forall_rev Ff) st1) as [A1 B1].
        destruct (layer_squash st1 (rev ks) mgs) as [A2 B2].
        { eapply squash_trace_weaken; [|exact Cs]. intros s Hs. left. apply HS. exact Hs. }
        rewrite layer_ok_app, layer_run_app, B1. split; [auto|].
        rewrite B2. simpl. rewrite app_nil_r. reflexivity. }
      destruct Pmove as [Pm Rm].
      destruct ol as [l|].
      2:{ inversion H; subst. exists (ks ++ kf ++ [EvNextVar (m_curr_depth m) sts (Some var)]).
          split; [rewrite E2, <- !app_assoc; reflexivity|].
          intros st. rewrite !rev_app_distr. simpl rev at 1. rewrite <- !app_assoc. simpl.
          split; [auto|]. exact Pm. }
      destruct (Hl l eq_refl) as [Il Nl].
      destruct (logext_fold_expand_events st_eqb inp var (avail st2) l m2 W2 Il) as [k3 [E3 F3]].
      { intros id Hid. destruct (Ho l eq_refl id Hid) as [A|A]; [left; apply HS; exact A|right; exact A]. }
      apply IH in H.
      2:{ apply wf_with_depth. apply wf_fold_expand; auto. }
      destruct H as [k [E Hk]]. simpl m_log in E.
      exists (k ++ k3 ++ ks ++ kf ++ [EvNextVar (m_curr_depth m) sts (Some var)]). split.
      + rewrite E, E3, E2, <- !app_assoc. reflexivity.
      + intros st. rewrite !rev_app_distr. simpl rev at 1. rewrite <- !app_assoc. simpl.
        split; [auto|]. fold st1.
        rewrite (app_assoc (rev kf)). rewrite layer_ok_app. split; [exact Pm|]. rewrite Rm.
        destruct (layer_expand var st2 (rev k3) (Forall_rev F3)) as [A3 B3].
        rewrite layer_ok_app, B3. split; [exact A3|apply Hk].
  Qed.

  (* C12, "only for states of that layer", for a whole compilation, whatever its flavour, its type and
     its outcome, from every initial checker state *)
  Theorem compile_layer_states tb tb2 c ds polls m o :
    compile st_eqb inp tb tb2 c ds polls = (m, o) ->
    forall st0, layer_ok st0 (rev (m_log m)).
  Proof.
    intros H st. destruct (compile_log _ _ _ _ _ _ _ _ _ H) as [m1 [e [Hl [kf [Ef Ff]]]]].
    apply layer_loop_layer_states in Hl; [|apply wf_initialize]. destruct Hl as [k [E Hk]].
    rewrite initialize_log, app_nil_r in E. rewrite Ef, rev_app_distr, layer_ok_app, E.
    split; [apply Hk|]. apply layer_neutral, Forall_rev. eapply Forall_impl; [|exact Ff].
    intros ev. apply kind_in_incl. intros x [<-|[]]; simpl; auto.
  Qed.

  (* from the empty state: before the first next_variable call only cache / dominance traffic passes *)
  Corollary compile_layer_states_init tb tb2 c ds polls m o :
    compile st_eqb inp tb tb2 c ds polls = (m, o) -> layer_ok ls_init (rev (m_log m)).
  Proof. intros H. apply (compile_layer_states _ _ _ _ _ _ _ H). Qed.

  (* the chronological log of a compilation starts with a next_variable call: under [ls_init] the
     checker therefore never relies on its initial content *)
  Theorem compile_log_head tb tb2 c ds polls m o :
    compile st_eqb inp tb tb2 c ds polls = (m, o) ->
    exists d sts ov r, rev (m_log m) = EvNextVar d sts ov :: r.
  Proof.
    intros H. destruct (compile_log _ _ _ _ _ _ _ _ _ H) as [m1 [e [Hl [kf [Ef _]]]]].
    apply layer_loop_first_call in Hl. cbv zeta in Hl. destruct Hl as [k Hk].
    rewrite initialize_log in Hk. rewrite Ef, Hk, !rev_app_distr. simpl. do 4 eexists. reflexivity.
  Qed.

  (* ================================================================ (B) C13, relaxed compilations *)
  (* when every state is impacted by every variable the pooled _move_to_next_layer takes the whole
     (non-empty) pool and records exactly one layer *)
  Lemma move_pooled_layers_all_impacted m var m' ol :
    (forall x s, is_impacted_by pb x s = true) -> m_next m <> [] ->
    move_to_next_layer_pooled st_eqb inp m var = (m', ol) ->
    length (m_layers m') = S (length (m_layers m)).
  Proof.
    intros Himp Hne. rewrite move_pooled_unfold. cbv zeta.
    destruct (prefilter _ _ _ _) as [m1 l1] eqn:H1.
    destruct (filter_with_dominance _ _ _) as [m2 l2] eqn:H2.
    destruct (squash_if_needed _ _ _ _) as [m3 l3] eqn:H3.
    intros H. apply pair_eq_inv in H. destruct H as [<- _].
    destruct (stages_layers _ _ _ _ _ _ _ _ _ _ H1 H2 H3) as [_ [E _]].
    pose proof (ext_layers _ _ _ E) as EL. rewrite pooled_start_layers in EL.
    assert (Hc : pooled_curr inp m var = m_next m).
    { unfold pooled_curr. apply filter_all_true. intros id _. apply Himp. }
    rewrite Hc.
    destruct (m_next m) as [|x nx]; [congruence|].
    destruct (_ <? _); simpl; rewrite app_length, EL; simpl; lia.
  Qed.

  (* C13, pooled flavour: when every state is impacted by every variable, no layer other than the
     root layer and the first layer below it has more than max_width states expanded *)
  Theorem compile_width_relaxed_pooled tb tb2 c ds polls m o :
    ci_flavour inp = Pooled -> ci_type inp = Relaxed -> 1 <= ci_width inp ->
    (forall x s, is_impacted_by (ci_problem inp) x s = true) ->
    compile st_eqb inp tb tb2 c ds polls = (m, o) ->
    width_ok_after 3 (ci_width inp) 0 (rev (m_log m)).
  Proof.
    intros Hf Ht Hw Himp. apply compile_width_relaxed_gen; auto.
    intros a var a' l Hmv. unfold loop_move in Hmv. rewrite Hf in Hmv. simpl in Hmv.
    destruct (m_next a) as [|x nx] eqn:Hn; [discriminate|].
    eapply move_pooled_layers_all_impacted; [exact Himp| |exact Hmv]. rewrite Hn. discriminate.
  Qed.

End LayerStates.

Arguments ls_init {St}.

(* ------------------------------------------------------------------ boolean form of width_ok_after
   (used to REFUTE a bound on a concrete log by computation) *)
Section WidthBool.
  Context {St : Type}.
  Fixpoint width_okb_after (skip W cnt : nat) (evs : list (event St)) : bool :=
    match evs with
    | [] => (0 <? skip) || (cnt <=? W)
    | EvNextVar _ _ _ :: r => ((0 <? skip) || (cnt <=? W)) && width_okb_after (pred skip) W 0 r
    | EvDomain _ _ :: r => width_okb_after skip W (S cnt) r
    | _ :: r => width_okb_after skip W cnt r
    end.

  Lemma width_okb_after_spec W evs : forall skip cnt,
    width_okb_after skip W cnt evs = true <-> width_ok_after skip W cnt evs.
  Proof.
    induction evs as [|x evs IH]; intros skip cnt; simpl.
    - rewrite orb_true_iff, Nat.ltb_lt, Nat.leb_le. tauto.
    - destruct x; try apply IH.
      rewrite andb_true_iff, orb_true_iff, Nat.ltb_lt, Nat.leb_le, IH. tauto.
  Qed.
End WidthBool.

(* ================================================================== non-vacuity *)
Open Scope Z_scope.

(* ---- (A) on ex_ti (TableWf): relaxed compilations of width 1, the three flavours.  The chronological
   log is (CleanLEL; the other two differ only in the cache updates of _finalize)
     NV 0 [[0]] ; Domain 0 [0] ; ... ; NV 1 [[0];[1]] ; Domain 1 [1] ; ... ; Domain 1 [0] ; ... ;
     NV 2 [[1];[2];[0]] ; Merge [[1];[2];[0]] [0;1;2] ; Relax _ [1] .. ; Relax _ [2] .. ; Relax _ [2] .. ;
     Relax _ [0] .. ; Domain 2 [0;1;2] ; Transition [0;1;2] .. ; ... ; NV 3 [[0;1;2];[2]] None ; CacheUpd ..
   i.e. the domain of x2 is enumerated on the merged state [0;1;2], which next_variable never saw. *)
Definition ex_root : @subproblem tstate :=
  {| sp_state := [0]; sp_value := 0; sp_path := []; sp_ub := IMAX; sp_depth := 0%nat |}.
Definition ex_inp (f : flavour) (ct : comptype) (w : nat) : @cinput tstate :=
  tb_input ex_ti f ct w IMIN false false 0 ex_root.
Definition ex_log (f : flavour) (ct : comptype) (w : nat) : list (event tstate) :=
  rev (m_log (fst (tb_compile (ex_inp f ct w) 0 0 (tb_cache_init ex_ti) (tb_dom_init ex_ti) 0))).

(* the log has a merge whose result is later the source of a domain enumeration, of a transition and of
   a cost call, and a relax call towards that merge result *)
Fixpoint merged_then_used (evs : list (event tstate)) : bool :=
  match evs with
  | [] => false
  | EvMerge _ mg :: r =>
      (existsb (fun ev => match ev with EvDomain _ s => tstate_eqb s mg | _ => false end) r &&
       existsb (fun ev => match ev with EvTransition s _ _ => tstate_eqb s mg | _ => false end) r &&
       existsb (fun ev => match ev with EvCost s _ _ _ => tstate_eqb s mg | _ => false end) r &&
       existsb (fun ev => match ev with EvRelax _ _ m _ _ _ => tstate_eqb m mg | _ => false end) r)
      || merged_then_used r
  | _ :: r => merged_then_used r
  end.
(* ... and that merge result was not among the states handed to the preceding next_variable call *)
Fixpoint merged_unseen (nv : list tstate) (evs : list (event tstate)) : bool :=
  match evs with
  | [] => false
  | EvNextVar _ sts _ :: r => merged_unseen sts r
  | EvMerge _ mg :: r => negb (existsb (tstate_eqb mg) nv) || merged_unseen nv r
  | _ :: r => merged_unseen nv r
  end.

Example ex_layer_states : forall f, In f [CleanLEL; CleanFC; Pooled] ->
  layer_ok ls_init (ex_log f Relaxed 1) /\
  merged_then_used (ex_log f Relaxed 1) = true /\ merged_unseen [] (ex_log f Relaxed 1) = true.
Proof.
  intros f Hf. split.
  - unfold ex_log, tb_compile.
    destruct (compile tstate_eqb (ex_inp f Relaxed 1) 0 0 (tb_cache_init ex_ti) (tb_dom_init ex_ti) 0)
      as [m o] eqn:H.
    change (fst (m, o)) with m. exact (compile_layer_states_init tstate_eqb _ _ _ _ _ _ _ _ H).
  - assert (G : forallb (fun f => merged_then_used (ex_log f Relaxed 1) && merged_unseen [] (ex_log f Relaxed 1))
                  [CleanLEL; CleanFC; Pooled] = true) by (vm_compute; reflexivity).
    rewrite forallb_forall in G. specialize (G f Hf). apply andb_true_iff in G. exact G.
Qed.

(* exact and restricted compilations too (no merge there; restricted: width 1 truncates the layers) *)
Example ex_layer_states_other : forall f ct, In f [CleanLEL; CleanFC; Pooled] -> In ct [Exact; Restricted] ->
  layer_ok ls_init (ex_log f ct 1) /\ (10 <= length (ex_log f ct 1))%nat.
Proof.
  intros f ct Hf Hct. split.
  - unfold ex_log, tb_compile.
    destruct (compile tstate_eqb (ex_inp f ct 1) 0 0 (tb_cache_init ex_ti) (tb_dom_init ex_ti) 0)
      as [m o] eqn:H.
    change (fst (m, o)) with m. exact (compile_layer_states_init tstate_eqb _ _ _ _ _ _ _ _ H).
  - assert (G : forallb (fun f => forallb (fun ct => 10 <=? length (ex_log f ct 1))%nat [Exact; Restricted])
                  [CleanLEL; CleanFC; Pooled] = true) by (vm_compute; reflexivity).
    rewrite forallb_forall in G. specialize (G f Hf). rewrite forallb_forall in G. specialize (G ct Hct).
    apply Nat.leb_le. exact G.
Qed.

(* the checker is not trivially true: a domain enumerated on a state that is neither in the layer
   shown to next_variable nor a merge result is rejected; so is a merge before any next_variable *)
Example layer_ok_rejects_foreign_state :
  ~ layer_ok ls_init [EvNextVar 0 [[0]] (Some 0%nat); EvDomain 0 [1]].
Proof. simpl. intros [_ [[[H|[]]|[]] _]]. discriminate H. Qed.
Example layer_ok_rejects_early_call :
  ~ layer_ok ls_init [EvCacheGet [0] 0; EvDomain 0 [0]; EvNextVar 0 [[0]] (Some 0%nat)].
Proof. simpl. intros [_ [[[]|[]] _]]. Qed.
Example layer_ok_accepts_merged_state :
  layer_ok ls_init [EvNextVar 0 [[0]; [1]] (Some 0%nat); EvMerge [[0]; [1]] [0; 1];
                    EvRelax [0] [1] [0; 1] {| d_var := 0; d_val := 1 |} 0 0; EvDomain 0 [0; 1]].
Proof. simpl. unfold avail. simpl. intuition (subst; auto). Qed.

(* ---- (B) a model in which every state is impacted by every variable (the table family cannot be used
   for the universally quantified premise: the empty set of base states is impacted by nothing).
   Binary counter: state s, decision b in {0,1}, s' = 2 s + b, cost b; layers have 1, 2, 4, 8 states.
   merge = maximum, relax = identity. *)
Definition kp_pb : problem Z := {|
  nb_vars := 3; init_state := 0; init_value := 0;
  transition := fun s d => 2 * s + d_val d;
  transition_cost := fun _ _ d => d_val d;
  next_variable := fun depth _ => if Nat.ltb depth 3 then Some depth else None;
  domain := fun _ _ => [0; 1];
  is_impacted_by := fun _ _ => true |}.
Definition kp_rlx : relaxation Z := {|
  merge := fun l => fold_right Z.max 0 l;
  relax := fun _ _ _ _ c => c;
  fast_upper_bound := fun _ => 10 |}.
Definition kp_inp (f : flavour) (ct : comptype) (w : nat) : @cinput Z := {|
  ci_flavour := f; ci_type := ct; ci_problem := kp_pb; ci_relax := kp_rlx;
  ci_ranking := Zcmp; ci_domcmp := fun a va b vb => cmp_then (Zcmp va vb) (Zcmp a b);
  ci_width := w;
  ci_root := {| sp_state := 0; sp_value := 0; sp_path := []; sp_ub := IMAX; sp_depth := 0%nat |};
  ci_best_lb := IMIN; ci_use_cache := false; ci_domrule := None; ci_cutoff := 0%nat |}.
Definition kp_log (f : flavour) (ct : comptype) (w : nat) : list (event Z) :=
  rev (m_log (fst (compile Z.eqb (kp_inp f ct w) 0 0 (init_cache 3) (init_dstore 3) 0))).

(* number of domain enumerations in each segment delimited by next_variable calls *)
Fixpoint seg_counts (cnt : nat) (evs : list (event Z)) : list nat :=
  match evs with
  | [] => [cnt]
  | EvNextVar _ _ _ :: r => cnt :: seg_counts 0 r
  | EvDomain _ _ :: r => seg_counts (S cnt) r
  | _ :: r => seg_counts cnt r
  end.

Example kp_width_pooled :
  width_ok_after 3 1 0 (kp_log Pooled Relaxed 1) /\
  seg_counts 0 (kp_log Pooled Relaxed 1) = [0; 1; 2; 1; 0]%nat /\
  layer_ok ls_init (kp_log Pooled Relaxed 1).
Proof.
  split; [|split].
  - unfold kp_log.
    destruct (compile Z.eqb (kp_inp Pooled Relaxed 1) 0 0 (init_cache 3) (init_dstore 3) 0) as [m o] eqn:H.
    change (fst (m, o)) with m.
    eapply (compile_width_relaxed_pooled Z.eqb (kp_inp Pooled Relaxed 1));
      [reflexivity|reflexivity|apply le_n|intros; reflexivity|exact H].
  - vm_compute. reflexivity.
  - unfold kp_log.
    destruct (compile Z.eqb (kp_inp Pooled Relaxed 1) 0 0 (init_cache 3) (init_dstore 3) 0) as [m o] eqn:H.
    change (fst (m, o)) with m. exact (compile_layer_states_init Z.eqb _ _ _ _ _ _ _ _ H).
Qed.

(* 3 exempted segments cannot be lowered to 2: the first layer below the root is expanded with 2 > 1
   states (no squash while fewer than two layers are recorded); same for the clean flavours *)
Example kp_width_tight : forall f, In f [Pooled; CleanLEL; CleanFC] ->
  ~ width_ok_after 2 1 0 (kp_log f Relaxed 1).
Proof.
  intros f Hf. rewrite <- width_okb_after_spec.
  assert (G : forallb (fun f => negb (width_okb_after 2 1 0 (kp_log f Relaxed 1))) [Pooled; CleanLEL; CleanFC] = true)
    by (vm_compute; reflexivity).
  rewrite forallb_forall in G. specialize (G f Hf). destruct (width_okb_after _ _ _ _); [discriminate G|discriminate].
Qed.

(* wider: width 2, pooled; the third layer (4 states) is squashed to 2 *)
Example kp_width_pooled_2 :
  width_ok_after 3 2 0 (kp_log Pooled Relaxed 2) /\ seg_counts 0 (kp_log Pooled Relaxed 2) = [0; 1; 2; 2; 0]%nat.
Proof.
  split; [|vm_compute; reflexivity].
  unfold kp_log.
  destruct (compile Z.eqb (kp_inp Pooled Relaxed 2) 0 0 (init_cache 3) (init_dstore 3) 0) as [m o] eqn:H.
  change (fst (m, o)) with m.
    eapply (compile_width_relaxed_pooled Z.eqb (kp_inp Pooled Relaxed 2));
      [reflexivity|reflexivity|apply le_S, le_n|intros; reflexivity|exact H].
Qed.

(* the premise "every state is impacted by every variable" cannot be dropped for the pooled flavour:
   a pooled iteration whose variable impacts no pool state records no layer, so the guard
   `layers.len() > 1` of _squash_if_needed stays false one iteration longer than the count of
   next_variable calls suggests.  Same model with 4 variables where variable 1 impacts nothing (the pool is
   carried over, nothing is expanded for it): the pooled log
   has segment counts [0; 1; 0; 2; 1; 0], the fourth segment (third next_variable call) expands 2 > 1
   states, so [width_ok_after 3] fails; the clean flavours ignore is_impacted_by: [0; 1; 2; 1; 1; 0]. *)
Definition kp_pb' : problem Z := {|
  nb_vars := 4; init_state := 0; init_value := 0;
  transition := fun s d => 2 * s + d_val d;
  transition_cost := fun _ _ d => d_val d;
  next_variable := fun depth _ => if Nat.ltb depth 4 then Some depth else None;
  domain := fun _ _ => [0; 1];
  is_impacted_by := fun x _ => negb (Nat.eqb x 1) |}.
Definition kp_inp' (f : flavour) (w : nat) : @cinput Z := {|
  ci_flavour := f; ci_type := Relaxed; ci_problem := kp_pb'; ci_relax := kp_rlx;
  ci_ranking := Zcmp; ci_domcmp := fun a va b vb => cmp_then (Zcmp va vb) (Zcmp a b);
  ci_width := w;
  ci_root := {| sp_state := 0; sp_value := 0; sp_path := []; sp_ub := IMAX; sp_depth := 0%nat |};
  ci_best_lb := IMIN; ci_use_cache := false; ci_domrule := None; ci_cutoff := 0%nat |}.
Definition kp_log' (f : flavour) (w : nat) : list (event Z) :=
  rev (m_log (fst (compile Z.eqb (kp_inp' f w) 0 0 (init_cache 4) (init_dstore 4) 0))).

Example kp_premise_needed :
  ~ width_ok_after 3 1 0 (kp_log' Pooled 1) /\ width_ok_after 4 1 0 (kp_log' Pooled 1) /\
  seg_counts 0 (kp_log' Pooled 1) = [0; 1; 0; 2; 1; 0]%nat /\
  width_ok_after 3 1 0 (kp_log' CleanLEL 1) /\ seg_counts 0 (kp_log' CleanLEL 1) = [0; 1; 2; 1; 1; 0]%nat.
Proof.
  rewrite <- !width_okb_after_spec.
  assert (G : (negb (width_okb_after 3 1 0 (kp_log' Pooled 1)) && width_okb_after 4 1 0 (kp_log' Pooled 1) &&
               width_okb_after 3 1 0 (kp_log' CleanLEL 1))%bool = true) by (vm_compute; reflexivity).
  apply andb_true_iff in G. destruct G as [G G3]. apply andb_true_iff in G. destruct G as [G1 G2].
  split; [|split; [exact G2|split; [vm_compute; reflexivity|split; [exact G3|vm_compute; reflexivity]]]].
  intros H. rewrite H in G1. discriminate G1.
Qed.

(* ------------------------------------------------------------------ axiom audit *)
Check @layer_ok.
Check @compile_layer_states.
Check @compile_layer_states_init.
Check @compile_log_head.
Check @compile_width_relaxed_gen.
Check @compile_width_relaxed_pooled.
Print Assumptions layer_loop_layer_states.
Print Assumptions compile_layer_states.
Print Assumptions compile_layer_states_init.
Print Assumptions compile_log_head.
Print Assumptions layer_loop_width_relaxed_gen.
Print Assumptions compile_width_relaxed_gen.
Print Assumptions compile_width_relaxed_pooled.
Print Assumptions ex_layer_states.
Print Assumptions ex_layer_states_other.
Print Assumptions kp_width_pooled.
Print Assumptions kp_width_tight.
Print Assumptions kp_width_pooled_2.
Print Assumptions kp_premise_needed.
