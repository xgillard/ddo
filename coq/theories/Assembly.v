(* Assembly.v — the pieces put together: the solver theorems of SolverProofs.v / SolverCutoff.v / ParProofs.v
   instantiated with the diagram contracts about Mdd.compile: K0, K3_depth, K5 from MddProgress.v, K2, K3_ub, K4 from
   MddSim.v; K1 and K3_good are proved here for the run-based notions below (C1, C3_good: the chain theorems of
   MddExact.v + clean_chain_frun).  Every remaining premise talks about the USER'S MODEL and the configuration only:

     st_eqb_spec                                        the state equality test decides equality
     cfg_clean / cfg_nocache / cfg_nodom / cfg_nodup    CleanLEL or CleanFC diagrams, no cache, no dominance rule, SimpleFringe
     cfg_width                                          1 <= sc_width cfg          (cfg_nocut: sc_cutoff cfg = 0 where stated)
     nv_static / nv_some / nv_none                      static variable order
     Hwf : wf_relaxation cfg                            there is a covering relation cov with cov_refl, cov_sim, merge_cov, rub_adm
                                                        and EITHER relax_ge as in MddSim.v (for every integer cost)
                                                        OR the machine-integer variant: transition costs and relaxed costs
                                                        are isize and c <= relax .. c for isize c            (section 3c)
     D, dom_bound                                       domains have at most D values
     B, HB : 2 * B <= IMAX, guard0                      every feasible run FROM THE INITIAL STATE has a value in [-B, B]

   Instantiation:  good := sgood pb (reached from the initial state by a feasible run whose decisions are the path),
                   feasible := sfeasible pb (a complete feasible run, exact integer arithmetic),
                   best := MddSim.best cfg = value + Bellman value,  OPT = opt_enum pb (OPT_is_opt_enum),  M := Kbound cfg D.
   sgood / sfeasible imply MddProgress.good / MddProgress.feasible under the guard (sgood_good, sfeasible_feasible); the
   replay_sat-based notions themselves are too weak to carry the guard or feasible_le_opt (section 10, a counterexample).

   Sections: 0 runs vs saturating replays; 1 exact nodes are reached by feasible runs (clean_chain_frun); 1b a compilation
   that is cut off did not crash (compile_nocrash_cut); 1c clipping a relaxation to machine integers compiles to the same
   diagram (clip_compile); 2 semantics; 3a a completed compilation is the compilation without cutoff (to_zero, via
   SolverCutoff.compile_agree); 3b simulation contracts in both senses; 3c wf_relaxation; 3 the contracts for ANY cutoff
   (contracts_hold) and the semantics (semantics_hold); 4 C05_sequential_anytime; 4b C04 no deadlock / no crash;
   5 K0..K5 (cutoff 0); 6 C01_sequential_optimal, C14_primal (+ _run variants and C01_solution_replays in exact arithmetic);
   7 C03_parallel_optimal(_finished), C04_parallel_terminates; 8 C19_monotone(_gen), C19_eventually_full;
   9 C01 with every premise spelled out (_explicit: MddSim's hypotheses verbatim; _isize: the machine-integer variant).
   Stdlib only; no axioms (Print Assumptions at the end). *)
Require Import DDO.Base DDO.Fringe DDO.DP DDO.Cache DDO.Dom DDO.Mdd DDO.MddStruct DDO.MddExact DDO.Solver DDO.SolverProofs.
Require Import DDO.MddProgress DDO.MddSim DDO.SolverCutoff DDO.Par DDO.ParProofs.
From Coq Require Import Lia List Arith ZArith Bool Permutation.
Import ListNotations.
Local Open Scope Z_scope.

(* 0. feasible runs vs saturating replays *)
Section Runs.
  Context {St : Type}.
  Variable pb : problem St.
  Variable B : Z.
  Hypothesis HB : 2 * B <= IMAX.

  Lemma B_isize z : - B <= z <= B -> in_isize z.
  Proof. unfold in_isize, IMIN, IMAX in *. lia. Qed.

  Definition guard_from (k : nat) (s : St) (v : Z) : Prop :=
    forall ds s' v', frun pb k s v ds = Some (s', v') -> - B <= v' <= B.

  Lemma guard_step k s v d :
    guard_from k s v -> var_ok pb k d = true -> in_domain pb s d = true ->
    guard_from (S k) (transition pb s d) (v + transition_cost pb s (transition pb s d) d) /\
    sat_add v (transition_cost pb s (transition pb s d) d) = v + transition_cost pb s (transition pb s d) d.
  Proof.
    intros G Hv Hd. split.
    - intros ds s' v' Hr. apply (G (d :: ds) s' v'). simpl. rewrite Hv, Hd. exact Hr.
    - unfold sat_add. apply clampZ_id. apply B_isize.
      apply (G [d] (transition pb s d)). simpl. rewrite Hv, Hd. reflexivity.
  Qed.

  (* a saturating replay whose decisions follow the variable order is a feasible run (no saturation under the guard) *)
  Lemma replay_sat_frun ds : forall k s v r,
    guard_from k s v ->
    (forall j d, nth_error ds j = Some d -> var_ok pb (k + j) d = true) ->
    replay_sat pb ds s v = Some r -> frun pb k s v ds = Some r.
  Proof.
    induction ds as [|d ds IH]; intros k s v r G Hvar H; simpl in *; [exact H|].
    destruct (in_domain pb s d) eqn:Ed; [|discriminate].
    assert (Hv : var_ok pb k d = true).
    { specialize (Hvar O d eq_refl). rewrite Nat.add_0_r in Hvar. exact Hvar. }
    rewrite Hv. simpl.
    destruct (guard_step k s v d G Hv Ed) as [G' E]. rewrite E in H.
    apply IH; [exact G'| |exact H].
    intros j d' Hj. specialize (Hvar (S j) d' Hj). rewrite Nat.add_succ_r in Hvar. exact Hvar.
  Qed.

  Lemma frun_replay_sat ds : forall k s v r,
    guard_from k s v -> frun pb k s v ds = Some r -> replay_sat pb ds s v = Some r.
  Proof.
    induction ds as [|d ds IH]; intros k s v r G H; simpl in *; [exact H|].
    destruct (var_ok pb k d) eqn:Ev; simpl in H; [|discriminate].
    destruct (in_domain pb s d) eqn:Ed; [|discriminate].
    destruct (guard_step k s v d G Ev Ed) as [G' E]. rewrite E.
    eapply IH; [exact G'|exact H].
  Qed.

  Lemma guard_app k s v ds s1 v1 :
    guard_from k s v -> frun pb k s v ds = Some (s1, v1) -> guard_from (k + length ds) s1 v1.
  Proof.
    intros G H ds2 s' v' H2. apply (G (ds ++ ds2) s' v'). rewrite frun_app, H. exact H2.
  Qed.
End Runs.

(* 1. exact nodes of a compiled diagram are reached by feasible runs *)
Section ChainRuns.
  Context {St : Type}.
  Variable st_eqb : St -> St -> bool.
  Hypothesis st_eqb_spec : forall a b, st_eqb a b = true <-> a = b.
  Variable inp : @cinput St.
  Hypothesis Hclean : ci_flavour inp = CleanLEL \/ ci_flavour inp = CleanFC.
  Let pb := ci_problem inp.
  Let root := ci_root inp.
  Hypothesis nv_static : forall k l1 l2, next_variable pb k l1 = next_variable pb k l2.
  Variable B : Z.
  Hypothesis HB : 2 * B <= IMAX.
  Hypothesis Hguard : guard_from pb B (sp_depth root) (sp_state root) (sp_value root).

  Lemma clean_chain_frun tb tb2 c ds polls m id :
    compile st_eqb inp tb tb2 c ds polls = (m, Compiled) ->
    clean_chain inp m id -> (id < length (m_nodes m))%nat ->
    frun pb (sp_depth root) (sp_state root) (sp_value root) (rev (chain inp m id))
      = Some (n_state (get_node inp m id), n_vtop (get_node inp m id)).
  Proof.
    intros Hc Hcc Hid.
    destruct (clean_chain_replays st_eqb st_eqb_spec inp Hclean tb tb2 c ds polls m id Hc Hcc Hid) as (R & _).
    apply (replay_sat_frun pb B HB); [exact Hguard| |exact R].
    intros j d Hj.
    destruct (clean_chain_variables st_eqb st_eqb_spec inp Hclean tb tb2 c ds polls m id Hc Hcc Hid j d Hj) as [states Hs].
    apply (var_ok_spec pb nv_static _ d states). exact Hs.
  Qed.
End ChainRuns.

(* 1b. a compilation that is cut off (or runs out of fuel) did not crash
   MddProgress.v proves its loop invariant for ci_cutoff = 0; nothing but the poll test reads the cutoff
   (SolverCutoff.loop_body_cutoff / fold_expand_cutoff), so the invariant holds up to the point where the cutoff fires *)
Section CutCrash.
  Context {St : Type}.
  Variable st_eqb : St -> St -> bool.
  Variable inp : @cinput St.
  Local Notation inp0 := (set_cutoff inp 0).
  Hypothesis Hclean : ci_flavour inp = CleanLEL \/ ci_flavour inp = CleanFC.
  Hypothesis Hnocache : ci_use_cache inp = false.
  Hypothesis Hnodom : ci_domrule inp = None.
  Hypothesis Hwidth : (1 <= ci_width inp)%nat.
  Hypothesis nv_none : forall k l, (nb_vars (ci_problem inp) <= k)%nat -> next_variable (ci_problem inp) k l = None.
  Hypothesis Hroot_depth : (sp_depth (ci_root inp) <= nb_vars (ci_problem inp))%nat.

  Lemma layer_loop_nocrash k : forall fuel m m' e,
    layer_loop st_eqb (set_cutoff inp k) fuel m = (m', e) -> MddProgress.Linv inp0 m -> e <> LoopDone ->
    m_crash m' = false.
  Proof.
    induction fuel as [|fuel IH]; intros m m' e H HL Hne.
    - simpl in H. inversion H; subst. apply (MddProgress.L_crash _ _ HL).
    - rewrite layer_loop_iter in H. cbv zeta in H.
      change (ci_problem (set_cutoff inp k)) with (ci_problem inp) in H.
      change (ci_cutoff (set_cutoff inp k)) with k in H.
      assert (Hgn : (fun id => n_state (get_node (set_cutoff inp k) m id)) = (fun id => n_state (get_node inp m id)))
        by reflexivity.
      rewrite Hgn in H.
      set (states := map (fun id => n_state (get_node inp m id)) (m_next m)) in *.
      destruct (next_variable (ci_problem inp) (m_curr_depth m) states) as [var|] eqn:Eov.
      2:{ inversion H; subst. contradiction Hne; reflexivity. }
      set (m0 := add_log m (EvNextVar (m_curr_depth m) states (Some var))) in *.
      set (m1 := with_polls m0 (S (m_polls m0))) in *.
      assert (HL1 : MddProgress.Linv inp0 m1).
      { apply (MddProgress.Linv_frame inp0 eq_refl Hwidth Hroot_depth m); auto; reflexivity. }
      destruct (fires k (m_polls m1)) eqn:Ef.
      { inversion H; subst. apply (MddProgress.L_crash _ _ HL1). }
      destruct (loop_body st_eqb (set_cutoff inp k) var m1) as [m2 ol] eqn:Eb.
      rewrite (loop_body_cutoff st_eqb inp k 0) in Eb. unfold loop_body in Eb.
      change (ci_flavour inp0) with (ci_flavour inp) in Eb. rewrite (MddProgress.not_pooled' inp Hclean) in Eb.
      destruct ol as [l|]; [|inversion H; subst; contradiction Hne; reflexivity].
      cbv zeta in H. rewrite (fold_expand_cutoff st_eqb inp k 0) in H.
      assert (Hlt : (m_curr_depth m < nb_vars (ci_problem inp))%nat).
      { destruct (Nat.lt_ge_cases (m_curr_depth m) (nb_vars (ci_problem inp))) as [A|A]; [exact A|].
        rewrite (nv_none _ states A) in Eov. discriminate. }
      pose proof (MddProgress.move_some_step st_eqb inp0 Hclean Hnocache Hnodom eq_refl Hwidth Hroot_depth m1 m2 l Eb HL1) as HM.
      destruct (MddProgress.expand_finish st_eqb inp0 Hclean eq_refl Hwidth Hroot_depth var m1 m2 l HM Hlt) as [HL4 _].
      exact (IH _ _ _ H HL4 Hne).
  Qed.

  Lemma compile_nocrash_cut k tb tb2 c ds polls m out :
    compile st_eqb (set_cutoff inp k) tb tb2 c ds polls = (m, out) -> out <> Compiled -> m_crash m = false.
  Proof.
    unfold compile. change (ci_problem (set_cutoff inp k)) with (ci_problem inp).
    rewrite (initialize_cutoff inp k 0).
    destruct (layer_loop st_eqb (set_cutoff inp k) (S (S (nb_vars (ci_problem inp)))) (initialize inp0 c ds polls))
      as [ml e] eqn:El.
    intros H Hne.
    assert (He : e <> LoopDone). { intros ->. inversion H; subst. apply Hne; reflexivity. }
    pose proof (layer_loop_nocrash k _ _ _ _ El
                  (MddProgress.Linv_initialize inp0 Hclean eq_refl Hwidth Hroot_depth c ds polls) He) as Hcr.
    destruct e; inversion H; subst; auto. contradiction He; reflexivity.
  Qed.
End CutCrash.

(* 1c. clipping a relaxation to machine integers does not change the diagram
   [clip_relaxation r] behaves like r on isize costs and is the identity on the (never occurring) others.  When the
   transition costs and the relaxed costs of the model are machine integers, every arc of a diagram under compilation
   carries an isize cost (Ecost), so compiling with r or with its clipped version yields the very same diagram. *)
Section RelaxClip.
  Context {St : Type}.
  Variable st_eqb : St -> St -> bool.

  Definition in_isize_b (z : Z) : bool := (IMIN <=? z) && (z <=? IMAX).
  Lemma in_isize_b_true z : in_isize z -> in_isize_b z = true.
  Proof. unfold in_isize, in_isize_b. intros [H1 H2]. apply andb_true_intro. split; apply Z.leb_le; assumption. Qed.

  Definition clip_relaxation (r : relaxation St) : relaxation St :=
    {| merge := merge r;
       relax := fun src dst mg d c => if in_isize_b c then relax r src dst mg d c else c;
       fast_upper_bound := fast_upper_bound r |}.

  Definition set_relax (inp : @cinput St) (r : relaxation St) : @cinput St :=
    {| ci_flavour := ci_flavour inp; ci_type := ci_type inp; ci_problem := ci_problem inp; ci_relax := r;
       ci_ranking := ci_ranking inp; ci_domcmp := ci_domcmp inp; ci_width := ci_width inp; ci_root := ci_root inp;
       ci_best_lb := ci_best_lb inp; ci_use_cache := ci_use_cache inp; ci_domrule := ci_domrule inp; ci_cutoff := ci_cutoff inp |}.

  Variable inp : @cinput St.
  Local Notation inp' := (set_relax inp (clip_relaxation (ci_relax inp))).

  Ltac rnorm := cbv beta iota delta [
    set_relax clip_relaxation merge fast_upper_bound
    ci_flavour ci_type ci_problem ci_relax ci_ranking ci_domcmp ci_width ci_root ci_best_lb ci_use_cache ci_domrule ci_cutoff
    get_node get_edge upd_node find_next branch_on cache_get cache_update dom_query
    filter_with_cache dom_order dom_retain filter_with_dominance rank_order note_squash restrict_layer
    expand_node initialize
    finalize_layers argmax_candidates find_best_node has_exact_best_path finalize_exact frontier_cutset
    finalize_cutset compute_local_bounds maybe_update_cache compute_thresholds default_node].

  Lemma clip_filter_with_cache m l : filter_with_cache st_eqb inp' m l = filter_with_cache st_eqb inp m l.
  Proof. rnorm. reflexivity. Qed.
  Lemma clip_filter_with_dominance m l : filter_with_dominance inp' m l = filter_with_dominance inp m l.
  Proof. rnorm. reflexivity. Qed.
  Lemma clip_restrict_layer m l : restrict_layer inp' m l = restrict_layer inp m l.
  Proof. rnorm. reflexivity. Qed.
  Lemma clip_expand_node var m id : expand_node st_eqb inp' var m id = expand_node st_eqb inp var m id.
  Proof. rnorm. reflexivity. Qed.
  Lemma clip_initialize c ds p : initialize inp' c ds p = initialize inp c ds p.
  Proof. reflexivity. Qed.
  Lemma clip_finalize_layers m : finalize_layers inp' m = finalize_layers inp m.
  Proof. rnorm. reflexivity. Qed.
  Lemma clip_find_best_node a b m : find_best_node inp' a b m = find_best_node inp a b m.
  Proof. rnorm. reflexivity. Qed.
  Lemma clip_finalize_exact m : finalize_exact inp' m = finalize_exact inp m.
  Proof. rnorm. reflexivity. Qed.
  Lemma clip_finalize_cutset m : finalize_cutset inp' m = finalize_cutset inp m.
  Proof. rnorm. reflexivity. Qed.
  Lemma clip_compute_local_bounds m : compute_local_bounds inp' m = compute_local_bounds inp m.
  Proof. rnorm. reflexivity. Qed.
  Lemma clip_compute_thresholds m : compute_thresholds st_eqb inp' m = compute_thresholds st_eqb inp m.
  Proof. rnorm. reflexivity. Qed.
  Lemma clip_finalize tb tb2 m : finalize st_eqb inp' tb tb2 m = finalize st_eqb inp tb tb2 m.
  Proof.
    unfold finalize.
    rewrite clip_finalize_layers, clip_find_best_node, clip_finalize_exact, clip_finalize_cutset,
            clip_compute_local_bounds, clip_compute_thresholds. reflexivity.
  Qed.

  (* the invariant: every arc of the diagram carries an isize cost *)
  Local Notation pb := (ci_problem inp).
  Local Notation rlx := (ci_relax inp).
  Hypothesis Hclean : ci_flavour inp = CleanLEL \/ ci_flavour inp = CleanFC.
  Hypothesis cost_isize : forall s d, in_isize (transition_cost pb s (transition pb s d) d).
  Hypothesis relax_isize : forall src dst mg d c, in_isize c -> in_isize (relax rlx src dst mg d c).

  Definition Ecost (m : @mdd St) : Prop := Forall (fun e => in_isize (e_cost e)) (m_edges m).

  Lemma Ecost_same (m m' : @mdd St) : m_edges m' = m_edges m -> Ecost m -> Ecost m'.
  Proof. unfold Ecost. intros ->. auto. Qed.

  Lemma Ecost_get m eid : Ecost m -> in_isize (e_cost (get_edge m eid)).
  Proof.
    unfold Ecost, get_edge. intros H. destruct (nth_in_or_default eid (m_edges m) default_edge) as [Hin| ->].
    - rewrite Forall_forall in H. apply H; exact Hin.
    - simpl. unfold in_isize, IMIN, IMAX. lia.
  Qed.

  Lemma Ecost_append m e : Ecost m -> in_isize (e_cost e) -> Ecost (append_edge inp m e).
  Proof. unfold Ecost. intros H He. cbn [append_edge m_edges]. apply Forall_app. split; [exact H|constructor; [exact He|constructor]]. Qed.

  Lemma Ecost_fold {X} (f : @mdd St -> X -> @mdd St) (l : list X) :
    (forall a x, Ecost a -> Ecost (f a x)) -> forall a, Ecost a -> Ecost (fold_left f l a).
  Proof. intros Hf. induction l as [|x l IH]; intros a Ha; simpl; auto. Qed.

  Lemma clip_redirect_step merged mid m eid : Ecost m ->
    redirect_step inp' merged mid m eid = redirect_step inp merged mid m eid /\ Ecost (redirect_step inp merged mid m eid).
  Proof.
    intros HE. pose proof (Ecost_get m eid HE) as Hc. split.
    - unfold redirect_step. cbn [set_relax clip_relaxation ci_relax relax].
      rewrite (in_isize_b_true _ Hc). reflexivity.
    - unfold redirect_step. apply Ecost_append; [exact HE|]. cbn [e_cost]. apply relax_isize. exact Hc.
  Qed.

  Lemma clip_redirect_fold merged mid L : forall a, Ecost a ->
    fold_left (redirect_step inp' merged mid) L a = fold_left (redirect_step inp merged mid) L a /\ Ecost (fold_left (redirect_step inp merged mid) L a).
  Proof.
    induction L as [|eid L IH]; intros a Ha; simpl; [auto|].
    destruct (clip_redirect_step merged mid a eid Ha) as [E1 E2]. rewrite E1. apply IH. exact E2.
  Qed.

  Lemma clip_drop_step merged mid m did : Ecost m ->
    drop_step inp' merged mid m did = drop_step inp merged mid m did /\ Ecost (drop_step inp merged mid m did).
  Proof.
    intros HE. unfold drop_step. rewrite !redirect_edges_fold.
    apply (clip_redirect_fold merged mid). exact HE.
  Qed.

  Lemma clip_drop_fold merged mid L : forall a, Ecost a ->
    fold_left (drop_step inp' merged mid) L a = fold_left (drop_step inp merged mid) L a /\ Ecost (fold_left (drop_step inp merged mid) L a).
  Proof.
    induction L as [|did L IH]; intros a Ha; simpl; [auto|].
    destruct (clip_drop_step merged mid a did Ha) as [E1 E2]. rewrite E1. apply IH. exact E2.
  Qed.

  Lemma Ecost_note_squash m : Ecost m -> Ecost (note_squash inp m).
  Proof. intros HE. unfold note_squash. destruct (is_pooled _); [exact HE|]. destruct (m_lel m); exact HE. Qed.

  Lemma clip_relax_layer m l : Ecost m ->
    relax_layer st_eqb inp' m l = relax_layer st_eqb inp m l /\ Ecost (fst (relax_layer st_eqb inp m l)).
  Proof.
    intros HE. destruct (ci_width inp) as [|w1] eqn:Hw.
    - unfold relax_layer. cbn [set_relax ci_width]. rewrite Hw. split; [reflexivity|]. cbn [fst]. exact (Ecost_note_squash m HE).
    - rewrite (relax_layer_unfold st_eqb inp' m l w1 Hw), (relax_layer_unfold st_eqb inp m l w1 Hw). cbv zeta.
      change (note_squash inp' m) with (note_squash inp m).
      set (m0 := note_squash inp m).
      change (rank_order inp' m0) with (rank_order inp m0).
      set (sorted := sort_by (rank_order inp m0) l).
      set (mrg := skipn w1 sorted).
      change (map (fun id => n_state (get_node inp' m0 id)) mrg) with (map (fun id => n_state (get_node inp m0 id)) mrg).
      set (mstates := map (fun id => n_state (get_node inp m0 id)) mrg).
      change (merge (ci_relax inp') mstates) with (merge rlx mstates).
      set (merged := merge rlx mstates).
      set (m1 := add_log m0 (EvMerge mstates merged)).
      change (find (fun id => st_eqb (n_state (get_node inp' m1 id)) merged) (firstn w1 sorted))
        with (find (fun id => st_eqb (n_state (get_node inp m1 id)) merged) (firstn w1 sorted)).
      assert (HE1 : Ecost m1) by exact (Ecost_note_squash m HE).
      destruct (find (fun id => st_eqb (n_state (get_node inp m1 id)) merged) (firstn w1 sorted)) as [rid|].
      + destruct (clip_drop_fold merged rid mrg (upd_node m1 rid set_relaxed_flag) HE1) as [E1 E2].
        rewrite E1. split; [reflexivity|exact E2].
      + change (get_node inp' m1 (hd 0%nat mrg)) with (get_node inp m1 (hd 0%nat mrg)).
        set (m2 := upd_node (with_nodes m1 (m_nodes m1 ++ [merged_node merged (n_depth (get_node inp m1 (hd 0%nat mrg)))]))
                     (length (m_nodes m1)) set_relaxed_flag).
        destruct (clip_drop_fold merged (length (m_nodes m1)) mrg m2 HE1) as [E1 E2].
        rewrite E1. split; [reflexivity|exact E2].
  Qed.

  Lemma Ecost_mark_deleted ids : forall m, Ecost m -> Ecost (mark_deleted m ids).
  Proof. unfold mark_deleted. apply Ecost_fold. intros a x Ha. exact Ha. Qed.

  Lemma clip_squash m l : Ecost m ->
    squash_if_needed st_eqb inp' m l = squash_if_needed st_eqb inp m l /\
    Ecost (fst (squash_if_needed st_eqb inp m l)).
  Proof.
    intros HE. unfold squash_if_needed. change (ci_type inp') with (ci_type inp). change (ci_width inp') with (ci_width inp).
    destruct (ci_type inp).
    - split; [reflexivity|exact HE].
    - destruct (Nat.ltb (ci_width inp) (length l) && Nat.ltb 1 (length (m_layers m))).
      + apply clip_relax_layer. exact HE.
      + split; [reflexivity|exact HE].
    - destruct (Nat.ltb (ci_width inp) (length l)).
      + rewrite clip_restrict_layer. split; [reflexivity|].
        unfold restrict_layer. cbn [fst]. apply Ecost_mark_deleted.
        apply Ecost_note_squash. exact HE.
      + split; [reflexivity|exact HE].
  Qed.

  Lemma clip_move m : Ecost m ->
    move_to_next_layer_clean st_eqb inp' m = move_to_next_layer_clean st_eqb inp m /\
    Ecost (fst (move_to_next_layer_clean st_eqb inp m)).
  Proof.
    intros HE. rewrite !move_clean_unfold. destruct (m_next m) as [|x nx] eqn:En.
    - split; [reflexivity|exact HE].
    - rewrite <- En. unfold prefilter. change (m_layers (with_next m [])) with (m_layers m).
      rewrite clip_filter_with_cache.
      set (pf := if Nat.ltb 0 (length (m_layers m)) then filter_with_cache st_eqb inp (with_next m []) (m_next m)
                 else (with_next m [], m_next m)).
      assert (HE1 : Ecost (fst pf)).
      { unfold pf. destruct (Nat.ltb 0 (length (m_layers m))); [|exact HE].
        destruct (filter_with_cache_ceq st_eqb inp Hclean (m_next m) (with_next m [])) as [((C & _) & _) _].
        eapply Ecost_same; [exact C|exact HE]. }
      destruct pf as [m1 l1]. cbn [fst] in HE1.
      rewrite clip_filter_with_dominance.
      assert (HE2 : Ecost (fst (filter_with_dominance inp m1 l1))).
      { destruct (filter_with_dominance_ceq inp m1 l1) as [((C & _) & _) _]. eapply Ecost_same; [exact C|exact HE1]. }
      destruct (filter_with_dominance inp m1 l1) as [m2 l2]. cbn [fst] in HE2.
      destruct (clip_squash m2 l2 HE2) as [E1 E2]. rewrite E1.
      destruct (squash_if_needed st_eqb inp m2 l2) as [m3 l3]. cbn [fst] in E2.
      split; [reflexivity|exact E2].
  Qed.

  Lemma Ecost_branch_on m id d : Ecost m -> Ecost (branch_on st_eqb inp m id d).
  Proof.
    intros HE. unfold branch_on. cbv zeta.
    match goal with |- context [find_next ?a ?b ?c ?d] => destruct (find_next a b c d) end.
    - apply Ecost_append; [exact HE|]. cbn [e_cost]. apply cost_isize.
    - unfold Ecost. cbn [with_next m_edges]. apply Ecost_append; [exact HE|]. cbn [e_cost]. apply cost_isize.
  Qed.

  Lemma Ecost_expand_node var m id : Ecost m -> Ecost (expand_node st_eqb inp var m id).
  Proof.
    intros HE. unfold expand_node. cbv zeta.
    match goal with |- context [if ?c then _ else _] => destruct c end; [|exact HE].
    apply Ecost_fold; [|exact HE]. intros a x Ha. apply Ecost_branch_on. exact Ha.
  Qed.

  Lemma clip_fold_expand var l : forall m,
    fold_left (expand_node st_eqb inp' var) l m = fold_left (expand_node st_eqb inp var) l m.
  Proof. induction l as [|id l IH]; intros m; simpl; [reflexivity|]. rewrite clip_expand_node. apply IH. Qed.

  Lemma clip_layer_loop : forall fuel m, Ecost m ->
    layer_loop st_eqb inp' fuel m = layer_loop st_eqb inp fuel m.
  Proof.
    induction fuel as [|fuel IH]; intros m HE; [reflexivity|].
    rewrite !layer_loop_iter. cbv zeta.
    change (ci_problem inp') with pb. change (ci_cutoff inp') with (ci_cutoff inp).
    change (fun id => n_state (get_node inp' m id)) with (fun id => n_state (get_node inp m id)).
    set (states := map (fun id => n_state (get_node inp m id)) (m_next m)).
    destruct (next_variable pb (m_curr_depth m) states) as [var|]; [|reflexivity].
    set (m1 := with_polls _ _).
    destruct (fires (ci_cutoff inp) (m_polls m1)); [reflexivity|].
    unfold loop_body. change (ci_flavour inp') with (ci_flavour inp).
    assert (Hnp : is_pooled (ci_flavour inp) = false) by (destruct Hclean as [E|E]; rewrite E; reflexivity).
    rewrite Hnp.
    assert (HE1 : Ecost m1) by exact HE.
    destruct (clip_move m1 HE1) as [E1 E2]. rewrite E1.
    destruct (move_to_next_layer_clean st_eqb inp m1) as [m2 [l|]]; [|reflexivity].
    cbn [fst] in E2. rewrite clip_fold_expand. apply IH.
    assert (HE3 : Ecost (fold_left (expand_node st_eqb inp var) l m2)).
    { apply Ecost_fold; [|exact E2]. intros a x Ha. apply Ecost_expand_node. exact Ha. }
    exact HE3.
  Qed.

  Theorem clip_compile tb tb2 c ds polls :
    compile st_eqb inp' tb tb2 c ds polls = compile st_eqb inp tb tb2 c ds polls.
  Proof.
    unfold compile. change (ci_problem inp') with pb. rewrite clip_initialize.
    rewrite clip_layer_loop by (unfold Ecost; simpl; constructor).
    destruct (layer_loop st_eqb inp (S (S (nb_vars pb))) (initialize inp c ds polls)) as [ml e].
    destruct e; [|reflexivity|reflexivity]. rewrite clip_finalize. reflexivity.
  Qed.
End RelaxClip.

(* 2. the abstract semantics, on the model only
   [sgood]: a sub-problem is reached from the initial state by a feasible run (variables in the static order,
   values in the domains, exact integer accumulation) whose decisions are (a permutation of) its path.
   [sfeasible]: a complete feasible run.  Both imply the [replay_sat]-based notions of MddProgress.v under the guard;
   the converse is false in general (MddProgress.good / feasible do not constrain the ORDER of the variables, so a
   replay out of order may saturate, or exceed the optimum, without contradicting a guard on feasible runs). *)
Section Sem.
  Context {St : Type}.
  Variable pb : problem St.

  Definition sgood (n : @subproblem St) : Prop :=
    (sp_depth n <= nb_vars pb)%nat /\
    exists ds, length ds = sp_depth n /\ Permutation ds (sp_path n) /\
               frun pb 0 (init_state pb) (init_value pb) ds = Some (sp_state n, sp_value n).

  Definition sfeasible (sol : list decision) (v : Z) : Prop :=
    exists ds st, length ds = nb_vars pb /\ Permutation ds sol /\
                  frun pb 0 (init_state pb) (init_value pb) ds = Some (st, v).

  Lemma sgood_set_ub (c : @subproblem St) u : sgood c -> sgood (set_ub c u).
  Proof. intros H. exact H. Qed.

  (* exact arithmetic: a feasible solution replays through DP.replay (no saturation involved) *)
  Lemma sfeasible_replay sol v : sfeasible sol v ->
    exists ds st, Permutation ds sol /\ length ds = nb_vars pb /\
                  replay pb ds (init_state pb) (init_value pb) = Some (st, v).
  Proof.
    intros (ds & st & H1 & H2 & H3). exists ds, st. split; [exact H2|]. split; [exact H1|].
    eapply frun_replay; exact H3.
  Qed.

  Variable B : Z.
  Hypothesis HB : 2 * B <= IMAX.
  Hypothesis guard0 : forall ds s' v', frun pb 0 (init_state pb) (init_value pb) ds = Some (s', v') -> - B <= v' <= B.

  Lemma sgood_good n : sgood n -> MddProgress.good pb n.
  Proof.
    intros (Hd & ds & H1 & H2 & H3). split; [exact Hd|]. exists ds. split; [exact H1|]. split; [exact H2|].
    apply (frun_replay_sat pb B HB ds 0%nat); [exact guard0|exact H3].
  Qed.

  Lemma sfeasible_feasible sol v : sfeasible sol v -> MddProgress.feasible pb sol v.
  Proof.
    intros (ds & st & H1 & H2 & H3). exists ds, st. split; [exact H1|]. split; [exact H2|].
    apply (frun_replay_sat pb B HB ds 0%nat); [exact guard0|exact H3].
  Qed.

  Lemma sgood_guard n : sgood n -> forall ds s' v',
    frun pb (sp_depth n) (sp_state n) (sp_value n) ds = Some (s', v') -> - B <= v' <= B.
  Proof.
    intros (_ & ds0 & H1 & _ & H3) ds s' v' Hr.
    apply (guard0 (ds0 ++ ds) s' v'). rewrite frun_app, H3, H1. exact Hr.
  Qed.

  Lemma sgood_root (r : @subproblem St) :
    sp_state r = init_state pb -> sp_value r = init_value pb -> sp_path r = [] -> sp_depth r = 0%nat -> sgood r.
  Proof.
    intros H1 H2 H3 H4. split; [lia|]. exists []. rewrite H3, H4, H1, H2. repeat split. constructor.
  Qed.
End Sem.

(* 3a. a compilation that completes under a cutoff is the compilation without cutoff *)
Section ToZero.
  Context {St : Type}.
  Variable st_eqb : St -> St -> bool.
  Variable cfg : @sconfig St.

  Lemma to_zero ct n lb c ds polls m :
    compile st_eqb (mk_input cfg ct n lb) 0 0 c ds polls = (m, Compiled) ->
    compile st_eqb (mk_input (with_cutoff cfg 0) ct n lb) 0 0 c ds polls = (m, Compiled).
  Proof.
    intros H.
    change (mk_input cfg ct n lb) with (set_cutoff (mk_input cfg ct n lb) (sc_cutoff cfg)) in H.
    destruct (compile_agree st_eqb _ _ _ _ _ _ _ _ _ H) as (B0 & _ & HB2); [discriminate|].
    exact (HB2 0%nat (or_introl eq_refl)).
  Qed.
End ToZero.

(* 3b. the simulation contracts (K2, K3_ub, K4 of MddSim.v), any cutoff.
   (Strong) under the hypotheses of MddSim.v as they stand.  NOTE: relax_ge there quantifies over EVERY integer cost c, so it
   cannot be met by a relaxation whose [relax] returns a machine integer (c > IMAX has no isize above it).
   (Sat) under hypotheses that such relaxations do meet (relax_ge for isize costs only; costs and relaxed costs are isize),
   by compiling with the clipped relaxation of section 1c, which compiles to the very same diagram. *)
Section SimContracts.
  Context {St : Type}.
  Variable st_eqb : St -> St -> bool.
  Hypothesis st_eqb_spec : forall a b, st_eqb a b = true <-> a = b.
  Variable cfg : @sconfig St.
  Local Notation pb := (sc_problem cfg).
  Local Notation rlx := (sc_relax cfg).
  Local Notation N := (nb_vars (sc_problem cfg)).
  Hypothesis cfg_clean : sc_flavour cfg = CleanLEL \/ sc_flavour cfg = CleanFC.
  Hypothesis cfg_nocache : sc_use_cache cfg = false.
  Hypothesis cfg_nodom : sc_domrule cfg = None.
  Hypothesis cfg_width : (1 <= sc_width cfg)%nat.
  Hypothesis nv_static : forall k l1 l2, next_variable pb k l1 = next_variable pb k l2.
  Hypothesis nv_some : forall k l, (k < N)%nat -> exists x, next_variable pb k l = Some x.
  Hypothesis nv_none : forall k l, (N <= k)%nat -> next_variable pb k l = None.
  Variable cov : St -> St -> Prop.
  Hypothesis cov_refl : forall s, cov s s.
  Hypothesis cov_sim : forall s s' x v, cov s s' -> In v (domain pb x s') ->
    let d := {| d_var := x; d_val := v |} in
    In v (domain pb x s) /\ cov (transition pb s d) (transition pb s' d) /\
    (transition_cost pb s' (transition pb s' d) d <= transition_cost pb s (transition pb s d) d)%Z.
  Hypothesis merge_cov : forall L s s', In s L -> cov s s' -> cov (merge rlx L) s'.
  Hypothesis rub_adm : forall k s s' h, cov s s' -> H pb k s' = Some h -> (h <= fast_upper_bound rlx s)%Z.
  Variable B : Z.
  Hypothesis HB : 2 * B <= IMAX.
  Hypothesis guard0 : forall ds s' v', frun pb 0 (init_state pb) (init_value pb) ds = Some (s', v') -> - B <= v' <= B.

  Local Notation cfg0 := (with_cutoff cfg 0).
  Local Notation good := (sgood pb).
  Local Notation bst := (MddSim.best cfg).

  (* KC2, KC3_ub, KC4 of SolverCutoff.v: what the simulation argument of MddSim.v says of a completed compilation *)
  Definition sim_contracts : Prop :=
    (forall ct n lb c ds polls m,
       dd_ct ct -> good n -> (sp_depth n <= N)%nat ->
       compile st_eqb (mk_input cfg ct n lb) 0 0 c ds polls = (m, Compiled) ->
       dd_is_exact m = true ->
       forall o, bst n = Some o -> o > lb -> dd_best_exact_value (mk_input cfg ct n lb) m = Some o) /\
    (forall n lb c ds polls m,
       good n -> (sp_depth n <= N)%nat ->
       compile st_eqb (mk_input cfg Relaxed n lb) 0 0 c ds polls = (m, Compiled) ->
       dd_is_exact m = false ->
       forall x, In x (drain_cutset (mk_input cfg Relaxed n lb) m) ->
       forall o, bst x = Some o -> o > lb -> o <= sp_ub x) /\
    (forall n lb c ds polls m,
       good n -> (sp_depth n <= N)%nat ->
       compile st_eqb (mk_input cfg Relaxed n lb) 0 0 c ds polls = (m, Compiled) ->
       dd_is_exact m = false ->
       forall o, bst n = Some o -> o > lb ->
       (forall e, dd_best_exact_value (mk_input cfg Relaxed n lb) m = Some e -> e < o) ->
       exists x, In x (drain_cutset (mk_input cfg Relaxed n lb) m) /\ bst x = Some o).

  Lemma sim_strong : (forall src dst mg d c, (c <= relax rlx src dst mg d c)%Z) -> sim_contracts.
  Proof.
    intros relax_ge. split; [|split].
    - intros ct n lb c ds polls m Hct Hg Hd Hc Hex o Hb Hlb. pose proof (to_zero st_eqb cfg _ _ _ _ _ _ _ Hc) as H0.
      exact (MddSim.K2_holds st_eqb st_eqb_spec cfg0 cfg_clean cfg_nocache cfg_nodom eq_refl cfg_width
               nv_static nv_some nv_none cov cov_refl cov_sim merge_cov relax_ge rub_adm good B HB (sgood_guard pb B guard0)
               ct n lb c ds polls m Compiled Hct Hg Hd H0 eq_refl Hex o Hb Hlb).
    - intros n lb c ds polls m Hg Hd Hc Hex x Hx o Hb Hlb. pose proof (to_zero st_eqb cfg _ _ _ _ _ _ _ Hc) as H0.
      exact (MddSim.K3_ub_holds st_eqb st_eqb_spec cfg0 cfg_clean cfg_nocache cfg_nodom eq_refl cfg_width
               nv_static nv_some nv_none cov cov_refl cov_sim merge_cov relax_ge rub_adm good B HB (sgood_guard pb B guard0)
               n lb c ds polls m Compiled Hg Hd H0 eq_refl Hex x Hx o Hb Hlb).
    - intros n lb c ds polls m Hg Hd Hc Hex o Hb Hlb He. pose proof (to_zero st_eqb cfg _ _ _ _ _ _ _ Hc) as H0.
      exact (MddSim.K4_holds st_eqb st_eqb_spec cfg0 cfg_clean cfg_nocache cfg_nodom eq_refl cfg_width
               nv_static nv_some nv_none cov cov_refl cov_sim merge_cov relax_ge rub_adm good B HB (sgood_guard pb B guard0)
               n lb c ds polls m Compiled Hg Hd H0 eq_refl Hex o Hb Hlb He).
  Qed.
End SimContracts.

Section SimContractsSat.
  Context {St : Type}.
  Variable st_eqb : St -> St -> bool.
  Hypothesis st_eqb_spec : forall a b, st_eqb a b = true <-> a = b.
  Variable cfg : @sconfig St.
  Local Notation pb := (sc_problem cfg).
  Local Notation rlx := (sc_relax cfg).
  Local Notation N := (nb_vars (sc_problem cfg)).
  Hypothesis cfg_clean : sc_flavour cfg = CleanLEL \/ sc_flavour cfg = CleanFC.
  Hypothesis cfg_nocache : sc_use_cache cfg = false.
  Hypothesis cfg_nodom : sc_domrule cfg = None.
  Hypothesis cfg_width : (1 <= sc_width cfg)%nat.
  Hypothesis nv_static : forall k l1 l2, next_variable pb k l1 = next_variable pb k l2.
  Hypothesis nv_some : forall k l, (k < N)%nat -> exists x, next_variable pb k l = Some x.
  Hypothesis nv_none : forall k l, (N <= k)%nat -> next_variable pb k l = None.
  Variable cov : St -> St -> Prop.
  Hypothesis cov_refl : forall s, cov s s.
  Hypothesis cov_sim : forall s s' x v, cov s s' -> In v (domain pb x s') ->
    let d := {| d_var := x; d_val := v |} in
    In v (domain pb x s) /\ cov (transition pb s d) (transition pb s' d) /\
    (transition_cost pb s' (transition pb s' d) d <= transition_cost pb s (transition pb s d) d)%Z.
  Hypothesis merge_cov : forall L s s', In s L -> cov s s' -> cov (merge rlx L) s'.
  Hypothesis rub_adm : forall k s s' h, cov s s' -> H pb k s' = Some h -> (h <= fast_upper_bound rlx s)%Z.
  (* machine-integer costs *)
  Hypothesis cost_isize : forall s d, in_isize (transition_cost pb s (transition pb s d) d).
  Hypothesis relax_isize : forall src dst mg d c, in_isize c -> in_isize (relax rlx src dst mg d c).
  Hypothesis relax_ge_isize : forall src dst mg d c, in_isize c -> (c <= relax rlx src dst mg d c)%Z.
  Variable B : Z.
  Hypothesis HB : 2 * B <= IMAX.
  Hypothesis guard0 : forall ds s' v', frun pb 0 (init_state pb) (init_value pb) ds = Some (s', v') -> - B <= v' <= B.

  Local Notation good := (sgood pb).
  Local Notation bst := (MddSim.best cfg).

  Definition clip_cfg : @sconfig St :=
    {| sc_flavour := sc_flavour cfg; sc_problem := sc_problem cfg; sc_relax := clip_relaxation (sc_relax cfg);
       sc_ranking := sc_ranking cfg; sc_domcmp := sc_domcmp cfg; sc_domrule := sc_domrule cfg; sc_width := sc_width cfg;
       sc_use_cache := sc_use_cache cfg; sc_nodup := sc_nodup cfg; sc_cutoff := sc_cutoff cfg |}.

  Lemma clip_relax_ge : forall src dst mg d c, (c <= relax (sc_relax clip_cfg) src dst mg d c)%Z.
  Proof.
    intros src dst mg d c. cbn [clip_cfg sc_relax clip_relaxation relax].
    destruct (in_isize_b c) eqn:E; [|lia].
    apply relax_ge_isize. unfold in_isize_b in E. apply andb_true_iff in E. destruct E as [E1 E2].
    apply Z.leb_le in E1. apply Z.leb_le in E2. split; assumption.
  Qed.

  Lemma clip_compile_cfg ct n lb c ds polls :
    compile st_eqb (mk_input clip_cfg ct n lb) 0 0 c ds polls = compile st_eqb (mk_input cfg ct n lb) 0 0 c ds polls.
  Proof. exact (clip_compile st_eqb (mk_input cfg ct n lb) cfg_clean cost_isize relax_isize 0 0 c ds polls). Qed.

  Lemma sim_sat : sim_contracts st_eqb cfg.
  Proof.
    destruct (sim_strong st_eqb st_eqb_spec clip_cfg cfg_clean cfg_nocache cfg_nodom cfg_width nv_static nv_some nv_none
                cov cov_refl cov_sim merge_cov rub_adm B HB guard0 clip_relax_ge) as (S2 & S3 & S4).
    split; [|split].
    - intros ct n lb c ds polls m Hct Hg Hd Hc. rewrite <- clip_compile_cfg in Hc. exact (S2 ct n lb c ds polls m Hct Hg Hd Hc).
    - intros n lb c ds polls m Hg Hd Hc. rewrite <- clip_compile_cfg in Hc. exact (S3 n lb c ds polls m Hg Hd Hc).
    - intros n lb c ds polls m Hg Hd Hc. rewrite <- clip_compile_cfg in Hc. exact (S4 n lb c ds polls m Hg Hd Hc).
  Qed.
End SimContractsSat.

(* 3c. a well-formed relaxation, in either sense *)
Section WfRelaxation.
  Context {St : Type}.
  Variable cfg : @sconfig St.
  Local Notation pb := (sc_problem cfg).
  Local Notation rlx := (sc_relax cfg).

  (* common part: [cov s s'] = the (possibly merged) state s covers the true state s' *)
  Definition wf_cover (cov : St -> St -> Prop) : Prop :=
    (forall s, cov s s) /\
    (forall s s' x v, cov s s' -> In v (domain pb x s') ->
       let d := {| d_var := x; d_val := v |} in
       In v (domain pb x s) /\ cov (transition pb s d) (transition pb s' d) /\
       (transition_cost pb s' (transition pb s' d) d <= transition_cost pb s (transition pb s d) d)%Z) /\
    (forall L s s', In s L -> cov s s' -> cov (merge rlx L) s') /\
    (forall k s s' h, cov s s' -> H pb k s' = Some h -> (h <= fast_upper_bound rlx s)%Z).

  (* the hypotheses of MddSim.v, section KHolds, as they stand *)
  Definition wf_relaxation_strong (cov : St -> St -> Prop) : Prop :=
    wf_cover cov /\ (forall src dst mg d c, (c <= relax rlx src dst mg d c)%Z).

  (* the machine-integer variant: costs and relaxed costs are isize, relax does not decrease an isize cost *)
  Definition wf_relaxation_isize (cov : St -> St -> Prop) : Prop :=
    wf_cover cov /\
    (forall s d, in_isize (transition_cost pb s (transition pb s d) d)) /\
    (forall src dst mg d c, in_isize c -> in_isize (relax rlx src dst mg d c)) /\
    (forall src dst mg d c, in_isize c -> (c <= relax rlx src dst mg d c)%Z).

  Definition wf_relaxation : Prop := exists cov, wf_relaxation_strong cov \/ wf_relaxation_isize cov.
End WfRelaxation.

(* 3. the diagram contracts for Mdd.compile *)
Section Main.
  Context {St : Type}.
  Variable st_eqb : St -> St -> bool.
  Hypothesis st_eqb_spec : forall a b, st_eqb a b = true <-> a = b.
  Variable cfg : @sconfig St.
  Local Notation pb := (sc_problem cfg).
  Local Notation rlx := (sc_relax cfg).
  Local Notation N := (nb_vars (sc_problem cfg)).

  Hypothesis cfg_clean : sc_flavour cfg = CleanLEL \/ sc_flavour cfg = CleanFC.
  Hypothesis cfg_nocache : sc_use_cache cfg = false.
  Hypothesis cfg_nodom : sc_domrule cfg = None.
  Hypothesis cfg_nodup : sc_nodup cfg = false.
  Hypothesis cfg_width : (1 <= sc_width cfg)%nat.
  (* the user's model: static variable order *)
  Hypothesis nv_static : forall k l1 l2, next_variable pb k l1 = next_variable pb k l2.
  Hypothesis nv_some : forall k l, (k < N)%nat -> exists x, next_variable pb k l = Some x.
  Hypothesis nv_none : forall k l, (N <= k)%nat -> next_variable pb k l = None.
  (* the user's model: a well-formed relaxation (section 3c) *)
  Hypothesis Hwf : wf_relaxation cfg.
  (* the user's model: finite domains, bounded objective *)
  Variable D : nat.
  Hypothesis dom_bound : forall x s, (length (domain pb x s) <= D)%nat.
  Variable B : Z.
  Hypothesis HB : 2 * B <= IMAX.
  Hypothesis guard0 : forall ds s' v', frun pb 0 (init_state pb) (init_value pb) ds = Some (s', v') -> - B <= v' <= B.

  Local Notation cfg0 := (with_cutoff cfg 0).
  Local Notation good := (sgood pb).
  Local Notation feas := (sfeasible pb).
  Local Notation bst := (MddSim.best cfg).

  Lemma cfg0_ok : config_ok cfg0.
  Proof. repeat split; assumption. Qed.

  Lemma cfg_c : config_c cfg.
  Proof. repeat split; assumption. Qed.

  Lemma gguard n : good n -> forall ds s' v',
    frun pb (sp_depth n) (sp_state n) (sp_value n) ds = Some (s', v') -> - B <= v' <= B.
  Proof. apply sgood_guard. exact guard0. Qed.

  Lemma good_pgood n : good n -> MddProgress.good pb n.
  Proof. apply (sgood_good pb B HB guard0). Qed.

  (* KC1: the best exact solution of a completed diagram is a feasible run *)
  Lemma C1 ct n lb c ds polls m :
    good n -> (sp_depth n <= N)%nat ->
    compile st_eqb (mk_input cfg ct n lb) 0 0 c ds polls = (m, Compiled) ->
    forall v, dd_best_exact_value (mk_input cfg ct n lb) m = Some v ->
    exists sol, dd_best_exact_solution (mk_input cfg ct n lb) m = Some sol /\ feas sol v.
  Proof.
    intros Hg Hd Hc v Hv. pose proof (to_zero st_eqb cfg _ _ _ _ _ _ _ Hc) as H0.
    destruct cfg0_ok as (O1 & O2 & O3 & _).
    unfold dd_best_exact_value in Hv. unfold dd_best_exact_solution.
    destruct (m_best_exact m) as [b|] eqn:Eb; [|discriminate]. simpl in Hv. inversion Hv; subst v. simpl.
    destruct (best_exact_solution_genuine st_eqb st_eqb_spec (mk_input cfg ct n lb) cfg_clean 0 0 c ds polls m b Hc Eb)
      as (Hlt & Hcc & _ & Hpath & Hlen).
    pose proof (clean_chain_frun st_eqb st_eqb_spec (mk_input cfg ct n lb) cfg_clean nv_static B HB (gguard n Hg)
                  0 0 c ds polls m b Hc Hcc Hlt) as Hrun.
    pose proof (compile_best_depth st_eqb st_eqb_spec (mk_input cfg0 ct n lb) cfg_clean O1 O2 O3 cfg_width
                  nv_some nv_none Hd 0 0 c ds polls m Compiled b H0 (or_intror Eb)) as HdN.
    change (get_node (mk_input cfg0 ct n lb) m b) with (get_node (mk_input cfg ct n lb) m b) in HdN.
    destruct Hg as (_ & ds0 & G1 & G2 & G3).
    eexists. split; [reflexivity|].
    exists (ds0 ++ rev (chain (mk_input cfg ct n lb) m b)), (n_state (get_node (mk_input cfg ct n lb) m b)).
    split; [|split].
    - rewrite app_length, rev_length, G1, Hlen, HdN. cbn [mk_input ci_root ci_problem with_cutoff sc_problem]. lia.
    - rewrite Hpath. apply Permutation_app; [exact G2|]. apply Permutation_sym, Permutation_rev.
    - rewrite frun_app, G3, G1. exact Hrun.
  Qed.

  (* KC3_good / KC3_depth: cut-set nodes are reached by feasible runs, strictly deeper than the root *)
  Lemma C3_depth n lb c ds polls m :
    (sp_depth n <= N)%nat ->
    compile st_eqb (mk_input cfg Relaxed n lb) 0 0 c ds polls = (m, Compiled) ->
    forall x, In x (drain_cutset (mk_input cfg Relaxed n lb) m) -> (sp_depth n < sp_depth x <= N)%nat.
  Proof.
    intros Hd Hc x Hx. pose proof (to_zero st_eqb cfg _ _ _ _ _ _ _ Hc) as H0.
    destruct cfg0_ok as (O1 & O2 & O3 & _).
    exact (cutset_depth st_eqb st_eqb_spec (mk_input cfg0 Relaxed n lb) cfg_clean O1 O2 O3 cfg_width
             nv_some nv_none Hd 0 0 c ds polls m Compiled x eq_refl H0 Hx).
  Qed.

  Lemma C3_good n lb c ds polls m :
    good n -> (sp_depth n <= N)%nat ->
    compile st_eqb (mk_input cfg Relaxed n lb) 0 0 c ds polls = (m, Compiled) ->
    forall x, In x (drain_cutset (mk_input cfg Relaxed n lb) m) -> good x.
  Proof.
    intros Hg Hd Hc x Hx.
    destruct (C3_depth n lb c ds polls m Hd Hc x Hx) as [_ HxN].
    destruct (cutset_nodes_exact st_eqb st_eqb_spec (mk_input cfg Relaxed n lb) cfg_clean 0 0 c ds polls m x Hc Hx)
      as (id & _ & Hlt & _ & Hcc & Hpath & Hst & Hval & _ & _ & Hlen).
    pose proof (clean_chain_frun st_eqb st_eqb_spec (mk_input cfg Relaxed n lb) cfg_clean nv_static B HB (gguard n Hg)
                  0 0 c ds polls m id Hc Hcc Hlt) as Hrun.
    destruct Hg as (_ & ds0 & G1 & G2 & G3).
    split; [exact HxN|].
    exists (ds0 ++ rev (chain (mk_input cfg Relaxed n lb) m id)). split; [|split].
    - rewrite app_length, rev_length, G1, Hlen. reflexivity.
    - rewrite Hpath. apply Permutation_app; [exact G2|]. apply Permutation_sym, Permutation_rev.
    - rewrite frun_app, G3, G1, Hst, Hval. exact Hrun.
  Qed.

  (* KC2 / KC3_ub / KC4: the simulation contracts of MddSim.v (section 3b) *)
  Lemma sim_hold : sim_contracts st_eqb cfg.
  Proof.
    destruct Hwf as (cov & [((W1 & W2 & W3 & W4) & W5) | ((W1 & W2 & W3 & W4) & W5 & W6 & W7)]).
    - exact (sim_strong st_eqb st_eqb_spec cfg cfg_clean cfg_nocache cfg_nodom cfg_width nv_static nv_some nv_none
               cov W1 W2 W3 W4 B HB guard0 W5).
    - exact (sim_sat st_eqb st_eqb_spec cfg cfg_clean cfg_nocache cfg_nodom cfg_width nv_static nv_some nv_none
               cov W1 W2 W3 W4 W5 W6 W7 B HB guard0).
  Qed.

  (* K5: size of the cut-set *)
  Lemma C5 n lb c ds polls m :
    (sp_depth n <= N)%nat ->
    compile st_eqb (mk_input cfg Relaxed n lb) 0 0 c ds polls = (m, Compiled) ->
    (length (drain_cutset (mk_input cfg Relaxed n lb) m) <= Kbound cfg D)%nat.
  Proof.
    intros Hd Hc. pose proof (to_zero st_eqb cfg _ _ _ _ _ _ _ Hc) as H0.
    destruct cfg0_ok as (O1 & O2 & O3 & _).
    exact (cutset_size_bound st_eqb st_eqb_spec (mk_input cfg0 Relaxed n lb) cfg_clean O1 O2 O3 cfg_width
             nv_some nv_none Hd D dom_bound 0 0 c ds polls m Compiled eq_refl H0).
  Qed.

  (* KC_crash: no compilation crashes, whatever its outcome *)
  Lemma C_crash ct n lb c ds polls m out :
    (sp_depth n <= N)%nat ->
    compile st_eqb (mk_input cfg ct n lb) 0 0 c ds polls = (m, out) -> m_crash m = false.
  Proof.
    intros Hd Hc. destruct cfg0_ok as (O1 & O2 & O3 & _).
    assert (Hcases : out = Compiled \/ out <> Compiled) by (destruct out; [left; reflexivity|right; discriminate..]).
    destruct Hcases as [-> | Hne].
    - pose proof (to_zero st_eqb cfg _ _ _ _ _ _ _ Hc) as H0.
      exact (proj2 (compile_completes st_eqb st_eqb_spec (mk_input cfg0 ct n lb) cfg_clean O1 O2 O3 cfg_width
                      nv_some nv_none Hd 0 0 c ds polls m Compiled H0)).
    - change (mk_input cfg ct n lb) with (set_cutoff (mk_input cfg ct n lb) (sc_cutoff cfg)) in Hc.
      exact (compile_nocrash_cut st_eqb (mk_input cfg ct n lb) cfg_clean cfg_nocache cfg_nodom cfg_width nv_none Hd
               (sc_cutoff cfg) 0 0 c ds polls m out Hc Hne).
  Qed.

  (* the contracts of SolverCutoff.v (any cutoff) *)
  Theorem contracts_hold : contracts st_eqb good bst feas cfg.
  Proof.
    split; [|split; [|split; [|split; [|split; [|split]]]]].
    - intros ct n lb c ds polls m out _ _ Hd Hc. exact (C_crash ct n lb c ds polls m out Hd Hc).
    - intros ct n lb c ds polls m _ Hg Hd Hc. exact (C1 ct n lb c ds polls m Hg Hd Hc).
    - exact (proj1 sim_hold).
    - intros n lb c ds polls m Hg Hd Hc _. exact (C3_good n lb c ds polls m Hg Hd Hc).
    - intros n lb c ds polls m _ Hd Hc _ x Hx. exact (proj2 (C3_depth n lb c ds polls m Hd Hc x Hx)).
    - exact (proj1 (proj2 sim_hold)).
    - exact (proj2 (proj2 sim_hold)).
  Qed.

  (* the abstract-semantics hypotheses *)
  Definition OPTsem : option Z := opt_enum pb.

  Lemma OPT_is_opt_enum : OPT cfg bst = opt_enum pb.
  Proof. unfold OPT, MddSim.best, opt_enum. cbn [root_node sp_value sp_depth sp_state]. symmetry. apply opt_enum_from_H. Qed.

  Lemma good_root : good (root_node cfg).
  Proof. apply sgood_root; reflexivity. Qed.

  Lemma feasible_le_opt sol v : feas sol v -> exists o, OPT cfg bst = Some o /\ v <= o.
  Proof.
    intros (ds & st & H1 & _ & H3).
    destruct (frun_le_H pb nv_static nv_none ds 0%nat _ _ st v H1 H3) as (h & Hh & Hle).
    exists (init_value pb + h). split; [|exact Hle].
    unfold OPT, MddSim.best. cbn [root_node sp_value sp_depth sp_state]. rewrite Hh. reflexivity.
  Qed.

  Lemma opt_in_isize o : OPT cfg bst = Some o -> IMIN < o <= IMAX.
  Proof.
    unfold OPT, MddSim.best. cbn [root_node sp_value sp_depth sp_state].
    destruct (H pb 0 (init_state pb)) as [h|] eqn:Eh; [|discriminate]. simpl. intros E. inversion E; subst o.
    destruct (H_attained pb nv_static nv_some nv_none (N - 0) 0%nat (init_state pb) (init_value pb) h eq_refl
                ltac:(lia) Eh) as (ds & s' & Hr & _).
    pose proof (guard0 ds s' _ Hr). unfold IMIN, IMAX in *. lia.
  Qed.

  Lemma best_set_ub (c : @subproblem St) u : bst (set_ub c u) = bst c.
  Proof. reflexivity. Qed.

  Theorem semantics_hold : semantics good bst feas cfg.
  Proof.
    split; [exact good_root|]. split; [exact feasible_le_opt|]. split; [exact opt_in_isize|].
    split; [intros c u; apply sgood_set_ub|exact best_set_ub].
  Qed.

  (* 4. C05, sequential: anytime soundness, ANY cutoff *)
  Theorem C05_sequential_anytime : forall fuel primal,
    primal_ok feas primal ->
    let r := maximize st_eqb cfg fuel primal in
    r_outoffuel r = false ->
    r_crash r = false /\
    r_lb r <= r_ub r /\
    (forall o, opt_enum pb = Some o -> r_lb r <= o <= r_ub r) /\
    (opt_enum pb = None -> r_value r = None /\ r_sol r = None) /\
    (forall v, r_value r = Some v ->
       r_lb r = v /\ exists sol, r_sol r = Some (sort_by dec_var_cmp sol) /\ feas sol v /\ MddProgress.feasible pb sol v) /\
    (r_exact r = true -> r_value r = opt_enum pb).
  Proof.
    intros fuel primal Hp r Hf.
    destruct (seq_anytime_sound st_eqb good bst feas cfg cfg_c contracts_hold semantics_hold fuel primal Hp Hf)
      as (A1 & A2 & A3 & A4 & A5).
    pose proof (seq_anytime_lb_le_ub st_eqb good bst feas cfg cfg_c contracts_hold semantics_hold fuel primal Hp Hf) as A6.
    rewrite OPT_is_opt_enum in A2, A3, A5.
    split; [exact A1|]. split; [exact A6|]. split; [exact A2|]. split; [exact A3|]. split; [|exact A5].
    intros v Hv. destruct (A4 v Hv) as (E & sol & S1 & S2). split; [exact E|]. exists sol. split; [exact S1|].
    split; [exact S2|]. apply (sfeasible_feasible pb B HB guard0). exact S2.
  Qed.

  (* 4b. C04, first half: the parallel protocol neither deadlocks nor crashes, ANY cutoff *)
  Lemma HA_nocrash : forall ct n lb c ds polls m out,
    dd_ct ct -> good n -> (sp_depth n <= N)%nat ->
    compile st_eqb (mk_input cfg ct n lb) 0 0 c ds polls = (m, out) -> m_crash m = false.
  Proof. intros ct n lb c ds polls m out _ _ Hd Hc. exact (C_crash ct n lb c ds polls m out Hd Hc). Qed.

  Lemma HA_cut : forall n lb c ds polls m,
    good n -> (sp_depth n <= N)%nat ->
    compile st_eqb (mk_input cfg Relaxed n lb) 0 0 c ds polls = (m, Compiled) ->
    dd_is_exact m = false ->
    forall x, In x (drain_cutset (mk_input cfg Relaxed n lb) m) -> good x /\ (sp_depth x <= N)%nat.
  Proof.
    intros n lb c ds polls m Hg Hd Hc _ x Hx. split; [exact (C3_good n lb c ds polls m Hg Hd Hc x Hx)|].
    exact (proj2 (C3_depth n lb c ds polls m Hd Hc x Hx)).
  Qed.

  Theorem C04_parallel_no_deadlock_no_crash : forall T primal fuel sched,
    pr_end (par_maximize st_eqb cfg fuel T T primal sched) <> PDeadlock /\
    pr_crash (par_maximize st_eqb cfg fuel T T primal sched) = false.
  Proof.
    exact (par_maximize_no_deadlock_no_crash st_eqb cfg cfg_nocache cfg_nodup good good_root
             (fun c u => sgood_set_ub pb c u) HA_nocrash HA_cut).
  Qed.

  Theorem C04_parallel_run_no_deadlock : forall T primal fuel sched s' tr e,
    par_run st_eqb cfg fuel (init_pstate st_eqb cfg T T primal) sched None [] = (s', tr, e) ->
    (e = PFinished \/ e = POutOfFuel) /\ p_crash s' = false.
  Proof.
    intros T primal fuel sched s' tr e H. split.
    - exact (par_no_deadlock st_eqb cfg cfg_nocache cfg_nodup good good_root
               (fun c u => sgood_set_ub pb c u) HA_nocrash HA_cut T primal fuel sched s' tr e H).
    - exact (par_never_crashes st_eqb cfg cfg_nocache cfg_nodup good good_root
               (fun c u => sgood_set_ub pb c u) HA_nocrash HA_cut T primal fuel sched s' tr e H).
  Qed.

  (* 5. no cutoff: the contracts K0 .. K5 of SolverProofs.v / ParProofs.v *)
  Hypothesis cfg_nocut : sc_cutoff cfg = 0%nat.

  Lemma cfg_ok : config_ok cfg.
  Proof. repeat split; assumption. Qed.

  Lemma K0 : forall ct n lb c ds polls m out,
    dd_ct ct -> good n -> (sp_depth n <= N)%nat ->
    compile st_eqb (mk_input cfg ct n lb) 0 0 c ds polls = (m, out) -> out = Compiled /\ m_crash m = false.
  Proof.
    intros ct n lb c ds polls m out _ _ Hd Hc.
    exact (compile_completes st_eqb st_eqb_spec (mk_input cfg ct n lb) cfg_clean cfg_nocache cfg_nodom cfg_nocut cfg_width
             nv_some nv_none Hd 0 0 c ds polls m out Hc).
  Qed.

  Lemma K1 : forall ct n lb c ds polls m out,
    dd_ct ct -> good n -> (sp_depth n <= N)%nat ->
    compile st_eqb (mk_input cfg ct n lb) 0 0 c ds polls = (m, out) ->
    forall v, dd_best_exact_value (mk_input cfg ct n lb) m = Some v ->
    exists sol, dd_best_exact_solution (mk_input cfg ct n lb) m = Some sol /\ feas sol v.
  Proof.
    intros ct n lb c ds polls m out Hct Hg Hd Hc. destruct (K0 _ _ _ _ _ _ _ _ Hct Hg Hd Hc) as [-> _].
    exact (C1 ct n lb c ds polls m Hg Hd Hc).
  Qed.

  Lemma K2 : forall ct n lb c ds polls m out,
    dd_ct ct -> good n -> (sp_depth n <= N)%nat ->
    compile st_eqb (mk_input cfg ct n lb) 0 0 c ds polls = (m, out) ->
    dd_is_exact m = true ->
    forall o, bst n = Some o -> o > lb -> dd_best_exact_value (mk_input cfg ct n lb) m = Some o.
  Proof.
    intros ct n lb c ds polls m out Hct Hg Hd Hc. destruct (K0 _ _ _ _ _ _ _ _ Hct Hg Hd Hc) as [-> _].
    exact (proj1 sim_hold ct n lb c ds polls m Hct Hg Hd Hc).
  Qed.

  Lemma K3_good : forall n lb c ds polls m out,
    good n -> (sp_depth n <= N)%nat ->
    compile st_eqb (mk_input cfg Relaxed n lb) 0 0 c ds polls = (m, out) ->
    dd_is_exact m = false ->
    forall x, In x (drain_cutset (mk_input cfg Relaxed n lb) m) -> good x.
  Proof.
    intros n lb c ds polls m out Hg Hd Hc _.
    destruct (K0 _ _ _ _ _ _ _ _ (or_intror eq_refl) Hg Hd Hc) as [-> _].
    exact (C3_good n lb c ds polls m Hg Hd Hc).
  Qed.

  Lemma K3_depth : forall n lb c ds polls m out,
    good n -> (sp_depth n <= N)%nat ->
    compile st_eqb (mk_input cfg Relaxed n lb) 0 0 c ds polls = (m, out) ->
    dd_is_exact m = false ->
    forall x, In x (drain_cutset (mk_input cfg Relaxed n lb) m) -> (sp_depth n < sp_depth x <= N)%nat.
  Proof.
    intros n lb c ds polls m out Hg Hd Hc _.
    destruct (K0 _ _ _ _ _ _ _ _ (or_intror eq_refl) Hg Hd Hc) as [-> _].
    exact (C3_depth n lb c ds polls m Hd Hc).
  Qed.

  Lemma K3_ub : forall n lb c ds polls m out,
    good n -> (sp_depth n <= N)%nat ->
    compile st_eqb (mk_input cfg Relaxed n lb) 0 0 c ds polls = (m, out) ->
    dd_is_exact m = false ->
    forall x, In x (drain_cutset (mk_input cfg Relaxed n lb) m) ->
    forall o, bst x = Some o -> o > lb -> o <= sp_ub x.
  Proof.
    intros n lb c ds polls m out Hg Hd Hc.
    destruct (K0 _ _ _ _ _ _ _ _ (or_intror eq_refl) Hg Hd Hc) as [-> _].
    exact (proj1 (proj2 sim_hold) n lb c ds polls m Hg Hd Hc).
  Qed.

  Lemma K4 : forall n lb c ds polls m out,
    good n -> (sp_depth n <= N)%nat ->
    compile st_eqb (mk_input cfg Relaxed n lb) 0 0 c ds polls = (m, out) ->
    dd_is_exact m = false ->
    forall o, bst n = Some o -> o > lb ->
    (forall e, dd_best_exact_value (mk_input cfg Relaxed n lb) m = Some e -> e < o) ->
    exists x, In x (drain_cutset (mk_input cfg Relaxed n lb) m) /\ bst x = Some o.
  Proof.
    intros n lb c ds polls m out Hg Hd Hc.
    destruct (K0 _ _ _ _ _ _ _ _ (or_intror eq_refl) Hg Hd Hc) as [-> _].
    exact (proj2 (proj2 sim_hold) n lb c ds polls m Hg Hd Hc).
  Qed.

  Lemma K5 : forall n lb c ds polls m out,
    good n -> (sp_depth n <= N)%nat ->
    compile st_eqb (mk_input cfg Relaxed n lb) 0 0 c ds polls = (m, out) ->
    dd_is_exact m = false ->
    (length (drain_cutset (mk_input cfg Relaxed n lb) m) <= Kbound cfg D)%nat.
  Proof.
    intros n lb c ds polls m out Hg Hd Hc _.
    destruct (K0 _ _ _ _ _ _ _ _ (or_intror eq_refl) Hg Hd Hc) as [-> _].
    exact (C5 n lb c ds polls m Hd Hc).
  Qed.

  (* 6. C01 and C14: the sequential solver returns the optimum *)
  (* strong form: the returned solution is a feasible run in EXACT integer arithmetic *)
  Theorem C01_sequential_optimal_run :
    exists f0, forall fuel, (f0 <= fuel)%nat ->
      let r := maximize st_eqb cfg fuel None in
      r_crash r = false /\ r_outoffuel r = false /\ r_exact r = true /\ r_value r = opt_enum pb /\
      (forall v, opt_enum pb = Some v ->
         r_lb r = v /\ r_ub r = v /\ exists sol, r_sol r = Some (sort_by dec_var_cmp sol) /\ feas sol v) /\
      (opt_enum pb = None -> r_sol r = None /\ r_lb r = IMIN).
  Proof.
    destruct (seq_solver_correct st_eqb cfg cfg_ok good bst feas good_root feasible_le_opt opt_in_isize
                (fun c u => sgood_set_ub pb c u) best_set_ub (Kbound cfg D) K0 K1 K2 K3_good K3_depth K3_ub K4 K5) as [f0 Hf].
    exists f0. intros fuel Hfuel. specialize (Hf fuel Hfuel). rewrite OPT_is_opt_enum in Hf. exact Hf.
  Qed.

  Theorem C01_sequential_optimal :
    exists f0, forall fuel, (f0 <= fuel)%nat ->
      let r := maximize st_eqb cfg fuel None in
      r_crash r = false /\ r_outoffuel r = false /\ r_exact r = true /\ r_value r = opt_enum pb /\
      (forall v, opt_enum pb = Some v ->
         r_lb r = v /\ r_ub r = v /\
         exists sol, r_sol r = Some (sort_by dec_var_cmp sol) /\ MddProgress.feasible pb sol v) /\
      (opt_enum pb = None -> r_sol r = None /\ r_lb r = IMIN).
  Proof.
    destruct C01_sequential_optimal_run as [f0 Hf]. exists f0. intros fuel Hfuel.
    exact (result_ok_weaken cfg (fun _ => opt_enum pb) feas _ _ (sfeasible_feasible pb B HB guard0) (Hf fuel Hfuel)).
  Qed.

  (* the returned solution in exact arithmetic: it replays through DP.replay to the optimum, no saturation *)
  Corollary C01_solution_replays :
    exists f0, forall fuel, (f0 <= fuel)%nat ->
      forall v, opt_enum pb = Some v ->
      exists sol ds st, r_sol (maximize st_eqb cfg fuel None) = Some (sort_by dec_var_cmp sol) /\
        Permutation ds sol /\ length ds = N /\ replay pb ds (init_state pb) (init_value pb) = Some (st, v).
  Proof.
    destruct C01_sequential_optimal_run as [f0 Hf]. exists f0. intros fuel Hfuel v Hv.
    destruct (Hf fuel Hfuel) as (_ & _ & _ & _ & A5 & _).
    destruct (A5 v Hv) as (_ & _ & sol & S1 & S2).
    destruct (sfeasible_replay pb sol v S2) as (ds & st & P1 & P2 & P3).
    exists sol, ds, st. auto.
  Qed.

  (* C14: with a feasible primal solution given to the solver *)
  Theorem C14_primal_run : forall pv psol, feas psol pv ->
    exists f0, forall fuel, (f0 <= fuel)%nat ->
      let r := maximize st_eqb cfg fuel (Some (pv, psol)) in
      r_crash r = false /\ r_outoffuel r = false /\ r_exact r = true /\ r_value r = opt_enum pb /\
      (forall v, opt_enum pb = Some v ->
         r_lb r = v /\ r_ub r = v /\ exists sol, r_sol r = Some (sort_by dec_var_cmp sol) /\ feas sol v) /\
      (opt_enum pb = None -> r_sol r = None /\ r_lb r = IMIN).
  Proof.
    intros pv psol Hp.
    destruct (seq_solver_correct_primal st_eqb cfg cfg_ok good bst feas good_root feasible_le_opt opt_in_isize
                (fun c u => sgood_set_ub pb c u) best_set_ub (Kbound cfg D) K0 K1 K2 K3_good K3_depth K3_ub K4 K5
                pv psol Hp) as [f0 Hf].
    exists f0. intros fuel Hfuel. specialize (Hf fuel Hfuel). rewrite OPT_is_opt_enum in Hf. exact Hf.
  Qed.

  Theorem C14_primal : forall pv psol, feas psol pv ->
    exists f0, forall fuel, (f0 <= fuel)%nat ->
      let r := maximize st_eqb cfg fuel (Some (pv, psol)) in
      r_crash r = false /\ r_outoffuel r = false /\ r_exact r = true /\ r_value r = opt_enum pb /\
      (forall v, opt_enum pb = Some v ->
         r_lb r = v /\ r_ub r = v /\
         exists sol, r_sol r = Some (sort_by dec_var_cmp sol) /\ MddProgress.feasible pb sol v) /\
      (opt_enum pb = None -> r_sol r = None /\ r_lb r = IMIN).
  Proof.
    intros pv psol Hp. destruct (C14_primal_run pv psol Hp) as [f0 Hf]. exists f0. intros fuel Hfuel.
    exact (result_ok_weaken cfg (fun _ => opt_enum pb) feas _ _ (sfeasible_feasible pb B HB guard0) (Hf fuel Hfuel)).
  Qed.

  (* 7. C03 / C04: the parallel protocol, every schedule, every number of workers *)
  Local Ltac par_side :=
    first [ exact cfg_nocache | exact cfg_nodup | exact good_root | exact (fun c u => sgood_set_ub pb c u)
          | exact cfg_nocut | exact cfg_nodom | exact feasible_le_opt | exact opt_in_isize | exact best_set_ub
          | exact K0 | exact K1 | exact K2 | exact K3_good | exact K3_depth | exact K3_ub | exact K4 | exact K5 ].

  Lemma presult_unfold r : presult_ok cfg bst feas r ->
    pr_crash r = false /\ pr_exact r = true /\ pr_value r = opt_enum pb /\
    (forall v, opt_enum pb = Some v ->
       pr_lb r = v /\ pr_ub r = v /\
       exists sol, pr_sol r = Some (sort_by dec_var_cmp sol) /\ feas sol v /\ MddProgress.feasible pb sol v) /\
    (opt_enum pb = None -> pr_sol r = None /\ pr_lb r = IMIN).
  Proof.
    unfold presult_ok. rewrite OPT_is_opt_enum. intros (A1 & A2 & A3 & A4 & A5).
    split; [exact A1|]. split; [exact A2|]. split; [exact A3|]. split; [|exact A5].
    intros v Hv. destruct (A4 v Hv) as (E1 & E2 & sol & S1 & S2). split; [exact E1|]. split; [exact E2|].
    exists sol. split; [exact S1|]. split; [exact S2|]. apply (sfeasible_feasible pb B HB guard0). exact S2.
  Qed.

  (* C04 (termination): every run finishes within fuelP transitions *)
  Theorem C04_parallel_terminates : forall T primal fuel sched,
    (fuelP cfg (Kbound cfg D) T <= fuel)%nat ->
    pr_end (par_maximize st_eqb cfg fuel T T primal sched) = PFinished.
  Proof.
    intros T primal fuel sched Hf.
    apply (par_terminates st_eqb cfg) with (good := good) (M := Kbound cfg D); try par_side. exact Hf.
  Qed.

  (* C03 (partial correctness): every finished run returns the optimum *)
  Theorem C03_parallel_optimal_finished : forall T primal fuel sched,
    (1 <= T)%nat -> primal_okP feas primal ->
    let r := par_maximize st_eqb cfg fuel T T primal sched in
    pr_end r = PFinished ->
    pr_crash r = false /\ pr_exact r = true /\ pr_value r = opt_enum pb /\
    (forall v, opt_enum pb = Some v ->
       pr_lb r = v /\ pr_ub r = v /\
       exists sol, pr_sol r = Some (sort_by dec_var_cmp sol) /\ feas sol v /\ MddProgress.feasible pb sol v) /\
    (opt_enum pb = None -> pr_sol r = None /\ pr_lb r = IMIN).
  Proof.
    intros T primal fuel sched HT Hp r He. apply presult_unfold.
    apply (par_optimal_primal st_eqb cfg) with (good := good); try par_side; assumption.
  Qed.

  (* C03 + C04 (total correctness) *)
  Theorem C03_parallel_optimal : forall T primal fuel sched,
    (1 <= T)%nat -> primal_okP feas primal -> (fuelP cfg (Kbound cfg D) T <= fuel)%nat ->
    let r := par_maximize st_eqb cfg fuel T T primal sched in
    pr_end r = PFinished /\
    pr_crash r = false /\ pr_exact r = true /\ pr_value r = opt_enum pb /\
    (forall v, opt_enum pb = Some v ->
       pr_lb r = v /\ pr_ub r = v /\
       exists sol, pr_sol r = Some (sort_by dec_var_cmp sol) /\ feas sol v /\ MddProgress.feasible pb sol v) /\
    (opt_enum pb = None -> pr_sol r = None /\ pr_lb r = IMIN).
  Proof.
    intros T primal fuel sched HT Hp Hf r.
    pose proof (C04_parallel_terminates T primal fuel sched Hf) as He. split; [exact He|].
    exact (C03_parallel_optimal_finished T primal fuel sched HT Hp He).
  Qed.
End Main.

(* 8. C19: a later cutoff never gives worse bounds *)
Section Cutoffs.
  Context {St : Type}.
  Variable st_eqb : St -> St -> bool.
  Hypothesis st_eqb_spec : forall a b, st_eqb a b = true <-> a = b.
  Variable cfg : @sconfig St.
  Local Notation pb := (sc_problem cfg).
  Local Notation rlx := (sc_relax cfg).
  Local Notation N := (nb_vars (sc_problem cfg)).
  Hypothesis cfg_clean : sc_flavour cfg = CleanLEL \/ sc_flavour cfg = CleanFC.
  Hypothesis cfg_nocache : sc_use_cache cfg = false.
  Hypothesis cfg_nodom : sc_domrule cfg = None.
  Hypothesis cfg_nodup : sc_nodup cfg = false.
  Hypothesis cfg_width : (1 <= sc_width cfg)%nat.
  Hypothesis nv_static : forall k l1 l2, next_variable pb k l1 = next_variable pb k l2.
  Hypothesis nv_some : forall k l, (k < N)%nat -> exists x, next_variable pb k l = Some x.
  Hypothesis nv_none : forall k l, (N <= k)%nat -> next_variable pb k l = None.
  Hypothesis Hwf : wf_relaxation cfg.
  Variable B : Z.
  Hypothesis HB : 2 * B <= IMAX.
  Hypothesis guard0 : forall ds s' v', frun pb 0 (init_state pb) (init_value pb) ds = Some (s', v') -> - B <= v' <= B.

  Lemma contracts_all k : contracts st_eqb (sgood pb) (MddSim.best cfg) (sfeasible pb) (with_cutoff cfg k).
  Proof.
    exact (contracts_hold st_eqb st_eqb_spec (with_cutoff cfg k) cfg_clean cfg_nocache cfg_nodom cfg_nodup cfg_width
             nv_static nv_some nv_none Hwf B HB guard0).
  Qed.

  Let sem : semantics (sgood pb) (MddSim.best cfg) (sfeasible pb) cfg :=
    semantics_hold cfg cfg_width nv_static nv_some nv_none B HB guard0.
  Let cc : config_c cfg := conj cfg_nocache (conj cfg_nodom cfg_nodup).

  (* R st_eqb cfg k fuel primal = maximize st_eqb (with_cutoff cfg k) fuel primal *)
  Theorem C19_monotone : forall k fuel primal,
    primal_ok (sfeasible pb) primal -> (1 <= k)%nat ->
    r_lb (maximize st_eqb (with_cutoff cfg k) fuel primal) <= r_lb (maximize st_eqb (with_cutoff cfg (S k)) fuel primal) /\
    r_ub (maximize st_eqb (with_cutoff cfg (S k)) fuel primal) <= r_ub (maximize st_eqb (with_cutoff cfg k) fuel primal).
  Proof.
    intros k fuel primal Hp Hk.
    exact (cutoff_monotone st_eqb (sgood pb) (MddSim.best cfg) (sfeasible pb) cfg cc contracts_all sem k fuel primal Hp Hk).
  Qed.

  (* k2 later than k1: 0 < k1 and (k2 = 0 (never) or k1 <= k2) *)
  Theorem C19_monotone_gen : forall k1 k2 fuel primal,
    primal_ok (sfeasible pb) primal -> later k1 k2 ->
    r_lb (maximize st_eqb (with_cutoff cfg k1) fuel primal) <= r_lb (maximize st_eqb (with_cutoff cfg k2) fuel primal) /\
    r_ub (maximize st_eqb (with_cutoff cfg k2) fuel primal) <= r_ub (maximize st_eqb (with_cutoff cfg k1) fuel primal).
  Proof.
    intros k1 k2 fuel primal Hp Hl.
    exact (cutoff_monotone_gen st_eqb (sgood pb) (MddSim.best cfg) (sfeasible pb) cfg cc contracts_all sem k1 k2 fuel primal Hp Hl).
  Qed.

  Theorem C19_eventually_full : forall fuel primal,
    exists K, forall k, (K < k)%nat ->
      maximize st_eqb (with_cutoff cfg k) fuel primal = maximize st_eqb (with_cutoff cfg 0) fuel primal.
  Proof. intros fuel primal. exact (cutoff_eventually_full st_eqb cfg cc fuel primal). Qed.
End Cutoffs.

(* 9. C01 with every premise spelled out
   (a) the hypotheses of MddSim.v exactly as stated there; (b) the machine-integer variant *)
Section Explicit.
  Context {St : Type}.
  Variable st_eqb : St -> St -> bool.
  Hypothesis st_eqb_spec : forall a b, st_eqb a b = true <-> a = b.
  Variable cfg : @sconfig St.
  Local Notation pb := (sc_problem cfg).
  Local Notation rlx := (sc_relax cfg).
  Local Notation N := (nb_vars (sc_problem cfg)).
  Hypothesis cfg_clean : sc_flavour cfg = CleanLEL \/ sc_flavour cfg = CleanFC.
  Hypothesis cfg_nocache : sc_use_cache cfg = false.
  Hypothesis cfg_nodom : sc_domrule cfg = None.
  Hypothesis cfg_nodup : sc_nodup cfg = false.
  Hypothesis cfg_width : (1 <= sc_width cfg)%nat.
  Hypothesis cfg_nocut : sc_cutoff cfg = 0%nat.
  Hypothesis nv_static : forall k l1 l2, next_variable pb k l1 = next_variable pb k l2.
  Hypothesis nv_some : forall k l, (k < N)%nat -> exists x, next_variable pb k l = Some x.
  Hypothesis nv_none : forall k l, (N <= k)%nat -> next_variable pb k l = None.
  Variable cov : St -> St -> Prop.
  Hypothesis cov_refl : forall s, cov s s.
  Hypothesis cov_sim : forall s s' x v, cov s s' -> In v (domain pb x s') ->
    let d := {| d_var := x; d_val := v |} in
    In v (domain pb x s) /\ cov (transition pb s d) (transition pb s' d) /\
    (transition_cost pb s' (transition pb s' d) d <= transition_cost pb s (transition pb s d) d)%Z.
  Hypothesis merge_cov : forall L s s', In s L -> cov s s' -> cov (merge rlx L) s'.
  Hypothesis rub_adm : forall k s s' h, cov s s' -> H pb k s' = Some h -> (h <= fast_upper_bound rlx s)%Z.
  Variable D : nat.
  Hypothesis dom_bound : forall x s, (length (domain pb x s) <= D)%nat.
  Variable B : Z.
  Hypothesis HB : 2 * B <= IMAX.
  Hypothesis guard0 : forall ds s' v', frun pb 0 (init_state pb) (init_value pb) ds = Some (s', v') -> - B <= v' <= B.

  Lemma wf_cover_intro : wf_cover cfg cov.
  Proof. split; [exact cov_refl|]. split; [exact cov_sim|]. split; [exact merge_cov|exact rub_adm]. Qed.

  Theorem C01_sequential_optimal_explicit :
    (forall src dst mg d c, (c <= relax rlx src dst mg d c)%Z) ->
    exists f0, forall fuel, (f0 <= fuel)%nat ->
      let r := maximize st_eqb cfg fuel None in
      r_crash r = false /\ r_outoffuel r = false /\ r_exact r = true /\ r_value r = opt_enum pb /\
      (forall v, opt_enum pb = Some v ->
         r_lb r = v /\ r_ub r = v /\
         exists sol, r_sol r = Some (sort_by dec_var_cmp sol) /\ MddProgress.feasible pb sol v) /\
      (opt_enum pb = None -> r_sol r = None /\ r_lb r = IMIN).
  Proof.
    intros relax_ge.
    apply (C01_sequential_optimal st_eqb st_eqb_spec cfg cfg_clean cfg_nocache cfg_nodom cfg_nodup cfg_width
             nv_static nv_some nv_none) with (D := D) (B := B); try assumption.
    exists cov. left. split; [exact wf_cover_intro|exact relax_ge].
  Qed.

  Theorem C01_sequential_optimal_isize :
    (forall s d, in_isize (transition_cost pb s (transition pb s d) d)) ->
    (forall src dst mg d c, in_isize c -> in_isize (relax rlx src dst mg d c)) ->
    (forall src dst mg d c, in_isize c -> (c <= relax rlx src dst mg d c)%Z) ->
    exists f0, forall fuel, (f0 <= fuel)%nat ->
      let r := maximize st_eqb cfg fuel None in
      r_crash r = false /\ r_outoffuel r = false /\ r_exact r = true /\ r_value r = opt_enum pb /\
      (forall v, opt_enum pb = Some v ->
         r_lb r = v /\ r_ub r = v /\
         exists sol, r_sol r = Some (sort_by dec_var_cmp sol) /\ MddProgress.feasible pb sol v) /\
      (opt_enum pb = None -> r_sol r = None /\ r_lb r = IMIN).
  Proof.
    intros cost_isize relax_isize relax_ge_isize.
    apply (C01_sequential_optimal st_eqb st_eqb_spec cfg cfg_clean cfg_nocache cfg_nodom cfg_nodup cfg_width
             nv_static nv_some nv_none) with (D := D) (B := B); try assumption.
    exists cov. right. split; [exact wf_cover_intro|]. split; [exact cost_isize|]. split; [exact relax_isize|exact relax_ge_isize].
  Qed.
End Explicit.

(* 10. why the theorems are stated with feasible RUNS
   MddProgress.good / MddProgress.feasible replay a decision sequence through the model WITHOUT looking at the order of
   the variables.  A guard on the feasible runs (variables in the static order) says nothing of such replays, so
     "MddProgress.feasible pb sol v -> sol replays through DP.replay to v"       and
     "MddProgress.feasible pb sol v -> v <= optimum"   (hypothesis feasible_le_opt of SolverProofs.v)
   are both FALSE in general: in the model below (2 variables, order 0, 1, all costs 0, except a variable 7 that is
   never branched on and costs IMAX) every feasible run has value 0, yet [7 := 0; 7 := 0] is MddProgress.feasible with
   the saturated value IMAX, exceeds the optimum 0, and replays exactly to 2 * IMAX.
   What does hold: sfeasible -> MddProgress.feasible (sfeasible_feasible), sfeasible -> DP.replay (sfeasible_replay),
   and a MddProgress-style replay whose decisions follow the variable order is a feasible run (replay_sat_frun). *)
Section OrderMatters.
  Definition pbX : problem unit := {|
    nb_vars := 2; init_state := tt; init_value := 0;
    transition := fun _ _ => tt;
    transition_cost := fun _ _ d => if Nat.eqb (d_var d) 7 then IMAX else 0;
    next_variable := fun k _ => if Nat.ltb k 2 then Some k else None;
    domain := fun _ _ => [0];
    is_impacted_by := fun _ _ => true |}.
  Definition d7 : decision := {| d_var := 7; d_val := 0 |}.

  Lemma pbX_runs : forall ds k s v s' v', frun pbX k s v ds = Some (s', v') -> v' = v.
  Proof.
    induction ds as [|d ds IH]; intros k s v s' v' H; simpl in H; [inversion H; reflexivity|].
    destruct (var_ok pbX k d) eqn:Ev; simpl in H; [|discriminate].
    destruct (in_domain pbX s d); [|discriminate].
    apply IH in H. subst v'.
    unfold var_ok in Ev. cbn [next_variable pbX] in Ev.
    destruct (Nat.ltb_spec k 2) as [Hk|Hk]; [|discriminate]. apply Nat.eqb_eq in Ev.
    cbn [transition_cost pbX]. rewrite <- Ev.
    destruct k as [|[|k]]; [simpl; lia|simpl; lia|lia].
  Qed.

  Lemma pbX_guard : forall ds s' v', frun pbX 0 (init_state pbX) (init_value pbX) ds = Some (s', v') -> - 0 <= v' <= 0.
  Proof. intros ds s' v' H. apply pbX_runs in H. subst. simpl. lia. Qed.

  Lemma pbX_opt : opt_enum pbX = Some 0.
  Proof. vm_compute. reflexivity. Qed.

  Lemma pbX_feasible : MddProgress.feasible pbX [d7; d7] IMAX.
  Proof. exists [d7; d7], tt. split; [reflexivity|]. split; [apply Permutation_refl|]. vm_compute. reflexivity. Qed.

  Lemma pbX_not_le_opt : ~ (exists o, opt_enum pbX = Some o /\ IMAX <= o).
  Proof. intros (o & Ho & Hle). rewrite pbX_opt in Ho. inversion Ho; subst. unfold IMAX in Hle. lia. Qed.

  Lemma pbX_no_replay :
    ~ exists ds st, Permutation ds [d7; d7] /\ length ds = nb_vars pbX /\
                    replay pbX ds (init_state pbX) (init_value pbX) = Some (st, IMAX).
  Proof.
    intros (ds & st & HP & _ & HR).
    apply (Permutation_repeat d7 2) in HP. subst ds. vm_compute in HR. discriminate.
  Qed.
End OrderMatters.

Print Assumptions C01_sequential_optimal.
Print Assumptions C01_sequential_optimal_run.
Print Assumptions C01_solution_replays.
Print Assumptions C14_primal.
Print Assumptions C14_primal_run.
Print Assumptions C05_sequential_anytime.
Print Assumptions C19_monotone.
Print Assumptions C19_monotone_gen.
Print Assumptions C19_eventually_full.
Print Assumptions C03_parallel_optimal.
Print Assumptions C03_parallel_optimal_finished.
Print Assumptions C04_parallel_terminates.
Print Assumptions C04_parallel_no_deadlock_no_crash.
Print Assumptions C04_parallel_run_no_deadlock.
Print Assumptions C01_sequential_optimal_explicit.
Print Assumptions C01_sequential_optimal_isize.
Print Assumptions clip_compile.
Print Assumptions pbX_no_replay.
Print Assumptions contracts_hold.
Print Assumptions semantics_hold.
