(* Conc.v — order-independence facts behind the concurrency clause of C18:
   under assumption A-dashmap (every trait method is one atomic map operation on one key) a concurrent
   history is an interleaving of atomic steps; these theorems show the outcome does not depend on it. *)
From Coq Require Import Permutation.
Require Import DDO.Base DDO.Cache DDO.Dom DDO.DomProofs.
Open Scope Z_scope.

Section CacheConc.
  Context {St : Type}.
  Variable eqb : St -> St -> bool.
  Hypothesis eqb_spec : forall a b, eqb a b = true <-> a = b.

  Definition is_update (o : @cop St) : Prop := match o with OpUpdate _ _ _ _ => True | _ => False end.

  Lemma spec_get_from_swap acc o1 o2 ops s d : is_update o1 -> is_update o2 ->
    spec_get_from eqb acc (o1 :: o2 :: ops) s d = spec_get_from eqb acc (o2 :: o1 :: ops) s d.
  Proof.
    intros H1 H2. destruct o1 as [s1 d1 v1 e1| |]; [|destruct H1..]. destruct o2 as [s2 d2 v2 e2| |]; [|destruct H2..]. simpl.
    destruct (Nat.eqb d1 d && eqb s1 s); destruct (Nat.eqb d2 d && eqb s2 s); auto.
    rewrite omax_th_comm. reflexivity.
  Qed.

  Lemma spec_get_from_perm ops1 ops2 : Permutation ops1 ops2 -> Forall is_update ops1 ->
    forall acc s d, spec_get_from eqb acc ops1 s d = spec_get_from eqb acc ops2 s d.
  Proof.
    induction 1 as [|o l1 l2 Hp IH|o1 o2 l|l1 l2 l3 Hp1 IH1 Hp2 IH2]; intros HF acc s d.
    - reflexivity.
    - pose proof (Forall_inv HF) as Ho. apply Forall_inv_tail in HF.
      destruct o as [s0 d0 v0 e0| |]; [|destruct Ho..]. simpl.
      destruct (Nat.eqb d0 d && eqb s0 s); apply IH; exact HF.
    - apply spec_get_from_swap; [exact (Forall_inv HF)|exact (Forall_inv (Forall_inv_tail HF))].
    - rewrite IH1 by auto. apply IH2. eapply Permutation_Forall; eauto.
  Qed.

  (* any two interleavings of the same update operations leave the same observable cache content *)
  Theorem cache_updates_order_independent c ops1 ops2 c1 c2 s d :
    Permutation ops1 ops2 -> Forall is_update ops1 ->
    crun eqb c ops1 = Some c1 -> crun eqb c ops2 = Some c2 -> (d < length c)%nat ->
    cget eqb c1 s d = cget eqb c2 s d.
  Proof.
    intros Hp HF H1 H2 _.
    rewrite (crun_spec_from eqb eqb_spec _ _ _ s d H1), (crun_spec_from eqb eqb_spec _ _ _ s d H2).
    apply spec_get_from_perm; auto.
  Qed.

  Definition above (t : threshold) (x : option threshold) : Prop := exists t', x = Some t' /\ th_le t t'.

  Lemma omax_th_above_new a t : above t (omax_th a t).
  Proof.
    destruct a as [t0|]; simpl; (eexists; split; [reflexivity|]).
    - apply th_max_ub.
    - apply th_le_refl.
  Qed.

  Lemma omax_th_above_old a t t0 : above t0 a -> above t0 (omax_th a t).
  Proof.
    intros (t1 & -> & L). simpl. eexists; split; [reflexivity|].
    apply (th_le_trans _ _ _ L), th_max_ub.
  Qed.

  (* updates only raise the stored threshold *)
  Lemma spec_get_from_acc ops : Forall is_update ops -> forall acc s d t,
    above t acc -> above t (spec_get_from eqb acc ops s d).
  Proof.
    induction 1 as [|o ops Ho HF IH]; intros acc s d t H; simpl; [exact H|].
    destruct o as [s0 d0 v0 e0| |]; [|destruct Ho..].
    destruct (Nat.eqb d0 d && eqb s0 s); apply IH; [apply omax_th_above_old|]; exact H.
  Qed.

  Lemma spec_get_from_In ops : Forall is_update ops -> forall acc s d v e,
    In (OpUpdate s d v e) ops -> above {| th_value := v; th_explored := e |} (spec_get_from eqb acc ops s d).
  Proof.
    induction 1 as [|o ops Ho HF IH]; intros acc s d v e Hin; [destruct Hin|].
    destruct Hin as [->|Hin]; simpl.
    - rewrite Nat.eqb_refl, (eqb_refl eqb eqb_spec). apply spec_get_from_acc; [exact HF|apply omax_th_above_new].
    - destruct o as [s0 d0 v0 e0| |]; [|destruct Ho..].
      destruct (Nat.eqb d0 d && eqb s0 s); apply IH; exact Hin.
  Qed.

  (* no update is lost: after running updates, the stored threshold is at least each recorded one *)
  Theorem cache_no_update_lost c ops c' s d v e :
    Forall is_update ops -> crun eqb c ops = Some c' -> (d < length c)%nat -> In (OpUpdate s d v e) ops ->
    exists t', cget eqb c' s d = Some t' /\ th_le {| th_value := v; th_explored := e |} t'.
  Proof.
    intros HF Hrun _ Hin. rewrite (crun_spec_from eqb eqb_spec _ _ _ s d Hrun).
    apply spec_get_from_In; assumption.
  Qed.
End CacheConc.

Section DomConc.
  Context {St Key : Type}.
  Variable get_key : St -> option Key.
  Variable nd : nat.
  Variable coord : St -> nat -> Z.
  Variable use_value : bool.

  (* the verdict on a later query depends only on the SET of states recorded before, not on their order *)
  Theorem dominance_order_independent (qs1 qs2 : list (St * Z)) s v :
    Permutation qs1 qs2 ->
    dc_dominated (snd (bucket_query nd coord use_value s v (bucket_after nd coord use_value qs1))) =
    dc_dominated (snd (bucket_query nd coord use_value s v (bucket_after nd coord use_value qs2))).
  Proof.
    intros Hp. apply eq_true_iff_eq.
    split; intros H; apply (pareto_front_history get_key) in H; apply (pareto_front_history get_key);
      destruct H as (s' & v' & Hin & H); exists s', v'; (split; [|exact H]).
    - eapply Permutation_in; eassumption.
    - eapply Permutation_in; [apply Permutation_sym|]; eassumption.
  Qed.
End DomConc.
