(* SolverProofs.v — assume-guarantee correctness of the sequential branch-and-bound solver model
   (Solver.v, transliteration of ddo/src/implementation/solver/sequential.rs).

   IF every diagram compilation satisfies the diagram-level contracts K0..K5 (proved about Mdd.compile,
   independently of the solver, in MddProgress.v and MddSim.v), THEN `maximize` terminates (explicit fuel bound
   fuel0 = S ((S M) ^ nb_vars)), does not crash, reports is_exact = true, and its value is the true
   optimum (None exactly when infeasible): property C01 (seq_solver_correct); with a feasible warm-start
   primal the result is still the optimum: property C14 (seq_solver_correct_primal).
   Both are instances of maximize_correct; seq_solver_partial_correct is the fuel-independent variant.

   The argument is made once, in section Loop, for a solver whose fringe is known only through an interface:
   a list L of open sub-problems (up to permutation) stands for the fringe, a push inserts a node or coalesces
   it with an entry of the same key, a pop removes one element (a sp_ub-maximal one where [ord] holds).
   It covers a run with or without cutoff: the loop invariant, its preservation by get_workload and
   process_one_node (process_gen), then the two readings of it: the uninterrupted run terminates with the
   optimum (maximize_exact), and a run that may be cut reports sound bounds (section Loop, second half:
   the anytime invariant).  SimpleFringe (this file, sections SimpleFringe and SolverProofs) and NoDupFringe
   (SolverNoDup.v, CutoffNoDup.v) are instances of the interface; SolverCutoff.v reads the anytime half for
   SimpleFringe.

   Configuration covered (config_ok): no cache, no dominance rule, no cutoff, SimpleFringe (abstract
   priority queue [pq_pop]).  Only the cache / fringe components of config_ok are used by the
   solver-level argument; the other two matter for whoever discharges K0..K5.

   Two hypotheses of section SolverProofs, best_le_opt and K3_le, are used by no proof (Coq drops them from
   the closed statements); they stand there as facts the intended semantics has.  good / best must not
   depend on the sp_ub field (good_set_ub, best_set_ub), because enqueue_cutset re-labels every cut-set
   node with ub := min(node_ub, ub) before pushing it. *)
Require Import DDO.Base DDO.Fringe DDO.DP DDO.Cache DDO.Dom DDO.Mdd DDO.Solver.
From Coq Require Import Permutation Arith.
Open Scope Z_scope.

Section ListFacts.
  Context {A : Type}.

  Fixpoint sumf (f : A -> nat) (l : list A) : nat :=
    match l with [] => O | x :: l' => (f x + sumf f l')%nat end.

  Lemma sumf_perm f l l' : Permutation l l' -> sumf f l = sumf f l'.
  Proof. induction 1; simpl; lia. Qed.

  Lemma sumf_app f l l' : sumf f (l ++ l') = (sumf f l + sumf f l')%nat.
  Proof. induction l as [|x l IH]; simpl; lia. Qed.

  Lemma sumf_le_const f k l : (forall x, In x l -> (f x <= k)%nat) -> (sumf f l <= length l * k)%nat.
  Proof.
    induction l as [|x l IH]; simpl; intros H; [lia|].
    assert (Hx : (f x <= k)%nat) by (apply H; auto).
    assert (Hl : (sumf f l <= length l * k)%nat) by (apply IH; intros; apply H; auto). lia.
  Qed.

  Definition cntp (p : A -> bool) (l : list A) : nat := sumf (fun x => if p x then 1%nat else O) l.

  Lemma perm_head_in (x : A) l l' : Permutation l (x :: l') -> In x l.
  Proof. intros H. eapply Permutation_in; [apply Permutation_sym; exact H|left; reflexivity]. Qed.

  Lemma perm_tail_in (x y : A) l l' : Permutation l (x :: l') -> In y l' -> In y l.
  Proof. intros H Hy. eapply Permutation_in; [apply Permutation_sym; exact H|right; exact Hy]. Qed.
End ListFacts.

Lemma set_primal_strict {St} (s : @sstate St) (v : Z) (sol : list decision) :
  (v > s_lb s -> s_lb (set_primal s v sol) = v /\ s_sol (set_primal s v sol) = Some sol) /\
  (~ v > s_lb s -> set_primal s v sol = s).
Proof.
  unfold set_primal. split; intros H.
  - destruct (v >? s_lb s) eqn:E; [split; reflexivity|].
    rewrite Z.gtb_ltb in E. apply Z.ltb_ge in E. lia.
  - destruct (v >? s_lb s) eqn:E; [|reflexivity].
    rewrite Z.gtb_ltb in E. apply Z.ltb_lt in E. lia.
Qed.

Lemma dd_best_exact_none_iff {St} (inp : @cinput St) (m : @mdd St) :
  dd_best_exact_value inp m = None <-> dd_best_exact_solution inp m = None.
Proof.
  unfold dd_best_exact_value, dd_best_exact_solution. destruct (m_best_exact m); simpl; split; congruence.
Qed.

(* s with its fringe replaced: the shape of what fr_push / fr_pop return *)
Definition set_fringe {St} (s : @sstate St) (l : list (@subproblem St)) (f : @nodup (St * nat)) : @sstate St :=
  upd_s s l f (s_explored s) (s_open s) (s_fal s) (s_lb s) (s_ub s) (s_sol s) (s_abort s)
        (s_cache s) (s_dom s) (s_polls s) (s_crash s) (s_tie s) (s_compiles s).

Section Notions.
  Context {St : Type}.
  Variable st_eqb : St -> St -> bool.
  Variable cfg : @sconfig St.
  Let pb := sc_problem cfg.
  Let N := nb_vars pb.

  Definition config_ok : Prop :=
    sc_use_cache cfg = false /\ sc_domrule cfg = None /\ sc_cutoff cfg = 0%nat /\ sc_nodup cfg = false.

  (* abstract semantics of sub-problems *)
  Variable good : @subproblem St -> Prop.
  Variable best : @subproblem St -> option Z.
  Variable feasible : list decision -> Z -> Prop.
  Definition OPT : option Z := best (root_node cfg).

  Definition set_ub (c : @subproblem St) (u : Z) : @subproblem St :=
    {| sp_state := sp_state c; sp_value := sp_value c; sp_path := sp_path c; sp_ub := u; sp_depth := sp_depth c |}.

  Variable M : nat.

  Definition dd_ct (ct : comptype) : Prop := ct = Restricted \/ ct = Relaxed.

  Lemma pq_pop_perm l x rest : pq_pop cfg l = Some (x, rest) -> Permutation l (x :: rest).
  Proof.
    revert x rest; induction l as [|y l IH]; simpl; intros x rest H; [discriminate|].
    destruct (pq_pop cfg l) as [[z r]|] eqn:E.
    - destruct (is_gt _); inversion H; subst.
      + apply Permutation_refl.
      + eapply Permutation_trans; [apply perm_skip; apply IH; reflexivity|]. apply perm_swap.
    - inversion H; subst. destruct l; [apply Permutation_refl|].
      simpl in E. destruct (pq_pop cfg l) as [[? ?]|]; [destruct (is_gt _)|]; discriminate.
  Qed.

  Lemma pq_pop_none l : pq_pop cfg l = None -> l = [].
  Proof.
    destruct l as [|y l]; simpl; auto.
    destruct (pq_pop cfg l) as [[? ?]|]; [destruct (is_gt _)|]; discriminate.
  Qed.

  Lemma pq_pop_max l x rest : pq_pop cfg l = Some (x, rest) -> forall y, In y l -> sp_ub y <= sp_ub x.
  Proof.
    revert x rest; induction l as [|z l IH]; intros x rest H; [discriminate|].
    cbn [pq_pop] in H. destruct (pq_pop cfg l) as [[y r]|] eqn:E.
    - specialize (IH _ _ eq_refl).
      destruct (is_gt (maxub_cmp (sc_ranking cfg) z y)) eqn:G; injection H as <- <-; intros u [Hu|Hu]; subst.
      + lia.
      + specialize (IH _ Hu). unfold maxub_cmp, cmp_then, Zcmp in G.
        destruct (sp_ub z ?= sp_ub y) eqn:C; try discriminate.
        * apply Z.compare_eq in C. lia.
        * apply Z.compare_gt_iff in C. lia.
      + unfold maxub_cmp, cmp_then, Zcmp in G.
        destruct (sp_ub u ?= sp_ub y) eqn:C.
        * apply Z.compare_eq in C. lia.
        * assert (sp_ub u < sp_ub y) by exact C. lia.
        * discriminate.
      + apply IH. exact Hu.
    - injection H as <- <-. apply pq_pop_none in E. subst l. intros u [Hu|[]]. subst. lia.
  Qed.

  (* the fields of a state that the invariant reads *)
  Definition view (s : @sstate St) :=
    (s_simple s, s_open s, s_lb s, s_sol s, s_abort s, s_crash s).

  Lemma view_inv s s' : view s' = view s ->
    s_simple s' = s_simple s /\ s_open s' = s_open s /\ s_lb s' = s_lb s /\ s_sol s' = s_sol s /\
    s_abort s' = s_abort s /\ s_crash s' = s_crash s.
  Proof. unfold view; intros H; inversion H; auto 10. Qed.

  (* weights for the termination measure *)
  Definition wt (n : @subproblem St) : nat := (S M) ^ (N - sp_depth n).
  Definition Phi (l : list (@subproblem St)) : nat := sumf wt l.
  Definition cnt (d : nat) (l : list (@subproblem St)) : nat := cntp (fun n => Nat.eqb (sp_depth n) d) l.

  Lemma cnt_perm d l l' : Permutation l l' -> cnt d l = cnt d l'.
  Proof. apply sumf_perm. Qed.
  Lemma Phi_perm l l' : Permutation l l' -> Phi l = Phi l'.
  Proof. apply sumf_perm. Qed.
  Lemma cnt_cons_same x l : cnt (sp_depth x) (x :: l) = S (cnt (sp_depth x) l).
  Proof. unfold cnt, cntp; simpl. rewrite Nat.eqb_refl. reflexivity. Qed.
  Lemma cnt_cons_other d x l : sp_depth x <> d -> cnt d (x :: l) = cnt d l.
  Proof. intros H. unfold cnt, cntp; simpl. apply Nat.eqb_neq in H. rewrite H. reflexivity. Qed.
  Lemma cnt_cons_eqd d (x y : @subproblem St) l : sp_depth x = sp_depth y -> cnt d (x :: l) = cnt d (y :: l).
  Proof. intros H. unfold cnt, cntp. cbn [sumf]. rewrite H. reflexivity. Qed.
  Lemma wt_pos n : (1 <= wt n)%nat.
  Proof. unfold wt. pose proof (Nat.pow_nonzero (S M) (N - sp_depth n)). lia. Qed.
  Lemma wt_depth (x y : @subproblem St) : sp_depth x = sp_depth y -> wt x = wt y.
  Proof. intros H. unfold wt. rewrite H. reflexivity. Qed.

  Lemma kids_weight n cs : (length cs <= M)%nat ->
    (forall c, In c cs -> (sp_depth n < sp_depth c <= N)%nat) -> (sumf wt cs < wt n)%nat.
  Proof.
    intros Hlen Hd. destruct cs as [|c0 cs'].
    - simpl. pose proof (wt_pos n). lia.
    - assert (Hn : (sp_depth n < N)%nat).
      { pose proof (Hd c0 (or_introl eq_refl)). lia. }
      revert Hlen Hd. generalize (c0 :: cs'). intros cs Hlen Hd.
      set (P := ((S M) ^ (N - S (sp_depth n)))%nat).
      assert (HP : (1 <= P)%nat). { unfold P. pose proof (Nat.pow_nonzero (S M) (N - S (sp_depth n))). lia. }
      assert (Hw : wt n = (S M * P)%nat).
      { unfold wt, P. replace (N - sp_depth n)%nat with (S (N - S (sp_depth n))) by lia.
        rewrite Nat.pow_succ_r'. reflexivity. }
      assert (Hs : (sumf wt cs <= length cs * P)%nat).
      { apply sumf_le_const. intros c Hc. apply Hd in Hc. unfold wt, P.
        apply Nat.pow_le_mono_r; lia. }
      rewrite Hw. assert (length cs * P <= M * P)%nat by (apply Nat.mul_le_mono_r; exact Hlen). lia.
  Qed.

  (* the invariant, read over s_simple (SimpleFringe) *)
  Definition Incumbent (lb : Z) (sol : option (list decision)) : Prop :=
    IMIN <= lb /\ ((sol = None /\ lb = IMIN) \/ exists l, sol = Some l /\ feasible l lb).
  Definition FringeOK (l : list (@subproblem St)) : Prop :=
    forall n, In n l -> good n /\ (sp_depth n <= N)%nat.
  Definition OpenOK (op : list nat) (l : list (@subproblem St)) : Prop :=
    forall d, (d <= N)%nat -> nth_error op d = Some (cnt d l).

  Definition Core (s : @sstate St) : Prop :=
    s_crash s = false /\ s_abort s = false /\ Incumbent (s_lb s) (s_sol s) /\
    FringeOK (s_simple s) /\ OpenOK (s_open s) (s_simple s).

  (* completeness: the optimum is either already matched by the incumbent, or it is the optimum of some
     open sub-problem (of the fringe, or of [extra] = the node being processed) whose ub does not hide it *)
  Definition Compl (s : @sstate St) (extra : list (@subproblem St)) : Prop :=
    forall o, OPT = Some o ->
      o <= s_lb s \/ exists n, (In n extra \/ In n (s_simple s)) /\ best n = Some o /\ o <= sp_ub n.

  Definition Inv (s : @sstate St) : Prop := Core s /\ Compl s [].

  Lemma Core_view s s' : view s' = view s -> Core s -> Core s'.
  Proof.
    intros H. apply view_inv in H. destruct H as (H1 & H2 & H3 & H4 & H5 & H6).
    unfold Core. rewrite H1, H2, H3, H4, H5, H6. auto.
  Qed.

  Lemma run_compile_spec s ct n s' inp m o :
    run_compile st_eqb cfg s ct n = (s', inp, m, o) ->
    inp = mk_input cfg ct n (s_lb s) /\
    compile st_eqb (mk_input cfg ct n (s_lb s)) 0 0 (s_cache s) (s_dom s) (s_polls s) = (m, o) /\
    s_simple s' = s_simple s /\ s_open s' = s_open s /\ s_lb s' = s_lb s /\ s_sol s' = s_sol s /\
    s_abort s' = s_abort s /\ s_crash s' = (s_crash s || m_crash m)%bool.
  Proof.
    unfold run_compile.
    destruct (compile st_eqb (mk_input cfg ct n (s_lb s)) 0 0 (s_cache s) (s_dom s) (s_polls s)) as [m0 o0] eqn:E.
    intros H; inversion H; subst. cbn [s_simple s_open s_lb s_sol s_abort s_crash upd_s]. auto 10.
  Qed.

  Lemma run_compile_frame s ct n s' inp m o :
    run_compile st_eqb cfg s ct n = (s', inp, m, o) -> s_nodup s' = s_nodup s /\ s_ub s' = s_ub s.
  Proof.
    unfold run_compile.
    destruct (compile st_eqb (mk_input cfg ct n (s_lb s)) 0 0 (s_cache s) (s_dom s) (s_polls s)) as [m0 o0].
    intros H; inversion H; subst. split; reflexivity.
  Qed.

  Lemma mub_spec (s : @sstate St) inp m : IMIN <= s_lb s ->
    let s' := maybe_update_best s inp m in
    s_simple s' = s_simple s /\ s_open s' = s_open s /\ s_abort s' = s_abort s /\ s_crash s' = s_crash s /\
    ((s_lb s' = s_lb s /\ s_sol s' = s_sol s /\ (forall e, dd_best_exact_value inp m = Some e -> e <= s_lb s)) \/
     (exists v, dd_best_exact_value inp m = Some v /\ v > s_lb s /\ s_lb s' = v /\
                s_sol s' = dd_best_exact_solution inp m)).
  Proof using cfg.
    intros Hlb. unfold maybe_update_best.
    destruct (opt_default IMIN (dd_best_exact_value inp m) >? s_lb s) eqn:E.
    - cbn [s_simple s_open s_lb s_sol s_abort s_crash upd_s]. repeat (split; [reflexivity|]).
      right. rewrite Z.gtb_ltb in E. apply Z.ltb_lt in E.
      destruct (dd_best_exact_value inp m) as [v|]; cbn [opt_default] in E |- *; [|lia].
      exists v. repeat split; auto. lia.
    - repeat (split; [reflexivity|]). left. repeat (split; [reflexivity|]).
      intros e He. rewrite He in E. cbn [opt_default] in E.
      rewrite Z.gtb_ltb in E. apply Z.ltb_ge in E. exact E.
  Qed.

  Lemma mub_frame (s : @sstate St) inp m :
    s_nodup (maybe_update_best s inp m) = s_nodup s /\ s_ub (maybe_update_best s inp m) = s_ub s.
  Proof. unfold maybe_update_best. destruct (_ >? _); split; reflexivity. Qed.

  (* one step of the fold that enqueue_cutset is *)
  Definition enq_step (best_lb ub : Z) (s : @sstate St) (c : @subproblem St) : @sstate St :=
    let cub := Z.min ub (sp_ub c) in
    if cub >? best_lb then
      let c' := {| sp_state := sp_state c; sp_value := sp_value c; sp_path := sp_path c; sp_ub := cub; sp_depth := sp_depth c |} in
      let before := fr_len cfg s in
      let s := fr_push st_eqb cfg s c' in
      let after := fr_len cfg s in
      match nth_error (s_open s) (sp_depth c) with
      | None => crashed s
      | Some _ =>
          upd_s s (s_simple s) (s_nodup s) (s_explored s) (upd_nth (sp_depth c) (fun o => o + (after - before))%nat (s_open s))
                (s_fal s) (s_lb s) (s_ub s) (s_sol s) (s_abort s) (s_cache s) (s_dom s) (s_polls s) (s_crash s) (s_tie s) (s_compiles s)
      end
    else s.

  Lemma enqueue_cutset_fold s inp m ub :
    enqueue_cutset st_eqb cfg s inp m ub = fold_left (enq_step (s_lb s) ub) (drain_cutset inp m) s.
  Proof. reflexivity. Qed.

  Definition Final (s : @sstate St) : Prop :=
    s_crash s = false /\ s_abort s = false /\ s_ub s = s_lb s /\ Incumbent (s_lb s) (s_sol s) /\
    (forall o, OPT = Some o -> o <= s_lb s).

  Definition primal_ok (primal : option (Z * list decision)) : Prop :=
    forall pv psol, primal = Some (pv, psol) -> feasible psol pv.

  Definition start_state (primal : option (Z * list decision)) : @sstate St :=
    match primal with Some (v, sol) => set_primal (init_sstate cfg) v sol | None => init_sstate cfg end.

  Lemma start_state_ok primal : primal_ok primal ->
    s_simple (start_state primal) = [] /\ s_open (start_state primal) = repeat O (S N) /\
    s_crash (start_state primal) = false /\ s_abort (start_state primal) = false /\
    Incumbent (s_lb (start_state primal)) (s_sol (start_state primal)).
  Proof.
    intros Hp. assert (Hinit : Incumbent (s_lb (init_sstate cfg)) (s_sol (init_sstate cfg))).
    { cbn [init_sstate s_lb s_sol]. split; [lia|]. left. auto. }
    destruct primal as [[pv psol]|]; cbn [start_state].
    - unfold set_primal. destruct (pv >? s_lb (init_sstate cfg)) eqn:E.
      + cbn [s_simple s_open s_lb s_sol s_abort s_crash upd_s]. do 4 (split; [reflexivity|]).
        rewrite Z.gtb_ltb in E. apply Z.ltb_lt in E. cbn [init_sstate s_lb] in E.
        split; [lia|]. right. exists psol. split; [reflexivity|]. apply Hp. reflexivity.
      + do 4 (split; [reflexivity|]). exact Hinit.
    - do 4 (split; [reflexivity|]). exact Hinit.
  Qed.

  Lemma start_state_frame primal : s_nodup (start_state primal) = nd_empty /\ s_ub (start_state primal) = IMAX.
  Proof.
    destruct primal as [[pv psol]|]; cbn [start_state]; [|split; reflexivity].
    unfold set_primal. destruct (_ >? _); split; reflexivity.
  Qed.

  Definition fuel0 : nat := S ((S M) ^ N).

  Definition result_ok (r : sresult) : Prop :=
    r_crash r = false /\ r_outoffuel r = false /\ r_exact r = true /\ r_value r = OPT /\
    (forall v, OPT = Some v ->
       r_lb r = v /\ r_ub r = v /\ exists sol, r_sol r = Some (sort_by dec_var_cmp sol) /\ feasible sol v) /\
    (OPT = None -> r_sol r = None /\ r_lb r = IMIN).

  Lemma final_result :
    (forall sol v, feasible sol v -> exists o, OPT = Some o /\ v <= o) ->
    (forall o, OPT = Some o -> IMIN < o <= IMAX) ->
    forall s, Final s ->
    (forall v, OPT = Some v -> s_lb s = v /\ exists sol, s_sol s = Some sol /\ feasible sol v) /\
    (OPT = None -> s_sol s = None /\ s_lb s = IMIN).
  Proof.
    intros feasible_le_opt opt_in_isize s (_ & _ & _ & [Hmin Hinc] & Hopt). split.
    - intros v Hv. pose proof (Hopt v Hv) as Hle. pose proof (opt_in_isize v Hv) as Hr.
      destruct Hinc as [[_ Hlb]|(sol & Hsol & Hfeas)]; [lia|].
      destruct (feasible_le_opt _ _ Hfeas) as (o & Ho & Hlo). rewrite Hv in Ho. inversion Ho; subst o.
      assert (Heq : s_lb s = v) by lia. split; [exact Heq|]. exists sol. rewrite <- Heq. auto.
    - intros Hnone. destruct Hinc as [[Hs Hlb]|(sol & Hsol & Hfeas)]; [auto|].
      destruct (feasible_le_opt _ _ Hfeas) as (o & Ho & _). rewrite Hnone in Ho. discriminate.
  Qed.

  Lemma maximize_of_final :
    (forall sol v, feasible sol v -> exists o, OPT = Some o /\ v <= o) ->
    (forall o, OPT = Some o -> IMIN < o <= IMAX) ->
    forall primal fuel s',
    main_loop st_eqb cfg fuel (initialize_solver st_eqb cfg (start_state primal)) = (s', Finished) ->
    Final s' -> result_ok (maximize st_eqb cfg fuel primal).
  Proof.
    intros feasible_le_opt opt_in_isize primal fuel s' Hml HF. unfold maximize. fold (start_state primal).
    rewrite Hml. destruct (final_result feasible_le_opt opt_in_isize s' HF) as [Hsome Hnone].
    destruct HF as (F1 & F2 & F3 & F4 & F5).
    unfold result_ok. cbn [r_crash r_outoffuel r_exact r_value r_lb r_ub r_sol].
    split; [exact F1|]. split; [reflexivity|]. split; [rewrite F2; reflexivity|].
    assert (Hcase : forall x : option Z, (exists v, x = Some v) \/ x = None) by (intros [v|]; eauto).
    destruct (Hcase OPT) as [[v EO]|EO]; rewrite EO.
    - destruct (Hsome v EO) as (Hlb & sol & Hsol & Hfeas). rewrite Hsol, Hlb. cbn [option_map].
      split; [reflexivity|]. split; [|discriminate].
      intros v' Hv'. inversion Hv'; subst v'. split; [reflexivity|]. split; [rewrite F3; exact Hlb|].
      exists sol. auto.
    - destruct (Hnone EO) as [Hsol Hlb]. rewrite Hsol, Hlb. cbn [option_map].
      split; [reflexivity|]. split; [discriminate|]. auto.
  Qed.

  (* the predicate on solutions enters result_ok positively *)
  Lemma result_ok_weaken (feasible' : list decision -> Z -> Prop) r :
    (forall sol v, feasible sol v -> feasible' sol v) ->
    result_ok r ->
    r_crash r = false /\ r_outoffuel r = false /\ r_exact r = true /\ r_value r = OPT /\
    (forall v, OPT = Some v ->
       r_lb r = v /\ r_ub r = v /\ exists sol, r_sol r = Some (sort_by dec_var_cmp sol) /\ feasible' sol v) /\
    (OPT = None -> r_sol r = None /\ r_lb r = IMIN).
  Proof.
    intros Himp (A1 & A2 & A3 & A4 & A5 & A6). repeat (split; [assumption|]). split; [|exact A6].
    intros v Hv. destruct (A5 v Hv) as (E1 & E2 & sol & S1 & S2). eauto 8.
  Qed.
End Notions.

(* Branch and bound over an abstract fringe.  push = insert, or coalesce with an entry that has the [same] key *)
Definition pushed_by {St : Type} (same : @subproblem St -> @subproblem St -> Prop)
    (L L' : list (@subproblem St)) (n : @subproblem St) : Prop :=
  Permutation L' (n :: L) \/
  exists old rest, Permutation L (old :: rest) /\ same old n /\ Permutation L' (coalesce old n :: rest).

Section Premises.
  Context {St : Type}.
  Variable st_eqb : St -> St -> bool.
  Variable cfg : @sconfig St.
  Local Notation N := (nb_vars (sc_problem cfg)).
  Variable good : @subproblem St -> Prop.
  Variable best : @subproblem St -> option Z.
  Variable feasible : list decision -> Z -> Prop.

  (* the abstract semantics; the meaning of a sub-problem does not depend on the upper bound attached to it
     (enqueue_cutset re-labels each cut-set node with min(node_ub, ub)) *)
  Definition sem_ok : Prop :=
    good (root_node cfg) /\
    (forall sol v, feasible sol v -> exists o, OPT cfg best = Some o /\ v <= o) /\
    (forall o, OPT cfg best = Some o -> IMIN < o <= IMAX) /\
    (forall c u, good c -> good (set_ub c u)) /\
    (forall c u, best (set_ub c u) = best c).

  (* the diagram contracts; everything but the absence of a model crash is conditional on out = Compiled, so that
     a configuration with a cutoff can meet them.  Cut-sets need not lie deeper than their root here. *)
  Definition contracts_ok : Prop :=
    (forall ct n lb c ds polls m out,
      dd_ct ct -> good n -> (sp_depth n <= N)%nat ->
      compile st_eqb (mk_input cfg ct n lb) 0 0 c ds polls = (m, out) -> m_crash m = false) /\
    (forall ct n lb c ds polls m,
      dd_ct ct -> good n -> (sp_depth n <= N)%nat ->
      compile st_eqb (mk_input cfg ct n lb) 0 0 c ds polls = (m, Compiled) ->
      forall v, dd_best_exact_value (mk_input cfg ct n lb) m = Some v ->
      exists sol, dd_best_exact_solution (mk_input cfg ct n lb) m = Some sol /\ feasible sol v) /\
    (forall ct n lb c ds polls m,
      dd_ct ct -> good n -> (sp_depth n <= N)%nat ->
      compile st_eqb (mk_input cfg ct n lb) 0 0 c ds polls = (m, Compiled) ->
      dd_is_exact m = true ->
      forall o, best n = Some o -> o > lb -> dd_best_exact_value (mk_input cfg ct n lb) m = Some o) /\
    (forall n lb c ds polls m,
      good n -> (sp_depth n <= N)%nat ->
      compile st_eqb (mk_input cfg Relaxed n lb) 0 0 c ds polls = (m, Compiled) ->
      dd_is_exact m = false ->
      forall x, In x (drain_cutset (mk_input cfg Relaxed n lb) m) -> good x) /\
    (forall n lb c ds polls m,
      good n -> (sp_depth n <= N)%nat ->
      compile st_eqb (mk_input cfg Relaxed n lb) 0 0 c ds polls = (m, Compiled) ->
      dd_is_exact m = false ->
      forall x, In x (drain_cutset (mk_input cfg Relaxed n lb) m) -> (sp_depth x <= N)%nat) /\
    (forall n lb c ds polls m,
      good n -> (sp_depth n <= N)%nat ->
      compile st_eqb (mk_input cfg Relaxed n lb) 0 0 c ds polls = (m, Compiled) ->
      dd_is_exact m = false ->
      forall x, In x (drain_cutset (mk_input cfg Relaxed n lb) m) ->
      forall o, best x = Some o -> o > lb -> o <= sp_ub x) /\
    (forall n lb c ds polls m,
      good n -> (sp_depth n <= N)%nat ->
      compile st_eqb (mk_input cfg Relaxed n lb) 0 0 c ds polls = (m, Compiled) ->
      dd_is_exact m = false ->
      forall o, best n = Some o -> o > lb ->
      (forall e, dd_best_exact_value (mk_input cfg Relaxed n lb) m = Some e -> e < o) ->
      exists x, In x (drain_cutset (mk_input cfg Relaxed n lb) m) /\ best x = Some o).

  (* the uninterrupted run: no compilation is cut short, cut-sets lie strictly deeper than their root and have
     at most M nodes *)
  Definition exact_ok (M : nat) : Prop :=
    (forall ct n lb c ds polls m out,
      dd_ct ct -> good n -> (sp_depth n <= N)%nat ->
      compile st_eqb (mk_input cfg ct n lb) 0 0 c ds polls = (m, out) -> out = Compiled) /\
    (forall n lb c ds polls m,
      good n -> (sp_depth n <= N)%nat ->
      compile st_eqb (mk_input cfg Relaxed n lb) 0 0 c ds polls = (m, Compiled) ->
      dd_is_exact m = false ->
      forall x, In x (drain_cutset (mk_input cfg Relaxed n lb) m) -> (sp_depth n < sp_depth x)%nat) /\
    (forall n lb c ds polls m,
      good n -> (sp_depth n <= N)%nat ->
      compile st_eqb (mk_input cfg Relaxed n lb) 0 0 c ds polls = (m, Compiled) ->
      dd_is_exact m = false ->
      (length (drain_cutset (mk_input cfg Relaxed n lb) m) <= M)%nat).

  (* the fringe.  Entries with the [same] key are coalesced: they lie at the same depth and have the same
     value-to-go.  Rep l f L: the fringe fields (l, f) of a state hold the sub-problems L.  [ord]: whether pop
     returns a sp_ub-maximal element (needed for the bounds of a cut run, not for the optimum). *)
  Definition fringe_ok (same : @subproblem St -> @subproblem St -> Prop)
      (Rep : list (@subproblem St) -> @nodup (St * nat) -> list (@subproblem St) -> Prop) (ord : Prop) : Prop :=
    (forall a b, same a b -> same b a) /\
    (forall a b, same a b -> sp_depth a = sp_depth b) /\
    (forall a b, good a -> good b -> same a b ->
       forall oa, best a = Some oa -> best b = Some (oa - sp_value a + sp_value b)) /\
    Rep [] nd_empty [] /\
    (forall s L, Rep (s_simple s) (s_nodup s) L -> fr_len cfg s = length L) /\
    (forall s L n, Rep (s_simple s) (s_nodup s) L ->
       exists l f L', fr_push st_eqb cfg s n = set_fringe s l f /\ Rep l f L' /\ pushed_by same L L' n) /\
    (forall s L, Rep (s_simple s) (s_nodup s) L -> L <> [] ->
       exists x l f L', fr_pop st_eqb cfg s = (set_fringe s l f, Some x) /\ Rep l f L' /\ Permutation L (x :: L') /\
                        (ord -> forall y, In y L -> sp_ub y <= sp_ub x)).
End Premises.

Section Coalescing.
  Context {St : Type}.
  Variable cfg : @sconfig St.
  Local Notation N := (nb_vars (sc_problem cfg)).
  Variable good : @subproblem St -> Prop.
  Variable best : @subproblem St -> option Z.
  Hypothesis good_set_ub : forall c u, good c -> good (set_ub c u).
  Hypothesis best_set_ub : forall c u, best (set_ub c u) = best c.
  Variable M : nat.
  Variable same : @subproblem St -> @subproblem St -> Prop.
  Hypothesis same_sym : forall a b, same a b -> same b a.
  Hypothesis same_depth : forall a b, same a b -> sp_depth a = sp_depth b.
  Hypothesis same_best : forall a b, good a -> good b -> same a b ->
    forall oa, best a = Some oa -> best b = Some (oa - sp_value a + sp_value b).
  Local Notation FringeOK' := (FringeOK cfg good).
  Local Notation Phi' := (Phi cfg M).

  (* o is still reachable through n: the best completion of n is worth at least o and n's bound does not hide it.
     (">= o" and not "= o": when the entry that witnessed the optimum is coalesced with a node of larger value,
     the survivor's best is larger) *)
  Definition Leads (o : Z) (n : @subproblem St) : Prop :=
    exists o', best n = Some o' /\ o <= o' /\ o <= sp_ub n.
  Definition leads_in (o : Z) (L : list (@subproblem St)) : Prop := exists x, In x L /\ Leads o x.
  Definition below (U : Z) (L : list (@subproblem St)) : Prop := forall x, In x L -> sp_ub x <= U.

  Lemma leads_in_app o L L' : leads_in o (L ++ L') <-> leads_in o L \/ leads_in o L'.
  Proof.
    split.
    - intros (x & Hx & Hl). apply in_app_or in Hx. destruct Hx; [left|right]; exists x; auto.
    - intros [(x & Hx & Hl)|(x & Hx & Hl)]; exists x; split; auto; apply in_or_app; auto.
  Qed.

  Lemma below_app U L L' : below U (L ++ L') <-> below U L /\ below U L'.
  Proof.
    split.
    - intros H. split; intros x Hx; apply H; apply in_or_app; auto.
    - intros [H1 H2] x Hx. apply in_app_or in Hx. destruct Hx; auto.
  Qed.

  Lemma coalesce_cases (old n : @subproblem St) :
    (sp_value n > sp_value old /\ coalesce old n = set_ub n (Z.max (sp_ub n) (sp_ub old))) \/
    (sp_value n <= sp_value old /\ coalesce old n = set_ub old (Z.max (sp_ub n) (sp_ub old))).
  Proof.
    unfold coalesce, set_ub. destruct (sp_value n >? sp_value old) eqn:E; rewrite Z.gtb_ltb in E.
    - apply Z.ltb_lt in E. left. split; [lia|reflexivity].
    - apply Z.ltb_ge in E. right. split; [lia|reflexivity].
  Qed.

  Lemma coalesce_depth (old n : @subproblem St) :
    sp_depth old = sp_depth n -> sp_depth (coalesce old n) = sp_depth n.
  Proof. intros H. destruct (coalesce_cases old n) as [[_ ->]|[_ ->]]; cbn [set_ub sp_depth]; auto. Qed.

  Lemma Leads_set_ub o n u : Leads o n -> sp_ub n <= u -> Leads o (set_ub n u).
  Proof.
    intros (o' & Hb & H1 & H2) Hu. exists o'. rewrite best_set_ub. cbn [set_ub sp_ub].
    split; [exact Hb|]. split; [exact H1|lia].
  Qed.

  (* whichever of the two survives, what was reachable through either stays reachable *)
  Lemma Leads_coalesce o old n : good old -> good n -> same old n ->
    Leads o old \/ Leads o n -> Leads o (coalesce old n).
  Proof.
    intros Hgo Hgn Hs H.
    destruct (coalesce_cases old n) as [[Hv ->]|[Hv ->]]; destruct H as [(o' & Hb & H1 & H2)|(o' & Hb & H1 & H2)].
    - exists (o' - sp_value old + sp_value n). rewrite best_set_ub.
      split; [apply (same_best old n); auto|]. cbn [set_ub sp_ub]. lia.
    - apply Leads_set_ub; [exists o'; auto|lia].
    - apply Leads_set_ub; [exists o'; auto|lia].
    - exists (o' - sp_value n + sp_value old). rewrite best_set_ub.
      split; [exact (same_best n old Hgn Hgo (same_sym _ _ Hs) o' Hb)|]. cbn [set_ub sp_ub]. lia.
  Qed.

  Lemma pushed_by_fringe (L L' : list (@subproblem St)) (n : @subproblem St) :
    pushed_by same L L' n -> FringeOK' L -> good n -> (sp_depth n <= N)%nat -> FringeOK' L'.
  Proof.
    intros [HP|(old & rest & HP & Hs & HP')] HF Hg Hdn x Hx.
    - eapply Permutation_in in Hx; [|exact HP]. destruct Hx as [Hx|Hx]; [subst x; split; assumption|apply HF; exact Hx].
    - destruct (HF old (perm_head_in _ _ _ HP)) as [Hgo Hdo].
      eapply Permutation_in in Hx; [|exact HP']. destruct Hx as [Hx|Hx].
      + subst x. split.
        * destruct (coalesce_cases old n) as [[_ ->]|[_ ->]]; apply good_set_ub; assumption.
        * rewrite coalesce_depth by (apply same_depth; exact Hs). exact Hdn.
      + apply HF. exact (perm_tail_in _ _ _ _ HP Hx).
  Qed.

  (* the per-depth counter grows by exactly the growth of the fringe length: 1 on a fresh key, 0 on a coalescing push *)
  Lemma pushed_by_cnt (L L' : list (@subproblem St)) (n : @subproblem St) d : pushed_by same L L' n ->
    cnt d L' = (cnt d L + if Nat.eq_dec (sp_depth n) d then length L' - length L else 0)%nat.
  Proof.
    intros [HP|(old & rest & HP & Hs & HP')].
    - rewrite (cnt_perm _ _ _ HP), (Permutation_length HP). cbn [length].
      destruct (Nat.eq_dec (sp_depth n) d) as [<-|Hne]; [rewrite cnt_cons_same; lia|rewrite cnt_cons_other by exact Hne; lia].
    - rewrite (cnt_perm _ _ _ HP'), (cnt_perm _ _ _ HP), (Permutation_length HP'), (Permutation_length HP). cbn [length].
      rewrite (cnt_cons_eqd _ (coalesce old n) old)
        by (rewrite coalesce_depth by (apply same_depth; exact Hs); symmetry; apply same_depth; exact Hs).
      destruct (Nat.eq_dec (sp_depth n) d); lia.
  Qed.

  (* L' is L after the nodes ns were pushed (inserted or coalesced), as far as the invariants can tell: the
     termination potential grows by at most their weights, what was reachable through L or ns is reachable
     through L', and a bound on the sp_ub of L and ns bounds those of L' *)
  Definition extends (L L' ns : list (@subproblem St)) : Prop :=
    (Phi' L' <= Phi' L + Phi' ns)%nat /\
    (forall o, leads_in o (ns ++ L) -> leads_in o L') /\
    (forall U, below U ns -> below U L -> below U L').

  Lemma extends_refl L : extends L L [].
  Proof. split; [cbn; lia|]. split; [intros o H; exact H|intros U _ H; exact H]. Qed.

  Lemma extends_app L L1 L2 a b : extends L L1 a -> extends L1 L2 b -> extends L L2 (a ++ b).
  Proof.
    intros (A1 & A2 & A3) (B1 & B2 & B3). split; [|split].
    - unfold Phi in *. rewrite sumf_app. lia.
    - intros o H. apply B2. apply leads_in_app. rewrite <- app_assoc in H.
      apply leads_in_app in H. destruct H as [H|H].
      + right. apply A2. apply leads_in_app. left. exact H.
      + apply leads_in_app in H. destruct H as [H|H]; [left; exact H|].
        right. apply A2. apply leads_in_app. right. exact H.
    - intros U Hab HL. apply below_app in Hab. destruct Hab as [Ha Hb]. apply B3; [exact Hb|]. apply A3; assumption.
  Qed.

  Lemma extends_push (L L' : list (@subproblem St)) (n : @subproblem St) :
    pushed_by same L L' n -> FringeOK' L -> good n -> extends L L' [n].
  Proof.
    intros [HP|(old & rest & HP & Hs & HP')] HF Hg.
    - split; [|split].
      + rewrite (Phi_perm _ _ _ _ HP). unfold Phi. cbn [sumf]. lia.
      + intros o (x & Hx & Hl). exists x. split; [|exact Hl]. eapply Permutation_in; [apply Permutation_sym; exact HP|exact Hx].
      + intros U Hn HL x Hx. eapply Permutation_in in Hx; [|exact HP]. destruct Hx as [<-|Hx]; [apply Hn; left; reflexivity|auto].
    - destruct (HF old (perm_head_in _ _ _ HP)) as [Hgo _].
      assert (Hd : sp_depth (coalesce old n) = sp_depth old).
      { rewrite coalesce_depth by (apply same_depth; exact Hs). symmetry. apply same_depth. exact Hs. }
      split; [|split].
      + rewrite (Phi_perm _ _ _ _ HP'), (Phi_perm _ _ _ _ HP). unfold Phi. cbn [sumf]. rewrite (wt_depth _ _ _ _ Hd). lia.
      + intros o (x & Hx & Hl).
        assert (Hc : In (coalesce old n) L') by exact (perm_head_in _ _ _ HP').
        destruct Hx as [<-|Hx]; [exists (coalesce old n); split; [exact Hc|apply Leads_coalesce; auto]|].
        eapply Permutation_in in Hx; [|exact HP]. destruct Hx as [<-|Hx].
        * exists (coalesce old n). split; [exact Hc|apply Leads_coalesce; auto].
        * exists x. split; [exact (perm_tail_in _ _ _ _ HP' Hx)|exact Hl].
      + intros U Hn HL x Hx. eapply Permutation_in in Hx; [|exact HP']. destruct Hx as [<-|Hx].
        * specialize (HL old (perm_head_in _ _ _ HP)). specialize (Hn n (or_introl eq_refl)).
          destruct (coalesce_cases old n) as [[_ ->]|[_ ->]]; cbn [set_ub sp_ub]; lia.
        * apply HL. exact (perm_tail_in _ _ _ _ HP Hx).
  Qed.
End Coalescing.

Section Loop.
  Context {St : Type}.
  Variable st_eqb : St -> St -> bool.
  Variable cfg : @sconfig St.
  Local Notation N := (nb_vars (sc_problem cfg)).
  Hypothesis Hnc : sc_use_cache cfg = false.
  Variable good : @subproblem St -> Prop.
  Variable best : @subproblem St -> option Z.
  Variable feasible : list decision -> Z -> Prop.
  Hypothesis HSem : sem_ok cfg good best feasible.
  Variable M : nat.
  Variable same : @subproblem St -> @subproblem St -> Prop.
  Variable Rep : list (@subproblem St) -> @nodup (St * nat) -> list (@subproblem St) -> Prop.
  Variable ord : Prop.
  Hypothesis HFringe : fringe_ok st_eqb cfg good best same Rep ord.
  Hypothesis HCon : contracts_ok st_eqb cfg good best feasible.

  Local Notation OPT' := (OPT cfg best).
  Local Notation RepS s L := (Rep (s_simple s) (s_nodup s) L).

  Local Lemma good_root : good (root_node cfg). Proof. apply HSem. Qed.
  Local Lemma feasible_le_opt : forall sol v, feasible sol v -> exists o, OPT' = Some o /\ v <= o. Proof. apply HSem. Qed.
  Local Lemma opt_in_isize : forall o, OPT' = Some o -> IMIN < o <= IMAX. Proof. apply HSem. Qed.
  Local Lemma good_set_ub : forall c u, good c -> good (set_ub c u). Proof. apply HSem. Qed.
  Local Lemma best_set_ub : forall c u, best (set_ub c u) = best c. Proof. apply HSem. Qed.

  Local Notation IncumbentF := (Incumbent feasible).
  Local Notation FringeOK' := (FringeOK cfg good).
  Local Notation OpenOK' := (OpenOK cfg).
  Local Notation Phi' := (Phi cfg M).
  Local Notation wt' := (wt cfg M).
  Local Notation enq := (enq_step st_eqb cfg).
  Local Notation Leads := (Leads best).
  Local Notation leads_in := (leads_in best).
  Local Notation extends := (extends cfg best M).

  (* the invariant, over the content L of the fringe *)
  Definition QL (s : @sstate St) (L : list (@subproblem St)) : Prop :=
    RepS s L /\ FringeOK' L /\ OpenOK' (s_open s) L.
  Definition CoreL (s : @sstate St) (L : list (@subproblem St)) : Prop :=
    s_crash s = false /\ s_abort s = false /\ IncumbentF (s_lb s) (s_sol s) /\ QL s L.

  (* completeness: the optimum is matched by the incumbent, or still reachable through an open sub-problem
     (of the fringe, or of [extra] = the node being processed) *)
  Definition ComplL (s : @sstate St) (L extra : list (@subproblem St)) : Prop :=
    forall o, OPT' = Some o -> o <= s_lb s \/ leads_in o (extra ++ L).

  (* what clean_cache_loop leaves alone *)
  Definition obs (s : @sstate St) :=
    (s_simple s, s_nodup s, s_open s, s_lb s, s_ub s, s_sol s, s_abort s, s_crash s).

  Lemma obs_inv s s' : obs s' = obs s ->
    s_simple s' = s_simple s /\ s_nodup s' = s_nodup s /\ s_open s' = s_open s /\ s_lb s' = s_lb s /\
    s_ub s' = s_ub s /\ s_sol s' = s_sol s /\ s_abort s' = s_abort s /\ s_crash s' = s_crash s.
  Proof. unfold obs; intros H; inversion H; auto 10. Qed.

  Lemma clean_cache_loop_obs fuel s :
    (forall d, (d <= N)%nat -> exists k, nth_error (s_open s) d = Some k) ->
    obs (clean_cache_loop cfg fuel s) = obs s.
  Proof.
    revert s; induction fuel as [|fuel IH]; intros s H; cbn [clean_cache_loop]; [reflexivity|].
    destruct (Nat.ltb (s_fal s) (nb_vars (sc_problem cfg))) eqn:E; [|reflexivity].
    apply Nat.ltb_lt in E. destruct (H (s_fal s)) as [k Hk]; [lia|].
    rewrite Hk. destruct k; [|reflexivity]. rewrite Hnc. rewrite IH; [reflexivity|]. exact H.
  Qed.

  Lemma get_workload_gen s L : CoreL s L ->
    (L = [] /\ exists s1, get_workload st_eqb cfg s = (s1, WComplete) /\
       s_crash s1 = false /\ s_abort s1 = false /\ s_lb s1 = s_lb s /\ s_sol s1 = s_sol s /\ s_ub s1 = s_lb s)
    \/ (exists x L1 s1, get_workload st_eqb cfg s = (s1, WItem x) /\ Permutation L (x :: L1) /\
         CoreL s1 L1 /\ s_lb s1 = s_lb s /\ s_ub s1 = sp_ub x /\ (ord -> below (sp_ub x) L)).
  Proof.
    intros (Hcr & Hab & Hinc & Hrep & Hfr & Hop).
    pose proof HFringe as (_ & _ & _ & _ & rep_len & _ & rep_pop).
    unfold get_workload.
    set (sc := clean_cache_loop cfg (S (nb_vars (sc_problem cfg))) s).
    destruct (obs_inv s sc) as (V0 & V1 & V2 & V3 & V7 & V4 & V5 & V6).
    { apply clean_cache_loop_obs. intros d Hd. eexists. apply Hop. exact Hd. }
    assert (Hrepc : RepS sc L) by (rewrite V0, V1; exact Hrep).
    rewrite (rep_len sc L Hrepc).
    destruct L as [|y L0].
    - left. split; [reflexivity|]. eexists. split; [reflexivity|].
      cbn [s_crash s_abort s_lb s_sol s_ub upd_s]. rewrite V3, V4, V5, V6. auto 10.
    - right. cbn [length Nat.eqb]. rewrite V5, Hab.
      destruct (rep_pop sc (y :: L0) Hrepc) as (x & l & f & L1 & Hpop & Hrep1 & Hperm & Hmax); [discriminate|].
      rewrite Hpop.
      destruct (Hfr x (perm_head_in _ _ _ Hperm)) as [Hgx Hdx].
      cbn [set_fringe s_open upd_s]. rewrite V2, (Hop _ Hdx), (cnt_perm _ _ _ Hperm), cnt_cons_same.
      exists x, L1. eexists. split; [reflexivity|]. split; [exact Hperm|].
      cbn [set_fringe s_lb s_ub upd_s]. split; [|split; [exact V3|split; [reflexivity|exact Hmax]]].
      unfold CoreL, QL. cbn [set_fringe s_simple s_nodup s_crash s_abort s_lb s_sol s_open upd_s].
      rewrite ?V2, ?V3, ?V4, ?V5, ?V6. split; [exact Hcr|]. split; [exact Hab|]. split; [exact Hinc|].
      split; [exact Hrep1|]. split.
      + intros n Hn. apply Hfr. exact (perm_tail_in _ _ _ _ Hperm Hn).
      + intros d Hd. destruct (Nat.eq_dec (sp_depth x) d) as [Heq|Hne].
        * subst d. erewrite nth_error_upd_nth_same; [reflexivity|]. rewrite (Hop _ Hd).
          rewrite (cnt_perm _ _ _ Hperm), cnt_cons_same. reflexivity.
        * rewrite nth_error_upd_nth_other by exact Hne. rewrite (Hop _ Hd).
          rewrite (cnt_perm _ _ _ Hperm), cnt_cons_other by exact Hne. reflexivity.
  Qed.

  (* one compilation + incumbent update: only two of the contracts matter here *)
  Section Phase.
  Hypothesis Kcrash : forall ct n lb c ds polls m out,
    dd_ct ct -> good n -> (sp_depth n <= N)%nat ->
    compile st_eqb (mk_input cfg ct n lb) 0 0 c ds polls = (m, out) -> m_crash m = false.
  Hypothesis Kfeas : forall ct n lb c ds polls m,
    dd_ct ct -> good n -> (sp_depth n <= N)%nat ->
    compile st_eqb (mk_input cfg ct n lb) 0 0 c ds polls = (m, Compiled) ->
    forall v, dd_best_exact_value (mk_input cfg ct n lb) m = Some v ->
    exists sol, dd_best_exact_solution (mk_input cfg ct n lb) m = Some sol /\ feasible sol v.

  Lemma phase_gen s L ct n s' inp m o :
    CoreL s L -> dd_ct ct -> good n -> (sp_depth n <= N)%nat ->
    run_compile st_eqb cfg s ct n = (s', inp, m, o) ->
    inp = mk_input cfg ct n (s_lb s) /\
    compile st_eqb (mk_input cfg ct n (s_lb s)) 0 0 (s_cache s) (s_dom s) (s_polls s) = (m, o) /\
    CoreL s' L /\ s_lb s' = s_lb s /\ s_ub s' = s_ub s /\
    (o = Compiled ->
       CoreL (maybe_update_best s' inp m) L /\
       s_lb s <= s_lb (maybe_update_best s' inp m) /\ s_ub (maybe_update_best s' inp m) = s_ub s /\
       (forall e, dd_best_exact_value inp m = Some e -> e <= s_lb (maybe_update_best s' inp m))).
  Proof.
    intros (Hcr & Hab & Hinc & Hrep & Hfr & Hop) Hct Hg Hd Hrc.
    destruct (run_compile_frame _ _ _ _ _ _ _ _ _ Hrc) as [R0 R7].
    apply run_compile_spec in Hrc. destruct Hrc as (Hinp & Hc & R1 & R2 & R3 & R4 & R5 & R6).
    pose proof (Kcrash _ _ _ _ _ _ _ _ Hct Hg Hd Hc) as Hmc.
    assert (HC' : CoreL s' L).
    { unfold CoreL, QL. rewrite R0, R1, R2, R3, R4, R5, R6, Hcr, Hmc. cbn [orb]. auto 10. }
    split; [exact Hinp|]. split; [exact Hc|]. split; [exact HC'|]. split; [exact R3|]. split; [exact R7|]. intros ->.
    destruct HC' as (C1 & C2 & C3 & C4).
    assert (Hlb' : IMIN <= s_lb s') by apply C3.
    pose proof (mub_spec cfg s' inp m Hlb') as Hm. cbv zeta in Hm.
    destruct Hm as (U1 & U2 & U3 & U4 & U5).
    destruct (mub_frame s' inp m) as [U0 U7].
    rewrite U7, R7.
    assert (HQ : s_crash (maybe_update_best s' inp m) = false /\ s_abort (maybe_update_best s' inp m) = false /\
                 QL (maybe_update_best s' inp m) L).
    { unfold QL. rewrite U4, U3, U2, U1, U0. auto. }
    destruct HQ as (Q1 & Q2 & Q3).
    destruct U5 as [(L1 & L2 & L3) | (v & Hv & Hgt & L1 & L2)].
    - split; [|split; [rewrite L1, R3; lia|split; [reflexivity|rewrite L1; exact L3]]].
      unfold CoreL. rewrite L1, L2. auto.
    - subst inp. destruct (Kfeas _ _ _ _ _ _ _ Hct Hg Hd Hc v Hv) as (sol & Hsol & Hfeas).
      split; [|split; [rewrite L1; rewrite R3 in Hgt; lia|split; [reflexivity|]]].
      + unfold CoreL. split; [exact Q1|]. split; [exact Q2|]. split; [|exact Q3].
        rewrite L1, L2. split; [rewrite R3 in Hgt; destruct Hinc; lia|].
        right. exists sol. split; [exact Hsol|exact Hfeas].
      + intros e He. rewrite Hv in He. assert (e = v) by congruence. rewrite L1. lia.
  Qed.
  End Phase.

  (* the cut-set nodes that enqueue_cutset pushes, relabelled *)
  Definition kept (lb ub : Z) (cs : list (@subproblem St)) : list (@subproblem St) :=
    flat_map (fun c => if Z.min ub (sp_ub c) >? lb then [set_ub c (Z.min ub (sp_ub c))] else []) cs.

  Lemma kept_cons lb ub c cs : kept lb ub (c :: cs) = kept lb ub [c] ++ kept lb ub cs.
  Proof. unfold kept. cbn [flat_map]. rewrite app_nil_r. reflexivity. Qed.

  Lemma kept_in lb ub cs x : In x (kept lb ub cs) <->
    exists c, In c cs /\ Z.min ub (sp_ub c) > lb /\ x = set_ub c (Z.min ub (sp_ub c)).
  Proof.
    unfold kept. rewrite in_flat_map. split; intros (c & Hc & H); exists c; (split; [exact Hc|]).
    - destruct (Z.min ub (sp_ub c) >? lb) eqn:E; [|destruct H].
      rewrite Z.gtb_ltb in E. apply Z.ltb_lt in E. destruct H as [<-|[]]. split; [lia|reflexivity].
    - destruct H as [Hgt ->]. destruct (Z.min ub (sp_ub c) >? lb) eqn:E; [left; reflexivity|].
      rewrite Z.gtb_ltb in E. apply Z.ltb_ge in E. lia.
  Qed.

  Lemma kept_weight lb ub cs : (Phi' (kept lb ub cs) <= Phi' cs)%nat.
  Proof.
    induction cs as [|c cs IH]; [cbn; lia|]. rewrite kept_cons. unfold Phi in *. rewrite sumf_app. cbn [sumf].
    assert (H1 : (sumf wt' (kept lb ub [c]) <= wt' c)%nat); [|lia].
    unfold kept. cbn [flat_map]. destruct (_ >? _); cbn [app sumf]; [|lia].
    rewrite (wt_depth cfg M (set_ub c (Z.min ub (sp_ub c))) c) by reflexivity. lia.
  Qed.

  Lemma enq_step_gen lb ub s L c :
    QL s L -> good c -> (sp_depth c <= N)%nat ->
    s_lb (enq lb ub s c) = s_lb s /\ s_ub (enq lb ub s c) = s_ub s /\ s_sol (enq lb ub s c) = s_sol s /\
    s_abort (enq lb ub s c) = s_abort s /\ s_crash (enq lb ub s c) = s_crash s /\
    exists L', QL (enq lb ub s c) L' /\ extends L L' (kept lb ub [c]).
  Proof.
    intros (Hrep & HF & Hop) Hg Hd.
    pose proof HFringe as (same_sym & same_depth & same_best & _ & rep_len & rep_push & _).
    unfold enq_step, kept. cbv zeta. cbn [flat_map]. rewrite app_nil_r.
    destruct (Z.min ub (sp_ub c) >? lb) eqn:E.
    2:{ repeat (split; [reflexivity|]). exists L. split; [split; [exact Hrep|split; assumption]|apply extends_refl]. }
    fold (set_ub c (Z.min ub (sp_ub c))).
    set (c' := set_ub c (Z.min ub (sp_ub c))).
    assert (Hg' : good c') by (apply good_set_ub; exact Hg).
    destruct (rep_push s L c' Hrep) as (l & f & L' & Hpush & Hrep' & Hpd).
    rewrite Hpush, (rep_len (set_fringe s l f) L' Hrep'), (rep_len s L Hrep).
    cbn [set_fringe s_open upd_s]. rewrite (Hop _ Hd).
    cbn [set_fringe s_simple s_nodup s_open s_lb s_ub s_sol s_abort s_crash upd_s].
    repeat (split; [reflexivity|]).
    exists L'.
    split; [|exact (extends_push cfg good best best_set_ub M same same_sym same_depth same_best _ _ _ Hpd HF Hg')].
    unfold QL. cbn [set_fringe s_simple s_nodup s_open upd_s]. split; [exact Hrep'|]. split.
    - exact (pushed_by_fringe cfg good good_set_ub same same_depth _ _ c' Hpd HF Hg' Hd).
    - intros d Hd'. rewrite (pushed_by_cnt same same_depth _ _ c' d Hpd). change (sp_depth c') with (sp_depth c).
      destruct (Nat.eq_dec (sp_depth c) d) as [Heq|Hne].
      + subst d. erewrite nth_error_upd_nth_same; [|apply Hop; exact Hd]. reflexivity.
      + rewrite nth_error_upd_nth_other by exact Hne. rewrite (Hop _ Hd'). f_equal. lia.
  Qed.

  Lemma enq_fold_gen lb ub cs : forall s L,
    QL s L -> (forall c, In c cs -> good c /\ (sp_depth c <= N)%nat) ->
    s_lb (fold_left (enq lb ub) cs s) = s_lb s /\ s_ub (fold_left (enq lb ub) cs s) = s_ub s /\
    s_sol (fold_left (enq lb ub) cs s) = s_sol s /\ s_abort (fold_left (enq lb ub) cs s) = s_abort s /\
    s_crash (fold_left (enq lb ub) cs s) = s_crash s /\
    exists L', QL (fold_left (enq lb ub) cs s) L' /\ extends L L' (kept lb ub cs).
  Proof.
    induction cs as [|c cs IH]; intros s L HQ Hcs; cbn [fold_left].
    - repeat (split; [reflexivity|]). exists L. split; [exact HQ|apply extends_refl].
    - destruct (Hcs c (or_introl eq_refl)) as [Hgc Hdc].
      destruct (enq_step_gen lb ub s L c HQ Hgc Hdc) as (E1 & E2 & E3 & E4 & E5 & L1 & EQ & EX).
      destruct (IH (enq lb ub s c) L1 EQ (fun c' Hc' => Hcs c' (or_intror Hc')))
        as (F1 & F2 & F3 & F4 & F5 & L' & FQ & FX).
      rewrite F1, F2, F3, F4, F5, E1, E2, E3, E4, E5. repeat (split; [reflexivity|]).
      exists L'. split; [exact FQ|]. rewrite kept_cons. exact (extends_app cfg best M _ _ _ _ _ EX FX).
  Qed.

  Lemma outcome_case {A} (o : outcome) (a b : A) :
    o <> Compiled -> match o with Compiled => a | _ => b end = b.
  Proof. destruct o; [congruence|reflexivity..]. Qed.

  (* some compilation of n was cut short *)
  Definition cut_short (n : @subproblem St) : Prop :=
    exists ct lb c ds polls m out, dd_ct ct /\
      compile st_eqb (mk_input cfg ct n lb) 0 0 c ds polls = (m, out) /\ out <> Compiled.
  (* ns is what enqueue_cutset keeps of the cut-set of an inexact relaxed compilation of n, or nothing *)
  Definition from_cutset (n : @subproblem St) (ns : list (@subproblem St)) : Prop :=
    ns = [] \/ exists lb lb' c ds polls m,
      compile st_eqb (mk_input cfg Relaxed n lb) 0 0 c ds polls = (m, Compiled) /\ dd_is_exact m = false /\
      ns = kept lb' (sp_ub n) (drain_cutset (mk_input cfg Relaxed n lb) m).

  Lemma from_cutset_below n ns : from_cutset n ns -> below (sp_ub n) ns.
  Proof.
    intros [->|(lb & lb' & c & ds & polls & m & _ & _ & ->)] x Hx; [destruct Hx|].
    apply kept_in in Hx. destruct Hx as (c0 & _ & _ & ->). cbn [set_ub sp_ub]. lia.
  Qed.

  (* Processing n: the fringe is extended by some ns taken from a cut-set of n; unless a compilation was cut
     short, whatever was reachable through n is now matched by the incumbent or reachable through ns *)
  Lemma process_gen s L n s2 err :
    CoreL s L -> good n -> (sp_depth n <= N)%nat ->
    process_one_node st_eqb cfg s n = (s2, err) ->
    exists L2 ns, CoreL s2 L2 /\ extends L L2 ns /\ s_ub s2 = s_ub s /\ s_lb s <= s_lb s2 /\
      (err = true -> s_lb s < sp_ub n /\ cut_short n) /\
      (err = false -> from_cutset n ns /\ forall o, Leads o n -> o <= s_lb s2 \/ leads_in o ns).
  Proof.
    intros HCore Hg Hd. pose proof HCon as (KC_crash & KC1 & KC2 & KC3_good & KC3_depth & KC3_ub & KC4).
    unfold process_one_node.
    assert (Hdec : forall o : outcome, o = Compiled \/ o <> Compiled)
      by (intros []; [left; reflexivity|right; discriminate..]).
    destruct (sp_ub n <=? s_lb s) eqn:Eub.
    { intros H; inversion H; subst s2 err. exists L, []. split; [exact HCore|]. split; [apply extends_refl|].
      split; [reflexivity|]. split; [lia|]. split; [discriminate|]. intros _. split; [left; reflexivity|].
      intros o (o' & _ & _ & Hu). left. apply Z.leb_le in Eub. lia. }
    apply Z.leb_gt in Eub. rewrite Hnc.
    destruct (run_compile st_eqb cfg s Restricted n) as [[[sa0 inpa] ma] oa] eqn:Ea.
    destruct (phase_gen KC_crash KC1 _ _ _ _ _ _ _ _ HCore (or_introl eq_refl) Hg Hd Ea) as (Hinpa & Hca & HCa0 & Hla0 & Hua0 & Hcompa).
    destruct (Hdec oa) as [->|Hne].
    2:{ rewrite (outcome_case _ _ _ Hne). intros H; inversion H; subst s2 err. exists L, [].
        split; [exact HCa0|]. split; [apply extends_refl|]. split; [exact Hua0|]. split; [lia|]. split; [|discriminate].
        intros _. split; [exact Eub|]. exists Restricted, (s_lb s), (s_cache s), (s_dom s), (s_polls s), ma, oa.
        split; [left; reflexivity|]. split; [exact Hca|exact Hne]. }
    destruct (Hcompa eq_refl) as (HCa & Hlba & Huba & Heva). clear Hcompa.
    cbv beta iota zeta.
    set (sa := maybe_update_best sa0 inpa ma) in *.
    destruct (dd_is_exact ma) eqn:Eexa.
    { intros H; inversion H; subst s2 err. exists L, []. split; [exact HCa|]. split; [apply extends_refl|].
      split; [exact Huba|]. split; [exact Hlba|]. split; [discriminate|]. intros _. split; [left; reflexivity|].
      intros o (o' & Hb & Hoo & _). left.
      destruct (Z_le_gt_dec o' (s_lb s)) as [Hle|Hgt]; [lia|].
      assert (o' <= s_lb sa); [|lia].
      apply Heva. rewrite Hinpa. exact (KC2 _ _ _ _ _ _ _ (or_introl eq_refl) Hg Hd Hca Eexa o' Hb Hgt). }
    destruct (run_compile st_eqb cfg sa Relaxed n) as [[[sb0 inpb] mb] ob] eqn:Eb.
    destruct (phase_gen KC_crash KC1 _ _ _ _ _ _ _ _ HCa (or_intror eq_refl) Hg Hd Eb) as (Hinpb & Hcb & HCb0 & Hlb0 & Hub0 & Hcompb).
    destruct (Hdec ob) as [->|Hne].
    2:{ rewrite (outcome_case _ _ _ Hne). intros H; inversion H; subst s2 err. exists L, [].
        split; [exact HCb0|]. split; [apply extends_refl|]. split; [rewrite Hub0; exact Huba|]. split; [lia|].
        split; [|discriminate]. intros _. split; [exact Eub|].
        exists Relaxed, (s_lb sa), (s_cache sa), (s_dom sa), (s_polls sa), mb, ob.
        split; [right; reflexivity|]. split; [exact Hcb|exact Hne]. }
    destruct (Hcompb eq_refl) as (HCb & Hlbb & Hubb & Hevb). clear Hcompb.
    cbv beta iota zeta.
    set (sb := maybe_update_best sb0 inpb mb) in *.
    destruct (dd_is_exact mb) eqn:Eexb.
    { intros H; inversion H; subst s2 err. exists L, []. split; [exact HCb|]. split; [apply extends_refl|].
      split; [rewrite Hubb; exact Huba|]. split; [lia|]. split; [discriminate|]. intros _. split; [left; reflexivity|].
      intros o (o' & Hb & Hoo & _). left.
      destruct (Z_le_gt_dec o' (s_lb sa)) as [Hle|Hgt]; [lia|].
      assert (o' <= s_lb sb); [|lia].
      apply Hevb. rewrite Hinpb. exact (KC2 _ _ _ _ _ _ _ (or_intror eq_refl) Hg Hd Hcb Eexb o' Hb Hgt). }
    intros H; inversion H; subst s2 err. clear H.
    rewrite enqueue_cutset_fold. subst inpb.
    set (cs := drain_cutset (mk_input cfg Relaxed n (s_lb sa)) mb).
    assert (Hcs : forall c, In c cs -> good c /\ (sp_depth c <= N)%nat).
    { intros c Hc. split; [exact (KC3_good _ _ _ _ _ _ Hg Hd Hcb Eexb c Hc)|exact (KC3_depth _ _ _ _ _ _ Hg Hd Hcb Eexb c Hc)]. }
    destruct HCb as (B1 & B2 & B3 & BQ).
    destruct (enq_fold_gen (s_lb sb) (sp_ub n) cs sb L BQ Hcs) as (F1 & F2 & F3 & F4 & F5 & L' & FQ & FX).
    exists L', (kept (s_lb sb) (sp_ub n) cs).
    split; [unfold CoreL; rewrite F1, F3, F4, F5; auto|]. split; [exact FX|].
    split; [rewrite F2, Hubb; exact Huba|]. split; [rewrite F1; lia|]. split; [discriminate|]. intros _. split.
    - right. exists (s_lb sa), (s_lb sb), (s_cache sa), (s_dom sa), (s_polls sa), mb. auto.
    - intros o (o' & Hb & Hoo & Hu). rewrite F1.
      destruct (Z_le_gt_dec o (s_lb sb)) as [Hle|Hgt]; [left; exact Hle|]. right.
      assert (Hgta : o' > s_lb sa) by lia.
      destruct (KC4 _ _ _ _ _ _ Hg Hd Hcb Eexb o' Hb Hgta) as (c & Hc & Hbc).
      { intros e He. apply Hevb in He. lia. }
      assert (Hubc : o' <= sp_ub c) by exact (KC3_ub _ _ _ _ _ _ Hg Hd Hcb Eexb c Hc o' Hbc Hgta).
      exists (set_ub c (Z.min (sp_ub n) (sp_ub c))). split.
      + apply kept_in. exists c. split; [exact Hc|]. split; [lia|reflexivity].
      + exists o'. rewrite best_set_ub. split; [exact Hbc|]. split; [exact Hoo|]. cbn [set_ub sp_ub]. lia.
  Qed.

  Lemma compl_pop s L x L1 s1 :
    ComplL s L [] -> Permutation L (x :: L1) -> s_lb s1 = s_lb s -> ComplL s1 L1 [x].
  Proof.
    intros HC HP Hlb o Ho. rewrite Hlb. destruct (HC o Ho) as [H|(w & Hw & Hl)]; [left; exact H|].
    right. exists w. split; [|exact Hl]. cbn [app] in *. eapply Permutation_in; [exact HP|exact Hw].
  Qed.

  Lemma compl_step s L n s2 L2 ns :
    ComplL s L [n] -> extends L L2 ns -> s_lb s <= s_lb s2 ->
    (forall o, Leads o n -> o <= s_lb s2 \/ leads_in o ns) -> ComplL s2 L2 [].
  Proof.
    intros HC (_ & HX & _) Hlb Hn o Ho. destruct (HC o Ho) as [Hle|H]; [left; lia|].
    cbn [app] in *. destruct H as (x & [<-|Hx] & Hl).
    - destruct (Hn o Hl) as [H|H]; [left; exact H|]. right. apply HX. apply leads_in_app. left. exact H.
    - right. apply HX. apply leads_in_app. right. exists x. auto.
  Qed.

  Lemma initialize_gen s0 :
    s_simple s0 = [] -> s_nodup s0 = nd_empty -> s_open s0 = repeat O (S N) -> s_crash s0 = false ->
    s_abort s0 = false -> IncumbentF (s_lb s0) (s_sol s0) ->
    exists L, CoreL (initialize_solver st_eqb cfg s0) L /\ ComplL (initialize_solver st_eqb cfg s0) L [] /\
              Permutation L [root_node cfg] /\ s_ub (initialize_solver st_eqb cfg s0) = s_ub s0.
  Proof.
    intros H0 H1 H2 H3 H4 H5. pose proof HFringe as (_ & _ & _ & rep_empty & _ & rep_push & _).
    unfold initialize_solver.
    assert (Hr0 : RepS s0 []) by (rewrite H0, H1; exact rep_empty).
    destruct (rep_push s0 [] (root_node cfg) Hr0) as (l & f & L & Hpush & Hrep & Hpd).
    rewrite Hpush.
    assert (HP : Permutation L [root_node cfg]).
    { destruct Hpd as [HP|(old & rest & HP & _)]; [exact HP|]. apply Permutation_nil in HP. discriminate. }
    exists L. split; [|split; [|split; [exact HP|reflexivity]]].
    - unfold CoreL, QL. cbn [set_fringe s_simple s_nodup s_open s_lb s_sol s_abort s_crash upd_s].
      split; [exact H3|]. split; [exact H4|]. split; [exact H5|]. split; [exact Hrep|]. split.
      + intros n Hn. eapply Permutation_in in Hn; [|exact HP]. destruct Hn as [<-|[]].
        split; [exact good_root|]. cbn [root_node sp_depth]. lia.
      + intros d Hd. rewrite H2, (cnt_perm _ _ _ HP). destruct d as [|d]; [reflexivity|].
        cbn [repeat upd_nth nth_error]. rewrite nth_error_repeat by lia.
        rewrite cnt_cons_other by (cbn [root_node sp_depth]; lia). reflexivity.
    - intros o Ho. right. exists (root_node cfg). cbn [app].
      split; [eapply Permutation_in; [apply Permutation_sym; exact HP|left; reflexivity]|].
      exists o. split; [exact Ho|]. split; [lia|]. cbn [root_node sp_ub]. apply opt_in_isize. exact Ho.
  Qed.

  Lemma initialize_start primal : primal_ok feasible primal ->
    exists L, CoreL (initialize_solver st_eqb cfg (start_state cfg primal)) L /\
              ComplL (initialize_solver st_eqb cfg (start_state cfg primal)) L [] /\
              Permutation L [root_node cfg] /\ s_ub (initialize_solver st_eqb cfg (start_state cfg primal)) = IMAX.
  Proof.
    intros Hp. destruct (start_state_ok cfg feasible primal Hp) as (S1 & S2 & S3 & S4 & S5).
    destruct (start_state_frame cfg primal) as [S0 S7].
    destruct (initialize_gen _ S1 S0 S2 S3 S4 S5) as (L & HC & HCo & HP & Hub).
    exists L. rewrite Hub, S7. auto.
  Qed.

  Local Notation Final' := (Final cfg best feasible).

  (* first reading of the invariant: the uninterrupted run *)
  Section Exact.
  Hypothesis HExact : exact_ok st_eqb cfg good M.

  (* one iteration: either the fringe is empty and the run ends well, or a node is processed, the invariant is
     kept and the potential decreases (the children of a node weigh less than the node, kids_weight) *)
  Lemma loop_step s L : CoreL s L -> ComplL s L [] ->
    (exists s1, get_workload st_eqb cfg s = (s1, WComplete) /\ Final' s1) \/
    (exists x s1 s2 L2, get_workload st_eqb cfg s = (s1, WItem x) /\
       process_one_node st_eqb cfg s1 x = (s2, false) /\ CoreL s2 L2 /\ ComplL s2 L2 [] /\ (Phi' L2 < Phi' L)%nat).
  Proof.
    intros HCore HCompl.
    destruct (get_workload_gen s L HCore) as [(-> & s1 & Hgw & W2 & W3 & W4 & W5 & W6)
                                            |(x & L1 & s1 & Hgw & Hperm & HC1 & W2 & W3 & _)].
    - left. exists s1. split; [exact Hgw|]. unfold Final. rewrite W6, W5, W4. split; [exact W2|]. split; [exact W3|].
      split; [reflexivity|]. split; [apply HCore|]. intros o Ho.
      destruct (HCompl o Ho) as [H|(w & [] & _)]; exact H.
    - right. destruct (process_one_node st_eqb cfg s1 x) as [s2 err] eqn:Ep.
      destruct HCore as (_ & _ & _ & _ & Hfr & _). destruct (Hfr x (perm_head_in _ _ _ Hperm)) as [Hgx Hdx].
      destruct (process_gen s1 L1 x s2 err HC1 Hgx Hdx Ep) as (L2 & ns & HC2 & HX & _ & Hlb & Htrue & Hfalse).
      destruct err.
      { destruct (Htrue eq_refl) as (_ & ct & lb & c & ds & polls & m & out & Hct & Hcomp & Hne).
        contradiction Hne. exact (proj1 HExact _ _ _ _ _ _ _ _ Hct Hgx Hdx Hcomp). }
      destruct (Hfalse eq_refl) as [Hns Hcl].
      exists x, s1, s2, L2. split; [exact Hgw|]. split; [exact Ep|]. split; [exact HC2|]. split.
      + exact (compl_step s1 L1 x s2 L2 ns (compl_pop s L x L1 s1 HCompl Hperm W2) HX Hlb Hcl).
      + rewrite (Phi_perm _ _ _ _ Hperm). destruct HX as (HPhi & _). unfold Phi in *. cbn [sumf].
        assert (sumf wt' ns < wt' x)%nat; [|lia].
        destruct Hns as [->|(lb & lb' & c & ds & polls & m & Hcomp & Hex & ->)];
          [pose proof (wt_pos cfg M x); cbn; lia|].
        eapply Nat.le_lt_trans; [exact (kept_weight _ _ _)|]. apply kids_weight.
        * exact (proj2 (proj2 HExact) _ _ _ _ _ _ Hgx Hdx Hcomp Hex).
        * intros c0 Hc0. split; [exact (proj1 (proj2 HExact) _ _ _ _ _ _ Hgx Hdx Hcomp Hex c0 Hc0)
                                |exact (proj1 (proj2 (proj2 (proj2 (proj2 HCon)))) _ _ _ _ _ _ Hgx Hdx Hcomp Hex c0 Hc0)].
  Qed.

  Lemma main_loop_exact : forall fuel s L, CoreL s L -> ComplL s L [] -> (Phi' L < fuel)%nat ->
    exists s', main_loop st_eqb cfg fuel s = (s', Finished) /\ Final' s'.
  Proof.
    induction fuel as [|fuel IH]; intros s L HC HCo Hfuel; [lia|].
    cbn [main_loop]. assert (Hcr : s_crash s = false) by apply HC. rewrite Hcr.
    destruct (loop_step s L HC HCo) as [(s1 & Hgw & HF)|(x & s1 & s2 & L2 & Hgw & Hp & HC2 & HCo2 & HPhi)]; rewrite Hgw.
    - exists s1. split; [reflexivity|exact HF].
    - rewrite Hp. apply (IH s2 L2); [exact HC2|exact HCo2|lia].
  Qed.

  (* partial correctness of the loop: whatever the fuel, if the loop finished it finished well *)
  Lemma main_loop_exact_partial : forall fuel s L s', CoreL s L -> ComplL s L [] ->
    main_loop st_eqb cfg fuel s = (s', Finished) -> Final' s'.
  Proof.
    induction fuel as [|fuel IH]; intros s L s' HC HCo; [cbn [main_loop]; discriminate|].
    cbn [main_loop]. assert (Hcr : s_crash s = false) by apply HC. rewrite Hcr.
    destruct (loop_step s L HC HCo) as [(s1 & Hgw & HF)|(x & s1 & s2 & L2 & Hgw & Hp & HC2 & HCo2 & HPhi)]; rewrite Hgw.
    - intros H; inversion H; subst s'. exact HF.
    - rewrite Hp. apply (IH s2 L2); assumption.
  Qed.

  (* total correctness with an explicit fuel bound, any (feasible or absent) warm start *)
  Theorem maximize_exact primal : primal_ok feasible primal ->
    forall fuel, (fuel0 cfg M <= fuel)%nat -> result_ok cfg best feasible (maximize st_eqb cfg fuel primal).
  Proof.
    intros Hp fuel Hfuel. destruct (initialize_start primal Hp) as (L & HC & HCo & HP & _).
    destruct (main_loop_exact fuel _ L HC HCo) as (s' & Hml & HF).
    { rewrite (Phi_perm _ _ _ _ HP). unfold Phi, wt. cbn [sumf root_node sp_depth]. rewrite Nat.sub_0_r.
      unfold fuel0 in Hfuel. lia. }
    exact (maximize_of_final st_eqb cfg best feasible feasible_le_opt opt_in_isize _ _ _ Hml HF).
  Qed.

  (* partial correctness: for ANY fuel, a run that was not cut short by the fuel is correct *)
  Theorem maximize_exact_partial primal : primal_ok feasible primal ->
    forall fuel, r_outoffuel (maximize st_eqb cfg fuel primal) = false ->
    result_ok cfg best feasible (maximize st_eqb cfg fuel primal).
  Proof.
    intros Hp fuel Hnf. destruct (initialize_start primal Hp) as (L & HC & HCo & _).
    destruct (main_loop st_eqb cfg fuel (initialize_solver st_eqb cfg (start_state cfg primal))) as [s' e] eqn:Hml.
    assert (He : e = Finished).
    { unfold maximize in Hnf. fold (start_state cfg primal) in Hnf. rewrite Hml in Hnf.
      cbn [r_outoffuel] in Hnf. destruct e; [reflexivity|discriminate]. }
    subst e. apply (maximize_of_final st_eqb cfg best feasible feasible_le_opt opt_in_isize _ _ _ Hml).
    eapply main_loop_exact_partial; eassumption.
  Qed.
  End Exact.

  (* second reading: a run that may be cut, and the bounds it reports.  The upper bound reported at a cut is
     the sp_ub of the last popped node; it is sound because that node was sp_ub-maximal in the fringe, hence
     [ord]. *)
  (* the effective upper bound: s_ub itself is not monotone along a run, max (s_lb, s_ub) is *)
  Definition eub (s : @sstate St) : Z := Z.max (s_lb s) (s_ub s).

  Definition FinalA (s : @sstate St) : Prop :=
    s_crash s = false /\ IncumbentF (s_lb s) (s_sol s) /\
    (forall o, OPT' = Some o -> o <= s_ub s) /\ s_lb s <= s_ub s /\
    (s_abort s = false -> forall o, OPT' = Some o -> o <= s_lb s).

  (* the anytime invariant: every open node is bounded by the reported upper bound *)
  Definition JL (s : @sstate St) : Prop :=
    exists L, CoreL s L /\ ComplL s L [] /\ below (s_ub s) L.
  (* the state right after get_workload popped x *)
  Definition PoppedL (s1 : @sstate St) (x : @subproblem St) : Prop :=
    exists L1, CoreL s1 L1 /\ ComplL s1 L1 [x] /\ below (s_ub s1) L1 /\ s_ub s1 = sp_ub x /\
               good x /\ (sp_depth x <= N)%nat.

  Lemma inc_le_opt lb sol o : IncumbentF lb sol -> OPT' = Some o -> lb <= o.
  Proof.
    intros [Hmin [[_ ->]|(l & _ & Hf)]] Ho.
    - pose proof (opt_in_isize o Ho). lia.
    - destruct (feasible_le_opt _ _ Hf) as (o' & Ho' & Hle). rewrite Ho in Ho'. inversion Ho'; subst. exact Hle.
  Qed.

  Lemma inc_none lb sol : IncumbentF lb sol -> OPT' = None -> lb = IMIN /\ sol = None.
  Proof.
    intros [Hmin [[-> ->]|(l & _ & Hf)]] Ho; [auto|].
    destruct (feasible_le_opt _ _ Hf) as (o' & Ho' & _). rewrite Ho in Ho'. discriminate.
  Qed.

  (* a sound incumbent is below any sound upper bound *)
  Lemma inc_le_bound lb sol U :
    IncumbentF lb sol -> (forall o, OPT' = Some o -> o <= U) -> IMIN <= U -> lb <= U.
  Proof.
    intros Hinc HU Hmin.
    assert (Hc : (exists o, OPT' = Some o) \/ OPT' = None) by (destruct OPT'; eauto).
    destruct Hc as [[o Ho]|Ho].
    - pose proof (inc_le_opt _ _ o Hinc Ho). specialize (HU o Ho). lia.
    - destruct (inc_none _ _ Hinc Ho) as [-> _]. exact Hmin.
  Qed.

  Lemma popped_sound s1 x : PoppedL s1 x -> forall o, OPT' = Some o -> o <= eub s1.
  Proof.
    intros (L1 & _ & HC & HU & Hx & _) o Ho. unfold eub.
    destruct (HC o Ho) as [Hle|(w & Hw & (o' & _ & _ & Hu))]; [lia|].
    cbn [app] in Hw. destruct Hw as [<-|Hw]; [lia|]. apply HU in Hw. lia.
  Qed.

  Lemma popped_sound_strict s1 x : PoppedL s1 x -> s_lb s1 < sp_ub x -> forall o, OPT' = Some o -> o <= s_ub s1.
  Proof.
    intros (L1 & _ & HC & HU & Hx & _) Hlt o Ho.
    destruct (HC o Ho) as [Hle|(w & Hw & (o' & _ & _ & Hu))]; [lia|].
    cbn [app] in Hw. destruct Hw as [<-|Hw]; [lia|]. apply HU in Hw. lia.
  Qed.

  Lemma abort_fields (s : @sstate St) :
    s_lb (abort_search s) = s_lb s /\ s_ub (abort_search s) = s_ub s /\ s_sol (abort_search s) = s_sol s /\
    s_crash (abort_search s) = s_crash s /\ s_abort (abort_search s) = true.
  Proof. unfold abort_search, fr_clear. cbn [s_lb s_ub s_sol s_crash s_abort upd_s]. auto. Qed.

  Section Bounds.
  Hypothesis Hord : ord.

  Lemma get_workload_J s : JL s ->
    (exists s1, get_workload st_eqb cfg s = (s1, WComplete) /\ FinalA s1 /\ s_abort s1 = false /\
                s_lb s1 = s_lb s /\ s_ub s1 = s_lb s)
    \/ (exists x s1, get_workload st_eqb cfg s = (s1, WItem x) /\ PoppedL s1 x /\ s_lb s1 = s_lb s /\ s_ub s1 <= s_ub s).
  Proof.
    intros (L & HCore & HCompl & HU).
    destruct (get_workload_gen s L HCore) as [(-> & s1 & Hgw & W2 & W3 & W4 & W5 & W6)
                                            |(x & L1 & s1 & Hgw & Hperm & HC1 & W2 & W3 & W4)].
    - left. exists s1. split; [exact Hgw|]. split; [|auto].
      assert (Hle : forall o, OPT' = Some o -> o <= s_lb s).
      { intros o Ho. destruct (HCompl o Ho) as [H|(w & [] & _)]; exact H. }
      unfold FinalA. rewrite W6, W5, W4. split; [exact W2|]. split; [apply HCore|]. split; [exact Hle|].
      split; [lia|]. intros _. exact Hle.
    - right. exists x, s1. split; [exact Hgw|].
      pose proof (perm_head_in _ _ _ Hperm) as Hx.
      destruct HCore as (_ & _ & _ & _ & Hfr & _). destruct (Hfr x Hx) as [Hgx Hdx].
      split; [|split; [exact W2|rewrite W3; apply HU; exact Hx]].
      exists L1. split; [exact HC1|]. split; [exact (compl_pop s L x L1 s1 HCompl Hperm W2)|]. split; [|auto].
      intros y Hy. rewrite W3. apply (W4 Hord). exact (perm_tail_in _ _ _ _ Hperm Hy).
  Qed.

  Lemma step_spec s1 x s2 err : PoppedL s1 x -> process_one_node st_eqb cfg s1 x = (s2, err) ->
    s_crash s2 = false /\ IncumbentF (s_lb s2) (s_sol s2) /\
    s_ub s2 = s_ub s1 /\ s_lb s1 <= s_lb s2 /\ eub s2 <= eub s1 /\
    (err = false -> JL s2) /\
    (err = true -> (forall o, OPT' = Some o -> o <= s_ub s2) /\ s_lb s2 <= s_ub s2).
  Proof.
    intros HP Hp. pose proof HP as (L1 & HC1 & HCompl1 & HU1 & Hub1 & Hgx & Hdx).
    destruct (process_gen s1 L1 x s2 err HC1 Hgx Hdx Hp) as (L2 & ns & HC2 & HX & P1 & P2 & Pcut & Pok).
    assert (Hinc2 : IncumbentF (s_lb s2) (s_sol s2)) by apply HC2.
    assert (Hmin1 : IMIN <= s_lb s1) by apply HC1.
    split; [apply HC2|]. split; [exact Hinc2|]. split; [exact P1|]. split; [exact P2|]. split; [|split].
    - assert (s_lb s2 <= eub s1).
      { apply (inc_le_bound _ _ _ Hinc2); [exact (popped_sound s1 x HP)|unfold eub; lia]. }
      unfold eub in *. rewrite P1. lia.
    - intros ->. destruct (Pok eq_refl) as [Hns Hcl]. exists L2. split; [exact HC2|].
      split; [exact (compl_step s1 L1 x s2 L2 ns HCompl1 HX P2 Hcl)|].
      rewrite P1. destruct HX as (_ & _ & HB). apply HB; [|exact HU1].
      rewrite Hub1. exact (from_cutset_below x ns Hns).
    - intros ->. destruct (Pcut eq_refl) as [Hlt _]. rewrite P1.
      pose proof (popped_sound_strict s1 x HP Hlt) as Hs. split; [exact Hs|].
      apply (inc_le_bound _ _ _ Hinc2 Hs). lia.
  Qed.

  (* along ANY run: s_lb never decreases, max(s_lb, s_ub) never increases; a run that finished (normally or by
     abort_search) ends in a state with sound bounds *)
  Lemma main_loop_bounds : forall fuel s s' e, JL s -> main_loop st_eqb cfg fuel s = (s', e) ->
    s_lb s <= s_lb s' /\ eub s' <= eub s /\ (e = Finished -> FinalA s').
  Proof.
    induction fuel as [|fuel IH]; intros s s' e HJ; cbn [main_loop].
    - intros H; inversion H; subst. split; [lia|]. split; [lia|discriminate].
    - assert (Hcr : s_crash s = false) by (destruct HJ as (L & HC & _); apply HC). rewrite Hcr.
      destruct (get_workload_J s HJ) as [(s1 & Hgw & HF & Hab & L1 & L2)|(x & s1 & Hgw & HP & L1 & L2)]; rewrite Hgw.
      + intros H; inversion H; subst. split; [lia|]. split; [unfold eub; lia|]. intros _. exact HF.
      + destruct (process_one_node st_eqb cfg s1 x) as [s2 err] eqn:Ep.
        destruct (step_spec s1 x s2 err HP Ep) as (Hcr2 & Hinc2 & Q1 & Q2 & Q3 & Q4 & Q5).
        assert (He1 : eub s1 <= eub s) by (unfold eub; lia).
        destruct err.
        * intros H; inversion H; subst. destruct (abort_fields s2) as (A1 & A2 & A3 & A4 & A5).
          split; [rewrite A1; lia|]. split; [unfold eub in *; rewrite A1, A2; lia|]. intros _.
          destruct (Q5 eq_refl) as [Hs Hle]. unfold FinalA. rewrite A1, A2, A3, A4, A5.
          split; [exact Hcr2|]. split; [exact Hinc2|]. split; [exact Hs|]. split; [exact Hle|discriminate].
        * intros H. destruct (IH _ _ _ (Q4 eq_refl) H) as (R1 & R2 & R3).
          split; [lia|]. split; [lia|exact R3].
  Qed.
  End Bounds.

  Lemma initialize_J primal : primal_ok feasible primal ->
    JL (initialize_solver st_eqb cfg (start_state cfg primal)).
  Proof.
    intros Hp. destruct (initialize_start primal Hp) as (L & HC & HCo & HP & Hub).
    exists L. split; [exact HC|]. split; [exact HCo|].
    intros n Hn. eapply Permutation_in in Hn; [|exact HP]. destruct Hn as [<-|[]].
    rewrite Hub. cbn [root_node sp_ub]. lia.
  Qed.

  Theorem anytime_sound (Hord : ord) fuel primal : primal_ok feasible primal ->
    let r := maximize st_eqb cfg fuel primal in
    r_outoffuel r = false ->
    r_crash r = false /\
    (forall o, OPT' = Some o -> r_lb r <= o <= r_ub r) /\
    (OPT' = None -> r_value r = None /\ r_sol r = None) /\
    (forall v, r_value r = Some v ->
       r_lb r = v /\ exists sol, r_sol r = Some (sort_by dec_var_cmp sol) /\ feasible sol v) /\
    (r_exact r = true -> r_value r = OPT') /\
    r_lb r <= r_ub r.
  Proof.
    intros Hp. cbv zeta. unfold maximize. fold (start_state cfg primal).
    destruct (main_loop st_eqb cfg fuel (initialize_solver st_eqb cfg (start_state cfg primal))) as [s' e] eqn:Hml.
    cbn [r_outoffuel r_crash r_lb r_ub r_value r_sol r_exact].
    intros Hnf. assert (He : e = Finished) by (destruct e; [reflexivity|discriminate]).
    destruct (main_loop_bounds Hord _ _ _ _ (initialize_J primal Hp) Hml) as (_ & _ & HF).
    destruct (HF He) as (F1 & F2 & F3 & F4 & F5).
    split; [exact F1|]. split; [|split; [|split; [|split; [|exact F4]]]].
    - intros o Ho. split; [exact (inc_le_opt _ _ o F2 Ho)|exact (F3 o Ho)].
    - intros Hnone. destruct (inc_none _ _ F2 Hnone) as [_ ->]. cbn [option_map]. auto.
    - intros v Hv. destruct F2 as [_ [[Hs _]|(l & Hs & Hf)]]; rewrite Hs in Hv |- *; cbn [option_map] in Hv |- *; [discriminate|].
      inversion Hv; subst v. split; [reflexivity|]. exists l. auto.
    - intros Hex. assert (Hab : s_abort s' = false) by (destruct (s_abort s'); [discriminate|reflexivity]).
      specialize (F5 Hab).
      assert (Hc : (exists o, OPT' = Some o) \/ OPT' = None) by (destruct OPT'; eauto).
      destruct Hc as [[o Ho]|Ho]; rewrite Ho.
      + pose proof (inc_le_opt _ _ o F2 Ho) as H1. pose proof (F5 o Ho) as H2.
        pose proof (opt_in_isize o Ho) as H3.
        destruct F2 as [_ [[_ Hl]|(l & Hs & _)]]; [lia|]. rewrite Hs. cbn [option_map]. f_equal. lia.
      + destruct (inc_none _ _ F2 Ho) as [_ ->]. reflexivity.
  Qed.
End Loop.

(* SimpleFringe: a list; a push never coalesces *)
Definition no_key {St : Type} (a b : @subproblem St) : Prop := False.
Definition rep_simple {St : Type} (l : list (@subproblem St)) (f : @nodup (St * nat)) (L : list (@subproblem St)) : Prop :=
  L = l.

Section SimpleFringe.
  Context {St : Type}.
  Variable st_eqb : St -> St -> bool.
  Variable cfg : @sconfig St.
  Hypothesis simple : sc_nodup cfg = false.

  Lemma fr_len_simple s : fr_len cfg s = length (s_simple s).
  Proof. unfold fr_len. rewrite simple. reflexivity. Qed.

  Lemma fr_push_simple s n : fr_push st_eqb cfg s n = set_fringe s (n :: s_simple s) (s_nodup s).
  Proof. unfold fr_push. rewrite simple. reflexivity. Qed.

  Lemma fr_pop_simple s :
    fr_pop st_eqb cfg s =
    match pq_pop cfg (s_simple s) with
    | None => (s, None)
    | Some (x, rest) => (set_fringe s rest (s_nodup s), Some x)
    end.
  Proof. unfold fr_pop. rewrite simple. reflexivity. Qed.

  Lemma simple_fringe_ok good best : fringe_ok st_eqb cfg good best no_key rep_simple True.
  Proof.
    unfold fringe_ok, rep_simple, no_key. split; [auto|]. split; [intros a b []|]. split; [intros a b _ _ []|].
    split; [reflexivity|]. split; [intros s L ->; apply fr_len_simple|]. split.
    - intros s L n ->. exists (n :: s_simple s), (s_nodup s), (n :: s_simple s).
      split; [apply fr_push_simple|]. split; [reflexivity|]. left. apply Permutation_refl.
    - intros s L -> Hne. rewrite fr_pop_simple.
      destruct (pq_pop cfg (s_simple s)) as [[x rest]|] eqn:Ep; [|apply pq_pop_none in Ep; contradiction].
      exists x, rest, (s_nodup s), rest. split; [reflexivity|]. split; [reflexivity|].
      split; [exact (pq_pop_perm _ _ _ _ Ep)|]. intros _. exact (pq_pop_max _ _ _ _ Ep).
  Qed.

  (* the invariant over the content reads as the invariant over s_simple *)
  Lemma CoreL_simple good feasible s L :
    CoreL cfg good feasible rep_simple s L <-> L = s_simple s /\ Core cfg good feasible s.
  Proof.
    unfold Core, CoreL, QL, rep_simple. split.
    - intros (H1 & H2 & H3 & -> & H5 & H6). auto 10.
    - intros (-> & H1 & H2 & H3 & H5 & H6). auto 10.
  Qed.

  Lemma Compl_simple best s extra : Compl cfg best s extra -> ComplL cfg best s (s_simple s) extra.
  Proof.
    intros H o Ho. destruct (H o Ho) as [Hle|(n & Hn & Hb & Hu)]; [left; exact Hle|].
    right. exists n. split; [apply in_or_app; exact Hn|]. exists o. split; [exact Hb|]. split; [lia|exact Hu].
  Qed.
End SimpleFringe.

Section SolverProofs.
  Context {St : Type}.
  Variable st_eqb : St -> St -> bool.
  Variable cfg : @sconfig St.
  Let pb := sc_problem cfg.
  Let N := nb_vars pb.

  Hypothesis cfg_ok : config_ok cfg.
  Lemma no_cache : sc_use_cache cfg = false. Proof. apply cfg_ok. Qed.
  Lemma simple_fringe : sc_nodup cfg = false. Proof. apply cfg_ok. Qed.

  Variable good : @subproblem St -> Prop.
  Variable best : @subproblem St -> option Z.
  Variable feasible : list decision -> Z -> Prop.
  Local Notation OPT := (OPT cfg best).
  Local Notation Core := (Core cfg good feasible).
  Local Notation primal_ok := (primal_ok feasible).
  Local Notation result_ok := (result_ok cfg best feasible).

  Hypothesis good_root : good (root_node cfg).
  Hypothesis feasible_le_opt : forall sol v, feasible sol v -> exists o, OPT = Some o /\ v <= o.
  Hypothesis opt_in_isize : forall o, OPT = Some o -> IMIN < o <= IMAX.
  Hypothesis best_le_opt : forall n o, good n -> best n = Some o -> exists o', OPT = Some o' /\ o <= o'.
  (* the meaning of a sub-problem does not depend on the upper bound attached to it
     (enqueue_cutset re-labels each cut-set node with min(node_ub, ub)) *)
  Hypothesis good_set_ub : forall c u, good c -> good (set_ub c u).
  Hypothesis best_set_ub : forall c u, best (set_ub c u) = best c.

  (* the diagram contracts; M bounds the size of a cut-set *)
  Variable M : nat.
  Local Notation fuel0 := (fuel0 cfg M).

  Hypothesis K0 : forall ct n lb c ds polls m out,
    dd_ct ct -> good n -> (sp_depth n <= N)%nat ->
    compile st_eqb (mk_input cfg ct n lb) 0 0 c ds polls = (m, out) ->
    out = Compiled /\ m_crash m = false.
  Hypothesis K1 : forall ct n lb c ds polls m out,
    dd_ct ct -> good n -> (sp_depth n <= N)%nat ->
    compile st_eqb (mk_input cfg ct n lb) 0 0 c ds polls = (m, out) ->
    forall v, dd_best_exact_value (mk_input cfg ct n lb) m = Some v ->
    exists sol, dd_best_exact_solution (mk_input cfg ct n lb) m = Some sol /\ feasible sol v.
  Hypothesis K2 : forall ct n lb c ds polls m out,
    dd_ct ct -> good n -> (sp_depth n <= N)%nat ->
    compile st_eqb (mk_input cfg ct n lb) 0 0 c ds polls = (m, out) ->
    dd_is_exact m = true ->
    forall o, best n = Some o -> o > lb -> dd_best_exact_value (mk_input cfg ct n lb) m = Some o.
  Hypothesis K3_good : forall n lb c ds polls m out,
    good n -> (sp_depth n <= N)%nat ->
    compile st_eqb (mk_input cfg Relaxed n lb) 0 0 c ds polls = (m, out) ->
    dd_is_exact m = false ->
    forall x, In x (drain_cutset (mk_input cfg Relaxed n lb) m) -> good x.
  Hypothesis K3_depth : forall n lb c ds polls m out,
    good n -> (sp_depth n <= N)%nat ->
    compile st_eqb (mk_input cfg Relaxed n lb) 0 0 c ds polls = (m, out) ->
    dd_is_exact m = false ->
    forall x, In x (drain_cutset (mk_input cfg Relaxed n lb) m) -> (sp_depth n < sp_depth x <= N)%nat.
  Hypothesis K3_le : forall n lb c ds polls m out,
    good n -> (sp_depth n <= N)%nat ->
    compile st_eqb (mk_input cfg Relaxed n lb) 0 0 c ds polls = (m, out) ->
    dd_is_exact m = false ->
    forall x, In x (drain_cutset (mk_input cfg Relaxed n lb) m) ->
    forall o, best x = Some o -> exists o', best n = Some o' /\ o <= o'.
  Hypothesis K3_ub : forall n lb c ds polls m out,
    good n -> (sp_depth n <= N)%nat ->
    compile st_eqb (mk_input cfg Relaxed n lb) 0 0 c ds polls = (m, out) ->
    dd_is_exact m = false ->
    forall x, In x (drain_cutset (mk_input cfg Relaxed n lb) m) ->
    forall o, best x = Some o -> o > lb -> o <= sp_ub x.
  Hypothesis K4 : forall n lb c ds polls m out,
    good n -> (sp_depth n <= N)%nat ->
    compile st_eqb (mk_input cfg Relaxed n lb) 0 0 c ds polls = (m, out) ->
    dd_is_exact m = false ->
    forall o, best n = Some o -> o > lb ->
    (forall e, dd_best_exact_value (mk_input cfg Relaxed n lb) m = Some e -> e < o) ->
    exists x, In x (drain_cutset (mk_input cfg Relaxed n lb) m) /\ best x = Some o.
  Hypothesis K5 : forall n lb c ds polls m out,
    good n -> (sp_depth n <= N)%nat ->
    compile st_eqb (mk_input cfg Relaxed n lb) 0 0 c ds polls = (m, out) ->
    dd_is_exact m = false ->
    (length (drain_cutset (mk_input cfg Relaxed n lb) m) <= M)%nat.

  (* K0..K5 give what section Loop assumes *)
  Lemma sem_K : sem_ok cfg good best feasible.
  Proof. exact (conj good_root (conj feasible_le_opt (conj opt_in_isize (conj good_set_ub best_set_ub)))). Qed.

  Lemma contracts_K : contracts_ok st_eqb cfg good best feasible.
  Proof.
    split; [intros ct n lb c ds polls m out Hct Hg Hd Hc; exact (proj2 (K0 _ _ _ _ _ _ _ _ Hct Hg Hd Hc))|].
    split; [intros ct n lb c ds polls m; apply K1|]. split; [intros ct n lb c ds polls m; apply K2|].
    split; [intros n lb c ds polls m; apply K3_good|].
    split; [intros n lb c ds polls m Hg Hd Hc He x Hx; exact (proj2 (K3_depth _ _ _ _ _ _ _ Hg Hd Hc He x Hx))|].
    split; [intros n lb c ds polls m; apply K3_ub|intros n lb c ds polls m; apply K4].
  Qed.

  Lemma exact_K : exact_ok st_eqb cfg good M.
  Proof.
    split; [intros ct n lb c ds polls m out Hct Hg Hd Hc; exact (proj1 (K0 _ _ _ _ _ _ _ _ Hct Hg Hd Hc))|].
    split; [intros n lb c ds polls m Hg Hd Hc He x Hx; exact (proj1 (K3_depth _ _ _ _ _ _ _ Hg Hd Hc He x Hx))|].
    intros n lb c ds polls m. apply K5.
  Qed.

  Lemma phase s ct n s' inp m o :
    Core s -> dd_ct ct -> good n -> (sp_depth n <= N)%nat ->
    run_compile st_eqb cfg s ct n = (s', inp, m, o) ->
    o = Compiled /\ inp = mk_input cfg ct n (s_lb s) /\
    compile st_eqb (mk_input cfg ct n (s_lb s)) 0 0 (s_cache s) (s_dom s) (s_polls s) = (m, Compiled) /\
    Core (maybe_update_best s' inp m) /\ s_simple (maybe_update_best s' inp m) = s_simple s /\
    s_lb s <= s_lb (maybe_update_best s' inp m) /\
    (forall e, dd_best_exact_value inp m = Some e -> e <= s_lb (maybe_update_best s' inp m)).
  Proof using K0 K1.
    intros HCore Hct Hg Hd Hrc.
    pose proof (run_compile_spec _ _ _ _ _ _ _ _ _ Hrc) as (_ & Hc & R1 & _).
    destruct (K0 _ _ _ _ _ _ _ _ Hct Hg Hd Hc) as [-> _].
    assert (HCL : CoreL cfg good feasible rep_simple s (s_simple s)) by (apply CoreL_simple; auto).
    destruct (phase_gen st_eqb cfg good feasible rep_simple
                (fun ct n lb c ds polls m out Hct Hg Hd Hc => proj2 (K0 ct n lb c ds polls m out Hct Hg Hd Hc))
                (fun ct n lb c ds polls m => K1 ct n lb c ds polls m Compiled)
                s _ ct n s' inp m Compiled HCL Hct Hg Hd Hrc) as (Hinp & Hc' & _ & _ & _ & Hcomp).
    destruct (Hcomp eq_refl) as (HC & Hlb & _ & Hev).
    apply CoreL_simple in HC. destruct HC as [Hs HC].
    split; [reflexivity|]. split; [exact Hinp|]. split; [exact Hc'|]. split; [exact HC|].
    split; [symmetry; exact Hs|]. split; [exact Hlb|exact Hev].
  Qed.

  (* total correctness with an explicit fuel bound, any (feasible or absent) warm start *)
  Theorem maximize_correct primal : primal_ok primal ->
    forall fuel, (fuel0 <= fuel)%nat -> result_ok (maximize st_eqb cfg fuel primal).
  Proof.
    exact (maximize_exact st_eqb cfg no_cache good best feasible sem_K M no_key rep_simple True
             (simple_fringe_ok st_eqb cfg simple_fringe good best) contracts_K exact_K primal).
  Qed.

  (* partial correctness: for ANY fuel, a run that was not cut short by the fuel is correct *)
  Theorem seq_solver_partial_correct primal : primal_ok primal ->
    forall fuel, r_outoffuel (maximize st_eqb cfg fuel primal) = false ->
    result_ok (maximize st_eqb cfg fuel primal).
  Proof.
    exact (maximize_exact_partial st_eqb cfg no_cache good best feasible sem_K M no_key rep_simple True
             (simple_fringe_ok st_eqb cfg simple_fringe good best) contracts_K exact_K primal).
  Qed.

  (* C01 *)
  Theorem seq_solver_correct :
    exists f0, forall fuel, (f0 <= fuel)%nat ->
      let r := maximize st_eqb cfg fuel None in
      r_crash r = false /\ r_outoffuel r = false /\ r_exact r = true /\ r_value r = OPT /\
      (forall v, OPT = Some v ->
         r_lb r = v /\ r_ub r = v /\ exists sol, r_sol r = Some (sort_by dec_var_cmp sol) /\ feasible sol v) /\
      (OPT = None -> r_sol r = None /\ r_lb r = IMIN).
  Proof.
    exists fuel0. intros fuel Hfuel. apply (maximize_correct None); [|exact Hfuel].
    intros pv psol H; discriminate.
  Qed.

  (* C14 *)
  Theorem seq_solver_correct_primal pv psol : feasible psol pv ->
    exists f0, forall fuel, (f0 <= fuel)%nat ->
      let r := maximize st_eqb cfg fuel (Some (pv, psol)) in
      r_crash r = false /\ r_outoffuel r = false /\ r_exact r = true /\ r_value r = OPT /\
      (forall v, OPT = Some v ->
         r_lb r = v /\ r_ub r = v /\ exists sol, r_sol r = Some (sort_by dec_var_cmp sol) /\ feasible sol v) /\
      (OPT = None -> r_sol r = None /\ r_lb r = IMIN).
  Proof.
    intros Hf. exists fuel0. intros fuel Hfuel. apply (maximize_correct (Some (pv, psol))); [|exact Hfuel].
    intros pv' psol' H; inversion H; subst. exact Hf.
  Qed.
End SolverProofs.

Print Assumptions seq_solver_correct.
Print Assumptions seq_solver_correct_primal.
Print Assumptions maximize_correct.
Print Assumptions seq_solver_partial_correct.
Print Assumptions set_primal_strict.
