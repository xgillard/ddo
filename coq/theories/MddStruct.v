(* MddStruct.v — structural theorems about the decision-diagram model of Mdd.v:
     (1) layers are never empty after a completed compilation (C20: as_graphviz is total),
     (2) the maximum width bounds the list of nodes to expand (C13),
     (3) the callback protocol seen through the call log (C12),
     (4) identifier well-formedness (justifies the nth-with-default accessors).
   Stdlib only; no axioms.

   Three relations between a diagram and a later one carry the proofs: [ext] (between two layer pushes
   the diagram only grows), [logext P] (what was logged satisfies P) and [touch P] (no node, no arc, no
   list of identifiers changed); [wf] is the well-formedness of (4).  Each operation of the layer loop
   is related to one of them once; the theorems of (1)-(3) are read off the log of one iteration
   ([layer_loop_iteration], [loop_move]) and closed by [compile_log]. *)
Require Import DDO.Base DDO.Fringe DDO.DP DDO.Cache DDO.Dom DDO.Mdd DDO.Viz.
From Coq Require Import Lia List Arith ZArith Bool.
Import ListNotations.
Open Scope nat_scope.

Lemma fold_left_inv {A B} (P : A -> Prop) (f : A -> B -> A) (l : list B) (a : A) :
  (forall a x, In x l -> P a -> P (f a x)) -> P a -> P (fold_left f l a).
Proof.
  revert a; induction l as [|x l IH]; simpl; intros a Hf Ha; [exact Ha|].
  apply IH; [intros; apply Hf; auto|apply Hf; auto].
Qed.

Lemma fold_left_proj {A B X} (g : A -> X) (f : A -> B -> A) (l : list B) (a : A) :
  (forall a x, g (f a x) = g a) -> g (fold_left f l a) = g a.
Proof.
  intros Hf. apply (fold_left_inv (fun a' => g a' = g a)); auto.
  intros a' x _ H; rewrite Hf; auto.
Qed.

Lemma fold_left_rel {A B} (R : A -> A -> Prop) (f : A -> B -> A) (l : list B) (a : A) :
  (forall a, R a a) -> (forall a b c, R a b -> R b c -> R a c) -> (forall a x, R a (f a x)) ->
  R a (fold_left f l a).
Proof.
  intros Hrefl Htrans Hf. apply (fold_left_inv (R a)); [|apply Hrefl].
  intros b x _ Hb. eapply Htrans; [exact Hb|apply Hf].
Qed.

Lemma nth_upd_nth_proj {A X} (g : A -> X) k f (l : list A) d id :
  (forall a, g (f a) = g a) -> g (nth id (upd_nth k f l) d) = g (nth id l d).
Proof.
  intros Hg; revert k id; induction l as [|x l IH]; intros [|k] [|id]; simpl; auto.
Qed.

Lemma nth_upd_nth_other {A} k f (l : list A) d id :
  k <> id -> nth id (upd_nth k f l) d = nth id l d.
Proof.
  revert k id; induction l as [|x l IH]; intros [|k] [|id] H; simpl; auto; congruence.
Qed.

Lemma nth_upd_nth_same {A} k f (l : list A) d :
  k < length l -> nth k (upd_nth k f l) d = f (nth k l d).
Proof.
  revert k; induction l as [|x l IH]; intros [|k] H; simpl in *; auto; try lia.
  apply IH; lia.
Qed.

Lemma upd_nth_oob {A} k f (l : list A) : length l <= k -> upd_nth k f l = l.
Proof.
  revert k; induction l as [|x l IH]; intros [|k] H; simpl in *; auto; try lia.
  f_equal; apply IH; lia.
Qed.

Lemma Forall_upd_nth {A} (P : A -> Prop) k f (l : list A) :
  (forall a, P a -> P (f a)) -> Forall P l -> Forall P (upd_nth k f l).
Proof.
  intros Hf; revert k; induction l as [|x l IH]; intros [|k] H; simpl; auto;
    inversion H; subst; constructor; auto.
Qed.

Lemma Forall_upd_nth_at {A} (P : A -> Prop) k f (l : list A) d :
  (k < length l -> P (f (nth k l d))) -> Forall P l -> Forall P (upd_nth k f l).
Proof.
  revert k. induction l as [|x l IH]; intros [|k] Hk HF; simpl; auto; inversion HF; subst; constructor; auto.
  - apply Hk. simpl. lia.
  - apply IH; auto. intros Hlt. apply Hk. simpl. lia.
Qed.

Lemma filter_length_le {A} (p : A -> bool) l : length (filter p l) <= length l.
Proof. induction l as [|x l IH]; simpl; auto. destruct (p x); simpl; lia. Qed.

Lemma pair_eq_inv {A B} (a c : A) (b d : B) : (a, b) = (c, d) -> a = c /\ b = d.
Proof. intros H; inversion H; auto. Qed.

Section MddStruct.
  Context {St : Type}.
  Variable st_eqb : St -> St -> bool.
  Variable inp : @cinput St.

  Notation mddT := (@mdd St).
  Notation nodeT := (@node St).
  Notation gnode := (get_node inp).
  Notation pb := (ci_problem inp).
  Notation rlx := (ci_relax inp).
  Notation state_of m id := (n_state (gnode m id)).

  Lemma get_node_upd_node_proj {X} (g : nodeT -> X) (m : mddT) k f id :
    (forall n, g (f n) = g n) -> g (gnode (upd_node m k f) id) = g (gnode m id).
  Proof. intros H. unfold get_node, upd_node, with_nodes; simpl. apply nth_upd_nth_proj; auto. Qed.

  (* ---------------------------------------------------------------- the growth relation
     Everything that happens between two layer pushes only makes the diagram grow:
     layers / depth / layer_end are untouched, node states are immutable, nodes, edges, the next
     layer and the log are only appended to. *)
  Record ext (m m' : mddT) : Prop := {
    ext_layers : m_layers m' = m_layers m;
    ext_depth : m_curr_depth m' = m_curr_depth m;
    ext_lend : m_layer_end m' = m_layer_end m;
    ext_polls : m_polls m' = m_polls m;
    ext_nodes : length (m_nodes m) <= length (m_nodes m');
    ext_state : forall id, id < length (m_nodes m) -> n_state (gnode m' id) = n_state (gnode m id);
    ext_edges : exists k, m_edges m' = m_edges m ++ k;
    ext_next : exists k, m_next m' = m_next m ++ k;
    ext_log : exists k, m_log m' = k ++ m_log m }.

  Lemma ext_refl m : ext m m.
  Proof.
    constructor; auto; try (exists []; rewrite ?app_nil_r; reflexivity).
  Qed.

  Lemma ext_trans m1 m2 m3 : ext m1 m2 -> ext m2 m3 -> ext m1 m3.
  Proof.
    intros [L1 D1 E1 P1 N1 S1 [ke1 Ed1] [kn1 Nx1] [kl1 Lg1]] [L2 D2 E2 P2 N2 S2 [ke2 Ed2] [kn2 Nx2] [kl2 Lg2]].
    constructor; try congruence; try lia.
    - intros id Hid. rewrite S2 by lia. apply S1; auto.
    - exists (ke1 ++ ke2). rewrite Ed2, Ed1, app_assoc; reflexivity.
    - exists (kn1 ++ kn2). rewrite Nx2, Nx1, app_assoc; reflexivity.
    - exists (kl2 ++ kl1). rewrite Lg2, Lg1, app_assoc; reflexivity.
  Qed.

  Lemma ext_fold_left {B} (f : mddT -> B -> mddT) l m :
    (forall a x, ext a (f a x)) -> ext m (fold_left f l m).
  Proof.
    intros H. apply (fold_left_inv (fun a => ext m a)); [|apply ext_refl].
    intros a x _ Ha. eapply ext_trans; eauto.
  Qed.

  Ltac ext_triv :=
    constructor; simpl; auto; try (exists []; rewrite ?app_nil_r; reflexivity).

  Lemma ext_upd_node m k f : (forall n, n_state (f n) = n_state n) -> ext m (upd_node m k f).
  Proof.
    intros H. ext_triv.
    - rewrite upd_nth_length; auto.
    - intros id _. apply (get_node_upd_node_proj (@n_state St)); auto.
  Qed.

  Lemma ext_r_upd_node m a k f :
    ext m a -> (forall n, n_state (f n) = n_state n) -> ext m (upd_node a k f).
  Proof. intros H1 H2. eapply ext_trans; [exact H1|apply ext_upd_node; auto]. Qed.
  Lemma ext_r_fold {B} (f : mddT -> B -> mddT) l m a :
    ext m a -> (forall a x, ext a (f a x)) -> ext m (fold_left f l a).
  Proof. intros H1 H2. eapply ext_trans; [exact H1|apply ext_fold_left; auto]. Qed.

  Lemma ext_add_log m e : ext m (add_log m e).
  Proof. ext_triv. exists [e]; reflexivity. Qed.
  Lemma ext_set_crash m : ext m (set_crash m).
  Proof. ext_triv. Qed.

  Lemma ext_append_edge m e : ext m (append_edge inp m e).
  Proof.
    ext_triv.
    - rewrite upd_nth_length; auto.
    - intros id _. unfold get_node; simpl. apply (nth_upd_nth_proj (@n_state St)); auto.
    - exists [e]; reflexivity.
  Qed.

  Lemma ext_with_nodes_app m n : ext m (with_nodes m (m_nodes m ++ [n])).
  Proof.
    ext_triv.
    - rewrite app_length; lia.
    - intros id Hid. unfold get_node; simpl. rewrite app_nth1; auto.
  Qed.

  Lemma ext_with_next_app m k : ext m (with_next m (m_next m ++ k)).
  Proof. ext_triv. exists k; reflexivity. Qed.

  Lemma ext_branch_on m id d : ext m (branch_on st_eqb inp m id d).
  Proof.
    unfold branch_on.
    match goal with |- context [find_next ?a ?b ?c ?d] => destruct (find_next a b c d) end.
    - eapply ext_trans; [apply ext_add_log|]. eapply ext_trans; [apply ext_add_log|]. apply ext_append_edge.
    - eapply ext_trans; [apply ext_add_log|]. eapply ext_trans; [apply ext_add_log|].
      eapply ext_trans; [apply ext_with_nodes_app|].
      eapply ext_trans; [apply ext_append_edge|].
      apply (ext_with_next_app _ [_]).
  Qed.

  Inductive evkind := KNextVar | KDomain | KTransition | KCost | KMerge | KRelax | KCacheGet | KCacheUpd | KDomQuery.
  Definition kind_of (ev : event St) : evkind :=
    match ev with
    | EvNextVar _ _ _ => KNextVar | EvDomain _ _ => KDomain | EvTransition _ _ _ => KTransition
    | EvCost _ _ _ _ => KCost | EvMerge _ _ => KMerge | EvRelax _ _ _ _ _ _ => KRelax
    | EvCacheGet _ _ => KCacheGet | EvCacheUpd _ _ _ _ => KCacheUpd | EvDomQuery _ _ _ _ _ => KDomQuery
    end.

  Definition logext (P : event St -> Prop) (m m' : mddT) : Prop :=
    exists k, m_log m' = k ++ m_log m /\ Forall P k.

  Lemma logext_same P (m m' : mddT) : m_log m' = m_log m -> logext P m m'.
  Proof. intros H. exists []. split; auto. Qed.
  Lemma logext_refl P m : logext P m m.
  Proof. apply logext_same; reflexivity. Qed.
  Lemma logext_trans P m1 m2 m3 : logext P m1 m2 -> logext P m2 m3 -> logext P m1 m3.
  Proof.
    intros [k1 [E1 F1]] [k2 [E2 F2]]. exists (k2 ++ k1). split.
    - rewrite E2, E1, app_assoc; reflexivity.
    - apply Forall_app; auto.
  Qed.
  Lemma logext_weaken (P Q : event St -> Prop) m m' :
    (forall ev, P ev -> Q ev) -> logext P m m' -> logext Q m m'.
  Proof.
    intros H [k [E F]]. exists k. split; auto. eapply Forall_impl; eauto.
  Qed.
  Lemma logext_add_log (P : event St -> Prop) m e : P e -> logext P m (add_log m e).
  Proof. intros H. exists [e]. split; auto. Qed.
  Lemma logext_fold {B} P (f : mddT -> B -> mddT) l m a :
    logext P m a -> (forall a x, logext P a (f a x)) -> logext P m (fold_left f l a).
  Proof.
    intros H1 H2. apply (fold_left_inv (fun a => logext P m a)); auto.
    intros b x _ Hb. eapply logext_trans; eauto.
  Qed.
  Lemma logext_r_upd_node P m a k f : logext P m a -> logext P m (upd_node a k f).
  Proof. intros H. eapply logext_trans; [exact H|apply logext_same; reflexivity]. Qed.

  Definition kind_in (ks : list evkind) (ev : event St) : Prop := In (kind_of ev) ks.
  Lemma kind_in_incl ks ks' ev : incl ks ks' -> kind_in ks ev -> kind_in ks' ev.
  Proof. unfold kind_in. auto. Qed.

  (* ================================================================ (4) identifier well-formedness *)
  Definition ids_ok (n : nat) (l : list nat) : Prop := Forall (fun id => id < n) l.
  Definition oid_ok (n : nat) (o : option nat) : Prop := match o with Some id => id < n | None => True end.
  Definition node_ok (ne : nat) (n : nodeT) : Prop := oid_ok ne (n_best n) /\ ids_ok ne (n_inb n).
  Definition edge_ok (nn : nat) (e : edge) : Prop := e_from e < nn /\ e_to e < nn.

  Lemma ids_ok_mono n n' l : n <= n' -> ids_ok n l -> ids_ok n' l.
  Proof. intros H F. eapply Forall_impl; [|exact F]. simpl; intros; lia. Qed.
  Lemma oid_ok_mono n n' o : n <= n' -> oid_ok n o -> oid_ok n' o.
  Proof. destruct o; simpl; intros; auto; lia. Qed.
  Lemma node_ok_mono n n' x : n <= n' -> node_ok n x -> node_ok n' x.
  Proof. intros H [A B]. split; [eapply oid_ok_mono|eapply ids_ok_mono]; eauto. Qed.
  Lemma edge_ok_mono n n' e : n <= n' -> edge_ok n e -> edge_ok n' e.
  Proof. unfold edge_ok; intros; lia. Qed.
  Lemma ids_ok_incl n l l' : incl l' l -> ids_ok n l -> ids_ok n l'.
  Proof. unfold ids_ok. rewrite !Forall_forall. auto. Qed.
  Lemma ids_ok_In n l id : ids_ok n l -> In id l -> id < n.
  Proof. unfold ids_ok. rewrite Forall_forall. auto. Qed.
  Lemma ids_ok_app n l l' : ids_ok n l -> ids_ok n l' -> ids_ok n (l ++ l').
  Proof. intros; apply Forall_app; auto. Qed.

  (* every identifier stored anywhere in the diagram is in range; moreover the next layer has no
     duplicates and the inbound lists agree with the edge table *)
  Record wf (m : mddT) : Prop := {
    wf_next : ids_ok (length (m_nodes m)) (m_next m);
    wf_next_nodup : NoDup (m_next m);
    wf_layers : Forall (ids_ok (length (m_nodes m))) (m_layers m);
    wf_cutset : ids_ok (length (m_nodes m)) (m_cutset m);
    wf_best : oid_ok (length (m_nodes m)) (m_best m);
    wf_best_exact : oid_ok (length (m_nodes m)) (m_best_exact m);
    wf_nodes : Forall (node_ok (length (m_edges m))) (m_nodes m);
    wf_edges : Forall (edge_ok (length (m_nodes m))) (m_edges m);
    wf_inb_to : forall id eid, id < length (m_nodes m) -> In eid (n_inb (gnode m id)) ->
                               e_to (get_edge m eid) = id }.

  Lemma wf_frame m m' :
    m_nodes m' = m_nodes m -> m_edges m' = m_edges m -> m_next m' = m_next m ->
    m_layers m' = m_layers m -> m_cutset m' = m_cutset m -> m_best m' = m_best m ->
    m_best_exact m' = m_best_exact m -> wf m -> wf m'.
  Proof.
    intros Hn He Hx Hl Hc Hb Hbe [W1 W2 W3 W4 W5 W6 W7 W8 W9].
    constructor; unfold get_node, get_edge in *; rewrite ?Hn, ?He, ?Hx, ?Hl, ?Hc, ?Hb, ?Hbe; auto.
  Qed.

  Lemma wf_add_log m e : wf m -> wf (add_log m e).
  Proof. apply wf_frame; reflexivity. Qed.
  Lemma wf_set_crash m : wf m -> wf (set_crash m).
  Proof. apply wf_frame; reflexivity. Qed.
  Lemma wf_with_lel_exact m l e : wf m -> wf (with_lel_exact m l e).
  Proof. apply wf_frame; reflexivity. Qed.
  Lemma wf_with_polls m p : wf m -> wf (with_polls m p).
  Proof. apply wf_frame; reflexivity. Qed.
  Lemma wf_with_depth m d : wf m -> wf (with_depth m d).
  Proof. apply wf_frame; reflexivity. Qed.

  Definition keeps_links (f : nodeT -> nodeT) : Prop :=
    forall n, n_best (f n) = n_best n /\ n_inb (f n) = n_inb n.
  Ltac links := let n := fresh "n" in intros n; split; reflexivity.

  Lemma wf_upd_node m k f : keeps_links f -> wf m -> wf (upd_node m k f).
  Proof.
    intros Hf [W1 W2 W3 W4 W5 W6 W7 W8 W9].
    constructor; simpl; rewrite ?upd_nth_length; auto.
    - apply Forall_upd_nth; auto. intros a [A B]. destruct (Hf a) as [E1 E2].
      split; [rewrite E1|rewrite E2]; auto.
    - intros id eid Hid Hin. apply W9; auto.
      rewrite <- (get_node_upd_node_proj (@n_inb St) m k f id); auto.
      intros n; apply Hf.
  Qed.

  Lemma wf_fold_upd_node {B} (l : list B) (key : mddT -> B -> nat) (g : mddT -> B -> nodeT -> nodeT) m :
    (forall a x, keeps_links (g a x)) -> wf m ->
    wf (fold_left (fun a x => upd_node a (key a x) (g a x)) l m).
  Proof. intros Hg. apply fold_left_inv. intros a x _ Ha. apply wf_upd_node; auto. Qed.

  (* ---------------------------------------------------------------- operations that only touch up
     Apart from _branch_on and _relax, what happens between two layer pushes creates neither nodes nor
     arcs and leaves every list of identifiers alone: it logs calls (all satisfying P), writes the cache,
     the dominance store, the crash and exactness marks, and node fields other than the state and the
     links.  Everything the other invariants need follows from this one description. *)
  Record touch (P : event St -> Prop) (m m' : mddT) : Prop := {
    t_log : logext P m m';
    t_len : length (m_nodes m') = length (m_nodes m);
    t_node : forall id, n_state (gnode m' id) = n_state (gnode m id) /\
                        n_best (gnode m' id) = n_best (gnode m id) /\ n_inb (gnode m' id) = n_inb (gnode m id);
    t_edges : m_edges m' = m_edges m;
    t_next : m_next m' = m_next m;
    t_layers : m_layers m' = m_layers m;
    t_lend : m_layer_end m' = m_layer_end m;
    t_depth : m_curr_depth m' = m_curr_depth m;
    t_polls : m_polls m' = m_polls m;
    t_cutset : m_cutset m' = m_cutset m;
    t_best : m_best m' = m_best m;
    t_best_exact : m_best_exact m' = m_best_exact m }.

  (* the nodes are not written at all; [k] is what is logged *)
  Lemma touch_logged P k m m' :
    m_log m' = k ++ m_log m -> Forall P k -> m_nodes m' = m_nodes m -> m_edges m' = m_edges m ->
    m_next m' = m_next m -> m_layers m' = m_layers m -> m_layer_end m' = m_layer_end m ->
    m_curr_depth m' = m_curr_depth m -> m_polls m' = m_polls m -> m_cutset m' = m_cutset m ->
    m_best m' = m_best m -> m_best_exact m' = m_best_exact m -> touch P m m'.
  Proof.
    intros Hk HP Hn. constructor; auto; [exists k; auto|rewrite Hn; reflexivity|].
    intros id. unfold get_node. rewrite Hn. auto.
  Qed.

  Lemma touch_refl P m : touch P m m.
  Proof. apply (touch_logged P []); auto. Qed.

  Lemma touch_trans P m1 m2 m3 : touch P m1 m2 -> touch P m2 m3 -> touch P m1 m3.
  Proof.
    intros [L1 N1 G1 E1 X1 Y1 D1 C1 Q1 U1 B1 A1] [L2 N2 G2 E2 X2 Y2 D2 C2 Q2 U2 B2 A2].
    constructor; try congruence; [eapply logext_trans; eauto|].
    intros id. destruct (G1 id) as [? [? ?]], (G2 id) as [? [? ?]]. repeat split; congruence.
  Qed.

  Lemma touch_weaken (P Q : event St -> Prop) m m' :
    (forall ev, P ev -> Q ev) -> touch P m m' -> touch Q m m'.
  Proof. intros H []. constructor; auto. eapply logext_weaken; eauto. Qed.

  Lemma touch_fold {B} P (f : mddT -> B -> mddT) l m :
    (forall a x, touch P a (f a x)) -> touch P m (fold_left f l m).
  Proof.
    intros H. apply (fold_left_inv (touch P m)); [|apply touch_refl].
    intros a x _ Ha. eapply touch_trans; eauto.
  Qed.

  Lemma touch_upd_node P m k f :
    (forall n, n_state (f n) = n_state n) -> keeps_links f -> touch P m (upd_node m k f).
  Proof.
    intros Hs Hl. constructor; try reflexivity; [apply logext_same; reflexivity|apply upd_nth_length|].
    intros id. split; [|split]; apply get_node_upd_node_proj; auto; intros n; apply Hl.
  Qed.

  Lemma touch_ext P m m' : touch P m m' -> ext m m'.
  Proof.
    intros [[k [L _]] N G E X]. constructor; auto; try (rewrite N; auto).
    - intros id _. apply G.
    - exists []. rewrite app_nil_r. exact E.
    - exists []. rewrite app_nil_r. exact X.
    - exists k. exact L.
  Qed.

  Lemma touch_wf P m m' : touch P m m' -> wf m -> wf m'.
  Proof.
    intros [_ N G E X Y _ _ _ U B A] [W1 W2 W3 W4 W5 W6 W7 W8 W9].
    constructor; rewrite ?N, ?E, ?X, ?Y, ?U, ?B, ?A; auto.
    - apply Forall_forall. intros x Hx.
      destruct (In_nth _ _ (gnode m' (length (m_nodes m'))) Hx) as [i [Hi <-]].
      rewrite N in Hi. destruct (G i) as [_ [Eb Ei]]. unfold get_node in *.
      rewrite (nth_indep _ _ (default_node (sp_state (ci_root inp)))) by (rewrite N; exact Hi).
      unfold node_ok. rewrite Eb, Ei.
      apply (proj1 (Forall_forall _ _) W7). apply nth_In. exact Hi.
    - intros id eid Hid Hin. unfold get_edge. rewrite E. apply W9; [exact Hid|].
      rewrite <- (proj2 (proj2 (G id))). exact Hin.
  Qed.

  (* [sub l' l]: l' keeps some elements of l (used for the retain-style filters) *)
  Definition sub (l' l : list nat) : Prop := incl l' l /\ (NoDup l -> NoDup l').

  Lemma sub_refl l : sub l l.
  Proof. split; [apply incl_refl|auto]. Qed.
  Lemma sub_trans l1 l2 l3 : sub l1 l2 -> sub l2 l3 -> sub l1 l3.
  Proof. intros [A B] [C D]. split; [eapply incl_tran; eauto|auto]. Qed.
  Lemma sub_skip x l' l : sub l' l -> sub l' (x :: l).
  Proof.
    intros [A B]. split; [apply incl_tl; auto|]. intros H; inversion H; auto.
  Qed.
  Lemma sub_keep x l' l : sub l' l -> sub (x :: l') (x :: l).
  Proof.
    intros [A B]. split.
    - intros y [->|Hy]; [left; auto|right; auto].
    - intros H; inversion H; subst. constructor; auto.
  Qed.

  Lemma insert_by_NoDup cmp (x : nat) l : NoDup l -> ~ In x l -> NoDup (insert_by cmp x l).
  Proof.
    induction l as [|y l IH]; simpl; intros Hn Hx.
    - constructor; auto.
    - destruct (is_gt _).
      + inversion Hn; subst. constructor.
        * rewrite insert_by_In. intros [->|H]; [apply Hx; left; auto|auto].
        * apply IH; auto.
      + constructor; auto.
  Qed.

  Lemma sub_sort_by cmp l : sub (sort_by cmp l) l.
  Proof.
    split.
    - intros y Hy. apply sort_by_In in Hy. exact Hy.
    - induction l as [|x l IH]; simpl; intros H; [constructor|].
      inversion H; subst. apply insert_by_NoDup; auto. rewrite sort_by_In. auto.
  Qed.

  Lemma NoDup_app_inv {A} (a b : list A) :
    NoDup (a ++ b) -> NoDup a /\ NoDup b /\ (forall x, In x a -> ~ In x b).
  Proof.
    induction a as [|y a IH]; simpl; intros H.
    - split; [constructor|split; auto].
    - inversion H; subst. destruct (IH H3) as [Ha [Hb Hd]]. split; [|split; auto].
      + constructor; auto. intros Hy. apply H2. apply in_or_app; left; exact Hy.
      + intros x [->|Hx]; [|apply Hd; exact Hx].
        intros Hxb. apply H2. apply in_or_app; right; exact Hxb.
  Qed.

  Lemma sub_firstn n (l : list nat) : sub (firstn n l) l.
  Proof.
    split.
    - intros y Hy. rewrite <- (firstn_skipn n l). apply in_or_app; left; exact Hy.
    - intros H. rewrite <- (firstn_skipn n l) in H. apply NoDup_app_inv in H. tauto.
  Qed.

  Lemma sub_skipn n (l : list nat) : sub (skipn n l) l.
  Proof.
    split.
    - intros y Hy. rewrite <- (firstn_skipn n l). apply in_or_app; right; exact Hy.
    - intros H. rewrite <- (firstn_skipn n l) in H. apply NoDup_app_inv in H. tauto.
  Qed.

  Lemma sub_filter p (l : list nat) : sub (filter p l) l.
  Proof. split; [apply incl_filter|apply NoDup_filter]. Qed.

  (* for an operation that logs one event and otherwise writes the cache, the dominance store or the
     crash mark only *)
  Ltac logs_one := eapply (touch_logged _ [_]); try reflexivity; repeat constructor.

  Lemma touch_cache_get m s d m' r :
    cache_get st_eqb inp m s d = (m', r) -> touch (kind_in [KCacheGet]) m m'.
  Proof.
    unfold cache_get. destruct (ci_use_cache inp); [destruct (get_threshold _ _ _ _)|];
      intros H; inversion H; subst; logs_one.
  Qed.

  Lemma touch_cache_update m s d v e : touch (kind_in [KCacheUpd]) m (cache_update st_eqb inp m s d v e).
  Proof.
    unfold cache_update. destruct (ci_use_cache inp); [destruct (update_threshold _ _ _ _ _ _)|]; logs_one.
  Qed.

  Lemma touch_dom_query m s d v m' r :
    dom_query inp m s d v = (m', r) -> touch (kind_in [KDomQuery]) m m'.
  Proof.
    unfold dom_query. destruct (ci_domrule inp) as [[[[key nd] coord] usev]|];
      [destruct (is_dominated_or_insert _ _ _ _ _ _ _ _ _) as [[st' r']|]|];
      intros H; inversion H; subst; logs_one.
  Qed.

  Lemma touch_filter_with_cache l : forall m m' l',
    filter_with_cache st_eqb inp m l = (m', l') ->
    touch (kind_in [KCacheGet]) m m' /\ sub l' l /\ length l' <= length l.
  Proof.
    induction l as [|id l IH]; simpl; intros m m' l' H.
    - inversion H; subst. split; [apply touch_refl|split; [apply sub_refl|auto]].
    - destruct (cache_get _ _ _ _ _) as [m1 th] eqn:Hc. apply touch_cache_get in Hc.
      destruct th as [t|]; [destruct (_ >? _)%Z|].
      2:{ destruct (IH _ _ _ H) as [T [S L]]. split; [|split; [apply sub_skip; exact S|lia]].
          eapply touch_trans; [exact Hc|]. eapply touch_trans; [|exact T].
          apply touch_upd_node; [reflexivity|links]. }
      all: destruct (filter_with_cache _ _ m1 l) as [m2 r] eqn:Hf; inversion H; subst;
        destruct (IH _ _ _ Hf) as [T [S L]];
        (split; [eapply touch_trans; eauto|split; [apply sub_keep; exact S|simpl; lia]]).
  Qed.

  Lemma touch_dom_retain l : forall m m' l',
    dom_retain inp m l = (m', l') -> touch (kind_in [KDomQuery]) m m' /\ sub l' l /\ length l' <= length l.
  Proof.
    induction l as [|id l IH]; simpl; intros m m' l' H.
    - inversion H; subst. split; [apply touch_refl|split; [apply sub_refl|auto]].
    - destruct (fl_is_exact _).
      + destruct (dom_query _ _ _ _ _) as [m1 r] eqn:Hq. apply touch_dom_query in Hq.
        destruct (dc_dominated r).
        * destruct (IH _ _ _ H) as [T [S L]]. split; [|split; [apply sub_skip; exact S|lia]].
          eapply touch_trans; [exact Hq|]. eapply touch_trans; [|exact T].
          apply touch_upd_node; [reflexivity|links].
        * destruct (dom_retain _ m1 l) as [m2 k] eqn:Hf. inversion H; subst.
          destruct (IH _ _ _ Hf) as [T [S L]].
          split; [eapply touch_trans; eauto|split; [apply sub_keep; exact S|simpl; lia]].
      + destruct (dom_retain _ m l) as [m2 k] eqn:Hf. inversion H; subst.
        destruct (IH _ _ _ Hf) as [T [S L]]. split; [exact T|split; [apply sub_keep; exact S|simpl; lia]].
  Qed.

  Lemma touch_filter_with_dominance m l m' l' :
    filter_with_dominance inp m l = (m', l') ->
    touch (kind_in [KDomQuery]) m m' /\ sub l' l /\ length l' <= length l.
  Proof.
    unfold filter_with_dominance. intros H. destruct (touch_dom_retain _ _ _ _ H) as [T [S L]].
    rewrite sort_by_length in L. split; [exact T|split; [|exact L]].
    eapply sub_trans; [exact S|apply sub_sort_by].
  Qed.

  (* the stages of _move_to_next_layer before the squash: cache filter (skipped for the first layer),
     dominance filter *)
  Definition prefilter (m : mddT) (curr : list nat) : mddT * list nat :=
    if Nat.ltb 0 (length (m_layers m)) then filter_with_cache st_eqb inp m curr else (m, curr).

  Definition filter_kinds : list evkind := [KCacheGet; KDomQuery].

  Lemma touch_filters m curr m1 l1 m2 l2 :
    prefilter m curr = (m1, l1) -> filter_with_dominance inp m1 l1 = (m2, l2) ->
    touch (kind_in filter_kinds) m m2 /\ sub l2 curr /\ length l2 <= length curr.
  Proof.
    intros H1 H2.
    assert (T1 : touch (kind_in [KCacheGet]) m m1 /\ sub l1 curr /\ length l1 <= length curr).
    { unfold prefilter in H1. destruct (_ <? _); [apply touch_filter_with_cache; exact H1|].
      inversion H1; subst. split; [apply touch_refl|split; [apply sub_refl|auto]]. }
    destruct T1 as [T1 [S1 L1]]. destruct (touch_filter_with_dominance _ _ _ _ H2) as [T2 [S2 L2]].
    split; [|split; [eapply sub_trans; eauto|lia]].
    eapply touch_trans; (eapply touch_weaken; [|eassumption]); intros ev; apply kind_in_incl;
      intros x [<-|[]]; simpl; auto.
  Qed.

  Lemma touch_note_squash P m : touch P m (note_squash inp m).
  Proof.
    unfold note_squash. destruct (is_pooled _); [|destruct (m_lel m)]; apply (touch_logged P []); auto.
  Qed.

  Lemma touch_mark_deleted P (m : mddT) ids : touch P m (mark_deleted m ids).
  Proof. apply touch_fold. intros a x. apply touch_upd_node; [reflexivity|links]. Qed.

  Lemma touch_restrict_layer P m l m' l' :
    restrict_layer inp m l = (m', l') -> touch P m m' /\ sub l' l /\ length l' <= ci_width inp.
  Proof.
    unfold restrict_layer. intros H; inversion H; subst.
    split; [eapply touch_trans; [apply touch_note_squash|apply touch_mark_deleted]|].
    split; [eapply sub_trans; [apply sub_firstn|apply sub_sort_by]|apply firstn_le_length].
  Qed.

  Lemma ext_note_squash m : ext m (note_squash inp m).
  Proof. apply (touch_ext (fun _ => True)), touch_note_squash. Qed.

  Lemma ext_mark_deleted m ids : ext m (mark_deleted m ids).
  Proof. apply (touch_ext (fun _ => True)), touch_mark_deleted. Qed.

  Lemma ext_filter_with_dominance m l m' l' :
    filter_with_dominance inp m l = (m', l') -> ext m m'.
  Proof. intros H. eapply touch_ext, touch_filter_with_dominance, H. Qed.

  Lemma note_squash_log m : m_log (note_squash inp m) = m_log m.
  Proof. unfold note_squash. destruct (is_pooled _); [reflexivity|]. destruct (m_lel m); reflexivity. Qed.
  Lemma note_squash_nodes m : m_nodes (note_squash inp m) = m_nodes m.
  Proof. unfold note_squash. destruct (is_pooled _); [reflexivity|]. destruct (m_lel m); reflexivity. Qed.
  Lemma note_squash_edges m : m_edges (note_squash inp m) = m_edges m.
  Proof. unfold note_squash. destruct (is_pooled _); [reflexivity|]. destruct (m_lel m); reflexivity. Qed.
  Lemma note_squash_gnode m id : gnode (note_squash inp m) id = gnode m id.
  Proof. unfold get_node. rewrite note_squash_nodes. reflexivity. Qed.

  Lemma note_squash_next m : m_next (note_squash inp m) = m_next m.
  Proof. unfold note_squash. destruct (is_pooled _); [reflexivity|]. destruct (m_lel m); reflexivity. Qed.

  Definition merged_ids (m : mddT) (l : list nat) : list nat :=
    skipn (ci_width inp - 1) (sort_by (rank_order inp (note_squash inp m)) l).
  Definition merged_states (m : mddT) (l : list nat) : list St :=
    map (fun id => state_of m id) (merged_ids m l).

  Lemma sort_by_ext {A} (c1 c2 : A -> A -> comparison) l :
    (forall a b, c1 a b = c2 a b) -> sort_by c1 l = sort_by c2 l.
  Proof.
    intros H. induction l as [|x l IH]; simpl; [reflexivity|]. rewrite IH.
    generalize (sort_by c2 l). intros k. induction k as [|y k IHk]; simpl; [reflexivity|].
    rewrite H, IHk. reflexivity.
  Qed.

  (* the merged nodes are those beyond position max_width - 1 in the rank order of the layer *)
  Lemma merged_ids_eq m l :
    merged_ids m l = skipn (ci_width inp - 1) (sort_by (rank_order inp m) l).
  Proof.
    unfold merged_ids. f_equal. apply sort_by_ext. intros a b.
    unfold rank_order. rewrite !note_squash_gnode. reflexivity.
  Qed.

  Lemma merged_ids_incl m l : incl (merged_ids m l) l.
  Proof.
    unfold merged_ids. eapply incl_tran; [apply (proj1 (sub_skipn _ _))|apply (proj1 (sub_sort_by _ _))].
  Qed.

  Definition redirect_step (merged : St) (mid : nat) (m : mddT) (eid : nat) : mddT :=
    let e := get_edge m eid in
    let src := state_of m (e_from e) in
    let dst := state_of m (e_to e) in
    let rcost := relax rlx src dst merged (e_dec e) (e_cost e) in
    append_edge inp (add_log m (EvRelax src dst merged (e_dec e) (e_cost e) rcost))
      {| e_from := e_from e; e_to := mid; e_dec := e_dec e; e_cost := rcost |}.

  Lemma redirect_edges_fold m merged mid did :
    redirect_edges inp m merged mid did = fold_left (redirect_step merged mid) (n_inb (gnode m did)) m.
  Proof. reflexivity. Qed.

  Definition drop_step (merged : St) (mid : nat) (m : mddT) (drop_id : nat) : mddT :=
    redirect_edges inp (upd_node m drop_id (fun n => set_flags n (fl_set_deleted (n_flags n) true)))
      merged mid drop_id.

  Definition merged_node (merged : St) (depth : nat) : nodeT :=
    {| n_state := merged; n_vtop := IMIN; n_vbot := IMIN; n_best := None; n_inb := [];
       n_rub := IMAX; n_theta := None; n_flags := fl_new_relaxed; n_depth := depth |}.
  Definition set_relaxed_flag (n : nodeT) : nodeT := set_flags n (fl_set_relaxed (n_flags n) true).
  Definition clear_deleted_flag (n : nodeT) : nodeT := set_flags n (fl_set_deleted (n_flags n) false).

  Lemma relax_layer_unfold m l w1 :
    ci_width inp = S w1 ->
    relax_layer st_eqb inp m l =
    let m0 := note_squash inp m in
    let sorted := sort_by (rank_order inp m0) l in
    let keep := firstn w1 sorted in
    let mrg := skipn w1 sorted in
    let mstates := map (fun id => state_of m0 id) mrg in
    let merged := merge rlx mstates in
    let m1 := add_log m0 (EvMerge mstates merged) in
    match find (fun id => st_eqb (state_of m1 id) merged) keep with
    | Some rid =>
        let m2 := upd_node m1 rid set_relaxed_flag in
        let m3 := fold_left (drop_step merged rid) mrg m2 in
        (upd_node m3 (nth w1 sorted 0) clear_deleted_flag, firstn (S w1) sorted)
    | None =>
        let mid := length (m_nodes m1) in
        let n := merged_node merged (n_depth (gnode m1 (hd 0 mrg))) in
        let m2 := upd_node (with_nodes m1 (m_nodes m1 ++ [n])) mid set_relaxed_flag in
        (fold_left (drop_step merged mid) mrg m2, keep ++ [mid])
    end.
  Proof.
    intros Hw. unfold relax_layer. rewrite Hw. cbv zeta.
    match goal with |- context [find ?f ?k] => destruct (find f k) end; reflexivity.
  Qed.

  Lemma ext_redirect_edges m merged mid did : ext m (redirect_edges inp m merged mid did).
  Proof.
    unfold redirect_edges. apply ext_fold_left. intros a x.
    eapply ext_trans; [apply ext_add_log|apply ext_append_edge].
  Qed.

  (* what _relax does for a width of at least 1, read in the diagram it is handed: the nodes beyond
     position max_width - 1 in the rank order ([merged_ids]) are merged, into a kept node that has the
     merged state if there is one, into a fresh node otherwise *)
  Lemma relax_layer_cases m l m' l' :
    1 <= ci_width inp -> relax_layer st_eqb inp m l = (m', l') ->
    let w1 := ci_width inp - 1 in
    let sorted := sort_by (rank_order inp m) l in
    let mrg := merged_ids m l in
    let merged := merge rlx (merged_states m l) in
    let m1 := add_log (note_squash inp m) (EvMerge (merged_states m l) merged) in
    (exists rid, In rid (firstn w1 sorted) /\
       m' = upd_node (fold_left (drop_step merged rid) mrg (upd_node m1 rid set_relaxed_flag))
                     (nth w1 sorted 0) clear_deleted_flag /\
       l' = firstn (S w1) sorted) \/
    (exists n, n_state n = merged /\ n_best n = None /\ n_inb n = [] /\
       let mid := length (m_nodes m) in
       m' = fold_left (drop_step merged mid) mrg
              (upd_node (with_nodes m1 (m_nodes m1 ++ [n])) mid set_relaxed_flag) /\
       l' = firstn w1 sorted ++ [mid]).
  Proof.
    intros Hw H. unfold merged_states. rewrite merged_ids_eq.
    destruct (ci_width inp) as [|w1] eqn:Hw1; [lia|]. simpl Nat.sub. rewrite Nat.sub_0_r.
    rewrite (relax_layer_unfold m l w1 Hw1) in H. cbv zeta in *.
    assert (Hs : sort_by (rank_order inp (note_squash inp m)) l = sort_by (rank_order inp m) l).
    { apply sort_by_ext. intros a b. unfold rank_order. rewrite !note_squash_gnode. reflexivity. }
    rewrite Hs in H.
    rewrite (map_ext (fun id => state_of (note_squash inp m) id) (fun id => state_of m id)) in H
      by (intros id; rewrite note_squash_gnode; reflexivity).
    destruct (find _ _) as [rid|] eqn:Hf; apply pair_eq_inv in H; destruct H as [<- <-].
    - left. exists rid. apply find_some in Hf. split; [apply Hf|auto].
    - right. eexists (merged_node _ _). split; [reflexivity|]. split; [reflexivity|]. split; [reflexivity|].
      simpl m_nodes. rewrite note_squash_nodes. auto.
  Qed.

  Lemma ext_drop_step merged mid a did : ext a (drop_step merged mid a did).
  Proof.
    unfold drop_step. eapply ext_trans; [|apply ext_redirect_edges]. apply ext_upd_node; reflexivity.
  Qed.

  Lemma ext_relax_layer m l m' l' : relax_layer st_eqb inp m l = (m', l') -> ext m m'.
  Proof.
    intros H. destruct (ci_width inp) as [|w1] eqn:Hw.
    { unfold relax_layer in H. rewrite Hw in H. inversion H; subst.
      eapply ext_trans; [apply ext_note_squash|apply ext_set_crash]. }
    assert (E1 : forall e, ext m (add_log (note_squash inp m) e)).
    { intros e. eapply ext_trans; [apply ext_note_squash|apply ext_add_log]. }
    destruct (relax_layer_cases m l m' l') as [[rid [_ [-> _]]]|[n [_ [_ [_ [-> _]]]]]]; [lia|exact H| |].
    - apply ext_r_upd_node; [|reflexivity]. apply ext_r_fold; [|apply ext_drop_step].
      apply ext_r_upd_node; [apply E1|reflexivity].
    - apply ext_r_fold; [|apply ext_drop_step]. apply ext_r_upd_node; [|reflexivity].
      eapply ext_trans; [apply E1|apply ext_with_nodes_app].
  Qed.

  Lemma ext_squash_if_needed m l m' l' : squash_if_needed st_eqb inp m l = (m', l') -> ext m m'.
  Proof.
    unfold squash_if_needed. destruct (ci_type inp).
    - intros H; inversion H; subst; apply ext_refl.
    - destruct (_ && _); [apply ext_relax_layer|intros H; inversion H; subst; apply ext_refl].
    - destruct (_ <? _); [|intros H; inversion H; subst; apply ext_refl].
      intros H. apply (touch_ext (fun _ => True)), (touch_restrict_layer _ _ _ _ _ H).
  Qed.

  Lemma ext_expand_node var m id : ext m (expand_node st_eqb inp var m id).
  Proof.
    unfold expand_node. destruct (_ >? _)%Z.
    - apply ext_r_fold; [|intros; apply ext_branch_on].
      eapply ext_trans; [|apply ext_add_log]. apply ext_upd_node; reflexivity.
    - apply ext_upd_node; reflexivity.
  Qed.

  (* ================================================================ (1) layers never empty *)
  Notation flv := (ci_flavour inp).

  Lemma push_layer_layers (m : mddT) ids e : m_layers (push_layer m ids e) = m_layers m ++ [ids].
  Proof. reflexivity. Qed.

  Lemma app_one_not_nil {A} (l : list A) x : l ++ [x] <> [].
  Proof. destruct l; discriminate. Qed.

  Lemma ext_fold_expand var l m : ext m (fold_left (expand_node st_eqb inp var) l m).
  Proof. apply ext_fold_left. intros; apply ext_expand_node. Qed.

  (* ---------------------------------------------------------------- fields that the expansion does not write
     [inert g]: g reads a part of the diagram that updates of nodes, arcs, next layer and log leave alone
     (the cache, the dominance store, the crash flag, the last exact layer ...).  Expanding a layer keeps
     such a g, and so does the squash if recording the last exact layer does not change g either. *)
  Definition inert {X} (g : mddT -> X) : Prop :=
    (forall m ns, g (with_nodes m ns) = g m) /\ (forall m ev, g (add_log m ev) = g m) /\
    (forall m nx, g (with_next m nx) = g m) /\ (forall m e, g (append_edge inp m e) = g m).

  Section Inert.
    Context {X : Type}.
    Variable g : mddT -> X.
    Hypothesis Hg : inert g.

    Lemma inert_upd_node m k f : g (upd_node m k f) = g m.
    Proof. apply Hg. Qed.

    Lemma inert_branch_on m id d : g (branch_on st_eqb inp m id d) = g m.
    Proof.
      destruct Hg as (G1 & G2 & G3 & G4). unfold branch_on. cbv zeta.
      destruct (find_next _ _ _ _); rewrite ?G3, G4, ?G1, !G2; reflexivity.
    Qed.

    Lemma inert_expand_node var m id : g (expand_node st_eqb inp var m id) = g m.
    Proof.
      unfold expand_node. cbv zeta. destruct (_ >? _)%Z; [|apply inert_upd_node].
      rewrite fold_left_proj by (intros; apply inert_branch_on).
      destruct Hg as (_ & G2 & _). rewrite G2. apply inert_upd_node.
    Qed.

    Lemma inert_fold_expand var l m : g (fold_left (expand_node st_eqb inp var) l m) = g m.
    Proof. apply fold_left_proj. intros. apply inert_expand_node. Qed.

    Lemma inert_drop_step merged mid m did : g (drop_step merged mid m did) = g m.
    Proof.
      unfold drop_step. rewrite redirect_edges_fold, fold_left_proj; [apply inert_upd_node|].
      intros a eid. destruct Hg as (_ & G2 & _ & G4). unfold redirect_step. rewrite G4. apply G2.
    Qed.

    Lemma inert_mark_deleted (m : mddT) ids : g (mark_deleted m ids) = g m.
    Proof. apply fold_left_proj. intros. apply inert_upd_node. Qed.

    Hypothesis Hlel : forall m l x, g (with_lel_exact m l x) = g m.

    Lemma inert_note_squash m : g (note_squash inp m) = g m.
    Proof. unfold note_squash. destruct (is_pooled _); [apply Hlel|]. destruct (m_lel m); [reflexivity|apply Hlel]. Qed.

    Lemma inert_squash_if_needed m l :
      1 <= ci_width inp -> g (fst (squash_if_needed st_eqb inp m l)) = g m.
    Proof.
      intros Hw. unfold squash_if_needed. destruct (ci_type inp); [reflexivity| |].
      - destruct (_ && _); [|reflexivity].
        destruct (relax_layer st_eqb inp m l) as [m' l'] eqn:H.
        destruct (relax_layer_cases m l m' l' Hw H) as [(rid & _ & -> & _)|(n & _ & _ & _ & -> & _)]; cbn [fst].
        + rewrite inert_upd_node, fold_left_proj by (intros; apply inert_drop_step). rewrite inert_upd_node.
          destruct Hg as (_ & G2 & _). rewrite G2. apply inert_note_squash.
        + rewrite fold_left_proj by (intros; apply inert_drop_step). rewrite inert_upd_node.
          destruct Hg as (G1 & G2 & _). rewrite G1, G2. apply inert_note_squash.
      - destruct (_ <? _); [|reflexivity]. unfold restrict_layer. cbn [fst].
        rewrite inert_mark_deleted. apply inert_note_squash.
    Qed.
  End Inert.

  Lemma inert_cache : inert (@m_cache St). Proof. repeat split. Qed.
  Lemma inert_dom : inert (@m_dom St).     Proof. repeat split. Qed.
  Lemma inert_lel : inert (@m_lel St).     Proof. repeat split. Qed.

  Lemma move_clean_unfold m :
    move_to_next_layer_clean st_eqb inp m =
    match m_next m with
    | [] => (push_layer (with_next m []) [] 0, None)
    | _ =>
      let '(m1, l1) := prefilter (with_next m []) (m_next m) in
      let '(m2, l2) := filter_with_dominance inp m1 l1 in
      let '(m3, l3) := squash_if_needed st_eqb inp m2 l2 in
      (push_layer m3 (seq (m_layer_end m3) (length (m_nodes m3) - m_layer_end m3)) (length (m_nodes m3)), Some l3)
    end.
  Proof. unfold move_to_next_layer_clean, prefilter. destruct (m_next m); reflexivity. Qed.

  (* the common tail of the two _move_to_next_layer: filters, then squash *)
  Lemma stages_layers m curr m1 l1 m2 l2 m3 l3 :
    prefilter m curr = (m1, l1) -> filter_with_dominance inp m1 l1 = (m2, l2) ->
    squash_if_needed st_eqb inp m2 l2 = (m3, l3) ->
    m_layers m2 = m_layers m /\ ext m m3 /\ length l2 <= length curr.
  Proof.
    intros H1 H2 H3. destruct (touch_filters _ _ _ _ _ _ H1 H2) as [T [_ L]].
    split; [apply (t_layers _ _ _ T)|split; [|exact L]].
    eapply ext_trans; [eapply touch_ext; exact T|eapply ext_squash_if_needed; exact H3].
  Qed.

  Lemma move_clean_layers m m' ol :
    move_to_next_layer_clean st_eqb inp m = (m', ol) -> exists ids, m_layers m' = m_layers m ++ [ids].
  Proof.
    rewrite move_clean_unfold. destruct (m_next m) as [|x nx] eqn:Hn.
    - intros H; inversion H; subst. eexists; reflexivity.
    - destruct (prefilter _ _) as [m1 l1] eqn:H1.
      destruct (filter_with_dominance _ _ _) as [m2 l2] eqn:H2.
      destruct (squash_if_needed _ _ _ _) as [m3 l3] eqn:H3.
      intros H; inversion H; subst.
      destruct (stages_layers _ _ _ _ _ _ _ _ H1 H2 H3) as [_ [E _]].
      eexists. rewrite push_layer_layers, (ext_layers _ _ E). reflexivity.
  Qed.

  Definition has_layer_or_next (m : mddT) : Prop := m_layers m <> [] \/ m_next m <> [].

  Lemma layer_loop_inv_clean :
    is_pooled flv = false ->
    forall fuel m m' e, has_layer_or_next m -> layer_loop st_eqb inp fuel m = (m', e) -> has_layer_or_next m'.
  Proof.
    intros Hp. induction fuel as [|fuel IH]; simpl; intros m m' e Hinv H.
    - inversion H; subst; auto.
    - destruct (next_variable _ _ _) as [var|].
      2:{ inversion H; subst. exact Hinv. }
      destruct (_ && _).
      { inversion H; subst. exact Hinv. }
      rewrite Hp in H.
      destruct (move_to_next_layer_clean _ _ _) as [m1 ol] eqn:Hmv.
      apply move_clean_layers in Hmv. destruct Hmv as [ids Hl].
      destruct ol as [l|].
      + eapply IH; [|exact H]. left. simpl.
        rewrite (ext_layers _ _ (ext_fold_expand var l m1)), Hl. apply app_one_not_nil.
      + inversion H; subst. left. rewrite Hl. apply app_one_not_nil.
  Qed.

  Lemma finalize_layers_nonempty m :
    is_pooled flv = true \/ has_layer_or_next m -> m_layers (finalize_layers inp m) <> [].
  Proof.
    unfold finalize_layers. destruct (is_pooled flv).
    - intros _. rewrite push_layer_layers. apply app_one_not_nil.
    - intros [H|[H|H]]; [discriminate| |].
      + destruct (m_next m); [exact H|]. rewrite push_layer_layers. apply app_one_not_nil.
      + destruct (m_next m); [congruence|]. rewrite push_layer_layers. apply app_one_not_nil.
  Qed.

  Lemma upd_node_layers (m : mddT) k f : m_layers (upd_node m k f) = m_layers m.
  Proof. reflexivity. Qed.

  (* ---------------------------------------------------------------- the tail of _finalize
     _finalize_cutset records the last exact layer if there was no squash, sets the cut-set and above flags
     and fills the cut-set; _compute_local_bounds marks nodes and writes their bottom-up values;
     _compute_thresholds writes thresholds and updates the cache.  Any preorder R that contains these
     elementary writes relates a diagram to the result, so a fact about the tail of _finalize is obtained by
     checking it on the writes: [touch P] and the equality of a projection ([fun a b => g b = g a]) are the
     instances taken below; MddExact, MddProgress, MddSim and PooledEq bring their own. *)
  Definition cut_mark (f : flags -> flags) : Prop :=
    f = (fun fl => fl_set_above fl true) \/ f = (fun fl => fl_set_cutset fl true) \/
    f = (fun fl => fl_set_above (fl_set_cutset fl true) true).

  Section FinalizeSteps.
    Variable R : mddT -> mddT -> Prop.
    Hypothesis R_refl : forall m, R m m.
    Hypothesis R_trans : forall a b c, R a b -> R b c -> R a c.

    Lemma finalize_cutset_steps :
      (forall m k f, cut_mark f -> R m (upd_node m k (fun n => set_flags n (f (n_flags n))))) ->
      (forall m cs, R m (with_cutset m cs)) -> (forall m l, R m (with_lel_exact m l (m_is_exact m))) ->
      forall m, R m (finalize_cutset inp m).
    Proof.
      intros Hu Hc Hl m.
      assert (Ha : forall a k, R a (upd_node a k (fun n => set_flags n (fl_set_above (n_flags n) true)))).
      { intros a k. apply (Hu a k (fun fl => fl_set_above fl true)). left; reflexivity. }
      assert (L : forall a lel, R a (lel_cutset a lel)).
      { intros a lel. unfold lel_cutset. eapply R_trans; [|apply (fold_left_rel R _ _ _ R_refl R_trans); intros; apply Ha].
        destruct (nth_error _ _); [|apply R_refl]. eapply R_trans; [|apply Hc].
        apply (fold_left_rel R _ _ _ R_refl R_trans). intros b id.
        apply (Hu b id (fun fl => fl_set_above (fl_set_cutset fl true) true)). right; right; reflexivity. }
      assert (F : forall a push, R a (frontier_cutset inp a push)).
      { intros a push. unfold frontier_cutset. apply (fold_left_rel R _ _ _ R_refl R_trans). intros b id. cbv zeta.
        destruct (fl_is_exact _); [apply Ha|]. apply (fold_left_rel R _ _ _ R_refl R_trans). intros c eid. cbv zeta.
        destruct (_ && _); [|apply R_refl].
        eapply R_trans; [|apply (Hu _ _ (fun fl => fl_set_cutset fl true)); right; left; reflexivity].
        destruct push; [apply Hc|apply R_refl]. }
      assert (H1 : R m (match m_lel m with
                        | None => with_lel_exact m (Some (length (m_layers m))) (m_is_exact m) | Some _ => m end))
        by (destruct (m_lel m); [apply R_refl|apply Hl]).
      unfold finalize_cutset. cbv zeta.
      destruct flv; destruct (_ || _); try exact H1; try apply R_refl; try apply F;
        (eapply R_trans; [exact H1|]); first [apply L|apply F].
    Qed.

    Lemma compute_local_bounds_steps :
      (forall m k v, R m (upd_node m k (fun n => set_vbot (set_flags n (fl_set_marked (n_flags n) true)) (v n)))) ->
      forall m, R m (compute_local_bounds inp m).
    Proof.
      intros Hu m. unfold compute_local_bounds. destruct (_ && _); [|apply R_refl].
      eapply R_trans; [|apply (fold_left_rel R _ _ _ R_refl R_trans); intros a id].
      - apply (fold_left_rel R _ _ _ R_refl R_trans). intros a id. apply (Hu a id (fun _ => 0%Z)).
      - destruct (f_marked _); [|apply R_refl].
        apply (fold_left_rel R _ _ _ R_refl R_trans). intros b eid. apply (Hu b _ (fun p => Z.max (n_vbot p) _)).
    Qed.

    Hypothesis R_theta : forall m k t, R m (upd_node m k (fun n => set_theta n (t n))).
    Hypothesis R_cache : forall m s d v e, R m (cache_update st_eqb inp m s d v e).

    Lemma maybe_update_cache_steps m id : R m (maybe_update_cache st_eqb inp m id).
    Proof.
      unfold maybe_update_cache. destruct (n_theta _); [destruct (f_above _)|]; try apply R_refl. apply R_cache.
    Qed.

    Lemma compute_thresholds_steps m : R m (compute_thresholds st_eqb inp m).
    Proof.
      unfold compute_thresholds. destruct (_ || _); [|apply R_refl].
      match goal with |- R _ (let '(a, b) := ?p in _) =>
        assert (T : R m (fst p)); [|destruct p as [m0 bk]] end.
      { destruct (m_best_exact m); [|apply R_refl]. apply (fold_left_rel R _ _ _ R_refl R_trans). intros a id.
        match goal with |- context [if ?c then _ else _] => destruct c end;
          [apply (R_theta a id (fun _ => Some _))|apply R_refl]. }
      eapply R_trans; [exact T|]. apply (fold_left_rel R _ _ _ R_refl R_trans). intros a id. cbv zeta.
      destruct (f_deleted _); [apply R_refl|].
      (* the threshold of [id], then those of its parents *)
      eapply R_trans;
        [|destruct (n_theta _); [|apply R_refl];
          apply (fold_left_rel R _ _ _ R_refl R_trans); intros b eid; apply (R_theta b _ (fun p => Some (Z.min _ _)))].
      destruct (negb _); [|apply R_refl].
      eapply R_trans; [|apply maybe_update_cache_steps].
      repeat match goal with |- context [if ?c then _ else _] => destruct c end;
        try apply R_refl; apply (R_theta a id (fun n => Some _)).
    Qed.
  End FinalizeSteps.

  Lemma finalize_cutset_proj {X} (g : mddT -> X) :
    (forall m k f, g (upd_node m k f) = g m) -> (forall m cs, g (with_cutset m cs) = g m) ->
    (forall m l, g (with_lel_exact m l (m_is_exact m)) = g m) -> forall m, g (finalize_cutset inp m) = g m.
  Proof.
    intros Hu Hc Hl. apply (finalize_cutset_steps (fun a b => g b = g a)); [reflexivity|congruence| |exact Hc|exact Hl].
    intros m k f _. apply Hu.
  Qed.

  Lemma finalize_cutset_layers m : m_layers (finalize_cutset inp m) = m_layers m.
  Proof. apply (finalize_cutset_proj (@m_layers St)); reflexivity. Qed.

  Lemma touch_compute_local_bounds P m : touch P m (compute_local_bounds inp m).
  Proof.
    apply compute_local_bounds_steps; [apply touch_refl|apply touch_trans|].
    intros a k v. apply touch_upd_node; [reflexivity|links].
  Qed.

  Lemma compute_local_bounds_layers m : m_layers (compute_local_bounds inp m) = m_layers m.
  Proof. apply (t_layers (fun _ => True)), touch_compute_local_bounds. Qed.

  (* the only calls made by _finalize are cache updates *)
  Lemma touch_compute_thresholds m :
    touch (kind_in [KCacheUpd]) m (compute_thresholds st_eqb inp m).
  Proof.
    apply compute_thresholds_steps; [apply touch_refl|apply touch_trans| |apply touch_cache_update].
    intros a k t. apply touch_upd_node; [reflexivity|links].
  Qed.

  Lemma finalize_layers_eq tb tb2 m :
    m_layers (finalize st_eqb inp tb tb2 m) = m_layers (finalize_layers inp m).
  Proof.
    unfold finalize.
    rewrite (t_layers _ _ _ (touch_compute_thresholds _)), compute_local_bounds_layers, finalize_cutset_layers.
    reflexivity.
  Qed.

  Lemma initialize_has_next c ds polls : has_layer_or_next (initialize inp c ds polls).
  Proof. right. simpl. discriminate. Qed.

  Theorem compile_layers_nonempty : forall tb tb2 c ds polls m,
    compile st_eqb inp tb tb2 c ds polls = (m, Compiled) -> m_layers m <> [].
  Proof.
    intros tb tb2 c ds polls m. unfold compile.
    destruct (layer_loop _ _ _ _) as [m1 e] eqn:Hl.
    destruct e; intros H; inversion H; subst.
    rewrite finalize_layers_eq. apply finalize_layers_nonempty.
    destruct (is_pooled flv) eqn:Hp; [left; reflexivity|right].
    eapply layer_loop_inv_clean; [exact Hp| |exact Hl]. apply initialize_has_next.
  Qed.

  Theorem as_graphviz_total : forall show tb tb2 c ds polls m cfg,
    compile st_eqb inp tb tb2 c ds polls = (m, Compiled) ->
    exists s, as_graphviz show inp m cfg = Some s.
  Proof.
    intros show tb tb2 c ds polls m cfg H. apply compile_layers_nonempty in H.
    unfold as_graphviz, viz_terminal.
    destruct (rev (m_layers m)) as [|lastl rest] eqn:Hr.
    - exfalso. apply H. rewrite <- (rev_involutive (m_layers m)), Hr. reflexivity.
    - destruct lastl; [eexists; reflexivity|].
      destruct (negb (is_pooled (ci_flavour inp)) && _); eexists; reflexivity.
  Qed.

  (* ================================================================ (2) the width bound (C13) *)
  Lemma relax_layer_length m l m' l' :
    1 <= ci_width inp -> relax_layer st_eqb inp m l = (m', l') -> length l' <= ci_width inp.
  Proof.
    unfold relax_layer. intros Hw. destruct (ci_width inp) as [|w1]; [lia|].
    destruct (find _ _); intros H; injection H as _ <-.
    - apply (firstn_le_length (S w1)).
    - rewrite app_length. simpl. pose proof (firstn_le_length w1 (sort_by (rank_order inp (note_squash inp m)) l)). lia.
  Qed.

  (* restricted: holds for every width, 0 included (the layer is truncated to nothing) *)
  Theorem squash_width_restricted m l m' l' :
    squash_if_needed st_eqb inp m l = (m', l') ->
    ci_type inp = Restricted -> length l' <= ci_width inp.
  Proof.
    unfold squash_if_needed. intros H Ht. rewrite Ht in H.
    destruct (ci_width inp <? length l) eqn:Hlt.
    - apply (touch_restrict_layer (fun _ => True) _ _ _ _ H).
    - inversion H; subst. apply Nat.ltb_ge in Hlt. exact Hlt.
  Qed.

  Theorem squash_width_relaxed m l m' l' :
    squash_if_needed st_eqb inp m l = (m', l') ->
    ci_type inp = Relaxed -> 1 < length (m_layers m) -> 1 <= ci_width inp -> length l' <= ci_width inp.
  Proof.
    unfold squash_if_needed. intros H Ht Hl Hw. rewrite Ht in H.
    destruct (ci_width inp <? length l) eqn:Hlt; simpl in H.
    - apply Nat.ltb_lt in Hl. rewrite Hl in H. eapply relax_layer_length; eauto.
    - inversion H; subst. apply Nat.ltb_ge in Hlt. exact Hlt.
  Qed.

  (* the hypothesis 1 <= ci_width is necessary: with width 0 the Rust `max_width - 1` underflows,
     the model records the crash and returns the layer unchanged *)
  Lemma squash_width_relaxed_zero m l :
    ci_type inp = Relaxed -> 1 < length (m_layers m) -> ci_width inp = 0 -> l <> [] ->
    squash_if_needed st_eqb inp m l = (set_crash (note_squash inp m), l).
  Proof.
    unfold squash_if_needed, relax_layer. intros Ht Hl Hw Hne. rewrite Ht, Hw.
    apply Nat.ltb_lt in Hl. rewrite Hl.
    destruct l; [congruence|]. reflexivity.
  Qed.

  Theorem squash_exact m l m' l' :
    squash_if_needed st_eqb inp m l = (m', l') -> ci_type inp = Exact -> l' = l /\ m' = m.
  Proof. unfold squash_if_needed. intros H Ht. rewrite Ht in H. inversion H; auto. Qed.

  (* in a relaxed compilation the layer is squashed only if it is too wide and at least two layers
     were recorded; otherwise it is returned as is (C13: the root layer and the first layer below
     it are exempted) *)
  Lemma squash_relaxed_first_layers m l :
    ci_type inp = Relaxed -> length (m_layers m) <= 1 -> squash_if_needed st_eqb inp m l = (m, l).
  Proof.
    unfold squash_if_needed. intros Ht Hl. rewrite Ht.
    apply Nat.ltb_ge in Hl. rewrite Hl, andb_false_r. reflexivity.
  Qed.

  Theorem move_clean_width_restricted m m' l :
    move_to_next_layer_clean st_eqb inp m = (m', Some l) ->
    ci_type inp = Restricted -> length l <= ci_width inp.
  Proof.
    rewrite move_clean_unfold. destruct (m_next m) as [|x nx]; [discriminate|].
    destruct (prefilter _ _) as [m1 l1] eqn:H1.
    destruct (filter_with_dominance _ _ _) as [m2 l2] eqn:H2.
    destruct (squash_if_needed _ _ _ _) as [m3 l3] eqn:H3.
    intros H Ht; inversion H; subst. eapply squash_width_restricted; eauto.
  Qed.

  Theorem move_clean_width_relaxed m m' l :
    move_to_next_layer_clean st_eqb inp m = (m', Some l) ->
    ci_type inp = Relaxed -> 1 < length (m_layers m) -> 1 <= ci_width inp -> length l <= ci_width inp.
  Proof.
    rewrite move_clean_unfold. destruct (m_next m) as [|x nx]; [discriminate|].
    destruct (prefilter _ _) as [m1 l1] eqn:H1.
    destruct (filter_with_dominance _ _ _) as [m2 l2] eqn:H2.
    destruct (squash_if_needed _ _ _ _) as [m3 l3] eqn:H3.
    intros H Ht Hl Hw; inversion H; subst.
    destruct (stages_layers _ _ _ _ _ _ _ _ H1 H2 H3) as [HL _].
    eapply squash_width_relaxed; eauto. rewrite HL. exact Hl.
  Qed.

  Theorem move_clean_exact_no_growth m m' l :
    move_to_next_layer_clean st_eqb inp m = (m', Some l) ->
    ci_type inp = Exact -> length l <= length (m_next m).
  Proof.
    rewrite move_clean_unfold. destruct (m_next m) as [|x nx] eqn:Hn; [discriminate|].
    destruct (prefilter _ _) as [m1 l1] eqn:H1.
    destruct (filter_with_dominance _ _ _) as [m2 l2] eqn:H2.
    destruct (squash_if_needed _ _ _ _) as [m3 l3] eqn:H3.
    intros H Ht; inversion H; subst.
    destruct (stages_layers _ _ _ _ _ _ _ _ H1 H2 H3) as [_ [_ HL]].
    destruct (squash_exact _ _ _ _ H3 Ht) as [-> _]. exact HL.
  Qed.

  Definition pooled_curr (m : mddT) (var : nat) : list nat :=
    filter (fun id => is_impacted_by pb var (n_state (gnode m id))) (m_next m).
  Definition pooled_start (m : mddT) (var : nat) : mddT :=
    let m1 := fold_left (fun a id => upd_node a id (fun n => set_depth n (m_curr_depth m))) (pooled_curr m var) m in
    with_next m1 (filter (fun id => negb (is_impacted_by pb var (n_state (gnode m1 id)))) (m_next m1)).

  Lemma move_pooled_unfold m var :
    move_to_next_layer_pooled st_eqb inp m var =
      let curr := pooled_curr m var in
      let '(m1, l1) := prefilter (pooled_start m var) curr in
      let '(m2, l2) := filter_with_dominance inp m1 l1 in
      let '(m3, l3) := squash_if_needed st_eqb inp m2 l2 in
      let curr' := if Nat.ltb (length (m_nodes m2)) (length (m_nodes m3)) then curr ++ [length (m_nodes m2)] else curr in
      (match curr' with [] => m3 | _ => push_layer m3 curr' 0 end, Some l3).
  Proof.
    unfold move_to_next_layer_pooled, prefilter, pooled_start, pooled_curr.
    reflexivity.
  Qed.

  (* the impacted nodes get the current depth, then leave the pool *)
  Lemma pooled_start_touch P m var : exists m1, touch P m m1 /\
    pooled_start m var =
    with_next m1 (filter (fun id => negb (is_impacted_by pb var (n_state (gnode m1 id)))) (m_next m1)).
  Proof.
    eexists. split; [|reflexivity]. apply touch_fold. intros a x. apply touch_upd_node; [reflexivity|links].
  Qed.

  Lemma pooled_start_layers m var : m_layers (pooled_start m var) = m_layers m.
  Proof. unfold pooled_start. simpl. apply fold_left_proj. intros; reflexivity. Qed.

  Theorem move_pooled_width_restricted m var m' l :
    move_to_next_layer_pooled st_eqb inp m var = (m', Some l) ->
    ci_type inp = Restricted -> length l <= ci_width inp.
  Proof.
    rewrite move_pooled_unfold. cbv zeta.
    destruct (prefilter _ _) as [m1 l1] eqn:H1.
    destruct (filter_with_dominance _ _ _) as [m2 l2] eqn:H2.
    destruct (squash_if_needed _ _ _ _) as [m3 l3] eqn:H3.
    intros H Ht; inversion H; subst. eapply squash_width_restricted; eauto.
  Qed.

  Theorem move_pooled_width_relaxed m var m' l :
    move_to_next_layer_pooled st_eqb inp m var = (m', Some l) ->
    ci_type inp = Relaxed -> 1 < length (m_layers m) -> 1 <= ci_width inp -> length l <= ci_width inp.
  Proof.
    rewrite move_pooled_unfold. cbv zeta.
    destruct (prefilter _ _) as [m1 l1] eqn:H1.
    destruct (filter_with_dominance _ _ _) as [m2 l2] eqn:H2.
    destruct (squash_if_needed _ _ _ _) as [m3 l3] eqn:H3.
    intros H Ht Hl Hw; inversion H; subst.
    destruct (stages_layers _ _ _ _ _ _ _ _ H1 H2 H3) as [HL _].
    eapply squash_width_relaxed; eauto. rewrite HL, pooled_start_layers. exact Hl.
  Qed.

  (* ================================================================ (3) the callback protocol (C12) *)

  Theorem branch_on_log m id d :
    let s := state_of m id in
    let s' := transition pb s d in
    m_log (branch_on st_eqb inp m id d)
    = EvCost s s' d (transition_cost pb s s' d) :: EvTransition s d s' :: m_log m.
  Proof.
    intros s s'. unfold branch_on. fold s. fold s'.
    match goal with |- context [find_next ?a ?b ?c ?d] => destruct (find_next a b c d) end; reflexivity.
  Qed.

  Lemma append_edge_edges m e : m_edges (append_edge inp m e) = m_edges m ++ [e].
  Proof. reflexivity. Qed.
  Lemma append_edge_state m e id : state_of (append_edge inp m e) id = state_of m id.
  Proof. unfold get_node; simpl. apply (nth_upd_nth_proj (@n_state St)); auto. Qed.
  Lemma append_edge_next m e : m_next (append_edge inp m e) = m_next m.
  Proof. reflexivity. Qed.
  Lemma append_edge_nodes_length m e : length (m_nodes (append_edge inp m e)) = length (m_nodes m).
  Proof. simpl. apply upd_nth_length. Qed.

  (* the edge appended by branch_on; the target was either found in the next layer by [st_eqb]
     or freshly created with the state returned by [transition] *)
  Theorem branch_on_edge m id d :
    let s := state_of m id in
    let s' := transition pb s d in
    let m' := branch_on st_eqb inp m id d in
    exists e, m_edges m' = m_edges m ++ [e] /\
      e_from e = id /\ e_dec e = d /\ e_cost e = transition_cost pb s s' d /\
      In (e_to e) (m_next m') /\
      (state_of m' (e_to e) = s' \/ st_eqb (state_of m' (e_to e)) s' = true).
  Proof.
    intros s s' m'. subst m'. unfold branch_on. fold s. fold s'.
    set (c := transition_cost pb s s' d).
    set (m2 := add_log (add_log m (EvTransition s d s')) (EvCost s s' d c)).
    destruct (find_next st_eqb inp m2 s') as [nid|] eqn:Hf.
    - exists {| e_from := id; e_to := nid; e_dec := d; e_cost := c |}.
      rewrite append_edge_edges, append_edge_next, append_edge_state. simpl.
      unfold find_next in Hf. apply find_some in Hf. destruct Hf as [Hin Heq].
      repeat split; auto.
    - exists {| e_from := id; e_to := length (m_nodes m2); e_dec := d; e_cost := c |}.
      simpl e_to. simpl e_from. simpl e_dec. simpl e_cost.
      repeat split; auto.
      + simpl. apply in_or_app; right; left; reflexivity.
      + left.
        match goal with |- n_state (get_node inp (with_next ?a ?b) ?i) = _ =>
          change (n_state (get_node inp a i) = s') end.
        rewrite append_edge_state. unfold get_node. simpl.
        rewrite app_nth2 by lia. rewrite Nat.sub_diag. reflexivity.
  Qed.

  Corollary branch_on_edge_sound m id d :
    (forall a b, st_eqb a b = true -> a = b) ->
    let s := state_of m id in
    let s' := transition pb s d in
    let m' := branch_on st_eqb inp m id d in
    exists e, m_edges m' = m_edges m ++ [e] /\
      e_from e = id /\ e_dec e = d /\ e_cost e = transition_cost pb s s' d /\ state_of m' (e_to e) = s'.
  Proof.
    intros Hs s s' m'. destruct (branch_on_edge m id d) as [e [H1 [H2 [H3 [H4 [_ H5]]]]]].
    exists e. repeat split; auto. destruct H5 as [H5|H5]; auto.
  Qed.

  Definition mkdec (var : nat) (val : Z) : decision := {| d_var := var; d_val := val |}.
  (* traces list the calls in call order; the log has the latest call first *)
  Definition branch_trace (s : St) (d : decision) : list (event St) :=
    let s' := transition pb s d in [EvTransition s d s'; EvCost s s' d (transition_cost pb s s' d)].
  Definition expand_trace (var : nat) (s : St) : list (event St) :=
    EvDomain var s :: flat_map (fun val => branch_trace s (mkdec var val)) (domain pb var s).

  Lemma fold_branch_log var id vals : forall m, id < length (m_nodes m) ->
    m_log (fold_left (fun m val => branch_on st_eqb inp m id (mkdec var val)) vals m)
    = rev (flat_map (fun val => branch_trace (state_of m id) (mkdec var val)) vals) ++ m_log m.
  Proof.
    induction vals as [|v vals IH]; simpl; intros m Hid; [reflexivity|].
    pose proof (ext_branch_on m id (mkdec var v)) as E.
    rewrite IH by (pose proof (ext_nodes _ _ E); lia).
    rewrite (ext_state _ _ E) by exact Hid.
    rewrite branch_on_log. rewrite <- !app_assoc. reflexivity.
  Qed.

  Definition expands (m : mddT) (id : nat) : bool :=
    (sat_add (fast_upper_bound rlx (state_of m id)) (n_vtop (gnode m id)) >? ci_best_lb inp)%Z.

  (* The hypothesis [id < length (m_nodes m)] is necessary (see the counterexample
     [expand_node_log_out_of_range_counterexample] at the end of this file); it is discharged for
     every node expanded by a compilation by [wf] (part 4), which is how [layer_loop_protocol] and
     [compile_protocol] are obtained without any side condition. *)
  Theorem expand_node_log var m id :
    id < length (m_nodes m) ->
    m_log (expand_node st_eqb inp var m id) =
    if expands m id then rev (expand_trace var (state_of m id)) ++ m_log m else m_log m.
  Proof.
    intros Hid. unfold expand_node, expands.
    set (s := state_of m id). set (rub := fast_upper_bound rlx s).
    set (m1 := upd_node m id (fun n => set_rub n rub)).
    assert (Hv : n_vtop (gnode m1 id) = n_vtop (gnode m id)).
    { apply (get_node_upd_node_proj (@n_vtop St)). reflexivity. }
    rewrite Hv. destruct (_ >? _)%Z; [|reflexivity].
    change (fun m0 val => branch_on st_eqb inp m0 id {| d_var := var; d_val := val |})
      with (fun m0 val => branch_on st_eqb inp m0 id (mkdec var val)).
    rewrite fold_branch_log.
    - assert (Hs : state_of (add_log m1 (EvDomain var s)) id = s).
      { apply (get_node_upd_node_proj (@n_state St)). reflexivity. }
      rewrite Hs. unfold expand_trace. simpl. rewrite <- app_assoc. reflexivity.
    - simpl. rewrite upd_nth_length. exact Hid.
  Qed.

  (* consequence in C12's words: every transition / transition_cost call made while expanding a
     node uses dst = transition src d with d = (var, val), val in the domain of var at src *)
  Lemma expand_trace_protocol var s ev :
    In ev (expand_trace var s) ->
    ev = EvDomain var s \/
    exists val, In val (domain pb var s) /\
      let d := mkdec var val in let s' := transition pb s d in
      (ev = EvTransition s d s' \/ ev = EvCost s s' d (transition_cost pb s s' d)).
  Proof.
    unfold expand_trace. intros [H|H]; [left; auto|right].
    apply in_flat_map in H. destruct H as [val [Hv Hin]].
    exists val. split; auto. simpl in Hin. intuition.
  Qed.

  (* restrict makes no call into user code *)
  Theorem restrict_layer_log m l m' l' : restrict_layer inp m l = (m', l') -> m_log m' = m_log m.
  Proof.
    intros H. destruct (touch_restrict_layer (fun _ => False) _ _ _ _ H) as [[[k [E F]]] _].
    destruct F as [|ev k []]. exact E.
  Qed.

  (* ---- relax: weak form (the strong form, which identifies the edges, needs wf and is below) *)
  Definition relax_event_with (merged : St) (ev : event St) : Prop :=
    exists src dst d c, ev = EvRelax src dst merged d c (relax rlx src dst merged d c).

  Lemma logext_redirect_edges m merged mid did :
    logext (relax_event_with merged) m (redirect_edges inp m merged mid did).
  Proof.
    unfold redirect_edges. apply logext_fold; [apply logext_refl|]. intros a eid.
    eapply logext_trans; [apply logext_add_log|apply logext_same; reflexivity].
    repeat eexists.
  Qed.

  Theorem relax_layer_log_weak m l m' l' :
    1 <= ci_width inp ->
    relax_layer st_eqb inp m l = (m', l') ->
    let mstates := merged_states m l in
    let merged := merge rlx mstates in
    exists evs, m_log m' = evs ++ EvMerge mstates merged :: m_log m /\
                Forall (relax_event_with merged) evs.
  Proof.
    intros Hw H mstates merged.
    set (m1 := add_log (note_squash inp m) (EvMerge mstates merged)).
    assert (Hfold : forall mid a, logext (relax_event_with merged) m1 a ->
      logext (relax_event_with merged) m1 (fold_left (drop_step merged mid) (merged_ids m l) a)).
    { intros mid a Ha. apply logext_fold; auto. intros b x. unfold drop_step.
      eapply logext_trans; [|apply logext_redirect_edges]. apply logext_same; reflexivity. }
    assert (G : logext (relax_event_with merged) m1 m').
    { destruct (relax_layer_cases m l m' l' Hw H) as [[rid [_ [-> _]]]|[n [_ [_ [_ [-> _]]]]]].
      - apply logext_r_upd_node, Hfold, logext_r_upd_node, logext_refl.
      - apply Hfold, logext_r_upd_node, logext_same. reflexivity. }
    destruct G as [k [E F]]. exists k. split; [|exact F].
    rewrite E. simpl. rewrite note_squash_log. reflexivity.
  Qed.

  (* when called from squash_if_needed, at least two states are merged *)
  Lemma squash_relax_merges_two m l :
    ci_type inp = Relaxed -> 1 <= ci_width inp ->
    ci_width inp < length l -> 1 < length (m_layers m) ->
    squash_if_needed st_eqb inp m l = relax_layer st_eqb inp m l /\ 2 <= length (merged_states m l).
  Proof.
    intros Ht Hw Hlt Hl. unfold squash_if_needed. rewrite Ht.
    apply Nat.ltb_lt in Hlt. apply Nat.ltb_lt in Hl. rewrite Hlt, Hl. split; [reflexivity|].
    unfold merged_states, merged_ids. rewrite map_length, skipn_length, sort_by_length.
    apply Nat.ltb_lt in Hlt. lia.
  Qed.

  Definition squash_event (ev : event St) : Prop :=
    kind_in [KMerge; KRelax] ev.

  Lemma logext_squash_if_needed m l m' l' :
    squash_if_needed st_eqb inp m l = (m', l') -> logext (kind_in [KMerge; KRelax]) m m'.
  Proof.
    unfold squash_if_needed. destruct (ci_type inp).
    - intros H; inversion H; subst; apply logext_refl.
    - destruct (_ && _); [|intros H; inversion H; subst; apply logext_refl].
      intros H. destruct (ci_width inp) as [|w1] eqn:Hw.
      + unfold relax_layer in H. rewrite Hw in H. inversion H; subst.
        apply logext_same. simpl. apply note_squash_log.
      + destruct (relax_layer_log_weak m l m' l') as [evs [E F]]; [lia|exact H|].
        exists (evs ++ [EvMerge (merged_states m l) (merge rlx (merged_states m l))]). split.
        * rewrite E, <- app_assoc. reflexivity.
        * apply Forall_app. split.
          -- eapply Forall_impl; [|exact F]. intros ev [src [dst [d [c ->]]]]. right; left; reflexivity.
          -- constructor; auto. left; reflexivity.
    - destruct (_ <? _); [|intros H; inversion H; subst; apply logext_refl].
      intros H. apply logext_same. eapply restrict_layer_log; eauto.
  Qed.

  Lemma logext_branch_on m id d : logext (kind_in [KTransition; KCost]) m (branch_on st_eqb inp m id d).
  Proof.
    eexists [_; _]. split; [rewrite branch_on_log; reflexivity|].
    constructor; [right; left; reflexivity|]. constructor; [left; reflexivity|constructor].
  Qed.

  Lemma logext_expand_node var m id :
    logext (kind_in [KDomain; KTransition; KCost]) m (expand_node st_eqb inp var m id).
  Proof.
    unfold expand_node. destruct (_ >? _)%Z; [|apply logext_same; reflexivity].
    apply logext_fold.
    - eexists [_]. split; [reflexivity|]. constructor; [left; reflexivity|constructor].
    - intros a x. eapply logext_weaken; [|apply logext_branch_on].
      intros ev [H|[H|[]]]; unfold kind_in; rewrite <- H; simpl; auto.
  Qed.

  Definition stage_kinds : list evkind := [KCacheGet; KDomQuery; KMerge; KRelax].
  Definition expand_kinds : list evkind := [KDomain; KTransition; KCost].

  Lemma logext_kinds ks ks' m m' : incl ks ks' -> logext (kind_in ks) m m' -> logext (kind_in ks') m m'.
  Proof. intros H. apply logext_weaken. intros ev. apply kind_in_incl, H. Qed.

  Lemma stages_logext m curr m1 l1 m2 l2 m3 l3 :
    prefilter m curr = (m1, l1) -> filter_with_dominance inp m1 l1 = (m2, l2) ->
    squash_if_needed st_eqb inp m2 l2 = (m3, l3) -> logext (kind_in stage_kinds) m m3.
  Proof.
    intros H1 H2 H3. destruct (touch_filters _ _ _ _ _ _ H1 H2) as [T _].
    apply (logext_trans _ _ m2).
    - apply (logext_kinds filter_kinds); [|apply (t_log _ _ _ T)]. intros x [<-|[<-|[]]]; simpl; auto.
    - apply (logext_kinds [KMerge; KRelax]); [|eapply logext_squash_if_needed; exact H3].
      intros x [<-|[<-|[]]]; simpl; auto.
  Qed.

  Lemma pooled_start_log m var : m_log (pooled_start m var) = m_log m.
  Proof. unfold pooled_start. simpl. apply fold_left_proj. intros; reflexivity. Qed.
  Lemma pooled_start_depth m var : m_curr_depth (pooled_start m var) = m_curr_depth m.
  Proof. unfold pooled_start. simpl. apply fold_left_proj. intros; reflexivity. Qed.
  Lemma pooled_start_polls m var : m_polls (pooled_start m var) = m_polls m.
  Proof. unfold pooled_start. simpl. apply fold_left_proj. intros; reflexivity. Qed.

  (* the move made by one iteration of the layer loop *)
  Definition loop_move (m : mddT) (var : nat) : mddT * option (list nat) :=
    if is_pooled flv then
      match m_next m with [] => (m, None) | _ => move_to_next_layer_pooled st_eqb inp m var end
    else move_to_next_layer_clean st_eqb inp m.

  (* Both _move_to_next_layer, when there is something to expand, choose a start diagram and the layer to expand
     (the clean flavours empty the next layer and take all of it; the pooled one gives the impacted nodes of the
     pool the current depth and takes them), run the filters and the squash, then push a layer or not.  With
     nothing to expand the pooled flavour hands the diagram back, the clean ones push an empty layer.
     [loop_move_cases] splits a move this way, so that a fact about a move of either flavour comes from one fact
     about [move_start] and one about the three stages (the [stages_*] and [*_stages] lemmas). *)
  Definition move_start (m : mddT) (var : nat) : mddT * list nat :=
    if is_pooled flv then (pooled_start m var, pooled_curr m var) else (with_next m [], m_next m).

  Lemma loop_move_cases m var m' ol :
    loop_move m var = (m', ol) ->
    (m_next m = [] /\ ol = None /\ (m' = m \/ m' = push_layer (with_next m []) [] 0)) \/
    (m_next m <> [] /\ exists m1 l1 m2 l2 m3 l3,
       prefilter (fst (move_start m var)) (snd (move_start m var)) = (m1, l1) /\
       filter_with_dominance inp m1 l1 = (m2, l2) /\ squash_if_needed st_eqb inp m2 l2 = (m3, l3) /\
       ol = Some l3 /\ (m' = m3 \/ exists ids e, m' = push_layer m3 ids e)).
  Proof.
    unfold loop_move, move_start. destruct (is_pooled flv); cbn [fst snd].
    - destruct (m_next m) as [|x nx] eqn:Hn; [intros H; inversion H; subst; left; auto|].
      rewrite move_pooled_unfold. cbv zeta.
      destruct (prefilter _ _) as [m1 l1]. destruct (filter_with_dominance _ _ _) as [m2 l2] eqn:H2.
      destruct (squash_if_needed _ _ _ _) as [m3 l3] eqn:H3.
      intros H; inversion H; subst. right. split; [discriminate|]. exists m1, l1, m2, l2, m3, l3.
      split; [reflexivity|]. split; [exact H2|]. split; [exact H3|]. split; [reflexivity|].
      match goal with |- context [match ?c with [] => _ | _ => _ end] => destruct c end; [left; reflexivity|right; eauto].
    - rewrite move_clean_unfold. destruct (m_next m) as [|x nx] eqn:Hn; [intros H; inversion H; subst; left; auto|].
      destruct (prefilter _ _) as [m1 l1]. destruct (filter_with_dominance _ _ _) as [m2 l2] eqn:H2.
      destruct (squash_if_needed _ _ _ _) as [m3 l3] eqn:H3.
      intros H; inversion H; subst. right. split; [discriminate|]. exists m1, l1, m2, l2, m3, l3.
      split; [reflexivity|]. split; [exact H2|]. split; [exact H3|]. split; [reflexivity|]. right; eauto.
  Qed.

  Lemma move_start_frame m var :
    m_log (fst (move_start m var)) = m_log m /\ m_curr_depth (fst (move_start m var)) = m_curr_depth m /\
    m_polls (fst (move_start m var)) = m_polls m.
  Proof.
    unfold move_start. destruct (is_pooled flv); cbn [fst]; [|auto].
    split; [apply pooled_start_log|split; [apply pooled_start_depth|apply pooled_start_polls]].
  Qed.

  Lemma loop_move_log_depth m var m' ol :
    loop_move m var = (m', ol) ->
    logext (kind_in stage_kinds) m m' /\ m_curr_depth m' = m_curr_depth m /\ m_polls m' = m_polls m.
  Proof.
    intros H.
    destruct (loop_move_cases _ _ _ _ H)
      as [(_ & _ & [->| ->])|(_ & m1 & l1 & m2 & l2 & m3 & l3 & H1 & H2 & H3 & _ & Hm')].
    - split; [apply logext_refl|split; reflexivity].
    - split; [apply logext_same; reflexivity|split; reflexivity].
    - destruct (move_start_frame m var) as (F1 & F2 & F3).
      destruct (stages_layers _ _ _ _ _ _ _ _ H1 H2 H3) as [_ [E _]].
      pose proof (stages_logext _ _ _ _ _ _ _ _ H1 H2 H3) as L.
      assert (G : logext (kind_in stage_kinds) m m3 /\ m_curr_depth m3 = m_curr_depth m /\ m_polls m3 = m_polls m).
      { unfold logext in *. rewrite F1 in L. rewrite (ext_depth _ _ E), (ext_polls _ _ E), F2, F3. auto. }
      destruct Hm' as [->|(ids & e & ->)]; exact G.
  Qed.
  Lemma logext_fold_expand var l m :
    logext (kind_in expand_kinds) m (fold_left (expand_node st_eqb inp var) l m).
  Proof. apply logext_fold; [apply logext_refl|]. intros; apply logext_expand_node. Qed.

  (* the depths handed to next_variable, in call order *)
  Fixpoint nextvar_depths (evs : list (event St)) : list nat :=
    match evs with
    | [] => []
    | EvNextVar d _ _ :: r => d :: nextvar_depths r
    | _ :: r => nextvar_depths r
    end.

  Lemma nextvar_depths_app a b : nextvar_depths (a ++ b) = nextvar_depths a ++ nextvar_depths b.
  Proof. induction a as [|x a IH]; simpl; auto. destruct x; simpl; rewrite ?IH; auto. Qed.

  Lemma nextvar_depths_none k : Forall (fun ev => kind_of ev <> KNextVar) k -> nextvar_depths k = [].
  Proof.
    induction 1 as [|x k Hx _ IH]; simpl; auto. destruct x; simpl in *; auto. congruence.
  Qed.

  Lemma nextvar_depths_kinds ks k :
    ~ In KNextVar ks -> Forall (kind_in ks) k -> nextvar_depths (rev k) = [].
  Proof.
    intros Hn F. apply nextvar_depths_none. apply Forall_rev.
    eapply Forall_impl; [|exact F]. intros ev Hin Heq. apply Hn. rewrite <- Heq. exact Hin.
  Qed.

  (* every logged next_variable call reports the result of the callback on the logged arguments *)
  Definition nextvar_faithful (ev : event St) : Prop :=
    match ev with EvNextVar d sts ov => ov = next_variable pb d sts | _ => True end.

  Lemma kinds_nextvar_faithful ks k :
    ~ In KNextVar ks -> Forall (kind_in ks) k -> Forall nextvar_faithful k.
  Proof.
    intros Hn F. eapply Forall_impl; [|exact F]. intros ev Hin.
    destruct ev; simpl; auto. exfalso; apply Hn; exact Hin.
  Qed.

  (* one iteration of the loop, as an equation *)
  Lemma layer_loop_iteration fuel m :
    let depth := m_curr_depth m in
    let sts := map (fun id => state_of m id) (m_next m) in
    let ov := next_variable pb depth sts in
    let m0 := add_log m (EvNextVar depth sts ov) in
    layer_loop st_eqb inp (S fuel) m =
    match ov with
    | None => (m0, LoopDone)
    | Some var =>
        let m1 := with_polls m0 (S (m_polls m0)) in
        if Nat.ltb 0 (ci_cutoff inp) && Nat.leb (ci_cutoff inp) (m_polls m1) then (m1, LoopCut)
        else let '(m2, ol) := loop_move m1 var in
             match ol with
             | None => (m2, LoopDone)
             | Some l => let m3 := fold_left (expand_node st_eqb inp var) l m2 in
                         layer_loop st_eqb inp fuel (with_depth m3 (S (m_curr_depth m3)))
             end
    end.
  Proof.
    reflexivity.
  Qed.

  (* ---------------------------------------------------------------- node-local invariants
     A predicate on nodes that reads only the state, the rough upper bound and the cut-set and marked
     flags, holds of fresh nodes and survives the assignment of the user's bound to the rough upper bound
     holds of every node throughout the layer loop, whatever the flavour, the cache and the rule: nothing
     before _finalize writes those fields otherwise. *)
  Lemma cache_get_nodes m s d : m_nodes (fst (cache_get st_eqb inp m s d)) = m_nodes m.
  Proof. unfold cache_get. destruct (ci_use_cache inp); [|reflexivity]. destruct (get_threshold _ _ _ _); reflexivity. Qed.

  Lemma dom_query_nodes m s d v : m_nodes (fst (dom_query inp m s d v)) = m_nodes m.
  Proof.
    unfold dom_query. destruct (ci_domrule inp) as [[[[key nd] coord] usev]|]; [|reflexivity].
    destruct (is_dominated_or_insert Z.eqb key nd coord usev (m_dom m) s d v) as [[st' r]|]; reflexivity.
  Qed.

  Section NodeInv.
    Variable Pn : nodeT -> Prop.
    Hypothesis Pn_reads : forall n n' : nodeT, n_state n' = n_state n -> n_rub n' = n_rub n ->
      f_cutset (n_flags n') = f_cutset (n_flags n) -> f_marked (n_flags n') = f_marked (n_flags n) -> Pn n -> Pn n'.
    Hypothesis Pn_fresh : forall n : nodeT,
      n_rub n = IMAX -> f_cutset (n_flags n) = false -> f_marked (n_flags n) = false -> Pn n.
    Hypothesis Pn_rub : forall n, Pn n -> Pn (set_rub n (fast_upper_bound rlx (n_state n))).
    Notation nodes_ok m := (Forall Pn (m_nodes m)).

    Lemma nodes_ok_set (m : mddT) k f :
      (forall n, n_state (f n) = n_state n /\ n_rub (f n) = n_rub n /\
                 f_cutset (n_flags (f n)) = f_cutset (n_flags n) /\ f_marked (n_flags (f n)) = f_marked (n_flags n)) ->
      nodes_ok m -> nodes_ok (upd_node m k f).
    Proof.
      intros Hf H. apply Forall_upd_nth; [|exact H]. intros n Hn. destruct (Hf n) as (a & b & c & d).
      exact (Pn_reads n (f n) a b c d Hn).
    Qed.

    Lemma nodes_ok_append_edge m e : nodes_ok m -> nodes_ok (append_edge inp m e).
    Proof.
      intros H. apply Forall_upd_nth; [|exact H]. intros n Hn.
      eapply Pn_reads; [| | | |exact Hn]; reflexivity.
    Qed.

    Lemma nodes_ok_snoc (m : mddT) n :
      n_rub n = IMAX -> f_cutset (n_flags n) = false -> f_marked (n_flags n) = false ->
      nodes_ok m -> nodes_ok (with_nodes m (m_nodes m ++ [n])).
    Proof. intros A B C H. apply Forall_app. split; [exact H|]. constructor; [apply Pn_fresh; assumption|constructor]. Qed.

    Lemma nodes_ok_branch_on m id d : nodes_ok m -> nodes_ok (branch_on st_eqb inp m id d).
    Proof.
      intros H. unfold branch_on. cbv zeta. destruct (find_next _ _ _ _).
      - apply nodes_ok_append_edge. exact H.
      - apply (nodes_ok_append_edge (with_nodes _ _)). apply (nodes_ok_snoc (add_log (add_log m _) _)); auto.
    Qed.

    Lemma nodes_ok_expand_node var m id : nodes_ok m -> nodes_ok (expand_node st_eqb inp var m id).
    Proof.
      intros H. unfold expand_node. cbv zeta.
      assert (H1 : nodes_ok (upd_node m id (fun n => set_rub n (fast_upper_bound rlx (state_of m id))))).
      { apply (Forall_upd_nth_at Pn id _ (m_nodes m) (default_node (sp_state (ci_root inp)))); [|exact H].
        intros Hlt. apply Pn_rub. rewrite Forall_forall in H. apply H. apply nth_In. exact Hlt. }
      destruct (_ >? _)%Z; [|exact H1].
      apply (fold_left_inv (fun a : mddT => nodes_ok a)); [|exact H1]. intros a v _. apply nodes_ok_branch_on.
    Qed.

    Lemma nodes_ok_fold_expand var l m : nodes_ok m -> nodes_ok (fold_left (expand_node st_eqb inp var) l m).
    Proof. apply (fold_left_inv (fun a : mddT => nodes_ok a)). intros a id _. apply nodes_ok_expand_node. Qed.

    Lemma nodes_ok_filter_with_cache l : forall m, nodes_ok m -> nodes_ok (fst (filter_with_cache st_eqb inp m l)).
    Proof.
      induction l as [|id l IH]; intros m H; cbn [filter_with_cache]; [exact H|]. cbv zeta.
      pose proof (cache_get_nodes m (state_of m id) (n_depth (gnode m id))) as Hc.
      destruct (cache_get st_eqb inp m (state_of m id) (n_depth (gnode m id))) as [m1 th]. cbn [fst] in Hc.
      rewrite <- Hc in H. destruct th as [t|].
      - destruct (_ >? _)%Z.
        + specialize (IH m1 H). destruct (filter_with_cache st_eqb inp m1 l). exact IH.
        + apply IH. apply nodes_ok_set; [intros n; repeat split|exact H].
      - specialize (IH m1 H). destruct (filter_with_cache st_eqb inp m1 l). exact IH.
    Qed.

    Lemma nodes_ok_dom_retain l : forall m, nodes_ok m -> nodes_ok (fst (dom_retain inp m l)).
    Proof.
      induction l as [|id l IH]; intros m H; cbn [dom_retain]; [exact H|]. cbv zeta.
      destruct (fl_is_exact _).
      - pose proof (dom_query_nodes m (state_of m id) (n_depth (gnode m id)) (n_vtop (gnode m id))) as Hq.
        destruct (dom_query inp m (state_of m id) (n_depth (gnode m id)) (n_vtop (gnode m id))) as [m1 r].
        cbn [fst] in Hq. rewrite <- Hq in H. destruct (dc_dominated r).
        + apply IH. apply nodes_ok_set; [intros n; repeat split|exact H].
        + specialize (IH m1 H). destruct (dom_retain inp m1 l). exact IH.
      - specialize (IH m H). destruct (dom_retain inp m l). exact IH.
    Qed.

    Lemma nodes_ok_drop_step merged mid m did : nodes_ok m -> nodes_ok (drop_step merged mid m did).
    Proof.
      intros H. unfold drop_step. rewrite redirect_edges_fold. apply (fold_left_inv (fun a : mddT => nodes_ok a)).
      - intros a eid _ Ha. apply (nodes_ok_append_edge (add_log a _)). exact Ha.
      - apply nodes_ok_set; [intros n; repeat split|exact H].
    Qed.

    Lemma nodes_ok_squash m l : nodes_ok m -> nodes_ok (fst (squash_if_needed st_eqb inp m l)).
    Proof.
      intros H. assert (H0 : nodes_ok (note_squash inp m)) by (rewrite note_squash_nodes; exact H).
      unfold squash_if_needed. destruct (ci_type inp); [exact H| |].
      - destruct (_ && _); [|exact H]. destruct (ci_width inp) as [|w1] eqn:Hw.
        { unfold relax_layer. rewrite Hw. exact H0. }
        rewrite (relax_layer_unfold m l w1 Hw). cbv zeta. destruct (find _ _) as [rid|]; cbn [fst].
        + apply nodes_ok_set; [intros n; repeat split|].
          apply (fold_left_inv (fun a : mddT => nodes_ok a)); [intros a x _; apply nodes_ok_drop_step|].
          apply nodes_ok_set; [intros n; repeat split|exact H0].
        + apply (fold_left_inv (fun a : mddT => nodes_ok a)); [intros a x _; apply nodes_ok_drop_step|].
          apply nodes_ok_set; [intros n; repeat split|]. apply (nodes_ok_snoc (add_log _ _)); auto.
      - destruct (_ <? _); [|exact H]. unfold restrict_layer. cbn [fst]. apply (fold_left_inv (fun a : mddT => nodes_ok a)); [|exact H0].
        intros a x _. apply nodes_ok_set. intros n; repeat split.
    Qed.

    Lemma nodes_ok_stages m curr m1 l1 m2 l2 m3 l3 :
      prefilter m curr = (m1, l1) -> filter_with_dominance inp m1 l1 = (m2, l2) ->
      squash_if_needed st_eqb inp m2 l2 = (m3, l3) -> nodes_ok m -> nodes_ok m3.
    Proof.
      intros H1 H2 H3 H.
      assert (A : nodes_ok m1).
      { unfold prefilter in H1. destruct (_ <? _); [|inversion H1; subst; exact H].
        pose proof (nodes_ok_filter_with_cache curr m H) as E. rewrite H1 in E. exact E. }
      pose proof (nodes_ok_dom_retain (sort_by (dom_order inp m1) l1) m1 A) as B.
      change (dom_retain inp m1 _) with (filter_with_dominance inp m1 l1) in B. rewrite H2 in B.
      pose proof (nodes_ok_squash m2 l2 B) as C. rewrite H3 in C. exact C.
    Qed.

    Lemma nodes_ok_move_clean m : nodes_ok m -> nodes_ok (fst (move_to_next_layer_clean st_eqb inp m)).
    Proof.
      intros H. rewrite move_clean_unfold. destruct (m_next m) as [|c0 cs]; [exact H|].
      destruct (prefilter _ _) as [m1 l1] eqn:H1. destruct (filter_with_dominance inp m1 l1) as [m2 l2] eqn:H2.
      destruct (squash_if_needed st_eqb inp m2 l2) as [m3 l3] eqn:H3.
      exact (nodes_ok_stages _ _ _ _ _ _ _ _ H1 H2 H3 H).
    Qed.

    Lemma nodes_ok_move_pooled m var : nodes_ok m -> nodes_ok (fst (move_to_next_layer_pooled st_eqb inp m var)).
    Proof.
      intros H. rewrite move_pooled_unfold. cbv zeta.
      destruct (prefilter _ _) as [m1 l1] eqn:H1. destruct (filter_with_dominance inp m1 l1) as [m2 l2] eqn:H2.
      destruct (squash_if_needed st_eqb inp m2 l2) as [m3 l3] eqn:H3.
      assert (C : nodes_ok m3).
      { apply (nodes_ok_stages _ _ _ _ _ _ _ _ H1 H2 H3). unfold pooled_start. cbv zeta.
        apply (fold_left_inv (fun a : mddT => nodes_ok a)); [|exact H].
        intros a x _. apply nodes_ok_set. intros n; repeat split. }
      cbn [fst]. destruct (if _ <? _ then _ else _); exact C.
    Qed.

    Lemma nodes_ok_loop_move m var : nodes_ok m -> nodes_ok (fst (loop_move m var)).
    Proof.
      intros H. unfold loop_move. destruct (is_pooled flv); [|apply nodes_ok_move_clean; exact H].
      destruct (m_next m); [exact H|apply nodes_ok_move_pooled; exact H].
    Qed.

    Lemma nodes_ok_layer_loop : forall fuel m, nodes_ok m -> nodes_ok (fst (layer_loop st_eqb inp fuel m)).
    Proof.
      induction fuel as [|fuel IH]; intros m H; [exact H|].
      rewrite layer_loop_iteration. cbv zeta. destruct (next_variable _ _ _) as [var|]; [|exact H].
      destruct (_ && _); [exact H|].
      match goal with |- context [loop_move ?mm var] =>
        pose proof (nodes_ok_loop_move mm var H) as Hmv; destruct (loop_move mm var) as [m2 [l|]] end;
        [|exact Hmv].
      apply IH. apply (nodes_ok_fold_expand var l m2 Hmv).
    Qed.
  End NodeInv.

  Theorem layer_loop_nextvar : forall fuel m m' e,
    layer_loop st_eqb inp fuel m = (m', e) ->
    exists k n, m_log m' = k ++ m_log m /\
      nextvar_depths (rev k) = seq (m_curr_depth m) n /\
      Forall nextvar_faithful k /\
      m_curr_depth m' + (match e with LoopOutOfFuel => 0 | _ => 1 end) = m_curr_depth m + n.
  Proof.
    induction fuel as [|fuel IH]; intros m m' e H.
    - simpl in H. inversion H; subst. exists [], 0. simpl. repeat split; auto.
    - rewrite layer_loop_iteration in H. cbv zeta in H.
      set (sts := map (fun id => state_of m id) (m_next m)) in *.
      destruct (next_variable pb (m_curr_depth m) sts) as [var|] eqn:Hov.
      2:{ inversion H; subst. exists [EvNextVar (m_curr_depth m) sts None], 1. simpl.
          repeat split; auto. constructor; simpl; auto. }
      set (m0 := add_log m (EvNextVar (m_curr_depth m) sts (Some var))) in *.
      set (m1 := with_polls m0 (S (m_polls m0))) in *.
      destruct (_ && _).
      { inversion H; subst. exists [EvNextVar (m_curr_depth m) sts (Some var)], 1. simpl.
        repeat split; auto. constructor; simpl; auto. }
      destruct (loop_move m1 var) as [m2 ol] eqn:Hmv.
      apply loop_move_log_depth in Hmv. destruct Hmv as [[k2 [E2 F2]] [D2 _]].
      assert (N2 : ~ In KNextVar stage_kinds) by (simpl; intuition discriminate).
      change (m_curr_depth m1) with (m_curr_depth m) in D2.
      change (m_log m1) with (EvNextVar (m_curr_depth m) sts (Some var) :: m_log m) in E2.
      destruct ol as [l|].
      2:{ inversion H; subst. exists (k2 ++ [EvNextVar (m_curr_depth m) sts (Some var)]), 1. repeat split.
          - rewrite E2, <- app_assoc. reflexivity.
          - rewrite rev_app_distr. simpl. rewrite (nextvar_depths_kinds _ _ N2 F2). reflexivity.
          - apply Forall_app; split; [eapply kinds_nextvar_faithful; eauto|].
            constructor; simpl; auto.
          - rewrite D2. reflexivity. }
      apply IH in H. destruct H as [k [n [E [Hd [F Hdep]]]]].
      destruct (logext_fold_expand var l m2) as [k3 [E3 F3]].
      assert (N3 : ~ In KNextVar expand_kinds) by (simpl; intuition discriminate).
      simpl m_curr_depth in Hd, Hdep. simpl m_log in E.
      rewrite (ext_depth _ _ (ext_fold_expand var l m2)), D2 in Hd, Hdep.
      exists (k ++ k3 ++ k2 ++ [EvNextVar (m_curr_depth m) sts (Some var)]), (S n). repeat split.
      + rewrite E, E3, E2, <- !app_assoc. reflexivity.
      + rewrite !rev_app_distr. simpl rev at 1. rewrite <- !app_assoc, !nextvar_depths_app.
        rewrite (nextvar_depths_kinds _ _ N2 F2), (nextvar_depths_kinds _ _ N3 F3), Hd. reflexivity.
      + repeat (apply Forall_app; split); auto.
        * apply (kinds_nextvar_faithful _ _ N3 F3).
        * apply (kinds_nextvar_faithful _ _ N2 F2).
        * constructor; simpl; auto.
      + lia.
  Qed.

  (* the first call of an iteration gets the current depth and the states of the next layer *)
  Theorem layer_loop_first_call fuel m m' e :
    layer_loop st_eqb inp (S fuel) m = (m', e) ->
    let depth := m_curr_depth m in
    let sts := map (fun id => state_of m id) (m_next m) in
    exists k, m_log m' = k ++ EvNextVar depth sts (next_variable pb depth sts) :: m_log m.
  Proof.
    intros H depth sts. rewrite layer_loop_iteration in H. cbv zeta in H. fold depth sts in H.
    destruct (next_variable pb depth sts) as [var|] eqn:Hov.
    2:{ inversion H; subst. exists []. reflexivity. }
    set (m0 := add_log m (EvNextVar depth sts (Some var))) in *.
    set (m1 := with_polls m0 (S (m_polls m0))) in *.
    destruct (_ && _).
    { inversion H; subst. exists []. reflexivity. }
    destruct (loop_move m1 var) as [m2 ol] eqn:Hmv.
    apply loop_move_log_depth in Hmv. destruct Hmv as [[k2 [E2 F2]] _].
    destruct ol as [l|].
    2:{ inversion H; subst. exists k2. exact E2. }
    apply layer_loop_nextvar in H. destruct H as [k [n [E _]]].
    destruct (logext_fold_expand var l m2) as [k3 [E3 F3]].
    exists (k ++ k3 ++ k2). simpl m_log in E. rewrite E, E3, E2, <- !app_assoc. reflexivity.
  Qed.

  Lemma initialize_log c ds polls : m_log (initialize inp c ds polls) = [].
  Proof. reflexivity. Qed.
  Lemma initialize_depth c ds polls : m_curr_depth (initialize inp c ds polls) = sp_depth (ci_root inp).
  Proof. reflexivity. Qed.

  (* ---- (4), continued: the operations that create nodes and arcs keep [wf] *)
  Lemma wf_append_edge m e :
    wf m -> e_from e < length (m_nodes m) -> e_to e < length (m_nodes m) -> wf (append_edge inp m e).
  Proof.
    intros [W1 W2 W3 W4 W5 W6 W7 W8 W9] Hfrom Hto.
    constructor; simpl m_next; simpl m_layers; simpl m_cutset; simpl m_best; simpl m_best_exact;
      rewrite ?append_edge_nodes_length; auto.
    - (* nodes *)
      simpl. rewrite app_length. simpl length.
      apply Forall_upd_nth.
      + intros a [A B]. split; simpl.
        * destruct (_ >=? _)%Z; simpl; [lia|]. eapply oid_ok_mono; [|exact A]. lia.
        * constructor; [lia|]. eapply ids_ok_mono; [|exact B]. lia.
      + eapply Forall_impl; [|exact W7]. intros a. apply node_ok_mono. lia.
    - (* edges *)
      simpl m_edges. apply Forall_app. split; auto. constructor; auto. split; auto.
    - (* inbound lists *)
      intros id eid Hid Hin.
      assert (Hcases : eid = length (m_edges m) /\ id = e_to e \/ In eid (n_inb (gnode m id))).
      { unfold get_node in Hin. simpl m_nodes in Hin.
        destruct (Nat.eq_dec (e_to e) id) as [Heq|Hne].
        - subst id. rewrite nth_upd_nth_same in Hin by exact Hto. simpl in Hin.
          destruct Hin as [Hin|Hin]; [left; split; auto|right; exact Hin].
        - rewrite nth_upd_nth_other in Hin by exact Hne. right; exact Hin. }
      unfold get_edge. simpl m_edges.
      destruct Hcases as [[-> ->]|Hold].
      + rewrite app_nth2 by lia. rewrite Nat.sub_diag. reflexivity.
      + assert (Hlt : eid < length (m_edges m)).
        { rewrite Forall_forall in W7. destruct (W7 (gnode m id)) as [_ B].
          - apply nth_In. exact Hid.
          - eapply ids_ok_In; eauto. }
        rewrite app_nth1 by exact Hlt. apply W9; auto.
  Qed.

  Lemma wf_add_node m n :
    wf m -> n_best n = None -> n_inb n = [] -> wf (with_nodes m (m_nodes m ++ [n])).
  Proof.
    intros [W1 W2 W3 W4 W5 W6 W7 W8 W9] Hb Hi.
    assert (Hle : length (m_nodes m) <= length (m_nodes m ++ [n])) by (rewrite app_length; lia).
    constructor; simpl; auto.
    - eapply ids_ok_mono; eauto.
    - eapply Forall_impl; [|exact W3]. intros a. apply ids_ok_mono; auto.
    - eapply ids_ok_mono; eauto.
    - eapply oid_ok_mono; eauto.
    - eapply oid_ok_mono; eauto.
    - apply Forall_app. split; auto. constructor; auto. split; [rewrite Hb; simpl; auto|rewrite Hi; constructor].
    - eapply Forall_impl; [|exact W8]. intros a. apply edge_ok_mono; auto.
    - intros id eid Hid Hin. unfold get_node in Hin. simpl m_nodes in Hin.
      rewrite app_length in Hid. simpl in Hid.
      destruct (Nat.eq_dec id (length (m_nodes m))) as [->|Hne].
      + rewrite app_nth2 in Hin by lia. rewrite Nat.sub_diag in Hin. simpl in Hin.
        rewrite Hi in Hin. destruct Hin.
      + rewrite app_nth1 in Hin by lia. apply W9; auto. lia.
  Qed.

  Lemma wf_with_next m l : wf m -> ids_ok (length (m_nodes m)) l -> NoDup l -> wf (with_next m l).
  Proof. intros [W1 W2 W3 W4 W5 W6 W7 W8 W9] H1 H2. constructor; simpl; auto. Qed.

  Lemma wf_push_layer m ids e : wf m -> ids_ok (length (m_nodes m)) ids -> wf (push_layer m ids e).
  Proof.
    intros [W1 W2 W3 W4 W5 W6 W7 W8 W9] H1. constructor; simpl; auto.
    apply Forall_app. split; auto.
  Qed.

  Lemma wf_with_cutset m cs : wf m -> ids_ok (length (m_nodes m)) cs -> wf (with_cutset m cs).
  Proof. intros [W1 W2 W3 W4 W5 W6 W7 W8 W9] H1. constructor; simpl; auto. Qed.

  Lemma wf_with_best m b be :
    wf m -> oid_ok (length (m_nodes m)) b -> oid_ok (length (m_nodes m)) be -> wf (with_best m b be).
  Proof. intros [W1 W2 W3 W4 W5 W6 W7 W8 W9] H1 H2. constructor; simpl; auto. Qed.

  Lemma wf_initialize c ds polls : wf (initialize inp c ds polls).
  Proof.
    constructor; simpl; auto.
    - repeat constructor.
    - constructor; [intros []|constructor].
    - constructor.
    - constructor; [|constructor]. split; simpl; auto. constructor.
    - intros id eid Hid Hin. unfold get_node in Hin. simpl in Hin.
      destruct id as [|id]; [destruct Hin|lia].
  Qed.

  Lemma NoDup_app_fresh {A} (l : list A) x : NoDup l -> ~ In x l -> NoDup (l ++ [x]).
  Proof.
    induction l as [|y l IH]; simpl; intros Hn Hx.
    - constructor; [intros []|constructor].
    - inversion Hn; subst. constructor.
      + rewrite in_app_iff. simpl. intuition.
      + apply IH; auto.
  Qed.

  Lemma wf_branch_on m id d : wf m -> id < length (m_nodes m) -> wf (branch_on st_eqb inp m id d).
  Proof.
    intros W Hid. unfold branch_on.
    set (s := state_of m id). set (s' := transition pb s d). set (c := transition_cost pb s s' d).
    set (m2 := add_log (add_log m (EvTransition s d s')) (EvCost s s' d c)).
    assert (W2 : wf m2) by (apply wf_add_log, wf_add_log, W).
    destruct (find_next st_eqb inp m2 s') as [nid|] eqn:Hf.
    - apply wf_append_edge; auto.
      unfold find_next in Hf. apply find_some in Hf. destruct Hf as [Hin _].
      simpl. eapply ids_ok_In; [apply (wf_next _ W2)|exact Hin].
    - set (n := {| n_state := s'; n_vtop := _ |}).
      assert (W3 : wf (with_nodes m2 (m_nodes m2 ++ [n]))) by (apply wf_add_node; auto).
      assert (L3 : length (m_nodes (with_nodes m2 (m_nodes m2 ++ [n]))) = S (length (m_nodes m)))
        by (simpl; rewrite app_length; simpl; lia).
      apply wf_with_next.
      + apply wf_append_edge; auto; rewrite L3; simpl; lia.
      + rewrite append_edge_nodes_length, L3, append_edge_next. simpl m_next.
        apply ids_ok_app; [eapply ids_ok_mono; [|apply (wf_next _ W)]; lia|].
        constructor; [simpl; lia|constructor].
      + rewrite append_edge_next. simpl m_next.
        apply NoDup_app_fresh; [apply (wf_next_nodup _ W)|].
        intros Hin. pose proof (ids_ok_In _ _ _ (wf_next _ W) Hin). simpl in H. lia.
  Qed.

  Lemma wf_expand_node var m id :
    wf m -> id < length (m_nodes m) -> wf (expand_node st_eqb inp var m id).
  Proof.
    intros W Hid. unfold expand_node.
    set (m1 := upd_node m id _).
    assert (W1 : wf m1) by (apply wf_upd_node; [intros n; split; reflexivity|exact W]).
    assert (L1 : length (m_nodes m1) = length (m_nodes m)) by (simpl; apply upd_nth_length).
    destruct (_ >? _)%Z; [|exact W1].
    apply (fold_left_inv (fun a => wf a /\ id < length (m_nodes a))).
    - intros a x _ [Wa Ha]. split; [apply wf_branch_on; auto|].
      pose proof (ext_nodes _ _ (ext_branch_on a id (mkdec var x))). unfold mkdec in H.
      eapply Nat.lt_le_trans; [exact Ha|exact H].
    - split; [apply wf_add_log; exact W1|].
      change (id < length (m_nodes m1)). rewrite L1. exact Hid.
  Qed.

  Lemma wf_fold_expand var l : forall m,
    wf m -> ids_ok (length (m_nodes m)) l -> wf (fold_left (expand_node st_eqb inp var) l m).
  Proof.
    induction l as [|id l IH]; simpl; intros m W Hl; auto.
    inversion Hl; subst. apply IH.
    - apply wf_expand_node; auto.
    - eapply ids_ok_mono; [|eassumption]. apply (ext_nodes _ _ (ext_expand_node var m id)).
  Qed.

  Lemma wf_edge_from m eid :
    wf m -> eid < length (m_edges m) -> e_from (get_edge m eid) < length (m_nodes m).
  Proof.
    intros W H. pose proof (wf_edges _ W) as F. rewrite Forall_forall in F.
    apply (F (get_edge m eid)). apply nth_In. exact H.
  Qed.

  Lemma wf_inb_range m id :
    wf m -> id < length (m_nodes m) -> ids_ok (length (m_edges m)) (n_inb (gnode m id)).
  Proof.
    intros W H. pose proof (wf_nodes _ W) as F. rewrite Forall_forall in F.
    apply (F (gnode m id)). apply nth_In. exact H.
  Qed.

  Lemma wf_redirect_fold merged mid L : forall a,
    wf a -> mid < length (m_nodes a) -> ids_ok (length (m_edges a)) L ->
    wf (fold_left (redirect_step merged mid) L a).
  Proof.
    induction L as [|eid L IH]; simpl; intros a W Hm HL; auto.
    inversion HL; subst. apply IH.
    - unfold redirect_step. apply wf_append_edge.
      + apply wf_add_log; auto.
      + simpl. apply wf_edge_from; auto.
      + simpl. exact Hm.
    - unfold redirect_step. rewrite append_edge_nodes_length. exact Hm.
    - unfold redirect_step. rewrite append_edge_edges, app_length. simpl.
      eapply ids_ok_mono; [|eassumption]. lia.
  Qed.

  Lemma wf_redirect_edges m merged mid did :
    wf m -> mid < length (m_nodes m) -> did < length (m_nodes m) ->
    wf (redirect_edges inp m merged mid did).
  Proof.
    intros W Hm Hd. rewrite redirect_edges_fold. apply wf_redirect_fold; auto.
    apply wf_inb_range; auto.
  Qed.

  Lemma redirect_edges_nodes_length m merged mid did :
    length (m_nodes (redirect_edges inp m merged mid did)) = length (m_nodes m).
  Proof.
    rewrite redirect_edges_fold.
    apply (fold_left_proj (fun a : mddT => length (m_nodes a))).
    intros a x. unfold redirect_step. rewrite append_edge_nodes_length. reflexivity.
  Qed.

  Lemma drop_step_nodes_length merged mid m did :
    length (m_nodes (drop_step merged mid m did)) = length (m_nodes m).
  Proof. unfold drop_step. rewrite redirect_edges_nodes_length. simpl. apply upd_nth_length. Qed.

  Lemma wf_drop_fold merged mid L : forall a,
    wf a -> mid < length (m_nodes a) -> ids_ok (length (m_nodes a)) L ->
    wf (fold_left (drop_step merged mid) L a) /\
    length (m_nodes (fold_left (drop_step merged mid) L a)) = length (m_nodes a).
  Proof.
    induction L as [|did L IH]; simpl; intros a W Hm HL; auto.
    inversion HL; subst.
    pose proof (drop_step_nodes_length merged mid a did) as Hlen.
    destruct (IH (drop_step merged mid a did)) as [W' L'].
    - unfold drop_step. apply wf_redirect_edges.
      + apply wf_upd_node; auto. intros n; split; reflexivity.
      + simpl. rewrite upd_nth_length. exact Hm.
      + simpl. rewrite upd_nth_length. assumption.
    - rewrite Hlen. exact Hm.
    - rewrite Hlen. assumption.
    - split; auto. rewrite L'. exact Hlen.
  Qed.

  Lemma wf_relax_layer m l m' l' :
    relax_layer st_eqb inp m l = (m', l') ->
    wf m -> ids_ok (length (m_nodes m)) l -> NoDup l ->
    wf m' /\ ids_ok (length (m_nodes m')) l' /\ NoDup l'.
  Proof.
    intros H W Hl Hnd.
    destruct (Nat.eq_dec (ci_width inp) 0) as [Hw|Hw].
    { unfold relax_layer in H. rewrite Hw in H. inversion H; subst.
      split; [apply wf_set_crash, (touch_wf (fun _ => True) _ _ (touch_note_squash _ m)), W|].
      split; auto. simpl. rewrite note_squash_nodes. exact Hl. }
    assert (C : 1 <= ci_width inp) by lia. apply (relax_layer_cases m l m' l' C) in H. cbv zeta in H.
    set (w1 := ci_width inp - 1) in *. set (sorted := sort_by (rank_order inp m) l) in *.
    set (merged := merge rlx (merged_states m l)) in *.
    set (m1 := add_log (note_squash inp m) (EvMerge (merged_states m l) merged)) in *.
    assert (W1 : wf m1) by (apply wf_add_log, (touch_wf (fun _ => True) _ _ (touch_note_squash _ m)), W).
    assert (N1 : length (m_nodes m1) = length (m_nodes m)) by (simpl; rewrite note_squash_nodes; reflexivity).
    assert (Ssorted : sub sorted l) by apply sub_sort_by.
    assert (Hsorted : ids_ok (length (m_nodes m)) sorted) by (eapply ids_ok_incl; [apply Ssorted|exact Hl]).
    assert (NDsorted : NoDup sorted) by (apply Ssorted; exact Hnd).
    assert (Hmrg : ids_ok (length (m_nodes m)) (merged_ids m l)).
    { eapply ids_ok_incl; [apply merged_ids_incl|exact Hl]. }
    destruct H as [[rid [Hin [-> ->]]]|[n [_ [Hb [Hi [-> ->]]]]]].
    - assert (Hrid : rid < length (m_nodes m)).
      { eapply ids_ok_In; [exact Hsorted|]. apply (proj1 (sub_firstn w1 sorted)). exact Hin. }
      set (m2 := upd_node m1 rid set_relaxed_flag).
      assert (W2 : wf m2) by (apply wf_upd_node; [links|exact W1]).
      assert (N2 : length (m_nodes m2) = length (m_nodes m)) by (simpl; rewrite upd_nth_length; exact N1).
      destruct (wf_drop_fold merged rid (merged_ids m l) m2) as [W3 N3]; auto; try (rewrite N2; auto).
      split; [|split].
      + apply wf_upd_node; [links|exact W3].
      + simpl m_nodes. rewrite upd_nth_length, N3, N2.
        eapply ids_ok_incl; [apply (proj1 (sub_firstn (S w1) sorted))|exact Hsorted].
      + apply (proj2 (sub_firstn (S w1) sorted)). exact NDsorted.
    - set (mid := length (m_nodes m)) in *.
      set (m2 := upd_node (with_nodes m1 (m_nodes m1 ++ [n])) mid set_relaxed_flag).
      assert (W2 : wf m2) by (apply wf_upd_node; [links|]; apply wf_add_node; auto).
      assert (N2 : length (m_nodes m2) = S mid).
      { change (m_nodes m2) with (upd_nth mid set_relaxed_flag (m_nodes m1 ++ [n])).
        rewrite upd_nth_length, app_length, N1. simpl. lia. }
      destruct (wf_drop_fold merged mid (merged_ids m l) m2) as [W3 N3]; auto.
      { rewrite N2. lia. }
      { rewrite N2. eapply ids_ok_mono; [|exact Hmrg]. unfold mid. lia. }
      split; [exact W3|split].
      + rewrite N3, N2. apply ids_ok_app.
        * eapply ids_ok_mono; [|eapply ids_ok_incl; [apply sub_firstn|exact Hsorted]]. unfold mid. lia.
        * constructor; [lia|constructor].
      + apply NoDup_app_fresh; [apply (proj2 (sub_firstn w1 sorted)); exact NDsorted|].
        intros Hin. apply (proj1 (sub_firstn w1 sorted)) in Hin.
        pose proof (ids_ok_In _ _ _ Hsorted Hin) as Hlt. unfold mid in Hlt. lia.
  Qed.

  Lemma wf_squash_if_needed m l m' l' :
    squash_if_needed st_eqb inp m l = (m', l') ->
    wf m -> ids_ok (length (m_nodes m)) l -> NoDup l ->
    wf m' /\ ids_ok (length (m_nodes m')) l' /\ NoDup l'.
  Proof.
    unfold squash_if_needed. intros H W Hl Hnd.
    assert (Hid : (m', l') = (m, l) -> wf m' /\ ids_ok (length (m_nodes m')) l' /\ NoDup l')
      by (intros E; inversion E; subst; auto).
    destruct (ci_type inp).
    - auto.
    - destruct (_ && _); [|auto]. eapply wf_relax_layer; eauto.
    - destruct (_ <? _); [|auto].
      destruct (touch_restrict_layer (fun _ => True) _ _ _ _ H) as [T [[S1 S2] _]].
      split; [exact (touch_wf _ _ _ T W)|split; [|auto]].
      rewrite (t_len _ _ _ T). eapply ids_ok_incl; eauto.
  Qed.

  Lemma wf_filters m curr m1 l1 m2 l2 :
    prefilter m curr = (m1, l1) -> filter_with_dominance inp m1 l1 = (m2, l2) ->
    wf m -> ids_ok (length (m_nodes m)) curr -> NoDup curr ->
    wf m2 /\ ids_ok (length (m_nodes m2)) l2 /\ NoDup l2.
  Proof.
    intros H1 H2 W Hc Hnd. destruct (touch_filters _ _ _ _ _ _ H1 H2) as [T [[S1 S2] _]].
    split; [exact (touch_wf _ _ _ T W)|split; [|auto]].
    rewrite (t_len _ _ _ T). eapply ids_ok_incl; eauto.
  Qed.

  Lemma wf_stages m curr m1 l1 m2 l2 m3 l3 :
    prefilter m curr = (m1, l1) -> filter_with_dominance inp m1 l1 = (m2, l2) ->
    squash_if_needed st_eqb inp m2 l2 = (m3, l3) ->
    wf m -> ids_ok (length (m_nodes m)) curr -> NoDup curr ->
    wf m3 /\ ids_ok (length (m_nodes m3)) l3 /\ NoDup l3 /\
    wf m2 /\ length (m_nodes m) <= length (m_nodes m2) /\ m_next m2 = m_next m.
  Proof.
    intros H1 H2 H3 W Hc Hnd. destruct (wf_filters _ _ _ _ _ _ H1 H2 W Hc Hnd) as [W2 [I2 N2]].
    destruct (wf_squash_if_needed _ _ _ _ H3 W2 I2 N2) as [W3 [I3 N3]].
    destruct (touch_filters _ _ _ _ _ _ H1 H2) as [T _].
    rewrite (t_len _ _ _ T), (t_next _ _ _ T). auto 10.
  Qed.

  Lemma seq_ids_ok n a : ids_ok n (seq a (n - a)).
  Proof. unfold ids_ok. apply Forall_forall. intros x Hx. apply in_seq in Hx. lia. Qed.

  Lemma wf_move_clean m m' ol :
    move_to_next_layer_clean st_eqb inp m = (m', ol) -> wf m ->
    wf m' /\ (forall l, ol = Some l -> ids_ok (length (m_nodes m')) l /\ NoDup l).
  Proof.
    rewrite move_clean_unfold. intros H W.
    assert (W0 : wf (with_next m [])) by (apply wf_with_next; [exact W|constructor|constructor]).
    destruct (m_next m) as [|x nx] eqn:Hn.
    - inversion H; subst. split; [|intros l Hl; discriminate].
      apply wf_push_layer; [exact W0|constructor].
    - rewrite <- Hn in H.
      destruct (prefilter _ _) as [m1 l1] eqn:H1.
      destruct (filter_with_dominance _ _ _) as [m2 l2] eqn:H2.
      destruct (squash_if_needed _ _ _ _) as [m3 l3] eqn:H3.
      inversion H; subst.
      destruct (wf_stages _ _ _ _ _ _ _ _ H1 H2 H3 W0) as [W3 [I3 [N3 _]]].
      + simpl. apply (wf_next _ W).
      + apply (wf_next_nodup _ W).
      + split.
        * apply wf_push_layer; [exact W3|apply seq_ids_ok].
        * intros l Hl. inversion Hl; subst. simpl. split; auto.
  Qed.

  Lemma pooled_start_wf m var :
    wf m -> wf (pooled_start m var) /\ length (m_nodes (pooled_start m var)) = length (m_nodes m).
  Proof.
    intros W. destruct (pooled_start_touch (fun _ => True) m var) as [m1 [T ->]].
    pose proof (touch_wf _ _ _ T W) as W1. split; [|apply (t_len _ _ _ T)].
    apply wf_with_next; [exact W1| |].
    - eapply ids_ok_incl; [apply sub_filter|apply (wf_next _ W1)].
    - apply NoDup_filter, (wf_next_nodup _ W1).
  Qed.

  Lemma wf_move_pooled m var m' ol :
    move_to_next_layer_pooled st_eqb inp m var = (m', ol) -> wf m ->
    wf m' /\ (forall l, ol = Some l -> ids_ok (length (m_nodes m')) l /\ NoDup l).
  Proof.
    rewrite move_pooled_unfold. cbv zeta. intros H W.
    destruct (pooled_start_wf m var W) as [W0 L0].
    destruct (prefilter _ _) as [m1 l1] eqn:H1.
    destruct (filter_with_dominance _ _ _) as [m2 l2] eqn:H2.
    destruct (squash_if_needed _ _ _ _) as [m3 l3] eqn:H3.
    apply pair_eq_inv in H. destruct H as [<- <-].
    assert (Hcurr : ids_ok (length (m_nodes m)) (pooled_curr m var) /\ NoDup (pooled_curr m var)).
    { unfold pooled_curr. split; [eapply ids_ok_incl; [apply sub_filter|apply (wf_next _ W)]|].
      apply NoDup_filter. apply (wf_next_nodup _ W). }
    destruct Hcurr as [Ic Nc].
    destruct (wf_stages _ _ _ _ _ _ _ _ H1 H2 H3 W0) as [W3 [I3 [N3 [_ [Hn _]]]]].
    { rewrite L0. exact Ic. }
    { exact Nc. }
    pose proof (ext_nodes _ _ (ext_squash_if_needed _ _ _ _ H3)) as Hn3.
    rewrite L0 in Hn.
    assert (G : wf m3 /\ (forall l, Some l3 = Some l -> ids_ok (length (m_nodes m3)) l /\ NoDup l)).
    { split; [exact W3|]. intros l Hl. inversion Hl; subst. auto. }
    destruct (length (m_nodes m2) <? length (m_nodes m3)) eqn:Hlt.
    - apply Nat.ltb_lt in Hlt.
      destruct (pooled_curr m var ++ [length (m_nodes m2)]) as [|c cs] eqn:Hc; [exact G|].
      rewrite <- Hc. split; [|apply G].
      apply wf_push_layer; [exact W3|]. apply ids_ok_app.
      + eapply ids_ok_mono; [|exact Ic]. lia.
      + constructor; [exact Hlt|constructor].
    - destruct (pooled_curr m var) as [|c cs] eqn:Hc; [exact G|].
      split; [|apply G].
      apply wf_push_layer; [exact W3|]. eapply ids_ok_mono; [|exact Ic]. lia.
  Qed.

  Lemma wf_loop_move m var m' ol :
    loop_move m var = (m', ol) -> wf m ->
    wf m' /\ (forall l, ol = Some l -> ids_ok (length (m_nodes m')) l /\ NoDup l).
  Proof.
    unfold loop_move. destruct (is_pooled flv).
    - destruct (m_next m).
      + intros H W; inversion H; subst. split; [auto|intros l Hl; discriminate].
      + apply wf_move_pooled.
    - apply wf_move_clean.
  Qed.

  Theorem wf_layer_loop : forall fuel m m' e,
    layer_loop st_eqb inp fuel m = (m', e) -> wf m -> wf m'.
  Proof.
    induction fuel as [|fuel IH]; intros m m' e H W.
    - simpl in H. inversion H; subst. exact W.
    - rewrite layer_loop_iteration in H. cbv zeta in H.
      set (sts := map (fun id => state_of m id) (m_next m)) in *.
      destruct (next_variable pb (m_curr_depth m) sts) as [var|].
      2:{ inversion H; subst. apply wf_add_log; exact W. }
      set (m0 := add_log m (EvNextVar (m_curr_depth m) sts (Some var))) in *.
      set (m1 := with_polls m0 (S (m_polls m0))) in *.
      assert (W1 : wf m1) by (apply wf_with_polls, wf_add_log, W).
      destruct (_ && _).
      { inversion H; subst. exact W1. }
      destruct (loop_move m1 var) as [m2 ol] eqn:Hmv.
      destruct (wf_loop_move _ _ _ _ Hmv W1) as [W2 Hl].
      destruct ol as [l|].
      2:{ inversion H; subst. exact W2. }
      eapply IH; [exact H|]. apply wf_with_depth. apply wf_fold_expand; [exact W2|].
      apply (Hl l eq_refl).
  Qed.

  Lemma wf_finalize_layers m : wf m -> wf (finalize_layers inp m).
  Proof.
    intros W. unfold finalize_layers. destruct (is_pooled flv).
    - set (m1 := fold_left _ (m_next m) m).
      assert (W1 : wf m1).
      { unfold m1. apply fold_left_inv; [|exact W]. intros a x _ Wa. apply wf_upd_node; [links|exact Wa]. }
      apply wf_push_layer; [exact W1|apply (wf_next _ W1)].
    - destruct (m_next m); [exact W|]. apply wf_push_layer; [exact W|apply seq_ids_ok].
  Qed.

  Lemma pick_In tb (c : list nat) x : pick tb c = Some x -> In x c.
  Proof. unfold pick. destruct c; [discriminate|]. apply nth_error_In. Qed.

  Lemma argmax_candidates_incl m ids : incl (argmax_candidates inp m ids) ids.
  Proof.
    unfold argmax_candidates. destruct (zmax_list _); [apply incl_filter|intros x []].
  Qed.

  Lemma pick_argmax_ok tb m ids n :
    ids_ok n ids -> oid_ok n (pick tb (argmax_candidates inp m ids)).
  Proof.
    intros H. destruct (pick _ _) as [x|] eqn:Hp; simpl; auto.
    apply pick_In in Hp. apply argmax_candidates_incl in Hp. eapply ids_ok_In; eauto.
  Qed.

  Lemma wf_find_best_node tb tb2 m : wf m -> wf (find_best_node inp tb tb2 m).
  Proof.
    intros W. unfold find_best_node. apply wf_with_best; auto.
    - apply pick_argmax_ok. apply (wf_next _ W).
    - apply pick_argmax_ok. eapply ids_ok_incl; [apply incl_filter|apply (wf_next _ W)].
  Qed.

  Lemma wf_finalize_exact m : wf m -> wf (finalize_exact inp m).
  Proof.
    intros [W1 W2 W3 W4 W5 W6 W7 W8 W9]. unfold finalize_exact.
    constructor; simpl; auto.
    destruct (_ && _); auto.
  Qed.

  Lemma inb_range_any m id : wf m -> ids_ok (length (m_edges m)) (n_inb (gnode m id)).
  Proof.
    intros W. destruct (Nat.lt_ge_cases id (length (m_nodes m))) as [H|H].
    - apply wf_inb_range; auto.
    - unfold get_node. rewrite nth_overflow by exact H. constructor.
  Qed.

  Lemma wf_lel_cutset m lel : wf m -> wf (lel_cutset m lel).
  Proof.
    intros W. unfold lel_cutset. apply fold_left_inv.
    - intros a x _ Wa. apply wf_upd_node; [links|exact Wa].
    - destruct (nth_error (m_layers m) lel) as [ids|] eqn:Hn; [|exact W].
      set (m1 := fold_left _ ids m).
      assert (P1 : wf m1 /\ length (m_nodes m1) = length (m_nodes m)).
      { unfold m1. apply (fold_left_inv (fun a => wf a /\ length (m_nodes a) = length (m_nodes m))); [|auto].
        intros a x _ [Wa La]. split; [apply wf_upd_node; [links|exact Wa]|].
        simpl. rewrite upd_nth_length. exact La. }
      destruct P1 as [W1 L1]. apply wf_with_cutset; [exact W1|].
      apply ids_ok_app; [apply (wf_cutset _ W1)|]. rewrite L1.
      pose proof (wf_layers _ W) as F. rewrite Forall_forall in F. apply F.
      eapply nth_error_In; eauto.
  Qed.

  Lemma wf_frontier_cutset m push : wf m -> wf (frontier_cutset inp m push).
  Proof.
    unfold frontier_cutset. apply fold_left_inv. intros a id _ Wa.
    destruct (fl_is_exact _); [apply wf_upd_node; [links|exact Wa]|].
    pose proof (inb_range_any a id Wa) as HL.
    apply (fold_left_inv (fun b => wf b /\ length (m_edges b) = length (m_edges a))); [|auto].
    intros b eid Hin [Wb Eb].
    destruct (_ && _); [|auto].
    assert (Hfrom : e_from (get_edge b eid) < length (m_nodes b)).
    { apply wf_edge_from; auto. rewrite Eb. eapply ids_ok_In; eauto. }
    destruct push.
    - split; [|exact Eb]. apply wf_upd_node; [links|].
      apply wf_with_cutset; [exact Wb|]. apply ids_ok_app; [apply (wf_cutset _ Wb)|].
      constructor; [exact Hfrom|constructor].
    - split; [|exact Eb]. apply wf_upd_node; [links|exact Wb].
  Qed.

  Lemma wf_finalize_cutset m : wf m -> wf (finalize_cutset inp m).
  Proof.
    intros W. unfold finalize_cutset.
    destruct flv.
    - destruct (_ || _).
      + apply wf_lel_cutset. destruct (m_lel m); [exact W|apply wf_with_lel_exact; exact W].
      + destruct (m_lel m); [exact W|apply wf_with_lel_exact; exact W].
    - destruct (_ || _).
      + apply wf_frontier_cutset. destruct (m_lel m); [exact W|apply wf_with_lel_exact; exact W].
      + destruct (m_lel m); [exact W|apply wf_with_lel_exact; exact W].
    - destruct (_ || _); [apply wf_frontier_cutset|]; exact W.
  Qed.

  Theorem wf_finalize tb tb2 m : wf m -> wf (finalize st_eqb inp tb tb2 m).
  Proof.
    intros W. unfold finalize.
    apply (touch_wf _ _ _ (touch_compute_thresholds _)), (touch_wf _ _ _ (touch_compute_local_bounds (fun _ => True) _)),
      wf_finalize_cutset, wf_finalize_exact, wf_find_best_node, wf_finalize_layers, W.
  Qed.

  (* whatever the outcome (compiled, cut off, out of fuel), the diagram is well formed *)
  Theorem wf_compile tb tb2 c ds polls m o :
    compile st_eqb inp tb tb2 c ds polls = (m, o) -> wf m.
  Proof.
    unfold compile. destruct (layer_loop _ _ _ _) as [m1 e] eqn:Hl.
    apply wf_layer_loop in Hl; [|apply wf_initialize].
    destruct e; intros H; inversion H; subst; auto. apply wf_finalize; exact Hl.
  Qed.

  (* ================================================================ (3), continued: relax, the strong form (the arcs are identified; needs [wf]) *)
  (* the relax call made for inbound edge [eid] of the merged-away node [did], read in diagram [m] *)
  Definition relax_event (m : mddT) (merged : St) (did eid : nat) : event St :=
    let e := get_edge m eid in
    let src := state_of m (e_from e) in
    let dst := state_of m did in
    EvRelax src dst merged (e_dec e) (e_cost e) (relax rlx src dst merged (e_dec e) (e_cost e)).

  Lemma add_node_inb (m : mddT) n x :
    n_inb n = [] -> n_inb (gnode (with_nodes m (m_nodes m ++ [n])) x) = n_inb (gnode m x).
  Proof.
    intros Hn. unfold get_node.
    change (m_nodes (with_nodes m (m_nodes m ++ [n]))) with (m_nodes m ++ [n]).
    destruct (Nat.lt_ge_cases x (length (m_nodes m))) as [Hlt|Hge].
    - rewrite app_nth1 by exact Hlt. reflexivity.
    - rewrite app_nth2 by exact Hge. rewrite (nth_overflow (m_nodes m)) by exact Hge.
      destruct (x - length (m_nodes m)) as [|k]; simpl; [rewrite Hn; reflexivity|].
      destruct k; reflexivity.
  Qed.

  Definition inb_frame (mid : nat) (a b : mddT) : Prop :=
    forall id, id <> mid -> n_inb (gnode b id) = n_inb (gnode a id).

  Lemma inb_frame_refl mid a : inb_frame mid a a.
  Proof. intros id _; reflexivity. Qed.
  Lemma inb_frame_trans mid a b c : inb_frame mid a b -> inb_frame mid b c -> inb_frame mid a c.
  Proof. intros H1 H2 id Hid. rewrite H2, H1; auto. Qed.
  Lemma inb_frame_upd_node mid a k f : keeps_links f -> inb_frame mid a (upd_node a k f).
  Proof. intros Hf id _. apply (get_node_upd_node_proj (@n_inb St)). intros n; apply Hf. Qed.
  Lemma inb_frame_append_edge mid a e : e_to e = mid -> inb_frame mid a (append_edge inp a e).
  Proof.
    intros He id Hid. unfold get_node. simpl m_nodes. rewrite nth_upd_nth_other; auto. congruence.
  Qed.

  Lemma get_edge_ext m a eid : ext m a -> eid < length (m_edges m) -> get_edge a eid = get_edge m eid.
  Proof.
    intros E H. destruct (ext_edges _ _ E) as [k Hk]. unfold get_edge. rewrite Hk.
    apply app_nth1. exact H.
  Qed.

  Lemma redirect_fold_log m merged mid L : forall a,
    wf m -> ext m a -> ids_ok (length (m_edges m)) L ->
    let a' := fold_left (redirect_step merged mid) L a in
    ext m a' /\ inb_frame mid a a' /\
    m_log a' = rev (map (fun eid => relax_event m merged (e_to (get_edge m eid)) eid) L) ++ m_log a.
  Proof.
    induction L as [|eid L IH]; intros a W E HL; simpl.
    - split; [exact E|]. split; [apply inb_frame_refl|reflexivity].
    - inversion HL; subst.
      assert (E1 : ext a (redirect_step merged mid a eid)).
      { unfold redirect_step. eapply ext_trans; [apply ext_add_log|apply ext_append_edge]. }
      destruct (IH (redirect_step merged mid a eid) W (ext_trans _ _ _ E E1) H2) as [E2 [F2 L2]].
      split; [exact E2|]. split.
      + eapply inb_frame_trans; [|exact F2]. unfold redirect_step.
        eapply inb_frame_trans; [|apply inb_frame_append_edge; reflexivity].
        intros id _; reflexivity.
      + rewrite L2. rewrite <- app_assoc. f_equal.
        unfold redirect_step. simpl. f_equal.
        unfold relax_event. rewrite (get_edge_ext m a eid E H1).
        pose proof (wf_edges _ W) as FE. rewrite Forall_forall in FE.
        destruct (FE (get_edge m eid)) as [Hfrom Hto]; [apply nth_In; exact H1|].
        rewrite !(ext_state _ _ E) by assumption. reflexivity.
  Qed.

  Lemma drop_fold_log m merged mid L : forall a,
    wf m -> ext m a -> inb_frame mid m a ->
    Forall (fun did => did <> mid /\ did < length (m_nodes m)) L ->
    let a' := fold_left (drop_step merged mid) L a in
    ext m a' /\ inb_frame mid m a' /\
    m_log a' = rev (flat_map (fun did => map (relax_event m merged did) (n_inb (gnode m did))) L) ++ m_log a.
  Proof.
    induction L as [|did L IH]; intros a W E F HL; simpl.
    - split; [exact E|split; [exact F|reflexivity]].
    - inversion HL as [|? ? [Hne Hlt] HL']; subst.
      set (a1 := upd_node a did (fun n => set_flags n (fl_set_deleted (n_flags n) true))).
      assert (E1 : ext m a1) by (apply ext_r_upd_node; [exact E|reflexivity]).
      assert (F1 : inb_frame mid m a1).
      { eapply inb_frame_trans; [exact F|]. apply inb_frame_upd_node. intros n; split; reflexivity. }
      assert (Hinb : n_inb (gnode a1 did) = n_inb (gnode m did)) by (apply F1; exact Hne).
      assert (Hds : drop_step merged mid a did = fold_left (redirect_step merged mid) (n_inb (gnode m did)) a1).
      { unfold drop_step. fold a1. rewrite redirect_edges_fold, Hinb. reflexivity. }
      destruct (redirect_fold_log m merged mid (n_inb (gnode m did)) a1 W E1 (wf_inb_range m did W Hlt))
        as [E2 [F2 L2]].
      rewrite Hds.
      destruct (IH _ W E2 (inb_frame_trans _ _ _ _ F1 F2) HL') as [E3 [F3 L3]].
      split; [exact E3|]. split; [exact F3|].
      rewrite L3, L2. rewrite rev_app_distr, <- app_assoc. f_equal. f_equal.
      f_equal. apply map_ext_in. intros eid Hin.
      rewrite (wf_inb_to _ W did eid Hlt Hin). reflexivity.
  Qed.

  Lemma relax_layer_full m l m' l' :
    1 <= ci_width inp -> wf m -> ids_ok (length (m_nodes m)) l -> NoDup l ->
    relax_layer st_eqb inp m l = (m', l') ->
    let mrg := merged_ids m l in
    let mstates := merged_states m l in
    let merged := merge rlx mstates in
    exists mid, (In mid l \/ mid = length (m_nodes m)) /\ inb_frame mid m m' /\
    m_log m' =
      rev (flat_map (fun did => map (relax_event m merged did) (n_inb (gnode m did))) mrg)
      ++ EvMerge mstates merged :: m_log m.
  Proof.
    intros Hw W Hl Hnd H mrg mstates merged.
    apply (relax_layer_cases m l m' l' Hw) in H. cbv zeta in H. fold mstates merged mrg in H.
    set (w1 := ci_width inp - 1) in *. set (sorted := sort_by (rank_order inp m) l) in *.
    set (m1 := add_log (note_squash inp m) (EvMerge mstates merged)) in *.
    assert (E1 : ext m m1) by (eapply ext_trans; [apply ext_note_squash|apply ext_add_log]).
    assert (G1 : forall id, gnode m1 id = gnode m id) by (intros id; apply note_squash_gnode).
    assert (L1 : m_log m1 = EvMerge mstates merged :: m_log m) by (simpl; rewrite note_squash_log; reflexivity).
    assert (Hmrg : ids_ok (length (m_nodes m)) mrg) by (eapply ids_ok_incl; [apply merged_ids_incl|exact Hl]).
    destruct H as [[rid [Hin [-> _]]]|[n [_ [_ [Hi [-> _]]]]]].
    - set (m2 := upd_node m1 rid set_relaxed_flag).
      assert (E2 : ext m m2) by (apply ext_r_upd_node; [exact E1|reflexivity]).
      assert (F2 : inb_frame rid m m2).
      { intros id _. unfold m2. rewrite (get_node_upd_node_proj (@n_inb St)) by reflexivity.
        rewrite G1. reflexivity. }
      destruct (drop_fold_log m merged rid mrg m2 W E2 F2) as [_ [F3 L3]].
      { (* a kept node is not merged away *)
        assert (NDsorted : NoDup sorted) by (apply sub_sort_by; exact Hnd).
        rewrite <- (firstn_skipn w1 sorted) in NDsorted. apply NoDup_app_inv in NDsorted.
        apply Forall_forall. intros did Hd. split; [|eapply ids_ok_In; eauto].
        intros ->. apply (proj2 (proj2 NDsorted) _ Hin). unfold mrg in Hd. rewrite merged_ids_eq in Hd. exact Hd. }
      exists rid. split; [left; apply (proj1 (sub_sort_by (rank_order inp m) l)), (proj1 (sub_firstn w1 sorted)), Hin|].
      split; [eapply inb_frame_trans; [exact F3|]; apply inb_frame_upd_node; links|].
      change (m_log (upd_node (fold_left (drop_step merged rid) mrg m2) (nth w1 sorted 0) clear_deleted_flag))
        with (m_log (fold_left (drop_step merged rid) mrg m2)).
      rewrite L3. change (m_log m2) with (m_log m1). rewrite L1. reflexivity.
    - set (mid := length (m_nodes m)) in *.
      set (m2 := upd_node (with_nodes m1 (m_nodes m1 ++ [n])) mid set_relaxed_flag).
      assert (E2 : ext m m2).
      { apply ext_r_upd_node; [|reflexivity]. eapply ext_trans; [exact E1|apply (ext_with_nodes_app m1)]. }
      assert (F2 : inb_frame mid m m2).
      { intros id Hid. unfold m2. rewrite (get_node_upd_node_proj (@n_inb St)) by reflexivity.
        rewrite add_node_inb by exact Hi. rewrite G1. reflexivity. }
      destruct (drop_fold_log m merged mid mrg m2 W E2 F2) as [_ [F3 L3]].
      { apply Forall_forall. intros did Hd. pose proof (ids_ok_In _ _ _ Hmrg Hd) as Hlt.
        split; [unfold mid; lia|exact Hlt]. }
      exists mid. split; [right; reflexivity|]. split; [exact F3|].
      rewrite L3. change (m_log m2) with (m_log m1). rewrite L1. reflexivity.
  Qed.

  Theorem relax_layer_log m l m' l' :
    1 <= ci_width inp -> wf m -> ids_ok (length (m_nodes m)) l -> NoDup l ->
    relax_layer st_eqb inp m l = (m', l') ->
    let mrg := merged_ids m l in
    let mstates := merged_states m l in
    let merged := merge rlx mstates in
    m_log m' =
      rev (flat_map (fun did => map (relax_event m merged did) (n_inb (gnode m did))) mrg)
      ++ EvMerge mstates merged :: m_log m.
  Proof.
    intros Hw W Hl Hnd H. destruct (relax_layer_full m l m' l' Hw W Hl Hnd H) as [mid [_ [_ L]]]. exact L.
  Qed.

  (* C12's reading of the previous theorem *)
  Corollary relax_layer_protocol m l m' l' :
    1 <= ci_width inp -> wf m -> ids_ok (length (m_nodes m)) l -> NoDup l ->
    relax_layer st_eqb inp m l = (m', l') ->
    let mstates := merged_states m l in
    let merged := merge rlx mstates in
    exists evs, m_log m' = evs ++ EvMerge mstates merged :: m_log m /\
      forall ev, In ev evs ->
        exists did eid,
          In did (merged_ids m l) /\ In eid (n_inb (gnode m did)) /\
          eid < length (m_edges m) /\
          let e := get_edge m eid in
          e_to e = did /\ e_from e < length (m_nodes m) /\
          In (state_of m did) mstates /\
          ev = EvRelax (state_of m (e_from e)) (state_of m (e_to e)) merged (e_dec e) (e_cost e)
                 (relax rlx (state_of m (e_from e)) (state_of m (e_to e)) merged (e_dec e) (e_cost e)).
  Proof.
    intros Hw W Hl Hnd H mstates merged.
    pose proof (relax_layer_log m l m' l' Hw W Hl Hnd H) as L. cbv zeta in L.
    eexists. split; [exact L|].
    intros ev Hev. apply in_rev in Hev. apply in_flat_map in Hev. destruct Hev as [did [Hd Hev]].
    apply in_map_iff in Hev. destruct Hev as [eid [<- He]].
    assert (Hlt : did < length (m_nodes m)).
    { eapply ids_ok_In; [|exact Hd]. unfold merged_ids.
      eapply ids_ok_incl; [apply sub_skipn|]. eapply ids_ok_incl; [apply sub_sort_by|exact Hl]. }
    exists did, eid. split; [exact Hd|]. split; [exact He|].
    assert (Heid : eid < length (m_edges m)) by (eapply ids_ok_In; [apply (wf_inb_range m did W Hlt)|exact He]).
    split; [exact Heid|]. cbv zeta.
    pose proof (wf_inb_to _ W did eid Hlt He) as Hto.
    split; [exact Hto|]. split; [apply wf_edge_from; auto|]. split.
    - unfold mstates, merged_states. apply in_map_iff. exists did. split; auto.
    - unfold relax_event. rewrite Hto. reflexivity.
  Qed.

  Lemma finalize_layers_log m : m_log (finalize_layers inp m) = m_log m.
  Proof.
    unfold finalize_layers. destruct (is_pooled flv).
    - simpl. apply fold_left_proj. intros; reflexivity.
    - destruct (m_next m); reflexivity.
  Qed.

  Theorem logext_finalize tb tb2 m :
    logext (kind_in [KCacheUpd]) m (finalize st_eqb inp tb tb2 m).
  Proof.
    unfold finalize. eapply logext_trans; [|apply (t_log _ _ _ (touch_compute_thresholds _))].
    eapply logext_trans; [|apply (t_log _ _ _ (touch_compute_local_bounds _ _))].
    apply logext_same. rewrite (finalize_cutset_proj (@m_log St)) by reflexivity. apply finalize_layers_log.
  Qed.

  (* a compilation is the layer loop followed, when it ran to its end, by _finalize *)
  Lemma compile_log tb tb2 c ds polls m o :
    compile st_eqb inp tb tb2 c ds polls = (m, o) ->
    exists m1 e, layer_loop st_eqb inp (S (S (nb_vars pb))) (initialize inp c ds polls) = (m1, e) /\
      logext (kind_in [KCacheUpd]) m1 m.
  Proof.
    unfold compile. destruct (layer_loop _ _ _ _) as [m1 e]. intros H. exists m1, e. split; [reflexivity|].
    destruct e; inversion H; subst; try apply logext_refl. apply logext_finalize.
  Qed.

  (* C12, last clause: the depth handed to next_variable is the depth of the root sub-problem
     plus the number of previous calls, for the whole compilation *)
  Theorem compile_nextvar tb tb2 c ds polls m o :
    compile st_eqb inp tb tb2 c ds polls = (m, o) ->
    exists n, nextvar_depths (rev (m_log m)) = seq (sp_depth (ci_root inp)) n /\
              Forall nextvar_faithful (m_log m).
  Proof.
    intros H. destruct (compile_log _ _ _ _ _ _ _ H) as [m1 [e [Hl [kf [Ef Ff]]]]].
    apply layer_loop_nextvar in Hl. destruct Hl as [k [n [E [Hd [F _]]]]].
    rewrite initialize_log, app_nil_r in E. rewrite initialize_depth in Hd. rewrite <- E in Hd, F.
    assert (Nf : ~ In KNextVar [KCacheUpd]) by (simpl; intuition discriminate).
    exists n. rewrite Ef. split.
    - rewrite rev_app_distr, nextvar_depths_app, (nextvar_depths_kinds _ _ Nf Ff), app_nil_r. exact Hd.
    - apply Forall_app. split; [apply (kinds_nextvar_faithful _ _ Nf Ff)|exact F].
  Qed.

  (* ================================================================ (2') the width bound seen in the log (C13) *)
  (* number of for_each_in_domain calls *)
  Fixpoint domain_count (evs : list (event St)) : nat :=
    match evs with
    | [] => 0
    | EvDomain _ _ :: r => S (domain_count r)
    | _ :: r => domain_count r
    end.

  (* between two next_variable calls (and after the last one) at most W domains are enumerated;
     [cnt] is the number of enumerations already seen in the current segment *)
  Fixpoint width_ok (W cnt : nat) (evs : list (event St)) : Prop :=
    match evs with
    | [] => cnt <= W
    | EvNextVar _ _ _ :: r => cnt <= W /\ width_ok W 0 r
    | EvDomain _ _ :: r => width_ok W (S cnt) r
    | _ :: r => width_ok W cnt r
    end.

  Lemma domain_count_app a b : domain_count (a ++ b) = domain_count a + domain_count b.
  Proof. induction a as [|x a IH]; simpl; auto. destruct x; simpl; rewrite ?IH; auto. Qed.
  Lemma domain_count_rev a : domain_count (rev a) = domain_count a.
  Proof.
    induction a as [|x a IH]; simpl; auto. rewrite domain_count_app, IH. destruct x; simpl; lia.
  Qed.
  Lemma domain_count_kinds ks k : ~ In KDomain ks -> Forall (kind_in ks) k -> domain_count k = 0.
  Proof.
    intros Hn F. induction F as [|x k Hx _ IH]; simpl; auto.
    destruct x; simpl; auto. exfalso; apply Hn; exact Hx.
  Qed.

  (* relaxed compilations, clean flavours: the bound holds for every layer but the root layer and the
     first layer below it.  [skip] counts the segments (delimited by next_variable calls) that are
     still exempted, the current one included. *)
  Fixpoint width_ok_after (skip W cnt : nat) (evs : list (event St)) : Prop :=
    match evs with
    | [] => 0 < skip \/ cnt <= W
    | EvNextVar _ _ _ :: r => (0 < skip \/ cnt <= W) /\ width_ok_after (pred skip) W 0 r
    | EvDomain _ _ :: r => width_ok_after skip W (S cnt) r
    | _ :: r => width_ok_after skip W cnt r
    end.

  Lemma width_ok_after_0 W evs : forall c, width_ok_after 0 W c evs <-> width_ok W c evs.
  Proof.
    induction evs as [|x evs IH]; simpl; intros c; [lia|].
    destruct x; simpl; rewrite ?IH; try reflexivity. intuition lia.
  Qed.

  Lemma width_ok_after_zero W evs : forall c, width_ok W c evs -> width_ok_after 0 W c evs.
  Proof. intros c. apply width_ok_after_0. Qed.

  Lemma width_ok_after_app s W k : Forall (fun ev => kind_of ev <> KNextVar) k ->
    forall c r, width_ok_after s W c (k ++ r) <-> width_ok_after s W (c + domain_count k) r.
  Proof.
    induction 1 as [|x k Hx _ IH]; intros c r; simpl.
    - rewrite Nat.add_0_r. tauto.
    - destruct x; simpl in *; try (apply IH); try congruence.
      rewrite IH. replace (S c + domain_count k) with (c + S (domain_count k)) by lia. tauto.
  Qed.

  (* events that are neither next_variable calls nor enumerations can be appended *)
  Lemma width_ok_after_tail ks W a b :
    ~ In KNextVar ks -> ~ In KDomain ks -> Forall (kind_in ks) b ->
    forall s c0, width_ok_after s W c0 a -> width_ok_after s W c0 (a ++ b).
  Proof.
    intros Hn Hd Fb. induction a as [|x a IH]; simpl; intros s c0 Ha.
    - induction Fb as [|y b Hy _ IHb]; simpl; auto. destruct y; simpl; auto; exfalso; auto.
    - destruct x; simpl in *; auto. destruct Ha; split; auto.
  Qed.

  Lemma not_nextvar_of_kinds ks k :
    ~ In KNextVar ks -> Forall (kind_in ks) k -> Forall (fun ev => kind_of ev <> KNextVar) (rev k).
  Proof.
    intros Hn F. apply Forall_rev. eapply Forall_impl; [|exact F].
    intros ev Hin Heq. apply Hn. rewrite <- Heq. exact Hin.
  Qed.

  Lemma expand_node_domain_count var m id :
    exists k, m_log (expand_node st_eqb inp var m id) = k ++ m_log m /\
              Forall (kind_in expand_kinds) k /\ domain_count k <= 1.
  Proof.
    unfold expand_node. destruct (_ >? _)%Z.
    - set (m1 := add_log _ _).
      assert (L : logext (kind_in [KTransition; KCost]) m1
                 (fold_left (fun m0 val => branch_on st_eqb inp m0 id {| d_var := var; d_val := val |})
                    (domain pb var (state_of m id)) m1)).
      { apply logext_fold; [apply logext_refl|]. intros a x. apply logext_branch_on. }
      destruct L as [kb [E F]].
      exists (kb ++ [EvDomain var (state_of m id)]). split; [|split].
      + rewrite E, <- app_assoc. reflexivity.
      + apply Forall_app. split.
        * eapply Forall_impl; [|exact F]. intros ev. apply kind_in_incl.
          intros x Hx; simpl in *; intuition.
        * constructor; [left; reflexivity|constructor].
      + rewrite domain_count_app. rewrite (domain_count_kinds [KTransition; KCost] kb); auto.
        simpl. intuition discriminate.
    - exists []. split; [reflexivity|split; [constructor|simpl; lia]].
  Qed.

  Lemma fold_expand_domain_count var l : forall m,
    exists k, m_log (fold_left (expand_node st_eqb inp var) l m) = k ++ m_log m /\
              Forall (kind_in expand_kinds) k /\ domain_count k <= length l.
  Proof.
    induction l as [|id l IH]; simpl; intros m.
    - exists []. split; [reflexivity|split; [constructor|simpl; lia]].
    - destruct (expand_node_domain_count var m id) as [k1 [E1 [F1 C1]]].
      destruct (IH (expand_node st_eqb inp var m id)) as [k2 [E2 [F2 C2]]].
      exists (k2 ++ k1). split; [|split].
      + rewrite E2, E1, app_assoc. reflexivity.
      + apply Forall_app; auto.
      + rewrite domain_count_app. lia.
  Qed.

  (* the condition under which _squash_if_needed enforces the width *)
  Definition enforces_width (m : mddT) : Prop :=
    ci_type inp = Restricted \/
    (ci_type inp = Relaxed /\ 1 <= ci_width inp /\ 1 < length (m_layers m)).

  Lemma move_pooled_layers_le m var m' ol :
    move_to_next_layer_pooled st_eqb inp m var = (m', ol) -> length (m_layers m) <= length (m_layers m').
  Proof.
    rewrite move_pooled_unfold. cbv zeta.
    destruct (prefilter _ _) as [m1 l1] eqn:H1.
    destruct (filter_with_dominance _ _ _) as [m2 l2] eqn:H2.
    destruct (squash_if_needed _ _ _ _) as [m3 l3] eqn:H3.
    intros H. apply pair_eq_inv in H. destruct H as [<- _].
    destruct (stages_layers _ _ _ _ _ _ _ _ H1 H2 H3) as [_ [E _]].
    pose proof (ext_layers _ _ E) as EL. rewrite pooled_start_layers in EL.
    match goal with |- context [match ?c with [] => _ | _ => _ end] => destruct c end.
    - rewrite EL. lia.
    - rewrite push_layer_layers, app_length, EL. lia.
  Qed.

  Lemma loop_move_width m var m' l :
    loop_move m var = (m', Some l) -> enforces_width m ->
    length l <= ci_width inp /\ enforces_width m'.
  Proof.
    unfold loop_move, enforces_width. intros H Hw.
    assert (Hlay : length (m_layers m) <= length (m_layers m')).
    { destruct (is_pooled flv).
      - destruct (m_next m); [discriminate|]. eapply move_pooled_layers_le; eauto.
      - apply move_clean_layers in H. destruct H as [ids ->]. rewrite app_length. lia. }
    split.
    - destruct (is_pooled flv).
      + destruct (m_next m) as [|x nx] eqn:Hn; [discriminate|].
        destruct Hw as [Ht|[Ht [H1 H2]]].
        * eapply move_pooled_width_restricted; eauto.
        * eapply move_pooled_width_relaxed; eauto.
      + destruct Hw as [Ht|[Ht [H1 H2]]].
        * eapply move_clean_width_restricted; eauto.
        * eapply move_clean_width_relaxed; eauto.
    - destruct Hw as [Ht|[Ht [H1 H2]]]; [left; auto|right]. repeat split; auto. lia.
  Qed.

  (* The width bound along the loop.  [J skip n] relates the number of segments still exempted to the
     number n of layers recorded so far: it must make the squash enforce the width as soon as the
     current segment is the last exempted one, and be kept by a move. *)
  Theorem layer_loop_width_gen (J : nat -> nat -> Prop) :
    (forall skip m, J skip (length (m_layers m)) -> pred skip = 0 -> enforces_width m) ->
    (forall skip m var m' l, J skip (length (m_layers m)) -> loop_move m var = (m', Some l) ->
                             J (pred skip) (length (m_layers m'))) ->
    forall fuel m m' e,
    layer_loop st_eqb inp fuel m = (m', e) ->
    exists k, m_log m' = k ++ m_log m /\
      forall skip c, J skip (length (m_layers m)) -> (skip = 0 -> c <= ci_width inp) ->
                     width_ok_after skip (ci_width inp) c (rev k).
  Proof.
    intros Henf Hmove. induction fuel as [|fuel IH]; intros m m' e H.
    - simpl in H. inversion H; subst. exists []. split; [reflexivity|]. simpl.
      intros skip c _ Hc. destruct skip; [right; auto|left; lia].
    - assert (Hfirst : forall skip c, (skip = 0 -> c <= ci_width inp) -> 0 < skip \/ c <= ci_width inp).
      { intros skip c Hc. destruct skip; [right; auto|left; lia]. }
      rewrite layer_loop_iteration in H. cbv zeta in H.
      set (sts := map (fun id => state_of m id) (m_next m)) in *.
      destruct (next_variable pb (m_curr_depth m) sts) as [var|].
      2:{ inversion H; subst. exists [EvNextVar (m_curr_depth m) sts None].
          split; [reflexivity|]. simpl. intros skip c _ Hc. split; [auto|].
          destruct (pred skip); [right; lia|left; lia]. }
      set (m0 := add_log m (EvNextVar (m_curr_depth m) sts (Some var))) in *.
      set (m1 := with_polls m0 (S (m_polls m0))) in *.
      destruct (_ && _).
      { inversion H; subst. exists [EvNextVar (m_curr_depth m) sts (Some var)].
        split; [reflexivity|]. simpl. intros skip c _ Hc. split; [auto|].
        destruct (pred skip); [right; lia|left; lia]. }
      destruct (loop_move m1 var) as [m2 ol] eqn:Hmv.
      pose proof (loop_move_log_depth _ _ _ _ Hmv) as [[k2 [E2 F2]] _].
      change (m_log m1) with (EvNextVar (m_curr_depth m) sts (Some var) :: m_log m) in E2.
      assert (N2 : ~ In KNextVar stage_kinds) by (simpl; intuition discriminate).
      assert (D2 : ~ In KDomain stage_kinds) by (simpl; intuition discriminate).
      destruct ol as [l|].
      2:{ inversion H; subst. exists (k2 ++ [EvNextVar (m_curr_depth m) sts (Some var)]).
          split; [rewrite E2, <- app_assoc; reflexivity|].
          intros skip c _ Hc. rewrite rev_app_distr. simpl. split; [auto|].
          rewrite <- (app_nil_r (rev k2)).
          rewrite (width_ok_after_app _ _ _ (not_nextvar_of_kinds _ _ N2 F2)).
          rewrite domain_count_rev, (domain_count_kinds _ _ D2 F2). simpl.
          destruct (pred skip); [right; lia|left; lia]. }
      destruct (fold_expand_domain_count var l m2) as [k3 [E3 [F3 C3]]].
      assert (N3 : ~ In KNextVar expand_kinds) by (simpl; intuition discriminate).
      apply IH in H. destruct H as [k [E Hk]]. simpl m_log in E.
      simpl m_layers in Hk. rewrite (ext_layers _ _ (ext_fold_expand var l m2)) in Hk.
      exists (k ++ k3 ++ k2 ++ [EvNextVar (m_curr_depth m) sts (Some var)]). split.
      + rewrite E, E3, E2, <- !app_assoc. reflexivity.
      + intros skip c Hs Hc. rewrite !rev_app_distr. simpl rev at 1. rewrite <- !app_assoc. simpl.
        split; [auto|].
        rewrite (width_ok_after_app _ _ _ (not_nextvar_of_kinds _ _ N2 F2)).
        rewrite domain_count_rev, (domain_count_kinds _ _ D2 F2).
        rewrite (width_ok_after_app _ _ _ (not_nextvar_of_kinds _ _ N3 F3)).
        rewrite domain_count_rev. apply Hk; [apply (Hmove skip m1 var m2 l Hs Hmv)|].
        (* the layer just expanded was squashed *)
        intros Hz. simpl. destruct (loop_move_width _ _ _ _ Hmv (Henf skip m1 Hs Hz)) as [Hlen _]. lia.
  Qed.

  Theorem layer_loop_width : forall fuel m m' e,
    layer_loop st_eqb inp fuel m = (m', e) -> enforces_width m ->
    exists k, m_log m' = k ++ m_log m /\
              forall c, c <= ci_width inp -> width_ok (ci_width inp) c (rev k).
  Proof.
    intros fuel m m' e H Hw.
    destruct (layer_loop_width_gen (fun skip n => skip = 0 /\
                (ci_type inp = Restricted \/ (ci_type inp = Relaxed /\ 1 <= ci_width inp /\ 1 < n)))) with (3 := H)
      as [k [E Hk]].
    - intros skip a [_ Ha] _. exact Ha.
    - intros skip a var a' l [-> Ha] Hmv. split; [reflexivity|]. apply (loop_move_width _ _ _ _ Hmv Ha).
    - exists k. split; [exact E|]. intros c Hc. apply width_ok_after_0, Hk; auto.
  Qed.

  (* relaxed compilations, for any flavour that records one layer per iteration *)
  Theorem layer_loop_width_relaxed_gen :
    ci_type inp = Relaxed -> 1 <= ci_width inp ->
    (forall m var m' l, loop_move m var = (m', Some l) ->
                        length (m_layers m') = S (length (m_layers m))) ->
    forall fuel m m' e,
    layer_loop st_eqb inp fuel m = (m', e) ->
    exists k, m_log m' = k ++ m_log m /\
      forall skip c, pred skip = 2 - length (m_layers m) -> (skip = 0 -> c <= ci_width inp) ->
                     width_ok_after skip (ci_width inp) c (rev k).
  Proof.
    intros Ht Hw Hgrow. apply (layer_loop_width_gen (fun skip n => pred skip = 2 - n)).
    - intros skip a Hs Hz. right. repeat split; auto. lia.
    - intros skip a var a' l Hs Hmv. rewrite (Hgrow _ _ _ _ Hmv). lia.
  Qed.

  (* restricted compilations: the bound holds for the whole log, for the three flavours *)
  Theorem compile_width_restricted tb tb2 c ds polls m o :
    ci_type inp = Restricted ->
    compile st_eqb inp tb tb2 c ds polls = (m, o) ->
    width_ok (ci_width inp) 0 (rev (m_log m)).
  Proof.
    intros Ht H. destruct (compile_log _ _ _ _ _ _ _ H) as [m1 [e [Hl [kf [Ef Ff]]]]].
    apply layer_loop_width in Hl; [|left; exact Ht]. destruct Hl as [k [E Hk]].
    rewrite initialize_log, app_nil_r in E. rewrite Ef, rev_app_distr, E.
    (* the cache updates of _finalize come last and enumerate no domain *)
    apply width_ok_after_0, (width_ok_after_tail [KCacheUpd]); try (simpl; intuition discriminate).
    - apply Forall_rev, Ff.
    - apply width_ok_after_0, Hk. lia.
  Qed.

  (* ================================================================ (3') the callback protocol as a checker
     over the chronological log (C12).  The checker remembers the result of the last
     next_variable call and the last merge call. *)
  Record pstate := { ps_var : option nat; ps_merge : option (list St * St) }.

  Definition proto_check (st : pstate) (ev : event St) : Prop :=
    match ev with
    | EvNextVar d sts ov => ov = next_variable pb d sts
    | EvDomain x s => ps_var st = Some x
    | EvTransition s d s' =>
        ps_var st = Some (d_var d) /\ s' = transition pb s d /\ In (d_val d) (domain pb (d_var d) s)
    | EvCost s s' d c =>
        ps_var st = Some (d_var d) /\ s' = transition pb s d /\ c = transition_cost pb s s' d /\
        In (d_val d) (domain pb (d_var d) s)
    | EvMerge ms mg => mg = merge rlx ms /\ 2 <= length ms
    | EvRelax src dst mg d c rc =>
        rc = relax rlx src dst mg d c /\ exists ms, ps_merge st = Some (ms, mg) /\ In dst ms
    | _ => True
    end.

  Definition proto_step (st : pstate) (ev : event St) : pstate :=
    match ev with
    | EvNextVar _ _ ov => {| ps_var := ov; ps_merge := None |}
    | EvMerge ms mg => {| ps_var := ps_var st; ps_merge := Some (ms, mg) |}
    | _ => st
    end.

  Fixpoint proto_ok (st : pstate) (evs : list (event St)) : Prop :=
    match evs with
    | [] => True
    | ev :: r => proto_check st ev /\ proto_ok (proto_step st ev) r
    end.

  Definition proto_run (st : pstate) (evs : list (event St)) : pstate := fold_left proto_step evs st.

  Lemma proto_ok_app st a b : proto_ok st (a ++ b) <-> proto_ok st a /\ proto_ok (proto_run st a) b.
  Proof.
    revert st; induction a as [|x a IH]; intros st; simpl.
    - tauto.
    - rewrite IH. unfold proto_run. simpl. tauto.
  Qed.
  Lemma proto_run_app st a b : proto_run st (a ++ b) = proto_run (proto_run st a) b.
  Proof. unfold proto_run. apply fold_left_app. Qed.

  (* cache and dominance traffic is transparent for the protocol *)
  Definition neutral_kinds : list evkind := [KCacheGet; KCacheUpd; KDomQuery].
  Lemma proto_neutral k : Forall (kind_in neutral_kinds) k ->
    forall st, proto_ok st k /\ proto_run st k = st.
  Proof.
    induction 1 as [|x k Hx _ IH]; intros st; simpl; [auto|].
    destruct x; unfold kind_in in Hx; simpl in Hx;
      try (exfalso; intuition discriminate); simpl; destruct (IH st); auto.
  Qed.

  (* events of the expansion, for variable [var], of nodes whose state satisfies P *)
  Definition expand_event_ok (var : nat) (P : St -> Prop) (ev : event St) : Prop :=
    match ev with
    | EvDomain x s => P s /\ x = var
    | EvTransition s d s' =>
        P s /\ d_var d = var /\ s' = transition pb s d /\ In (d_val d) (domain pb var s)
    | EvCost s s' d c =>
        P s /\ d_var d = var /\ s' = transition pb s d /\ c = transition_cost pb s s' d /\
        In (d_val d) (domain pb var s)
    | _ => False
    end.

  Lemma proto_expand var P k : Forall (expand_event_ok var P) k ->
    forall st, ps_var st = Some var -> proto_ok st k /\ proto_run st k = st.
  Proof.
    induction 1 as [|x k Hx _ IH]; intros st Hst; simpl; [auto|].
    destruct (IH st Hst) as [A B].
    destruct x; simpl in Hx; try contradiction; simpl.
    - destruct Hx as [_ ->]. auto.
    - destruct Hx as [_ [<- [-> Hin]]]. auto.
    - destruct Hx as [_ [<- [-> [-> Hin]]]]. repeat split; auto.
  Qed.

  Lemma logext_expand_events var (P : St -> Prop) m id :
    id < length (m_nodes m) -> P (state_of m id) ->
    logext (expand_event_ok var P) m (expand_node st_eqb inp var m id).
  Proof.
    intros Hid HP. unfold logext. rewrite (expand_node_log var m id Hid).
    destruct (expands m id).
    - eexists. split; [reflexivity|]. apply Forall_rev. apply Forall_forall. intros ev Hev.
      apply expand_trace_protocol in Hev. destruct Hev as [->|[val [Hv Hev]]]; [split; auto|].
      cbv zeta in Hev. destruct Hev as [->| ->]; simpl; auto.
    - exists []. split; [reflexivity|constructor].
  Qed.

  Lemma logext_fold_expand_events var (P : St -> Prop) l : forall m,
    wf m -> ids_ok (length (m_nodes m)) l -> (forall id, In id l -> P (state_of m id)) ->
    logext (expand_event_ok var P) m (fold_left (expand_node st_eqb inp var) l m).
  Proof.
    induction l as [|id l IH]; simpl; intros m W Hl HP; [apply logext_refl|].
    inversion Hl as [|? ? Hid Hl']; subst.
    pose proof (ext_expand_node var m id) as E.
    apply (logext_trans _ _ (expand_node st_eqb inp var m id)); [apply logext_expand_events; auto|].
    apply IH; [apply wf_expand_node; auto|eapply ids_ok_mono; [apply (ext_nodes _ _ E)|eassumption]|].
    intros x Hx. rewrite (ext_state _ _ E); [auto|eapply ids_ok_In; eauto].
  Qed.

  (* the calls made by _squash_if_needed over a layer whose states satisfy S, in call order: nothing, or
     one merge of at least two states of the layer followed by relax calls whose dst is one of the
     merged states; [mgs] lists the merge results (none or one) *)
  Definition squash_trace (S : St -> Prop) (evs : list (event St)) (mgs : list St) : Prop :=
    (evs = [] /\ mgs = []) \/
    exists ms rel, evs = EvMerge ms (merge rlx ms) :: rel /\ mgs = [merge rlx ms] /\ 2 <= length ms /\
      (forall s, In s ms -> S s) /\
      Forall (fun ev => exists src dst d c,
                ev = EvRelax src dst (merge rlx ms) d c (relax rlx src dst (merge rlx ms) d c) /\ In dst ms) rel.

  Lemma squash_trace_weaken (S S' : St -> Prop) evs mgs :
    (forall s, S s -> S' s) -> squash_trace S evs mgs -> squash_trace S' evs mgs.
  Proof.
    intros HS [H|[ms [rel [E [Em [H2 [Hm F]]]]]]]; [left; exact H|right].
    exists ms, rel. repeat split; auto.
  Qed.

  Lemma proto_squash S evs mgs : squash_trace S evs mgs ->
    forall st, proto_ok st evs /\ ps_var (proto_run st evs) = ps_var st.
  Proof.
    intros [[-> _]|[ms [rel [-> [_ [H2 [_ F]]]]]]] st; simpl; [auto|].
    set (st1 := {| ps_var := ps_var st; ps_merge := Some (ms, merge rlx ms) |}).
    assert (G : proto_ok st1 rel /\ proto_run st1 rel = st1).
    { induction F as [|x rel [src [dst [d [c [-> Hin]]]]] _ IH]; simpl; [auto|].
      destruct IH as [A B]. split; [|exact B]. split; [|exact A].
      split; [reflexivity|]. exists ms. split; [reflexivity|exact Hin]. }
    destruct G as [A B]. split; [auto|]. unfold proto_run in *. simpl. fold st1. rewrite B. reflexivity.
  Qed.

  (* the list returned by _relax: kept nodes of the layer, plus possibly the fresh merged node *)
  Lemma relax_layer_out m l m' l' :
    1 <= ci_width inp -> relax_layer st_eqb inp m l = (m', l') ->
    forall id, In id l' -> In id l \/ state_of m' id = merge rlx (merged_states m l).
  Proof.
    intros Hw H. apply (relax_layer_cases m l m' l' Hw) in H. cbv zeta in H.
    set (sorted := sort_by (rank_order inp m) l) in *. set (merged := merge rlx (merged_states m l)) in *.
    assert (Ssorted : incl sorted l) by apply (proj1 (sub_sort_by _ l)).
    destruct H as [[rid [_ [_ ->]]]|[n [Hn [_ [_ [-> ->]]]]]]; intros id Hin.
    - left. eapply Ssorted, (proj1 (sub_firstn _ sorted)), Hin.
    - apply in_app_or in Hin. destruct Hin as [Hin|[<-|[]]].
      + left. eapply Ssorted, (proj1 (sub_firstn _ sorted)), Hin.
      + right. set (mid := length (m_nodes m)).
        match goal with |- context [fold_left ?f ?L ?a] =>
          assert (E : ext a (fold_left f L a)) by (apply ext_fold_left; intros; apply ext_drop_step);
          set (m2 := a) in * end.
        assert (L2 : length (m_nodes m2) = S mid).
        { unfold m2. simpl. rewrite upd_nth_length, app_length, note_squash_nodes. simpl. unfold mid. lia. }
        rewrite (ext_state _ _ E) by (rewrite L2; lia).
        unfold m2. rewrite (get_node_upd_node_proj (@n_state St)) by reflexivity.
        unfold get_node. simpl m_nodes. rewrite note_squash_nodes, app_nth2 by (unfold mid; lia).
        unfold mid. rewrite Nat.sub_diag. exact Hn.
  Qed.

  Definition states_of (m : mddT) (l : list nat) (s : St) : Prop := exists id, In id l /\ s = state_of m id.

  Lemma squash_trace_of m l m' l' :
    wf m -> ids_ok (length (m_nodes m)) l -> NoDup l ->
    squash_if_needed st_eqb inp m l = (m', l') ->
    exists ks mgs, m_log m' = ks ++ m_log m /\ squash_trace (states_of m l) (rev ks) mgs /\
      forall id, In id l' -> In id l \/ In (state_of m' id) mgs.
  Proof.
    intros W Hl Hnd H.
    assert (Hnone : m_log m' = m_log m -> incl l' l ->
      exists ks mgs, m_log m' = ks ++ m_log m /\ squash_trace (states_of m l) (rev ks) mgs /\
        forall id, In id l' -> In id l \/ In (state_of m' id) mgs).
    { intros E I. exists [], []. split; [exact E|]. split; [left; auto|]. intros id Hid. left. apply I, Hid. }
    unfold squash_if_needed in H. destruct (ci_type inp) eqn:Ht.
    - inversion H; subst. apply Hnone; [reflexivity|apply incl_refl].
    - destruct (ci_width inp <? length l) eqn:Hlt; simpl in H;
        [|inversion H; subst; apply Hnone; [reflexivity|apply incl_refl]].
      destruct (1 <? length (m_layers m)) eqn:Hlay;
        [|inversion H; subst; apply Hnone; [reflexivity|apply incl_refl]].
      destruct (Nat.eq_dec (ci_width inp) 0) as [Hw0|Hw0].
      { unfold relax_layer in H. rewrite Hw0 in H. inversion H; subst.
        apply Hnone; [simpl; apply note_squash_log|apply incl_refl]. }
      assert (Hw1 : 1 <= ci_width inp) by lia.
      destruct (relax_layer_protocol m l m' l' Hw1 W Hl Hnd H) as [evs [E P]].
      pose proof (relax_layer_out m l m' l' Hw1 H) as Hout.
      set (mstates := merged_states m l) in *.
      exists (evs ++ [EvMerge mstates (merge rlx mstates)]), [merge rlx mstates].
      split; [rewrite E, <- app_assoc; reflexivity|]. split.
      + right. exists mstates, (rev evs). rewrite rev_app_distr. split; [reflexivity|]. split; [reflexivity|].
        apply Nat.ltb_lt in Hlt. apply Nat.ltb_lt in Hlay.
        split; [apply (squash_relax_merges_two m l Ht Hw1 Hlt Hlay)|]. split.
        * intros s Hs. unfold mstates, merged_states in Hs. apply in_map_iff in Hs.
          destruct Hs as [id [<- Hid]]. exists id. split; [apply (merged_ids_incl m l), Hid|reflexivity].
        * apply Forall_rev, Forall_forall. intros ev Hev.
          destruct (P ev Hev) as [did [eid [_ [_ [_ Hrest]]]]]. cbv zeta in Hrest.
          destruct Hrest as [Hto [_ [Hin ->]]].
          do 4 eexists. split; [reflexivity|]. rewrite Hto. exact Hin.
      + intros id Hid. destruct (Hout id Hid) as [A|A]; [left; exact A|right; left; symmetry; exact A].
    - destruct (ci_width inp <? length l); [|inversion H; subst; apply Hnone; [reflexivity|apply incl_refl]].
      apply Hnone; [eapply restrict_layer_log; eauto|].
      apply (touch_restrict_layer (fun _ => True) _ _ _ _ H).
  Qed.

  Lemma stages_trace m curr m1 l1 m2 l2 m3 l3 :
    prefilter m curr = (m1, l1) -> filter_with_dominance inp m1 l1 = (m2, l2) ->
    squash_if_needed st_eqb inp m2 l2 = (m3, l3) ->
    wf m -> ids_ok (length (m_nodes m)) curr -> NoDup curr ->
    exists kf ks mgs, m_log m3 = ks ++ kf ++ m_log m /\
      Forall (kind_in neutral_kinds) kf /\ squash_trace (states_of m curr) (rev ks) mgs /\
      forall id, In id l3 -> states_of m curr (state_of m3 id) \/ In (state_of m3 id) mgs.
  Proof.
    intros H1 H2 H3 W Hc Hnd.
    destruct (touch_filters _ _ _ _ _ _ H1 H2) as [T [S12 _]].
    destruct (wf_filters _ _ _ _ _ _ H1 H2 W Hc Hnd) as [W2 [I2 N2]].
    pose proof (ext_trans _ _ _ (touch_ext _ _ _ T) (ext_squash_if_needed _ _ _ _ H3)) as E13.
    destruct (squash_trace_of m2 l2 m3 l3 W2 I2 N2 H3) as [ks [mgs [E3l [C3 O3]]]].
    destruct (t_log _ _ _ T) as [kf [Ef Ff]].
    assert (HS : forall id, In id l2 -> states_of m curr (state_of m2 id)).
    { intros id Hid. exists id. split; [apply (proj1 S12); exact Hid|apply (t_node _ _ _ T)]. }
    exists kf, ks, mgs. split; [rewrite E3l, Ef; reflexivity|]. split; [|split].
    - eapply Forall_impl; [|exact Ff]. intros ev. apply kind_in_incl. intros x [<-|[<-|[]]]; simpl; auto.
    - eapply squash_trace_weaken; [|exact C3]. intros s [id [Hid ->]]. apply HS, Hid.
    - intros id Hid. destruct (O3 id Hid) as [A|A]; [left|right; exact A].
      exists id. split; [apply (proj1 S12); exact A|].
      apply (ext_state _ _ E13). eapply ids_ok_In; [exact Hc|]. apply (proj1 S12). exact A.
  Qed.

  Lemma pooled_start_state m var id : state_of (pooled_start m var) id = state_of m id.
  Proof.
    destruct (pooled_start_touch (fun _ => True) m var) as [m1 [T ->]]. apply (t_node _ _ _ T).
  Qed.

  Lemma move_start_wf m var :
    wf m ->
    wf (fst (move_start m var)) /\
    ids_ok (length (m_nodes (fst (move_start m var)))) (snd (move_start m var)) /\ NoDup (snd (move_start m var)) /\
    forall s, states_of (fst (move_start m var)) (snd (move_start m var)) s -> states_of m (m_next m) s.
  Proof.
    intros W. unfold move_start. destruct (is_pooled flv); cbn [fst snd].
    - destruct (pooled_start_wf m var W) as [W0 L0]. split; [exact W0|]. rewrite L0. unfold pooled_curr.
      split; [eapply ids_ok_incl; [apply sub_filter|apply (wf_next _ W)]|].
      split; [apply NoDup_filter, (wf_next_nodup _ W)|].
      intros s [id [Hid ->]]. exists id. split; [|apply pooled_start_state]. apply filter_In in Hid. tauto.
    - split; [apply wf_with_next; [exact W|constructor|constructor]|].
      split; [apply (wf_next _ W)|]. split; [apply (wf_next_nodup _ W)|]. intros s Hs. exact Hs.
  Qed.

  Lemma loop_move_trace m var m' ol :
    loop_move m var = (m', ol) -> wf m ->
    exists kf ks mgs, m_log m' = ks ++ kf ++ m_log m /\
      Forall (kind_in neutral_kinds) kf /\ squash_trace (states_of m (m_next m)) (rev ks) mgs /\
      forall l, ol = Some l -> forall id, In id l ->
        states_of m (m_next m) (state_of m' id) \/ In (state_of m' id) mgs.
  Proof.
    intros H W.
    destruct (loop_move_cases _ _ _ _ H)
      as [(_ & -> & Hm')|(_ & m1 & l1 & m2 & l2 & m3 & l3 & H1 & H2 & H3 & -> & Hm')].
    - exists [], [], []. split; [destruct Hm' as [->| ->]; reflexivity|]. split; [constructor|].
      split; [left; auto|]. intros l Hl; discriminate.
    - destruct (move_start_wf m var W) as (W0 & Hc & Hnd & HS). destruct (move_start_frame m var) as (F1 & _).
      destruct (stages_trace _ _ _ _ _ _ _ _ H1 H2 H3 W0 Hc Hnd) as [kf [ks [mgs [E [F [C O]]]]]].
      rewrite F1 in E.
      assert (Hst : m_log m' = m_log m3 /\ forall id, state_of m' id = state_of m3 id)
        by (destruct Hm' as [->|(ids & e & ->)]; split; reflexivity).
      destruct Hst as [Hlog Hst].
      exists kf, ks, mgs. split; [rewrite Hlog; exact E|]. split; [exact F|].
      split; [eapply squash_trace_weaken; [exact HS|exact C]|].
      intros l Hl id Hid. inversion Hl; subst l. rewrite Hst.
      destruct (O id Hid) as [A|A]; [left; apply HS; exact A|right; exact A].
  Qed.
  Theorem layer_loop_protocol : forall fuel m m' e,
    layer_loop st_eqb inp fuel m = (m', e) -> wf m ->
    exists k, m_log m' = k ++ m_log m /\ forall st, proto_ok st (rev k).
  Proof.
    induction fuel as [|fuel IH]; intros m m' e H W.
    - simpl in H. inversion H; subst. exists []. split; [reflexivity|]. simpl. auto.
    - rewrite layer_loop_iteration in H. cbv zeta in H.
      set (sts := map (fun id => state_of m id) (m_next m)) in *.
      destruct (next_variable pb (m_curr_depth m) sts) as [var|] eqn:Hov.
      2:{ inversion H; subst. exists [EvNextVar (m_curr_depth m) sts None].
          split; [reflexivity|]. simpl. auto. }
      set (m0 := add_log m (EvNextVar (m_curr_depth m) sts (Some var))) in *.
      set (m1 := with_polls m0 (S (m_polls m0))) in *.
      assert (W1 : wf m1) by (apply wf_with_polls, wf_add_log, W).
      destruct (_ && _).
      { inversion H; subst. exists [EvNextVar (m_curr_depth m) sts (Some var)].
        split; [reflexivity|]. simpl. auto. }
      destruct (loop_move m1 var) as [m2 ol] eqn:Hmv.
      destruct (wf_loop_move _ _ _ _ Hmv W1) as [W2 Hl].
      destruct (loop_move_trace _ _ _ _ Hmv W1) as [kf [ks [mgs [E2 [Ff [Cs _]]]]]].
      change (m_log m1) with (EvNextVar (m_curr_depth m) sts (Some var) :: m_log m) in E2.
      set (st1 := {| ps_var := Some var; ps_merge := None |}).
      assert (Pmove : proto_ok st1 (rev kf ++ rev ks) /\ ps_var (proto_run st1 (rev kf ++ rev ks)) = Some var).
      { destruct (proto_neutral (rev kf) (Forall_rev Ff) st1) as [A1 B1].
        destruct (proto_squash _ (rev ks) mgs Cs st1) as [A2 B2].
        rewrite proto_ok_app, proto_run_app, B1. auto. }
      destruct Pmove as [Pm Vm].
      destruct ol as [l|].
      2:{ inversion H; subst. exists (ks ++ kf ++ [EvNextVar (m_curr_depth m) sts (Some var)]).
          split; [rewrite E2, <- !app_assoc; reflexivity|].
          intros st. rewrite !rev_app_distr. simpl rev at 1. rewrite <- !app_assoc. simpl.
          split; [auto|]. exact Pm. }
      destruct (Hl l eq_refl) as [Il Nl].
      destruct (logext_fold_expand_events var (fun _ => True) l m2 W2 Il) as [k3 [E3 F3]]; [auto|].
      apply IH in H.
      2:{ apply wf_with_depth. apply wf_fold_expand; auto. }
      destruct H as [k [E Hk]]. simpl m_log in E.
      exists (k ++ k3 ++ ks ++ kf ++ [EvNextVar (m_curr_depth m) sts (Some var)]). split.
      + rewrite E, E3, E2, <- !app_assoc. reflexivity.
      + intros st. rewrite !rev_app_distr. simpl rev at 1. rewrite <- !app_assoc. simpl.
        split; [auto|]. fold st1.
        rewrite (app_assoc (rev kf)). rewrite proto_ok_app. split; [exact Pm|].
        destruct (proto_expand var _ (rev k3) (Forall_rev F3) _ Vm) as [A3 B3].
        rewrite proto_ok_app, B3. split; [exact A3|apply Hk].
  Qed.

  (* C12 for a whole compilation, whatever its outcome *)
  Theorem compile_protocol tb tb2 c ds polls m o :
    compile st_eqb inp tb tb2 c ds polls = (m, o) ->
    forall st, proto_ok st (rev (m_log m)).
  Proof.
    intros H st. destruct (compile_log _ _ _ _ _ _ _ H) as [m1 [e [Hl [kf [Ef Ff]]]]].
    apply layer_loop_protocol in Hl; [|apply wf_initialize]. destruct Hl as [k [E Hk]].
    rewrite initialize_log, app_nil_r in E. rewrite Ef, rev_app_distr, proto_ok_app, E.
    split; [apply Hk|]. apply proto_neutral, Forall_rev. eapply Forall_impl; [|exact Ff].
    intros ev. apply kind_in_incl. intros x [<-|[]]; simpl; auto.
  Qed.

  Theorem compile_width_relaxed_gen tb tb2 c ds polls m o :
    ci_type inp = Relaxed -> 1 <= ci_width inp ->
    (forall m var m' l, loop_move m var = (m', Some l) ->
                        length (m_layers m') = S (length (m_layers m))) ->
    compile st_eqb inp tb tb2 c ds polls = (m, o) ->
    width_ok_after 3 (ci_width inp) 0 (rev (m_log m)).
  Proof.
    intros Ht Hw Hgrow H. destruct (compile_log _ _ _ _ _ _ _ H) as [m1 [e [Hl [kf [Ef Ff]]]]].
    apply (layer_loop_width_relaxed_gen Ht Hw Hgrow) in Hl. destruct Hl as [k [E Hk]].
    rewrite initialize_log, app_nil_r in E. rewrite Ef, rev_app_distr, E.
    apply (width_ok_after_tail [KCacheUpd]); try (simpl; intuition discriminate).
    - apply Forall_rev, Ff.
    - apply Hk; [reflexivity|discriminate].
  Qed.

  Theorem compile_width_relaxed_clean tb tb2 c ds polls m o :
    ci_type inp = Relaxed -> 1 <= ci_width inp -> is_pooled flv = false ->
    compile st_eqb inp tb tb2 c ds polls = (m, o) ->
    width_ok_after 3 (ci_width inp) 0 (rev (m_log m)).
  Proof.
    intros Ht Hw Hp. apply compile_width_relaxed_gen; auto.
    intros a var a' l Hmv. unfold loop_move in Hmv. rewrite Hp in Hmv.
    apply move_clean_layers in Hmv. destruct Hmv as [ids ->]. rewrite app_length. simpl. lia.
  Qed.

  (* ================================================================ what wf buys: the accessors never
     fall back on their default on any identifier stored in a well-formed diagram *)
  Lemma get_node_nth_error (m : mddT) id :
    id < length (m_nodes m) -> nth_error (m_nodes m) id = Some (gnode m id).
  Proof. intros H. unfold get_node. apply nth_error_nth'. exact H. Qed.
  Lemma get_edge_nth_error (m : mddT) eid :
    eid < length (m_edges m) -> nth_error (m_edges m) eid = Some (get_edge m eid).
  Proof. intros H. unfold get_edge. apply nth_error_nth'. exact H. Qed.

  Corollary wf_next_defined m id : wf m -> In id (m_next m) -> nth_error (m_nodes m) id = Some (gnode m id).
  Proof. intros W H. apply get_node_nth_error. eapply ids_ok_In; [apply (wf_next _ W)|exact H]. Qed.
  Corollary wf_layer_defined m ids id :
    wf m -> In ids (m_layers m) -> In id ids -> nth_error (m_nodes m) id = Some (gnode m id).
  Proof.
    intros W H1 H2. apply get_node_nth_error. pose proof (wf_layers _ W) as F.
    rewrite Forall_forall in F. eapply ids_ok_In; [apply (F ids H1)|exact H2].
  Qed.
  Corollary wf_inbound_defined m id eid :
    wf m -> id < length (m_nodes m) -> In eid (n_inb (gnode m id)) ->
    nth_error (m_edges m) eid = Some (get_edge m eid) /\ e_to (get_edge m eid) = id /\
    e_from (get_edge m eid) < length (m_nodes m).
  Proof.
    intros W Hid Hin.
    assert (Hlt : eid < length (m_edges m)) by (eapply ids_ok_In; [apply (wf_inb_range m id W Hid)|exact Hin]).
    split; [apply get_edge_nth_error; exact Hlt|]. split; [apply (wf_inb_to _ W); auto|].
    apply wf_edge_from; auto.
  Qed.

  (* ================================================================ (3'') relax is only called on genuine arcs
     (C12: "relax(src,dst,merged,d,cost) has dst = transition(src,d), d in the domain of its variable
     at src, cost = the transition cost").  An arc is genuine when it was created by _branch_on and
     not redirected; [st_eqb] identifies the target with the state returned by [transition]. *)
  Definition genuine (m : mddT) (eid : nat) : Prop :=
    let e := get_edge m eid in
    let src := state_of m (e_from e) in
    let d := e_dec e in
    let s' := transition pb src d in
    In (d_val d) (domain pb (d_var d) src) /\ e_cost e = transition_cost pb src s' d /\
    (state_of m (e_to e) = s' \/ st_eqb (state_of m (e_to e)) s' = true).

  Definition inb_genuine (m : mddT) (L : list nat) : Prop :=
    forall id eid, In id L -> In eid (n_inb (gnode m id)) -> genuine m eid.

  Lemma genuine_ext m a eid :
    wf m -> ext m a -> eid < length (m_edges m) -> genuine m eid -> genuine a eid.
  Proof.
    intros W E Hlt. unfold genuine. rewrite (get_edge_ext m a eid E Hlt).
    pose proof (wf_edges _ W) as FE. rewrite Forall_forall in FE.
    destruct (FE (get_edge m eid)) as [Hfrom Hto]; [apply nth_In; exact Hlt|].
    rewrite !(ext_state _ _ E) by assumption. auto.
  Qed.

  Lemma inb_genuine_touch P m a L : touch P m a -> inb_genuine m L -> inb_genuine a L.
  Proof.
    intros T G id eid Hid Hin. rewrite (proj2 (proj2 (t_node _ _ _ T id))) in Hin.
    specialize (G id eid Hid Hin). unfold genuine, get_edge in *.
    rewrite (t_edges _ _ _ T), !(proj1 (t_node _ _ _ T _)). exact G.
  Qed.

  Lemma inb_genuine_incl m L L' : incl L' L -> inb_genuine m L -> inb_genuine m L'.
  Proof. intros H G id eid Hid. apply G. apply H. exact Hid. Qed.

  Lemma append_edge_inb_cases m e x eid :
    In eid (n_inb (gnode (append_edge inp m e) x)) ->
    (eid = length (m_edges m) /\ x = e_to e) \/ In eid (n_inb (gnode m x)).
  Proof.
    intros Hin. unfold get_node in Hin. simpl m_nodes in Hin.
    destruct (Nat.eq_dec (e_to e) x) as [Heq|Hne].
    - subst x. destruct (Nat.lt_ge_cases (e_to e) (length (m_nodes m))) as [Hlt|Hge].
      + rewrite nth_upd_nth_same in Hin by exact Hlt. simpl in Hin.
        destruct Hin as [Hin|Hin]; [left; split; auto|right; exact Hin].
      + rewrite upd_nth_oob in Hin by exact Hge. right; exact Hin.
    - rewrite nth_upd_nth_other in Hin by exact Hne. right; exact Hin.
  Qed.

  Lemma branch_on_inb_cases m id d x eid :
    In eid (n_inb (gnode (branch_on st_eqb inp m id d) x)) ->
    eid = length (m_edges m) \/ In eid (n_inb (gnode m x)).
  Proof.
    unfold branch_on.
    set (s := state_of m id). set (s' := transition pb s d). set (c := transition_cost pb s s' d).
    set (m2 := add_log (add_log m (EvTransition s d s')) (EvCost s s' d c)).
    destruct (find_next st_eqb inp m2 s') as [nid|].
    - intros H. apply append_edge_inb_cases in H. destruct H as [[H _]|H]; [left; exact H|right; exact H].
    - set (n := {| n_state := s'; n_vtop := _ |}).
      intros H.
      match type of H with In _ (n_inb (get_node inp (with_next ?a ?b) x)) =>
        change (In eid (n_inb (gnode a x))) in H end.
      apply append_edge_inb_cases in H. destruct H as [[H _]|H]; [left; exact H|right].
      rewrite add_node_inb in H by reflexivity. exact H.
  Qed.

  Lemma branch_on_next_cases m id d x :
    In x (m_next (branch_on st_eqb inp m id d)) -> In x (m_next m) \/ length (m_nodes m) <= x.
  Proof.
    unfold branch_on.
    match goal with |- context [find_next ?a ?b ?c ?e] => destruct (find_next a b c e) end.
    - rewrite append_edge_next. simpl. auto.
    - simpl m_next. intros H. apply in_app_or in H. destruct H as [H|[<-|[]]]; [left; exact H|right].
      simpl. lia.
  Qed.

  Lemma branch_on_genuine m id d :
    wf m -> id < length (m_nodes m) ->
    In (d_val d) (domain pb (d_var d) (state_of m id)) ->
    inb_genuine m (m_next m) ->
    inb_genuine (branch_on st_eqb inp m id d) (m_next (branch_on st_eqb inp m id d)).
  Proof.
    intros W Hid Hdom G x eid Hx Hin.
    pose proof (ext_branch_on m id d) as E.
    apply branch_on_inb_cases in Hin. destruct Hin as [->|Hin].
    - (* the new arc *)
      destruct (branch_on_edge m id d) as [e [He [Hfrom [Hdec [Hcost [_ Hto]]]]]].
      unfold genuine.
      assert (Hge : get_edge (branch_on st_eqb inp m id d) (length (m_edges m)) = e).
      { unfold get_edge. rewrite He. rewrite app_nth2 by lia. rewrite Nat.sub_diag. reflexivity. }
      rewrite Hge, Hfrom, Hdec, Hcost. rewrite (ext_state _ _ E) by exact Hid. auto.
    - apply branch_on_next_cases in Hx. destruct Hx as [Hx|Hx].
      + apply (genuine_ext m _ eid W E).
        * eapply ids_ok_In; [apply (inb_range_any m x W)|exact Hin].
        * eapply G; eauto.
      + exfalso. unfold get_node in Hin. rewrite nth_overflow in Hin by exact Hx. destruct Hin.
  Qed.

  Lemma inb_genuine_frame m m' L :
    m_nodes m' = m_nodes m -> m_edges m' = m_edges m -> inb_genuine m L -> inb_genuine m' L.
  Proof.
    intros Hn He G id eid Hid Hin. unfold get_node in Hin. rewrite Hn in Hin.
    specialize (G id eid Hid Hin). unfold genuine, get_edge, get_node in *. rewrite Hn, He. exact G.
  Qed.

  Lemma expand_node_genuine var m id :
    wf m -> id < length (m_nodes m) -> inb_genuine m (m_next m) ->
    inb_genuine (expand_node st_eqb inp var m id) (m_next (expand_node st_eqb inp var m id)).
  Proof.
    intros W Hid G. unfold expand_node.
    set (s := state_of m id).
    set (m1 := upd_node m id _).
    assert (W1 : wf m1) by (apply wf_upd_node; [intros n; split; reflexivity|exact W]).
    assert (E1 : ext m m1) by (apply ext_upd_node; reflexivity).
    assert (G1 : inb_genuine m1 (m_next m1)).
    { apply (inb_genuine_touch (fun _ => True) m); [apply touch_upd_node; [reflexivity|links]|exact G]. }
    destruct (_ >? _)%Z; [|exact G1].
    set (m2 := add_log m1 (EvDomain var s)).
    assert (P : forall a, wf a /\ id < length (m_nodes a) /\ state_of a id = s /\ inb_genuine a (m_next a) ->
                forall val, In val (domain pb var s) ->
                let a' := branch_on st_eqb inp a id {| d_var := var; d_val := val |} in
                wf a' /\ id < length (m_nodes a') /\ state_of a' id = s /\ inb_genuine a' (m_next a')).
    { intros a [Wa [Ha [Sa Ga]]] val Hval a'.
      pose proof (ext_branch_on a id {| d_var := var; d_val := val |}) as Ea. fold a' in Ea.
      split; [apply wf_branch_on; auto|]. split; [pose proof (ext_nodes _ _ Ea); lia|].
      split; [rewrite (ext_state _ _ Ea) by exact Ha; exact Sa|].
      apply branch_on_genuine; auto. simpl. rewrite Sa. exact Hval. }
    apply (fold_left_inv (fun a => wf a /\ id < length (m_nodes a) /\ state_of a id = s /\ inb_genuine a (m_next a))).
    - intros a val Hval Ha. apply P; assumption.
    - split; [apply wf_add_log; exact W1|].
      split; [change (id < length (m_nodes m1)); pose proof (ext_nodes _ _ E1); lia|].
      split; [change (state_of m1 id = s); apply (ext_state _ _ E1); exact Hid|].
      apply (inb_genuine_frame m1 m2); [reflexivity|reflexivity|exact G1].
  Qed.

  Lemma fold_expand_genuine var l : forall m,
    wf m -> ids_ok (length (m_nodes m)) l -> inb_genuine m (m_next m) ->
    let m' := fold_left (expand_node st_eqb inp var) l m in inb_genuine m' (m_next m').
  Proof.
    induction l as [|id l IH]; simpl; intros m W Hl G; [exact G|].
    inversion Hl as [|? ? Hid Hl']; subst. apply IH.
    - apply wf_expand_node; auto.
    - eapply ids_ok_mono; [|exact Hl']. apply (ext_nodes _ _ (ext_expand_node var m id)).
    - apply expand_node_genuine; auto.
  Qed.

  Definition relax_genuine (ev : event St) : Prop :=
    match ev with
    | EvRelax src dst mg d c rc =>
        In (d_val d) (domain pb (d_var d) src) /\
        c = transition_cost pb src (transition pb src d) d /\
        (dst = transition pb src d \/ st_eqb dst (transition pb src d) = true)
    | _ => True
    end.

  Lemma relax_genuine_kinds ks k : ~ In KRelax ks -> Forall (kind_in ks) k -> Forall relax_genuine k.
  Proof.
    intros Hn F. eapply Forall_impl; [|exact F]. intros ev Hin.
    destruct ev; simpl; auto. exfalso; apply Hn; exact Hin.
  Qed.

  Lemma squash_genuine m l m' l' :
    wf m -> ids_ok (length (m_nodes m)) l -> NoDup l -> inb_genuine m l ->
    squash_if_needed st_eqb inp m l = (m', l') ->
    logext relax_genuine m m' /\
    (forall id, id < length (m_nodes m) -> ~ In id l -> n_inb (gnode m' id) = n_inb (gnode m id)).
  Proof.
    intros W Hl Hnd G H.
    assert (Hnone : (m', l') = (m, l) -> logext relax_genuine m m' /\
      (forall id, id < length (m_nodes m) -> ~ In id l -> n_inb (gnode m' id) = n_inb (gnode m id))).
    { intros E; inversion E; subst. split; [apply logext_refl|auto]. }
    unfold squash_if_needed in H. destruct (ci_type inp) eqn:Ht.
    - auto.
    - destruct (ci_width inp <? length l) eqn:Hlt; simpl in H; [|auto].
      destruct (1 <? length (m_layers m)) eqn:Hlay; [|auto].
      destruct (ci_width inp) as [|w1] eqn:Hw.
      + unfold relax_layer in H. rewrite Hw in H. inversion H; subst. split.
        * apply logext_same. simpl. apply note_squash_log.
        * intros id _ _. change (gnode (set_crash (note_squash inp m)) id) with (gnode (note_squash inp m) id).
          rewrite note_squash_gnode. reflexivity.
      + assert (Hw1 : 1 <= ci_width inp) by lia. rewrite <- Hw in *.
        destruct (relax_layer_protocol m l m' l' Hw1 W Hl Hnd H) as [evs [E P]].
        destruct (relax_layer_full m l m' l' Hw1 W Hl Hnd H) as [mid [Hmid [F _]]].
        split.
        * exists (evs ++ [EvMerge (merged_states m l) (merge rlx (merged_states m l))]).
          split; [rewrite E, <- app_assoc; reflexivity|].
          apply Forall_app. split; [|constructor; simpl; auto].
          apply Forall_forall. intros ev Hev.
          destruct (P ev Hev) as [did [eid [Hd [He [_ Hrest]]]]]. cbv zeta in Hrest.
          destruct Hrest as [_ [_ [_ ->]]].
          assert (Gd : genuine m eid) by (apply (G did eid); [apply (merged_ids_incl m l did Hd)|exact He]).
          unfold genuine in Gd. cbv zeta in Gd. destruct Gd as [A [B C]]. simpl. auto.
        * intros id Hid Hnin. apply F. destruct Hmid as [Hmid| ->]; [|lia].
          intros ->. apply Hnin. exact Hmid.
    - destruct (_ <? _); [|auto]. split.
      + apply logext_same. eapply restrict_layer_log; eauto.
      + intros id _ _. apply (touch_restrict_layer (fun _ => True) _ _ _ _ H).
  Qed.

  Lemma drop_step_next merged mid (m : mddT) did : m_next (drop_step merged mid m did) = m_next m.
  Proof.
    unfold drop_step. rewrite redirect_edges_fold.
    rewrite (fold_left_proj (@m_next St)); [reflexivity|].
    intros a x. unfold redirect_step. rewrite append_edge_next. reflexivity.
  Qed.

  Lemma squash_next m l m' l' : squash_if_needed st_eqb inp m l = (m', l') -> m_next m' = m_next m.
  Proof.
    unfold squash_if_needed. intros H.
    assert (Hnone : (m', l') = (m, l) -> m_next m' = m_next m) by (intros E; inversion E; reflexivity).
    destruct (ci_type inp); [auto| |].
    - destruct (_ && _); [|auto].
      destruct (ci_width inp) as [|w1] eqn:Hw.
      + unfold relax_layer in H. rewrite Hw in H. inversion H; subst. simpl. apply note_squash_next.
      + rewrite (relax_layer_unfold m l w1 Hw) in H. cbv zeta in H.
        match type of H with context [find ?f ?k] => destruct (find f k) end;
          apply pair_eq_inv in H; destruct H as [<- _].
        * simpl m_next. rewrite (fold_left_proj (@m_next St)) by (intros; apply drop_step_next).
          simpl. apply note_squash_next.
        * rewrite (fold_left_proj (@m_next St)) by (intros; apply drop_step_next).
          simpl. apply note_squash_next.
    - destruct (_ <? _); [|auto]. apply (touch_restrict_layer (fun _ => True) _ _ _ _ H).
  Qed.

  (* the three stages: the relax calls are made on genuine arcs, and the nodes that stay in the pool
     keep genuine inbound arcs *)
  Lemma stages_genuine m curr m1 l1 m2 l2 m3 l3 :
    prefilter m curr = (m1, l1) -> filter_with_dominance inp m1 l1 = (m2, l2) ->
    squash_if_needed st_eqb inp m2 l2 = (m3, l3) ->
    wf m -> ids_ok (length (m_nodes m)) curr -> NoDup curr ->
    inb_genuine m curr -> inb_genuine m (m_next m) ->
    (forall x, In x (m_next m) -> ~ In x curr) ->
    logext relax_genuine m m3 /\ inb_genuine m3 (m_next m3).
  Proof.
    intros H1 H2 H3 W Hc Hnd Gc Gn Hdisj.
    destruct (touch_filters _ _ _ _ _ _ H1 H2) as [T [S12 _]].
    destruct (wf_filters _ _ _ _ _ _ H1 H2 W Hc Hnd) as [W2 [Il2 Nl2]].
    assert (G2 : inb_genuine m2 l2).
    { eapply inb_genuine_incl; [apply S12|]. apply (inb_genuine_touch _ _ _ _ T Gc). }
    destruct (squash_genuine m2 l2 m3 l3 W2 Il2 Nl2 G2 H3) as [L3 F3].
    split.
    - eapply logext_trans; [|exact L3]. destruct (t_log _ _ _ T) as [k [E F]]. exists k. split; [exact E|].
      apply (relax_genuine_kinds filter_kinds); [simpl; intuition discriminate|exact F].
    - rewrite (squash_next _ _ _ _ H3), (t_next _ _ _ T).
      intros x eid Hx Hin. rewrite F3 in Hin.
      + apply (genuine_ext m2 m3 eid W2 (ext_squash_if_needed _ _ _ _ H3)).
        * eapply ids_ok_In; [apply (inb_range_any m2 x W2)|exact Hin].
        * apply (inb_genuine_touch _ _ _ _ T Gn x); assumption.
      + rewrite (t_len _ _ _ T). eapply ids_ok_In; [apply (wf_next _ W)|exact Hx].
      + intros Hl2. apply (Hdisj x Hx). apply (proj1 S12). exact Hl2.
  Qed.

  Lemma pooled_start_genuine m var :
    inb_genuine m (m_next m) ->
    let m0 := pooled_start m var in
    inb_genuine m0 (pooled_curr m var) /\ inb_genuine m0 (m_next m0) /\
    (forall x, In x (m_next m0) -> ~ In x (pooled_curr m var)).
  Proof.
    intros G. destruct (pooled_start_touch (fun _ => True) m var) as [m1 [T ->]]. cbv zeta.
    pose proof (inb_genuine_touch _ _ _ _ T G) as G1. simpl m_next. rewrite (t_next _ _ _ T).
    split; [|split].
    - apply (inb_genuine_frame m1); [reflexivity|reflexivity|].
      eapply inb_genuine_incl; [|exact G1]. apply incl_filter.
    - apply (inb_genuine_frame m1); [reflexivity|reflexivity|].
      eapply inb_genuine_incl; [|exact G1]. apply incl_filter.
    - intros x Hx Hc. apply filter_In in Hx. apply filter_In in Hc.
      destruct Hx as [_ Hx]. destruct Hc as [_ Hc].
      rewrite (proj1 (t_node _ _ _ T x)), Hc in Hx. discriminate.
  Qed.

  Lemma move_start_genuine m var :
    inb_genuine m (m_next m) ->
    inb_genuine (fst (move_start m var)) (snd (move_start m var)) /\
    inb_genuine (fst (move_start m var)) (m_next (fst (move_start m var))) /\
    (forall x, In x (m_next (fst (move_start m var))) -> ~ In x (snd (move_start m var))).
  Proof.
    intros G. unfold move_start. destruct (is_pooled flv); cbn [fst snd]; [apply pooled_start_genuine; exact G|].
    split; [apply (inb_genuine_frame m); [reflexivity|reflexivity|exact G]|]. split; [intros id eid []|intros y []].
  Qed.

  Lemma loop_move_genuine m var m' ol :
    loop_move m var = (m', ol) -> wf m -> inb_genuine m (m_next m) ->
    logext relax_genuine m m' /\ inb_genuine m' (m_next m').
  Proof.
    intros H W G.
    destruct (loop_move_cases _ _ _ _ H)
      as [(Hn & _ & Hm')|(_ & m1 & l1 & m2 & l2 & m3 & l3 & H1 & H2 & H3 & _ & Hm')].
    - destruct Hm' as [->| ->]; (split; [apply logext_same; reflexivity|]); [rewrite Hn|]; intros id eid [].
    - destruct (move_start_wf m var W) as (W0 & Hc & Hnd & _). destruct (move_start_frame m var) as (F1 & _).
      destruct (move_start_genuine m var G) as (Gc & Gn & Hdisj).
      destruct (stages_genuine _ _ _ _ _ _ _ _ H1 H2 H3 W0 Hc Hnd Gc Gn Hdisj) as [[k [E F]] G3].
      assert (L03 : logext relax_genuine m m3) by (exists k; split; [rewrite E, F1; reflexivity|exact F]).
      destruct Hm' as [->|(ids & e & ->)]; [split; assumption|].
      split; [exact L03|]. apply (inb_genuine_frame m3); [reflexivity|reflexivity|exact G3].
  Qed.
  Theorem layer_loop_relax_genuine : forall fuel m m' e,
    layer_loop st_eqb inp fuel m = (m', e) -> wf m -> inb_genuine m (m_next m) ->
    logext relax_genuine m m'.
  Proof.
    induction fuel as [|fuel IH]; intros m m' e H W G.
    - simpl in H. inversion H; subst. apply logext_refl.
    - rewrite layer_loop_iteration in H. cbv zeta in H.
      set (sts := map (fun id => state_of m id) (m_next m)) in *.
      destruct (next_variable pb (m_curr_depth m) sts) as [var|].
      2:{ inversion H; subst. apply logext_add_log. simpl. auto. }
      set (m0 := add_log m (EvNextVar (m_curr_depth m) sts (Some var))) in *.
      set (m1 := with_polls m0 (S (m_polls m0))) in *.
      assert (W1 : wf m1) by (apply wf_with_polls, wf_add_log, W).
      assert (G1 : inb_genuine m1 (m_next m1)) by (apply (inb_genuine_frame m); [reflexivity|reflexivity|exact G]).
      assert (L01 : logext relax_genuine m m1).
      { exists [EvNextVar (m_curr_depth m) sts (Some var)]. split; [reflexivity|]. constructor; simpl; auto. }
      destruct (_ && _).
      { inversion H; subst. exact L01. }
      destruct (loop_move m1 var) as [m2 ol] eqn:Hmv.
      destruct (wf_loop_move _ _ _ _ Hmv W1) as [W2 Hl].
      destruct (loop_move_genuine _ _ _ _ Hmv W1 G1) as [L2 G2].
      destruct ol as [l|].
      2:{ inversion H; subst. eapply logext_trans; eauto. }
      destruct (Hl l eq_refl) as [Il Nl].
      set (m3 := fold_left (expand_node st_eqb inp var) l m2) in *.
      assert (L3 : logext relax_genuine m2 m3).
      { destruct (logext_fold_expand var l m2) as [k3 [E3 F3]]. exists k3. split; [exact E3|].
        apply (relax_genuine_kinds expand_kinds); [simpl; intuition discriminate|exact F3]. }
      apply IH in H.
      + eapply logext_trans; [exact L01|]. eapply logext_trans; [exact L2|].
        eapply logext_trans; [exact L3|]. destruct H as [k [E F]]. exists k. split; [exact E|exact F].
      + apply wf_with_depth. apply wf_fold_expand; auto.
      + apply (inb_genuine_frame m3); [reflexivity|reflexivity|].
        apply (fold_expand_genuine var l m2 W2 Il G2).
  Qed.

  (* C12, relax clause, for a whole compilation: every logged relax call was made on an arc created by
     _branch_on whose decision lies in the domain enumerated at its source *)
  Theorem compile_relax_genuine tb tb2 c ds polls m o :
    compile st_eqb inp tb tb2 c ds polls = (m, o) -> Forall relax_genuine (m_log m).
  Proof.
    intros H. destruct (compile_log _ _ _ _ _ _ _ H) as [m1 [e [Hl [kf [Ef Ff]]]]].
    apply layer_loop_relax_genuine in Hl.
    - destruct Hl as [k [E F]]. rewrite initialize_log, app_nil_r in E. rewrite Ef, E.
      apply Forall_app. split; [|exact F].
      apply (relax_genuine_kinds [KCacheUpd]); [simpl; intuition discriminate|exact Ff].
    - apply wf_initialize.
    - intros id eid Hid Hin. simpl in Hid. destruct Hid as [<-|[]].
      unfold get_node in Hin. simpl in Hin. destruct Hin.
  Qed.

  (* with a sound state equality the target of a relaxed arc is exactly transition(src, d) *)
  Corollary compile_relax_genuine_sound tb tb2 c ds polls m o :
    (forall a b, st_eqb a b = true -> a = b) ->
    compile st_eqb inp tb tb2 c ds polls = (m, o) ->
    forall src dst mg d cost rc, In (EvRelax src dst mg d cost rc) (m_log m) ->
      dst = transition pb src d /\ In (d_val d) (domain pb (d_var d) src) /\
      cost = transition_cost pb src dst d.
  Proof.
    intros Hs H src dst mg d cost rc Hin.
    pose proof (compile_relax_genuine _ _ _ _ _ _ _ H) as F. rewrite Forall_forall in F.
    specialize (F _ Hin). simpl in F. destruct F as [A [B C]].
    assert (Hd : dst = transition pb src d) by (destruct C as [C|C]; [exact C|apply Hs; exact C]).
    split; [exact Hd|]. split; [exact A|]. rewrite Hd. exact B.
  Qed.

End MddStruct.

(* ------------------------------------------------------------------ the in-range hypothesis of
   [expand_node_log] cannot be dropped.  Counterexample: states are naturals, transition = successor,
   every domain is {0, 1}; the diagram is the freshly initialised one (a single node, id 0) and the
   node to expand is the out-of-range id 1.  [get_node] answers with the default node (state 0) for
   the first value, but the child created by that first branch receives id 1, so the second value is
   branched from state 1 and the log differs from [expand_trace 0].  In a compilation this never
   happens: [wf] holds throughout ([wf_layer_loop]) and every expanded id is in range. *)
Definition cex_pb : problem nat :=
  {| nb_vars := 2; init_state := 0; init_value := 0%Z;
     transition := fun s _ => S s; transition_cost := fun _ _ _ => 0%Z;
     next_variable := fun _ _ => None; domain := fun _ _ => [0%Z; 1%Z];
     is_impacted_by := fun _ _ => true |}.
Definition cex_rlx : relaxation nat :=
  {| merge := fun _ => 0; relax := fun _ _ _ _ c => c; fast_upper_bound := fun _ => 0%Z |}.
Definition cex_inp : @cinput nat :=
  {| ci_flavour := CleanLEL; ci_type := Exact; ci_problem := cex_pb; ci_relax := cex_rlx;
     ci_ranking := fun _ _ => Eq; ci_domcmp := fun _ _ _ _ => Eq; ci_width := 1;
     ci_root := {| sp_state := 0; sp_value := 0%Z; sp_path := []; sp_ub := IMAX; sp_depth := 0 |};
     ci_best_lb := (IMIN - 1)%Z; ci_use_cache := false; ci_domrule := None; ci_cutoff := 0 |}.

Lemma expand_node_log_out_of_range_counterexample :
  let m := initialize cex_inp [] [] 0 in
  length (m_nodes m) = 1 /\ expands cex_inp m 1 = true /\
  m_log (expand_node Nat.eqb cex_inp 0 m 1)
  <> rev (expand_trace cex_inp 0 (n_state (get_node cex_inp m 1))) ++ m_log m.
Proof.
  cbv zeta. split; [reflexivity|]. split; [vm_compute; reflexivity|].
  vm_compute. intros H. discriminate H.
Qed.

(* ------------------------------------------------------------------ axiom audit *)
Print Assumptions compile_layers_nonempty.
Print Assumptions as_graphviz_total.
Print Assumptions squash_width_restricted.
Print Assumptions squash_width_relaxed.
Print Assumptions squash_exact.
Print Assumptions move_clean_width_restricted.
Print Assumptions move_clean_width_relaxed.
Print Assumptions move_pooled_width_restricted.
Print Assumptions move_pooled_width_relaxed.
Print Assumptions layer_loop_width.
Print Assumptions compile_width_restricted.
Print Assumptions compile_width_relaxed_clean.
Print Assumptions branch_on_log.
Print Assumptions branch_on_edge.
Print Assumptions expand_node_log.
Print Assumptions relax_layer_log_weak.
Print Assumptions relax_layer_log.
Print Assumptions relax_layer_protocol.
Print Assumptions layer_loop_nextvar.
Print Assumptions layer_loop_first_call.
Print Assumptions compile_nextvar.
Print Assumptions layer_loop_protocol.
Print Assumptions compile_protocol.
Print Assumptions wf_initialize.
Print Assumptions wf_layer_loop.
Print Assumptions wf_finalize.
Print Assumptions wf_compile.
Print Assumptions relax_layer_full.
Print Assumptions layer_loop_relax_genuine.
Print Assumptions compile_relax_genuine.
Print Assumptions compile_relax_genuine_sound.
Print Assumptions expand_node_log_out_of_range_counterexample.
