(* MddProgress.v — the STRUCTURAL contracts of SolverProofs.v (K0, K1, K3_good, K3_depth, K5) proved about
   Mdd.compile for the clean flavours (CleanLEL, CleanFC), without cache, dominance rule or cutoff, for
   a static variable order.  (K2, K3_ub, K4 — the bound / simulation contracts — are not treated here.)

   Section hypotheses (section Progress, about the compilation input [inp]):
     st_eqb_spec  : forall a b, st_eqb a b = true <-> a = b
     Hclean       : ci_flavour inp = CleanLEL \/ ci_flavour inp = CleanFC
     Hnocache     : ci_use_cache inp = false          Hnodom : ci_domrule inp = None
     Hnocut       : ci_cutoff inp = 0                 Hwidth : 1 <= ci_width inp
     nv_some      : forall k l, k < N -> exists x, next_variable pb k l = Some x
     nv_none      : forall k l, N <= k -> next_variable pb k l = None
     Hroot_depth  : sp_depth root <= N
     dom_bound    : forall x s, length (domain pb x s) <= D            (only for the size bound, K5)
   nv_static (next_variable does not look at the layer) is declared for documentation only: no proof
   uses it, nv_some / nv_none already quantify over every layer content.
   Every theorem below depends on all of st_eqb_spec .. Hroot_depth (through compile_unfold_gen), and on
   nothing else; cutset_size_bound / compile_node_count additionally on dom_bound.
   The traversal itself (section Traversal: move_some_step_gen, layer_loop_post_gen, layer_loop_count_gen,
   compile_final_gen, cutset_size_bound_gen) is proved for any condition [Sok] on the cache and the dominance
   store under which the two filters of _move_to_next_layer do not crash; it uses neither Hnocache (but for
   the tail of _finalize) nor Hnodom.  The theorems below are its instance Sok := True; DomSearch.v
   instantiates it with a dominance rule.

   Main results (for compile st_eqb inp tb tb2 c ds polls = (m, out)):
     P0  compile_completes           out = Compiled /\ m_crash m = false
     P1  compile_node_depth          id < length (m_nodes m) -> sp_depth root <= n_depth <= N
         compile_layer_depth         the nodes of layer i have depth sp_depth root + i (and are in range)
         compile_next_depth          the nodes of the terminal layer m_next have depth N
         compile_best_depth          m_best m = Some b \/ m_best_exact m = Some b -> depth of b is N
         compile_layers_count        length (m_layers m) <= S N
     P2  cutset_depth                ci_type inp = Relaxed -> every sp of drain_cutset has
                                     sp_depth root < sp_depth sp <= N   (dd_is_exact m = false not needed)
     P3  cutset_nodup                NoDup (m_cutset m)
         compile_node_count          (Relaxed) length (m_nodes m) <= Mbound
         cutset_size_bound           (Relaxed) length (drain_cutset inp m) <= Mbound,
                                     Mbound = 3 + D + D*D + N * (1 + ci_width inp * D)
     P4  good / feasible (section Semantics), good_set_ub_holds, good_root_node_gen,
         cutset_good, best_exact_feasible    (both assume good pb root)
   and, in section Assembly, the same in the exact shape of the hypotheses of SolverProofs.v for
   inp = mk_input cfg ct n lb:  good_root_holds, K0_holds, K1_holds, K3_good_holds, K3_depth_holds, K5_holds
   (hypotheses: st_eqb_spec, config_ok cfg, cfg_clean, cfg_width, cfg_nv_some, cfg_nv_none, and
   cfg_dom_bound for K5_holds with M := Kbound).
   Stdlib only; no axioms. *)
Require Import DDO.Base DDO.Fringe DDO.DP DDO.Cache DDO.Dom DDO.Mdd DDO.Viz DDO.MddStruct DDO.MddExact DDO.Solver
               DDO.SolverProofs.
From Coq Require Import Lia List Arith ZArith Bool Permutation.
Import ListNotations.
Open Scope nat_scope.

Lemma NoDup_bounded_length (l : list nat) (n : nat) :
  NoDup l -> (forall x, In x l -> x < n) -> length l <= n.
Proof.
  intros Hnd Hb.
  assert (H : incl l (seq 0 n)) by (intros x Hx; apply in_seq; specialize (Hb x Hx); lia).
  pose proof (NoDup_incl_length Hnd H) as Hl. rewrite seq_length in Hl. exact Hl.
Qed.

Lemma flat_map_length_le {A B} (f : A -> list B) (l : list A) :
  (forall x, length (f x) <= 1) -> length (flat_map f l) <= length l.
Proof.
  intros Hf. induction l as [|x l IH]; simpl; auto.
  rewrite app_length. specialize (Hf x). lia.
Qed.

(* the abstract semantics used by SolverProofs.v:
   a sub-problem is [good] when its path is (a permutation of) a decision sequence that replays, through
   the user's model and with the saturating accumulation of the code, from the initial state to the
   sub-problem's state and value; a solution is [feasible] with value v when it is (a permutation of) a
   complete decision sequence replaying to value v *)
Section Semantics.
  Context {St : Type}.
  Variable P : problem St.

  Definition good (n : @subproblem St) : Prop :=
    sp_depth n <= nb_vars P /\
    exists ds, length ds = sp_depth n /\ Permutation ds (sp_path n) /\
               replay_sat P ds (init_state P) (init_value P) = Some (sp_state n, sp_value n).

  Definition feasible (sol : list decision) (v : Z) : Prop :=
    exists ds st, length ds = nb_vars P /\ Permutation ds sol /\
                  replay_sat P ds (init_state P) (init_value P) = Some (st, v).

  (* [good] does not look at the upper bound attached to the sub-problem *)
  Lemma good_set_ub_holds (c : @subproblem St) (u : Z) : good c -> good (set_ub c u).
  Proof. intros H. exact H. Qed.

  Lemma good_root_node_gen (r : @subproblem St) :
    sp_state r = init_state P -> sp_value r = init_value P -> sp_path r = [] -> sp_depth r = 0 -> good r.
  Proof.
    intros H1 H2 H3 H4. split; [lia|]. exists []. rewrite H3, H4, H1, H2. repeat split. constructor.
  Qed.
End Semantics.

Section Progress.
  Context {St : Type}.
  Variable st_eqb : St -> St -> bool.
  Hypothesis st_eqb_spec : forall a b, st_eqb a b = true <-> a = b.
  Variable inp : @cinput St.

  Notation mdd := (@mdd St).
  Notation node := (@node St).
  Notation gn := (get_node inp).
  Notation pb := (ci_problem inp).
  Notation root := (ci_root inp).
  Notation N := (nb_vars (ci_problem inp)).
  Notation d0 := (sp_depth (ci_root inp)).
  Notation W := (ci_width inp).

  Hypothesis Hclean : ci_flavour inp = CleanLEL \/ ci_flavour inp = CleanFC.
  Hypothesis Hnocache : ci_use_cache inp = false.
  Hypothesis Hnodom : ci_domrule inp = None.
  Hypothesis Hnocut : ci_cutoff inp = 0.
  Hypothesis Hwidth : 1 <= ci_width inp.
  (* static variable order *)
  Hypothesis nv_static : forall k l1 l2, next_variable pb k l1 = next_variable pb k l2.
  Hypothesis nv_some : forall k l, k < N -> exists x, next_variable pb k l = Some x.
  Hypothesis nv_none : forall k l, N <= k -> next_variable pb k l = None.
  Hypothesis Hroot_depth : d0 <= N.

  Lemma not_pooled' : is_pooled (ci_flavour inp) = false.
  Proof. destruct Hclean as [H|H]; rewrite H; reflexivity. Qed.

  (* the growth relation:
     crash flag, depths of existing nodes, existing edges, layer bookkeeping are untouched *)
  Record keep (m m' : mdd) : Prop := {
    k_crash : m_crash m' = m_crash m;
    k_len : length (m_nodes m) <= length (m_nodes m');
    k_depth : forall id, id < length (m_nodes m) -> n_depth (gn m' id) = n_depth (gn m id);
    k_elen : length (m_edges m) <= length (m_edges m');
    k_edge : forall eid, eid < length (m_edges m) -> get_edge m' eid = get_edge m eid;
    k_lend : m_layer_end m' = m_layer_end m;
    k_layers : m_layers m' = m_layers m;
    k_cd : m_curr_depth m' = m_curr_depth m }.

  Lemma keep_refl m : keep m m.
  Proof. split; auto. Qed.

  Lemma keep_trans m1 m2 m3 : keep m1 m2 -> keep m2 m3 -> keep m1 m3.
  Proof.
    intros [A1 A2 A3 A4 A5 A6 A7 A8] [B1 B2 B3 B4 B5 B6 B7 B8]. split; try congruence; try lia.
    - intros id Hid. rewrite B3 by lia. apply A3; exact Hid.
    - intros eid He. rewrite B5 by lia. apply A5; exact He.
  Qed.

  Lemma keep_fold {B} (f : mdd -> B -> mdd) (l : list B) (m : mdd) :
    (forall a x, keep a (f a x)) -> keep m (fold_left f l m).
  Proof.
    intros Hf. apply (fold_left_inv (fun a => keep m a)); [apply keep_refl|].
    intros a x _ Ha. eapply keep_trans; eauto.
  Qed.

  (* any update that leaves nodes, edges and the bookkeeping fields alone *)
  Lemma keep_same (m m' : mdd) :
    m_nodes m' = m_nodes m -> m_edges m' = m_edges m -> m_crash m' = m_crash m ->
    m_layer_end m' = m_layer_end m -> m_layers m' = m_layers m -> m_curr_depth m' = m_curr_depth m ->
    keep m m'.
  Proof.
    intros H1 H2 H3 H4 H5 H6. split; auto; try (rewrite ?H1, ?H2; lia).
    - intros id _. unfold get_node. rewrite H1. reflexivity.
    - intros eid _. unfold get_edge. rewrite H2. reflexivity.
  Qed.

  Lemma keep_add_log (m : mdd) ev : keep m (add_log m ev).
  Proof. apply keep_same; reflexivity. Qed.

  Lemma keep_with_next (m : mdd) nx : keep m (with_next m nx).
  Proof. apply keep_same; reflexivity. Qed.

  Lemma keep_with_lel_exact (m : mdd) l x : keep m (with_lel_exact m l x).
  Proof. apply keep_same; reflexivity. Qed.

  Lemma keep_with_polls (m : mdd) p : keep m (with_polls m p).
  Proof. apply keep_same; reflexivity. Qed.

  Lemma keep_with_best (m : mdd) b be : keep m (with_best m b be).
  Proof. apply keep_same; reflexivity. Qed.

  Lemma keep_with_cutset (m : mdd) cs : keep m (with_cutset m cs).
  Proof. apply keep_same; reflexivity. Qed.

  Lemma keep_upd_node (m : mdd) id f :
    (forall n, n_depth (f n) = n_depth n) -> keep m (upd_node m id f).
  Proof.
    intros Hf. split; msimpl; auto; try (rewrite upd_nth_length; lia).
    intros k Hk. destruct (Nat.eq_dec id k) as [-> |Hne].
    - rewrite gn_upd_same by exact Hk. apply Hf.
    - rewrite gn_upd_other by exact Hne. reflexivity.
  Qed.

  Lemma keep_snoc (m : mdd) n : keep m (with_nodes m (m_nodes m ++ [n])).
  Proof.
    split; msimpl; auto; try (rewrite app_length; simpl; lia).
    intros k Hk. rewrite gn_snoc_old by exact Hk. reflexivity.
  Qed.

  Lemma keep_append_edge (m : mdd) e : keep m (append_edge inp m e).
  Proof.
    split; try reflexivity.
    - rewrite append_edge_nodes_length. apply Nat.le_refl.
    - intros id _. apply append_edge_depth.
    - rewrite append_edge_edges, app_length. apply Nat.le_add_r.
    - intros eid He. eapply ge_snoc_old; [apply append_edge_edges|exact He].
  Qed.

  (* the depth invariant:
     [dn] is the depth of the open nodes (those at or above m_layer_end) *)
  Record Pinv (dn : nat) (m : mdd) : Prop := {
    P_depth : forall id, id < length (m_nodes m) -> d0 <= n_depth (gn m id) <= dn;
    P_inb : forall id eid, id < length (m_nodes m) -> In eid (n_inb (gn m id)) ->
            eid < length (m_edges m) /\ e_from (get_edge m eid) < length (m_nodes m) /\
            S (n_depth (gn m (e_from (get_edge m eid)))) = n_depth (gn m id);
    P_shallow : forall id, id < length (m_nodes m) -> n_depth (gn m id) <= S d0 ->
            fl_is_exact (n_flags (gn m id)) = true;
    P_open : forall id, m_layer_end m <= id -> id < length (m_nodes m) -> n_depth (gn m id) = dn;
    P_next : forall id, In id (m_next m) -> m_layer_end m <= id /\ id < length (m_nodes m);
    P_le : m_layer_end m <= length (m_nodes m) }.

  Lemma Pinv_peq dn (m m' : mdd) :
    peq inp m m' -> m_next m' = m_next m -> m_layer_end m' = m_layer_end m -> Pinv dn m -> Pinv dn m'.
  Proof.
    intros (A1 & A2 & A3 & A4) Hn Hl [P1 P2 P3 P4 P5 P6].
    assert (Hd : forall k, n_depth (gn m' k) = n_depth (gn m k)).
    { intros k. destruct (A4 k) as (_ & _ & _ & _ & _ & _ & c7). congruence. }
    split.
    - intros id Hid. rewrite Hd. apply P1. lia.
    - intros id eid Hid Hin. rewrite A3 in Hid.
      destruct (A4 id) as (_ & _ & _ & c4 & _). rewrite <- c4 in Hin.
      rewrite A1, A3, !Hd. unfold get_edge. rewrite A1. apply P2; auto.
    - intros id Hid Hs. rewrite A3 in Hid. rewrite Hd in Hs.
      rewrite <- (core_eq_is_exact _ _ (A4 id)). apply P3; auto.
    - intros id H1 H2. rewrite Hd. apply P4; lia.
    - intros id Hid. rewrite Hn in Hid. rewrite Hl, A3. apply P5; exact Hid.
    - lia.
  Qed.

  Lemma Pinv_ceq dn (m m' : mdd) : ceq inp m m' -> Pinv dn m -> Pinv dn m'.
  Proof. intros (Hp & Hn & Hl & _). apply Pinv_peq; auto. Qed.

  Lemma Pinv_weaken dn dn' (m : mdd) :
    dn <= dn' -> m_layer_end m = length (m_nodes m) -> Pinv dn m -> Pinv dn' m.
  Proof.
    intros Hle Hend [P1 P2 P3 P4 P5 P6]. split; auto.
    - intros id Hid. specialize (P1 id Hid). lia.
    - intros id H1 H2. lia.
  Qed.

  Lemma Pinv_append_edge dn (m : mdd) e :
    Pinv dn m -> e_from e < length (m_nodes m) -> e_to e < length (m_nodes m) ->
    S (n_depth (gn m (e_from e))) = n_depth (gn m (e_to e)) ->
    Pinv dn (append_edge inp m e).
  (* [Proof using], here and below: other files apply these lemmas with explicit arguments, so the section
     premises the closed statement takes are spelled out instead of left to what the proof happens to use. *)
  Proof using Hclean Hnocut Hwidth Hroot_depth.
    intros [P1 P2 P3 P4 P5 P6] Hf Ht Hd.
    pose proof (append_edge_edges inp m e) as E1. pose proof (append_edge_nodes_length inp m e) as E2.
    assert (E4 : m_layer_end (append_edge inp m e) = m_layer_end m) by reflexivity.
    assert (E5 : m_next (append_edge inp m e) = m_next m) by reflexivity.
    destruct (append_edge_target inp m e Ht) as (_ & _ & T3 & _ & T5 & _).
    split.
    - intros id Hid. rewrite E2 in Hid. rewrite append_edge_depth. auto.
    - intros id eid Hid Hin. rewrite E2 in Hid. rewrite E1, app_length, E2, !append_edge_depth. simpl.
      assert (Hold : In eid (n_inb (gn m id)) ->
                eid < length (m_edges m) + 1 /\
                e_from (get_edge (append_edge inp m e) eid) < length (m_nodes m) /\
                S (n_depth (gn m (e_from (get_edge (append_edge inp m e) eid)))) = n_depth (gn m id)).
      { intros Hin'. destruct (P2 _ _ Hid Hin') as (a & b & c).
        rewrite (ge_snoc_old m _ e eid E1 a). split; [lia|auto]. }
      destruct (Nat.eq_dec id (e_to e)) as [-> |Hne].
      + rewrite T3 in Hin. destruct Hin as [<-|Hin]; [|auto].
        rewrite (ge_snoc_new m _ e E1). split; [lia|auto].
      + rewrite gn_append_other in Hin by exact Hne. auto.
    - intros id Hid Hs. rewrite E2 in Hid. rewrite append_edge_depth in Hs.
      destruct (Nat.eq_dec id (e_to e)) as [-> |Hne].
      + rewrite T5, (P3 _ Ht Hs), (P3 _ Hf) by lia. reflexivity.
      + rewrite gn_append_other by exact Hne. auto.
    - intros id H1 H2. rewrite append_edge_depth. rewrite E4 in H1. rewrite E2 in H2. auto.
    - intros id Hid. rewrite E5 in Hid. rewrite E4, E2. auto.
    - rewrite E4, E2. exact P6.
  Qed.

  Lemma Pinv_snoc dn (m : mdd) (n : node) :
    Pinv dn m -> n_depth n = dn -> d0 <= dn -> n_inb n = [] ->
    (dn <= S d0 -> fl_is_exact (n_flags n) = true) ->
    Pinv dn (with_nodes m (m_nodes m ++ [n])).
  Proof.
    intros [P1 P2 P3 P4 P5 P6] Hd Hlo Hinb Hex.
    set (m' := with_nodes m (m_nodes m ++ [n])).
    assert (Hlen : length (m_nodes m') = S (length (m_nodes m))) by apply len_snoc.
    assert (Hold : forall k, k < length (m_nodes m) -> gn m' k = gn m k) by (intros; apply gn_snoc_old; auto).
    assert (Hnew : gn m' (length (m_nodes m)) = n) by apply gn_snoc_new.
    assert (Hcase : forall id, id < length (m_nodes m') -> id < length (m_nodes m) \/ id = length (m_nodes m)) by (intros; lia).
    split.
    - intros id Hid. destruct (Hcase id Hid) as [H| ->].
      + rewrite Hold by exact H. auto.
      + rewrite Hnew. lia.
    - intros id eid Hid Hin. destruct (Hcase id Hid) as [H| ->].
      + rewrite Hold in Hin by exact H. destruct (P2 _ _ H Hin) as (a & b & c).
        change (get_edge m' eid) with (get_edge m eid). change (m_edges m') with (m_edges m).
        rewrite !Hold by auto. rewrite Hlen. split; [exact a|]. split; [lia|exact c].
      + rewrite Hnew, Hinb in Hin. destruct Hin.
    - intros id Hid Hs. destruct (Hcase id Hid) as [H| ->].
      + rewrite Hold in * by exact H. auto.
      + rewrite Hnew in *. apply Hex. lia.
    - intros id H1 H2. destruct (Hcase id H2) as [H| ->].
      + rewrite Hold by exact H. apply P4; auto.
      + rewrite Hnew. exact Hd.
    - intros id Hid. change (In id (m_next m)) in Hid. change (m_layer_end m') with (m_layer_end m).
      specialize (P5 id Hid). lia.
    - change (m_layer_end m') with (m_layer_end m). lia.
  Qed.

  Lemma Pinv_upd_node dn (m : mdd) id f :
    (forall n, n_depth (f n) = n_depth n /\ n_inb (f n) = n_inb n) ->
    (id < length (m_nodes m) -> n_depth (gn m id) <= S d0 -> fl_is_exact (n_flags (f (gn m id))) = true) ->
    Pinv dn m -> Pinv dn (upd_node m id f).
  Proof.
    intros Hf Hex [P1 P2 P3 P4 P5 P6].
    assert (Hd : forall k, n_depth (gn (upd_node m id f) k) = n_depth (gn m k)).
    { intros k. apply get_node_upd_node_proj. intros n; apply Hf. }
    assert (Hi : forall k, n_inb (gn (upd_node m id f) k) = n_inb (gn m k)).
    { intros k. apply get_node_upd_node_proj. intros n; apply Hf. }
    assert (Hlen : length (m_nodes (upd_node m id f)) = length (m_nodes m)) by (msimpl; apply upd_nth_length).
    split; rewrite ?Hlen.
    - intros k Hk. rewrite Hd. auto.
    - intros k eid Hk Hin. rewrite Hi in Hin. rewrite !Hd. apply P2; auto.
    - intros k Hk Hs. rewrite Hd in Hs. destruct (Nat.eq_dec id k) as [-> |Hne].
      + rewrite gn_upd_same by exact Hk. auto.
      + rewrite gn_upd_other by exact Hne. auto.
    - intros k H1 H2. rewrite Hd. apply P4; auto.
    - exact P5.
    - exact P6.
  Qed.

  Lemma Pinv_with_next dn (m : mdd) nx :
    Pinv dn m -> (forall id, In id nx -> m_layer_end m <= id /\ id < length (m_nodes m)) ->
    Pinv dn (with_next m nx).
  Proof. intros [P1 P2 P3 P4 P5 P6] H. split; auto. Qed.

  Lemma branch_on_step dn (m : mdd) (from_id : nat) (d : decision) :
    Pinv (S dn) m -> from_id < length (m_nodes m) -> n_depth (gn m from_id) = dn ->
    Pinv (S dn) (branch_on st_eqb inp m from_id d) /\ keep m (branch_on st_eqb inp m from_id d).
  Proof.
    intros HP Hfrom Hdep.
    pattern (branch_on st_eqb inp m from_id d). apply branch_on_cases.
    intros s ns cost m1 arc n.
    assert (HP1 : Pinv (S dn) m1) by (eapply Pinv_ceq; [eapply ceq_trans; apply ceq_add_log|exact HP]).
    assert (Hk1 : keep m m1) by (eapply keep_trans; apply keep_add_log).
    split.
    - intros t Hin _. destruct (P_next _ _ HP t Hin) as [Hr1 Hr2]. split.
      + apply Pinv_append_edge; cbn [arc e_from e_to]; auto.
        change (gn m1) with (gn m). rewrite (P_open _ _ HP t Hr1 Hr2), Hdep. reflexivity.
      + eapply keep_trans; [exact Hk1|apply keep_append_edge].
    - set (t := length (m_nodes m)).
      set (m2 := with_nodes m1 (m_nodes m ++ [n])).
      set (m3 := append_edge inp m2 (arc t)).
      assert (Hlen2 : length (m_nodes m2) = S t) by apply (len_snoc m1).
      assert (HP2 : Pinv (S dn) m2).
      { apply (Pinv_snoc (S dn) m1); auto.
        - cbn [n n_depth]. rewrite Hdep. reflexivity.
        - pose proof (P_depth _ _ HP from_id Hfrom). lia.
        - intros Hs. cbn [n n_flags]. rewrite fl_is_exact_set_exact. simpl. rewrite andb_true_r.
          apply (P_shallow _ _ HP); auto. lia. }
      assert (HP3 : Pinv (S dn) m3).
      { apply Pinv_append_edge; cbn [arc e_from e_to]; auto; try (rewrite Hlen2; lia).
        unfold m2, t. rewrite (gn_snoc_new inp m1), (gn_snoc_old inp m1) by exact Hfrom. reflexivity. }
      assert (Hlen3 : length (m_nodes m3) = S t) by (rewrite <- Hlen2; apply upd_nth_length).
      split.
      + apply Pinv_with_next; auto. intros id Hid.
        change (m_layer_end m3) with (m_layer_end m). rewrite Hlen3.
        apply in_app_or in Hid. destruct Hid as [Hid|[<-|[]]].
        * destruct (P_next _ _ HP id Hid). lia.
        * pose proof (P_le _ _ HP). lia.
      + eapply keep_trans; [exact Hk1|]. eapply keep_trans; [apply keep_snoc|].
        eapply keep_trans; [apply keep_append_edge|apply keep_with_next].
  Qed.

  (* a fold whose steps keep [Pinv dn] and only let the diagram grow: what a step needs to know about
     the current diagram [a] follows from the same fact about [m] and [keep m a] *)
  Lemma fold_step {B} dn (f : mdd -> B -> mdd) (l : list B) (m : mdd) :
    Pinv dn m ->
    (forall a x, In x l -> Pinv dn a -> keep m a -> Pinv dn (f a x) /\ keep a (f a x)) ->
    Pinv dn (fold_left f l m) /\ keep m (fold_left f l m).
  Proof.
    intros HP Hf.
    apply (fold_left_inv (fun a => Pinv dn a /\ keep m a)); [split; [exact HP|apply keep_refl]|].
    intros a x Hx [Pa Ka]. destruct (Hf a x Hx Pa Ka) as [P' K'].
    split; [exact P'|eapply keep_trans; eauto].
  Qed.

  Lemma fold_branch_step dn from_id var vals : forall (m : mdd),
    Pinv (S dn) m -> from_id < length (m_nodes m) -> n_depth (gn m from_id) = dn ->
    Pinv (S dn) (fold_left (fun m val => branch_on st_eqb inp m from_id {| d_var := var; d_val := val |}) vals m) /\
    keep m (fold_left (fun m val => branch_on st_eqb inp m from_id {| d_var := var; d_val := val |}) vals m).
  Proof.
    intros m HP Hfrom Hdep. apply fold_step; [exact HP|]. intros a v _ Pa Ka.
    apply branch_on_step; [exact Pa|pose proof (k_len _ _ Ka); lia|].
    rewrite (k_depth _ _ Ka) by exact Hfrom. exact Hdep.
  Qed.

  Lemma expand_node_step var dn (m : mdd) id :
    Pinv (S dn) m -> id < length (m_nodes m) -> n_depth (gn m id) = dn ->
    Pinv (S dn) (expand_node st_eqb inp var m id) /\ keep m (expand_node st_eqb inp var m id).
  Proof.
    intros HP Hid Hdep. unfold expand_node. cbv zeta.
    set (state := n_state (gn m id)).
    set (rub := fast_upper_bound (ci_relax inp) state).
    set (m1 := upd_node m id (fun n => set_rub n rub)).
    assert (HP1 : Pinv (S dn) m1).
    { eapply Pinv_ceq; [|exact HP]. apply ceq_upd_node. intros n. apply core_eq_set_rub. }
    assert (Hk1 : keep m m1) by (apply keep_upd_node; reflexivity).
    destruct (Z.gtb _ _); [|split; assumption].
    set (m2 := add_log m1 (EvDomain var state)).
    assert (HP2 : Pinv (S dn) m2) by (eapply Pinv_ceq; [apply ceq_add_log|exact HP1]).
    assert (Hk2 : keep m m2) by (eapply keep_trans; [exact Hk1|apply keep_add_log]).
    destruct (fold_branch_step dn id var (domain (ci_problem inp) var state) m2 HP2) as [F1 F2].
    - pose proof (k_len _ _ Hk2). lia.
    - rewrite (k_depth _ _ Hk2) by exact Hid. exact Hdep.
    - split; [exact F1|eapply keep_trans; eauto].
  Qed.

  Lemma expand_layer_step var dn l : forall (m : mdd),
    Pinv (S dn) m -> (forall id, In id l -> id < length (m_nodes m) /\ n_depth (gn m id) = dn) ->
    Pinv (S dn) (fold_left (expand_node st_eqb inp var) l m) /\
    keep m (fold_left (expand_node st_eqb inp var) l m).
  Proof.
    intros m HP Hl. apply fold_step; [exact HP|]. intros a id Hin Pa Ka. destruct (Hl id Hin) as [H1 H2].
    apply expand_node_step; [exact Pa|pose proof (k_len _ _ Ka); lia|].
    rewrite (k_depth _ _ Ka) by exact H1. exact H2.
  Qed.

  (* m_lel is only touched by note_squash *)
  Lemma expand_layer_lel var l (m : mdd) : m_lel (fold_left (expand_node st_eqb inp var) l m) = m_lel m.
  Proof. apply inert_fold_expand, inert_lel. Qed.

  Lemma keep_ceq (m m' : mdd) : ceq inp m m' -> m_crash m' = m_crash m -> keep m m'.
  Proof.
    intros ((A1 & A2 & A3 & A4) & Hn & Hl & Hly & _ & _ & Hcd) Hc. split; auto; try lia.
    - intros id _. destruct (A4 id) as (_ & _ & _ & _ & _ & _ & c7). congruence.
    - rewrite A1. lia.
    - intros eid _. unfold get_edge. rewrite A1. reflexivity.
  Qed.

  Lemma cache_get_nocache (m : mdd) s d :
    cache_get st_eqb inp m s d = (add_log m (EvCacheGet s d), None).
  Proof. unfold cache_get. rewrite Hnocache. reflexivity. Qed.

  Lemma dom_query_nodom (m : mdd) s d v :
    dom_query inp m s d v =
    (add_log m (EvDomQuery s d v false None), {| dc_dominated := false; dc_threshold := None |}).
  Proof. unfold dom_query. rewrite Hnodom. reflexivity. Qed.

  Lemma filter_with_cache_crash l : forall (m : mdd),
    m_crash (fst (filter_with_cache st_eqb inp m l)) = m_crash m.
  Proof.
    induction l as [|id l IH]; intros m; simpl; [reflexivity|].
    rewrite cache_get_nocache.
    specialize (IH (add_log m (EvCacheGet (n_state (gn m id)) (n_depth (gn m id))))).
    destruct (filter_with_cache st_eqb inp _ l) as [m2 r]. simpl in *. exact IH.
  Qed.

  Lemma dom_retain_crash l : forall (m : mdd), m_crash (fst (dom_retain inp m l)) = m_crash m.
  Proof.
    induction l as [|id l IH]; intros m; simpl; [reflexivity|].
    destruct (fl_is_exact (n_flags (gn m id))).
    - rewrite dom_query_nodom. simpl.
      specialize (IH (add_log m (EvDomQuery (n_state (gn m id)) (n_depth (gn m id)) (n_vtop (gn m id)) false None))).
      destruct (dom_retain inp _ l) as [m2 r]. simpl in *. exact IH.
    - specialize (IH m). destruct (dom_retain inp m l) as [m2 r]. simpl in *. exact IH.
  Qed.

  Lemma prefilter_step dn (m : mdd) l m' l' :
    prefilter st_eqb inp m l = (m', l') ->
    Pinv dn m -> Pinv dn m' /\ keep m m' /\ ceq inp m m' /\ incl l' l.
  Proof.
    unfold prefilter. intros H HP.
    destruct (Nat.ltb 0 (length (m_layers m))).
    - pose proof (filter_with_cache_ceq st_eqb inp Hclean l m) as [C1 C2].
      pose proof (filter_with_cache_crash l m) as C3.
      rewrite H in C1, C2, C3. simpl in *.
      split; [eapply Pinv_ceq; eauto|]. split; [apply keep_ceq; auto|]. split; auto.
    - inversion H; subst. split; [exact HP|]. split; [apply keep_refl|]. split; [apply ceq_refl|apply incl_refl].
  Qed.

  Lemma note_squash_crash (m : mdd) : m_crash (note_squash inp m) = m_crash m.
  Proof. unfold note_squash. rewrite not_pooled'. destruct (m_lel m); reflexivity. Qed.

  Lemma note_squash_step dn (m : mdd) :
    Pinv dn m -> Pinv dn (note_squash inp m) /\ keep m (note_squash inp m) /\
    forall k, gn (note_squash inp m) k = gn m k.
  Proof.
    intros HP.
    destruct (note_squash_fields inp Hclean m) as (F1 & F2 & F3 & F4 & F5 & F6 & F7 & F8 & F9).
    split; [|split].
    - eapply Pinv_peq; [apply peq_same_nodes; eauto|exact F4|exact F5|exact HP].
    - apply keep_same; auto. apply note_squash_crash.
    - intros k. apply gn_nodes_eq. exact F1.
  Qed.

  Definition in_open (m : mdd) (l : list nat) : Prop :=
    forall id, In id l -> m_layer_end m <= id /\ id < length (m_nodes m).

  Lemma in_open_keep (m m' : mdd) l l' : keep m m' -> incl l' l -> in_open m l -> in_open m' l'.
  Proof.
    intros Hk Hi Ho id Hid. apply Hi in Hid. destruct (Ho id Hid) as [H1 H2].
    rewrite (k_lend _ _ Hk). pose proof (k_len _ _ Hk). lia.
  Qed.

  Lemma restrict_layer_step dn (m : mdd) l m' l' :
    restrict_layer inp m l = (m', l') -> Pinv dn m ->
    Pinv dn m' /\ keep m m' /\ length (m_nodes m') = length (m_nodes m) /\ incl l' l /\
    m_lel m' = m_lel (note_squash inp m).
  Proof.
    unfold restrict_layer. cbv zeta. intros H HP. inversion H; subst; clear H.
    destruct (note_squash_step dn m HP) as (N1 & N2 & N3).
    set (m0 := note_squash inp m) in *.
    set (del := skipn W (sort_by (rank_order inp m0) l)).
    pose proof (mark_deleted_ceq inp del m0) as Hc.
    assert (Hcr : m_crash (mark_deleted m0 del) = m_crash m0).
    { unfold mark_deleted. apply fold_left_proj. intros a x. reflexivity. }
    split; [eapply Pinv_ceq; eauto|]. split; [eapply keep_trans; [exact N2|apply keep_ceq; auto]|].
    split; [|split].
    - destruct Hc as ((_ & _ & L & _) & _). rewrite L. unfold m0. rewrite note_squash_nodes. reflexivity.
    - intros x Hx. apply In_firstn in Hx. apply sort_by_In in Hx. exact Hx.
    - destruct Hc as (_ & _ & _ & _ & Hl & _). exact Hl.
  Qed.

  Lemma redirect_fold_step dn merged mid L : forall (a : mdd),
    Pinv dn a -> mid < length (m_nodes a) -> n_depth (gn a mid) = dn ->
    (forall eid, In eid L -> eid < length (m_edges a) /\ e_from (get_edge a eid) < length (m_nodes a) /\
                             S (n_depth (gn a (e_from (get_edge a eid)))) = dn) ->
    Pinv dn (fold_left (redirect_step inp merged mid) L a) /\
    keep a (fold_left (redirect_step inp merged mid) L a).
  Proof.
    intros a HP Hmid Hd HL. apply fold_step; [exact HP|]. intros b eid Hin Pb Kb.
    destruct (HL eid Hin) as (a1 & a2 & a3). pose proof (k_len _ _ Kb) as Hlen.
    unfold redirect_step. cbv zeta. rewrite (k_edge _ _ Kb eid a1). split.
    - apply Pinv_append_edge; nsimpl; [eapply Pinv_ceq; [apply ceq_add_log|exact Pb]| | |].
      + msimpl. lia.
      + msimpl. lia.
      + change (S (n_depth (gn b (e_from (get_edge a eid)))) = n_depth (gn b mid)).
        rewrite !(k_depth _ _ Kb) by assumption. lia.
    - eapply keep_trans; [apply keep_add_log|apply keep_append_edge].
  Qed.

  Lemma drop_step_step dn merged mid (a : mdd) did :
    Pinv dn a -> mid < length (m_nodes a) -> n_depth (gn a mid) = dn ->
    did < length (m_nodes a) -> n_depth (gn a did) = dn ->
    Pinv dn (drop_step inp merged mid a did) /\ keep a (drop_step inp merged mid a did).
  Proof.
    intros HP Hmid Hd Hdid Hdd. unfold drop_step. rewrite redirect_edges_fold.
    set (a1 := upd_node a did (fun n => set_flags n (fl_set_deleted (n_flags n) true))).
    assert (HP1 : Pinv dn a1).
    { eapply Pinv_ceq; [|exact HP]. apply ceq_upd_node. intros n. apply core_eq_set_flags_nc; reflexivity. }
    assert (Hk1 : keep a a1) by (apply keep_upd_node; reflexivity).
    assert (Hlen1 : length (m_nodes a1) = length (m_nodes a)) by (unfold a1; msimpl; apply upd_nth_length).
    destruct (redirect_fold_step dn merged mid (n_inb (gn a1 did)) a1 HP1) as [R1 R2].
    - lia.
    - rewrite (k_depth _ _ Hk1) by exact Hmid. exact Hd.
    - intros eid Hin. destruct (P_inb _ _ HP1 did eid) as (b1 & b2 & b3); [lia|exact Hin|].
      split; [exact b1|]. split; [exact b2|]. rewrite b3. rewrite (k_depth _ _ Hk1) by exact Hdid. exact Hdd.
    - split; [exact R1|eapply keep_trans; eauto].
  Qed.

  Lemma drop_fold_step dn merged mid L : forall (a : mdd),
    Pinv dn a -> mid < length (m_nodes a) -> n_depth (gn a mid) = dn ->
    (forall id, In id L -> id < length (m_nodes a) /\ n_depth (gn a id) = dn) ->
    Pinv dn (fold_left (drop_step inp merged mid) L a) /\ keep a (fold_left (drop_step inp merged mid) L a).
  Proof.
    intros a HP Hmid Hd HL. apply fold_step; [exact HP|]. intros b did Hin Pb Kb.
    destruct (HL did Hin) as [c1 c2]. pose proof (k_len _ _ Kb) as Hlen.
    apply drop_step_step; [exact Pb|lia| |lia|].
    - rewrite (k_depth _ _ Kb) by exact Hmid. exact Hd.
    - rewrite (k_depth _ _ Kb) by exact c1. exact c2.
  Qed.

  Lemma drop_fold_nodes_length merged mid L (a : mdd) :
    length (m_nodes (fold_left (drop_step inp merged mid) L a)) = length (m_nodes a).
  Proof.
    apply (fold_left_proj (fun a : mdd => length (m_nodes a))). intros b x. apply drop_step_nodes_length.
  Qed.

  Lemma drop_fold_lel merged mid L (a : mdd) :
    m_lel (fold_left (drop_step inp merged mid) L a) = m_lel a.
  Proof. apply fold_left_proj. intros b x. apply inert_drop_step, inert_lel. Qed.

  Lemma relax_layer_step dn (m : mdd) l m' l' :
    relax_layer st_eqb inp m l = (m', l') ->
    Pinv dn m -> S d0 < dn -> W < length l -> in_open m l ->
    Pinv dn m' /\ keep m m' /\ length (m_nodes m') <= S (length (m_nodes m)) /\ in_open m' l' /\
    m_lel m' = m_lel (note_squash inp m).
  Proof.
    intros H HP Hdn Hw Hl. revert H.
    pattern (relax_layer st_eqb inp m l). apply relax_layer_cases. intros m0 sorted.
    split; [intros E0; rewrite E0 in Hwidth; inversion Hwidth|].
    intros w1 Ew keepl mrg mstates merged m1.
    destruct (note_squash_step dn m HP) as (N1 & N2 & N3). fold m0 in N1, N2, N3.
    assert (HP1 : Pinv dn m1) by (eapply Pinv_ceq; [apply ceq_add_log|exact N1]).
    assert (Hk1 : keep m m1) by (eapply keep_trans; [exact N2|apply keep_add_log]).
    assert (Hlen1 : length (m_nodes m1) = length (m_nodes m)).
    { change (m_nodes m1) with (m_nodes m0). unfold m0. rewrite note_squash_nodes. reflexivity. }
    assert (Hkeepl : incl keepl l).
    { intros x Hx. apply In_firstn in Hx. apply sort_by_In in Hx. exact Hx. }
    assert (Hmrg : incl mrg l).
    { intros x Hx. apply In_skipn in Hx. apply sort_by_In in Hx. exact Hx. }
    assert (Hl1 : forall id, In id l -> id < length (m_nodes m1) /\ n_depth (gn m1 id) = dn).
    { intros id Hid. destruct (Hl id Hid) as [h1 h2]. split; [lia|].
      rewrite (k_depth _ _ Hk1) by exact h2. apply (P_open _ _ HP); auto. }
    assert (Hmrg_ne : mrg <> []).
    { apply skipn_nonempty. unfold sorted. rewrite sort_by_length. lia. }
    split.
    - (* recycled node *)
      intros rid Hin E. apply pair_eq_inv in E. destruct E as [<- <-].
      apply Hkeepl in Hin. destruct (Hl1 rid Hin) as [Hr1 Hr2].
      set (m2 := upd_node m1 rid set_relaxed_flag).
      assert (HP2 : Pinv dn m2).
      { apply Pinv_upd_node; auto. intros _ Hs. lia. }
      assert (Hk2 : keep m1 m2) by (apply keep_upd_node; reflexivity).
      assert (Hlen2 : length (m_nodes m2) = length (m_nodes m1)) by apply upd_nth_length.
      destruct (drop_fold_step dn merged rid mrg m2 HP2) as [D1 D2].
      { lia. }
      { rewrite (k_depth _ _ Hk2) by exact Hr1. exact Hr2. }
      { intros id Hid. apply Hmrg in Hid. destruct (Hl1 id Hid) as [g1 g2].
        rewrite (k_depth _ _ Hk2) by exact g1. split; [lia|exact g2]. }
      set (m3 := fold_left (drop_step inp merged rid) mrg m2) in *.
      assert (Hlen3 : length (m_nodes m3) = length (m_nodes m2)) by apply drop_fold_nodes_length.
      set (m4 := upd_node m3 (nth w1 sorted 0) clear_deleted_flag).
      assert (Hc4 : ceq inp m3 m4).
      { apply ceq_upd_node. intros n. apply core_eq_set_flags_nc; reflexivity. }
      assert (Hk4 : keep m m4).
      { eapply keep_trans; [exact Hk1|]. eapply keep_trans; [exact Hk2|].
        eapply keep_trans; [exact D2|]. apply keep_upd_node; reflexivity. }
      split; [eapply Pinv_ceq; eauto|]. split; [exact Hk4|]. split; [|split].
      + unfold m4. msimpl. rewrite upd_nth_length, Hlen3, Hlen2, Hlen1. lia.
      + eapply in_open_keep; [exact Hk4| |exact Hl]. intros x Hx. apply In_firstn in Hx.
        apply sort_by_In in Hx. exact Hx.
      + unfold m4. msimpl. unfold m3. rewrite drop_fold_lel. reflexivity.
    - (* fresh merged node *)
      intros mid n E. apply pair_eq_inv in E. destruct E as [<- <-].
      set (ms := with_nodes m1 (m_nodes m1 ++ [n])).
      assert (Hnd : n_depth n = dn).
      { unfold n, merged_node. nsimpl. apply Hl1. apply Hmrg. apply hd_In. exact Hmrg_ne. }
      assert (HPs : Pinv dn ms).
      { apply Pinv_snoc; auto.
        - pose proof (P_depth _ _ HP). lia.
        - intros Hs. lia. }
      assert (Hks : keep m1 ms) by apply keep_snoc.
      assert (Hlens : length (m_nodes ms) = S mid) by apply len_snoc.
      assert (Hgmid : gn ms mid = n) by apply gn_snoc_new.
      set (m2 := upd_node ms mid set_relaxed_flag).
      assert (HP2 : Pinv dn m2).
      { apply Pinv_upd_node; auto. intros _ Hs. rewrite Hgmid, Hnd in Hs. lia. }
      assert (Hk2 : keep ms m2) by (apply keep_upd_node; reflexivity).
      assert (Hlen2 : length (m_nodes m2) = S mid) by (rewrite <- Hlens; apply upd_nth_length).
      destruct (drop_fold_step dn merged mid mrg m2 HP2) as [D1 D2].
      { lia. }
      { rewrite (k_depth _ _ Hk2) by lia. rewrite Hgmid. exact Hnd. }
      { intros id Hid. apply Hmrg in Hid. destruct (Hl1 id Hid) as [g1 g2].
        rewrite (k_depth _ _ Hk2) by (rewrite Hlens; unfold mid; lia).
        rewrite (k_depth _ _ Hks) by exact g1. split; [unfold mid; lia|exact g2]. }
      set (m3 := fold_left (drop_step inp merged mid) mrg m2) in *.
      assert (Hlen3 : length (m_nodes m3) = length (m_nodes m2)) by apply drop_fold_nodes_length.
      assert (Hk3 : keep m m3).
      { eapply keep_trans; [exact Hk1|]. eapply keep_trans; [exact Hks|].
        eapply keep_trans; [exact Hk2|exact D2]. }
      split; [exact D1|]. split; [exact Hk3|]. split; [|split].
      + rewrite Hlen3, Hlen2. unfold mid. lia.
      + intros id Hid. apply in_app_or in Hid. destruct Hid as [Hid|[<-|[]]].
        * eapply in_open_keep; [exact Hk3| |exact Hl|exact Hid]. exact Hkeepl.
        * rewrite (k_lend _ _ Hk3), Hlen3, Hlen2. pose proof (P_le _ _ HP). unfold mid. lia.
      + unfold m3. rewrite drop_fold_lel. reflexivity.
  Qed.

  Lemma squash_step dn (m : mdd) l m' l' :
    squash_if_needed st_eqb inp m l = (m', l') ->
    Pinv dn m -> dn = d0 + length (m_layers m) -> in_open m l ->
    Pinv dn m' /\ keep m m' /\ length (m_nodes m') <= S (length (m_nodes m)) /\ in_open m' l' /\
    (forall k, m_lel m' = Some k -> m_lel m = Some k \/ (ci_type inp = Relaxed -> 1 <= k)).
  Proof.
    unfold squash_if_needed. intros H HP Hdn Hl.
    assert (Hid : (m, l) = (m', l') ->
              Pinv dn m' /\ keep m m' /\ length (m_nodes m') <= S (length (m_nodes m)) /\ in_open m' l' /\
              (forall k, m_lel m' = Some k -> m_lel m = Some k \/ (ci_type inp = Relaxed -> 1 <= k))).
    { intros E. inversion E; subst. split; [exact HP|]. split; [apply keep_refl|]. split; [lia|]. split; [exact Hl|].
      intros k Hk. left; exact Hk. }
    destruct (ci_type inp) eqn:Et.
    - auto.
    - destruct (Nat.ltb W (length l) && Nat.ltb 1 (length (m_layers m))) eqn:Eg; [|auto].
      apply andb_true_iff in Eg. destruct Eg as [E1 E2]. apply Nat.ltb_lt in E1. apply Nat.ltb_lt in E2.
      destruct (relax_layer_step dn m l m' l' H HP) as (R1 & R2 & R3 & R4 & R5); auto; [lia|].
      split; [exact R1|]. split; [exact R2|]. split; [exact R3|]. split; [exact R4|].
      intros k Hk. rewrite R5 in Hk.
      destruct (note_squash_fields inp Hclean m) as (_ & _ & _ & _ & _ & _ & _ & F8 & _). rewrite F8 in Hk.
      destruct (m_lel m) as [k0|]; [left; exact Hk|]. right. intros _. inversion Hk. lia.
    - destruct (Nat.ltb W (length l)); [|auto].
      destruct (restrict_layer_step dn m l m' l' H HP) as (R1 & R2 & R3 & R4 & R5).
      split; [exact R1|]. split; [exact R2|]. split; [lia|]. split; [eapply in_open_keep; eauto|].
      intros k Hk. right. intros Hr. discriminate.
  Qed.

  Definition layers_ok (m : mdd) : Prop :=
    forall i ids id, nth_error (m_layers m) i = Some ids -> In id ids ->
      id < length (m_nodes m) /\ n_depth (gn m id) = d0 + i.
  Definition lel_ok (m : mdd) : Prop := forall k, m_lel m = Some k -> ci_type inp = Relaxed -> 1 <= k.

  Lemma layers_ok_keep (m m' : mdd) : keep m m' -> layers_ok m -> layers_ok m'.
  Proof.
    intros Hk Hl i ids id H1 H2. rewrite (k_layers _ _ Hk) in H1. destruct (Hl i ids id H1 H2) as [a b].
    rewrite (k_depth _ _ Hk) by exact a. pose proof (k_len _ _ Hk). split; [lia|exact b].
  Qed.

  Lemma layers_ok_same (m m' : mdd) :
    m_nodes m' = m_nodes m -> m_layers m' = m_layers m -> layers_ok m -> layers_ok m'.
  Proof.
    intros H1 H2 Hl i ids id A B. rewrite H2 in A. unfold get_node. rewrite H1. apply (Hl i ids id A B).
  Qed.

  Lemma layers_ok_push (m : mdd) ids e :
    layers_ok m -> (forall id, In id ids -> id < length (m_nodes m) /\ n_depth (gn m id) = d0 + length (m_layers m)) ->
    layers_ok (push_layer m ids e).
  Proof.
    intros Hl Hids i ids0 id H1 H2. msimpl_in H1.
    change (gn (push_layer m ids e) id) with (gn m id). change (m_nodes (push_layer m ids e)) with (m_nodes m).
    destruct (Nat.lt_ge_cases i (length (m_layers m))) as [Hi|Hi].
    - rewrite nth_error_app1 in H1 by exact Hi. eapply Hl; eauto.
    - rewrite nth_error_app2 in H1 by exact Hi.
      destruct (i - length (m_layers m)) as [|j] eqn:Ej; [|destruct j; discriminate].
      simpl in H1. inversion H1; subst ids0. replace i with (length (m_layers m)) by lia. apply Hids; exact H2.
  Qed.

  Record Linv (m : mdd) : Prop := {
    L_P : Pinv (m_curr_depth m) m;
    L_crash : m_crash m = false;
    L_cd : m_curr_depth m = d0 + length (m_layers m);
    L_cdN : m_curr_depth m <= N;
    L_layers : layers_ok m;
    L_nodup : Forall (@NoDup nat) (m_layers m);
    L_lel : lel_ok m }.

  Lemma Linv_frame (m m' : mdd) :
    m_nodes m' = m_nodes m -> m_edges m' = m_edges m -> m_path m' = m_path m -> m_next m' = m_next m ->
    m_layer_end m' = m_layer_end m -> m_layers m' = m_layers m -> m_curr_depth m' = m_curr_depth m ->
    m_lel m' = m_lel m -> m_crash m' = m_crash m -> Linv m -> Linv m'.
  Proof.
    intros H1 H2 H3 H4 H5 H6 H7 H8 H9 [L1 L2 L3 L4 L5 L6 L7].
    assert (Hk : keep m m') by (apply keep_same; auto).
    split; try congruence.
    - rewrite H7. eapply Pinv_peq; [apply peq_same_nodes; eauto|exact H4|exact H5|exact L1].
    - eapply layers_ok_keep; eauto.
    - unfold lel_ok. rewrite H8. exact L7.
  Qed.

  Lemma Linv_initialize c ds polls : Linv (initialize inp c ds polls).
  Proof.
    split.
    - simpl. split; simpl.
      + intros id Hid. assert (id = 0) by lia. subst id. simpl. lia.
      + intros id eid Hid. assert (id = 0) by lia. subst id. simpl. tauto.
      + intros id Hid _. assert (id = 0) by lia. subst id. reflexivity.
      + intros id _ Hid. assert (id = 0) by lia. subst id. reflexivity.
      + intros id [<-|[]]. lia.
      + lia.
    - reflexivity.
    - simpl. lia.
    - simpl. exact Hroot_depth.
    - intros i ids id H. destruct i; discriminate.
    - constructor.
    - intros k Hk. discriminate.
  Qed.

  (* the state between _move_to_next_layer and the end of the expansion of layer [l] *)
  Record Minv (m m' : mdd) (l : list nat) : Prop := {
    M_P : Pinv (S (m_curr_depth m)) m';
    M_crash : m_crash m' = false;
    M_cd : m_curr_depth m' = m_curr_depth m;
    M_cdl : m_curr_depth m = d0 + length (m_layers m);
    M_layers : exists ids, m_layers m' = m_layers m ++ [ids];
    M_lok : layers_ok m';
    M_nodup : Forall (@NoDup nat) (m_layers m');
    M_lel : lel_ok m';
    M_next : m_next m' = [];
    M_l : forall id, In id l -> id < length (m_nodes m') /\ n_depth (gn m' id) = m_curr_depth m;
    M_len : length (m_nodes m') <= S (length (m_nodes m)) }.

  Lemma Pinv_push_layer dn (m : mdd) ids :
    Pinv dn m -> m_next m = [] -> Pinv (S dn) (push_layer m ids (length (m_nodes m))).
  Proof.
    intros [P1 P2 P3 P4 P5 P6] Hn. split; msimpl; auto.
    - intros id Hid. specialize (P1 id Hid). change (gn (push_layer m ids (length (m_nodes m))) id) with (gn m id). lia.
    - intros id H1 H2. lia.
    - intros id Hid. rewrite Hn in Hid. destruct Hid.
  Qed.

  Lemma expand_finish var (m m' : mdd) l :
    Minv m m' l -> m_curr_depth m < N ->
    Linv (with_depth (fold_left (expand_node st_eqb inp var) l m')
                     (S (m_curr_depth (fold_left (expand_node st_eqb inp var) l m')))) /\
    m_curr_depth (fold_left (expand_node st_eqb inp var) l m') = m_curr_depth m.
  Proof.
    intros [M1 M2 M3 M3' [ids M4] M5 M6 M7 M8 M9 M10] HN.
    destruct (expand_layer_step var (m_curr_depth m) l m' M1 M9) as [E1 E2].
    set (m4 := fold_left (expand_node st_eqb inp var) l m') in *.
    rewrite (k_cd _ _ E2). split; [|exact M3].
    split; msimpl.
    - rewrite M3. apply (Pinv_peq _ m4); [apply peq_same_nodes; reflexivity|reflexivity|reflexivity|exact E1].
    - rewrite (k_crash _ _ E2). exact M2.
    - rewrite (k_layers _ _ E2), M4, app_length, M3, M3'. simpl. lia.
    - lia.
    - apply (layers_ok_same m4); [reflexivity|reflexivity|]. eapply layers_ok_keep; [exact E2|exact M5].
    - rewrite (k_layers _ _ E2). exact M6.
    - intros k Hk. change (m_lel (with_depth m4 (S (m_curr_depth m')))) with (m_lel m4) in Hk.
      unfold m4 in Hk. rewrite expand_layer_lel in Hk. apply M7; exact Hk.
  Qed.

  (* how the loop ends: at depth N (next_variable answers None), or earlier because the next layer was empty and
     the move pushed an empty layer *)
  Definition Post (m : mdd) : Prop :=
    (Linv m /\ N <= m_curr_depth m) \/
    (exists m0, Linv m0 /\ m_next m0 = [] /\ m = push_layer (with_next m0 []) [] 0).

  Lemma move_none_inv (m m' : mdd) :
    move_to_next_layer_clean st_eqb inp m = (m', None) ->
    m_next m = [] /\ m' = push_layer (with_next m []) [] 0.
  Proof.
    rewrite move_clean_unfold. destruct (m_next m) as [|x nx].
    - intros H. inversion H. auto.
    - destruct (prefilter _ _ _ _) as [m1 l1]. destruct (filter_with_dominance _ _ _) as [m2 l2].
      destruct (squash_if_needed _ _ _ _) as [m3 l3]. discriminate.
  Qed.

  (* one iteration of the loop, for a clean flavour without cutoff *)
  Lemma layer_loop_step fuel (m : mdd) :
    layer_loop st_eqb inp (S fuel) m =
    let states := map (fun id => n_state (gn m id)) (m_next m) in
    let ov := next_variable pb (m_curr_depth m) states in
    let m1 := add_log m (EvNextVar (m_curr_depth m) states ov) in
    match ov with
    | None => (m1, LoopDone)
    | Some var =>
        match move_to_next_layer_clean st_eqb inp (with_polls m1 (S (m_polls m1))) with
        | (m3, None) => (m3, LoopDone)
        | (m3, Some l) =>
            let m4 := fold_left (expand_node st_eqb inp var) l m3 in
            layer_loop st_eqb inp fuel (with_depth m4 (S (m_curr_depth m4)))
        end
    end.
  Proof.
    cbn [layer_loop]. cbv zeta. destruct (next_variable _ _ _); [|reflexivity].
    rewrite Hnocut, not_pooled'. reflexivity.
  Qed.

  (* the state after finalize_layers *)
  Record Finv (m : mdd) : Prop := {
    F_depth : forall id, id < length (m_nodes m) -> d0 <= n_depth (gn m id) <= N;
    F_inb : forall id eid, id < length (m_nodes m) -> In eid (n_inb (gn m id)) ->
            eid < length (m_edges m) /\ e_from (get_edge m eid) < length (m_nodes m) /\
            S (n_depth (gn m (e_from (get_edge m eid)))) = n_depth (gn m id);
    F_shallow : forall id, id < length (m_nodes m) -> n_depth (gn m id) <= S d0 ->
            fl_is_exact (n_flags (gn m id)) = true;
    F_crash : m_crash m = false;
    F_layers : layers_ok m;
    F_nodup : Forall (@NoDup nat) (m_layers m);
    F_lel : lel_ok m;
    F_next : forall id, In id (m_next m) -> n_depth (gn m id) = N;
    F_nlayers : length (m_layers m) <= S N }.

  Lemma Finv_of_Linv (m m' : mdd) :
    Linv m -> m_nodes m' = m_nodes m -> m_edges m' = m_edges m -> m_crash m' = m_crash m ->
    m_lel m' = m_lel m -> layers_ok m' -> Forall (@NoDup nat) (m_layers m') ->
    (forall id, In id (m_next m') -> n_depth (gn m' id) = N) -> length (m_layers m') <= S N -> Finv m'.
  Proof.
    intros [[P1 P2 P3 P4 P5 P6] L2 L3 L4 L5 L6 L7] H1 H2 H3 H4 H5 H6 H7 H8.
    assert (Hg : forall k, gn m' k = gn m k) by (intros k; unfold get_node; rewrite H1; reflexivity).
    split; auto; rewrite ?H1.
    - intros id Hid. rewrite Hg. specialize (P1 id Hid). lia.
    - intros id eid Hid Hin. rewrite Hg in Hin. unfold get_edge. rewrite H2, !Hg. apply P2; auto.
    - intros id Hid Hs. rewrite Hg in *. auto.
    - congruence.
    - unfold lel_ok. rewrite H4. exact L7.
  Qed.

  Lemma finalize_layers_Finv (m : mdd) : Post m -> Finv (finalize_layers inp m).
  Proof.
    unfold finalize_layers. rewrite not_pooled'.
    intros [[HL HN]|(m0 & HL & Hn & ->)].
    - pose proof HL as [L1 L2 L3 L4 L5 L6 L7].
      assert (Hcd : m_curr_depth m = N) by lia.
      destruct (m_next m) as [|x nx] eqn:En.
      + apply (Finv_of_Linv m); auto.
        * rewrite En. intros id [].
        * lia.
      + set (m' := push_layer m (seq (m_layer_end m) (length (m_nodes m) - m_layer_end m)) (length (m_nodes m))).
        apply (Finv_of_Linv m); auto.
        * apply layers_ok_push; [exact L5|]. intros id Hid. apply in_seq in Hid. split; [lia|].
          rewrite (P_open _ _ L1 id) by lia. exact L3.
        * unfold m'. msimpl. apply Forall_app. split; [exact L6|]. constructor; [apply seq_NoDup|constructor].
        * intros id Hid. change (In id (m_next m)) in Hid. change (gn m' id) with (gn m id).
          destruct (P_next _ _ L1 id Hid) as [a b]. rewrite (P_open _ _ L1 id a b). exact Hcd.
        * unfold m'. msimpl. rewrite app_length. simpl. lia.
    - pose proof HL as [L1 L2 L3 L4 L5 L6 L7]. msimpl.
      set (m' := push_layer (with_next m0 []) [] 0).
      apply (Finv_of_Linv m0); auto.
      + apply layers_ok_push; [apply (layers_ok_same m0); auto|]. intros id [].
      + unfold m'. msimpl. apply Forall_app. split; [exact L6|]. constructor; [constructor|constructor].
      + intros id [].
      + unfold m'. msimpl. rewrite app_length. simpl. lia.
  Qed.

  (* fields that the tail of _finalize leaves alone (for _finalize what [MddStruct.inert] is for the expansion
     and the squash) *)
  Definition insens {X} (g : mdd -> X) : Prop :=
    (forall (m : mdd) k f, g (upd_node m k f) = g m) /\ (forall (m : mdd) ev, g (add_log m ev) = g m) /\
    (forall (m : mdd) cs, g (with_cutset m cs) = g m).

  Lemma insens_crash : insens (@m_crash St).     Proof. repeat split. Qed.

  Lemma insens_has_ebp : insens (@m_has_ebp St).  Proof. repeat split. Qed.

  Lemma insens_best : insens (@m_best St).        Proof. repeat split. Qed.

  Lemma insens_best_exact : insens (@m_best_exact St). Proof. repeat split. Qed.

  Lemma insens_lel : insens (@m_lel St).          Proof. repeat split. Qed.

  Lemma insens_layers : insens (@m_layers St).    Proof. repeat split. Qed.

  Section Insens.
    Context {X : Type}.
    Variable g : mdd -> X.
    Hypothesis Hg : insens g.

    Lemma ins_upd (m : mdd) k f : g (upd_node m k f) = g m.  Proof. apply Hg. Qed.
    Lemma ins_log (m : mdd) ev : g (add_log m ev) = g m.     Proof. apply Hg. Qed.
    Lemma ins_cut (m : mdd) cs : g (with_cutset m cs) = g m. Proof. apply Hg. Qed.

    Lemma ins_compute_local_bounds (m : mdd) : g (compute_local_bounds inp m) = g m.
    Proof.
      apply (compute_local_bounds_steps inp (fun a b : mdd => g b = g a)); [reflexivity|congruence|].
      intros; apply ins_upd.
    Qed.

    Lemma ins_cache_update (m : mdd) s d v e : g (cache_update st_eqb inp m s d v e) = g m.
    Proof. unfold cache_update. rewrite Hnocache. apply ins_log. Qed.

    Lemma ins_compute_thresholds (m : mdd) : g (compute_thresholds st_eqb inp m) = g m.
    Proof.
      apply (compute_thresholds_steps st_eqb inp (fun a b : mdd => g b = g a)); [reflexivity|congruence| |].
      - intros; apply ins_upd.
      - intros; apply ins_cache_update.
    Qed.

    Lemma ins_finalize_cutset (m : mdd) :
      (forall (a : mdd) l, g (with_lel_exact a l (m_is_exact a)) = g a) -> g (finalize_cutset inp m) = g m.
    Proof using Hg Hclean.
      intros Hw. apply (finalize_cutset_proj inp g); [intros; apply ins_upd|intros; apply ins_cut|exact Hw].
    Qed.
  End Insens.

  Lemma Finv_same (m m' : mdd) :
    m_nodes m' = m_nodes m -> m_edges m' = m_edges m -> m_crash m' = m_crash m -> m_lel m' = m_lel m ->
    m_layers m' = m_layers m -> m_next m' = m_next m -> Finv m -> Finv m'.
  Proof.
    intros H1 H2 H3 H4 H5 H6 [F1 F2 F3 F4 F5 F6 F7 F8 F9].
    assert (Hg : forall k, gn m' k = gn m k) by (intros k; unfold get_node; rewrite H1; reflexivity).
    split; rewrite ?H1, ?H5, ?H6; auto.
    - intros id Hid. rewrite Hg. auto.
    - intros id eid Hid Hin. rewrite Hg in Hin. unfold get_edge. rewrite H2, !Hg. apply F2; auto.
    - intros id Hid Hs. rewrite Hg in *. auto.
    - congruence.
    - apply (layers_ok_same m); auto.
    - unfold lel_ok. rewrite H4. exact F7.
    - intros id Hid. rewrite Hg. auto.
  Qed.

  Lemma frontier_cutset_facts (m : mdd) :
    (forall id eid, id < length (m_nodes m) -> In eid (n_inb (gn m id)) ->
            eid < length (m_edges m) /\ e_from (get_edge m eid) < length (m_nodes m) /\
            S (n_depth (gn m (e_from (get_edge m eid)))) = n_depth (gn m id)) ->
    (forall id, id < length (m_nodes m) -> n_depth (gn m id) <= S d0 ->
            fl_is_exact (n_flags (gn m id)) = true) ->
    m_cutset m = [] ->
    NoDup (m_cutset (frontier_cutset inp m true)) /\
    forall id, In id (m_cutset (frontier_cutset inp m true)) ->
      id < length (m_nodes m) /\ d0 < n_depth (gn m id).
  Proof.
    intros HFinb HFsh Hc.
    destruct (frontier_cutset_walk inp m (fun a : mdd => NoDup (m_cutset a) /\
                forall id, In id (m_cutset a) ->
                  id < length (m_nodes m) /\ d0 < n_depth (gn m id) /\ f_cutset (n_flags (gn a id)) = true))
      as (_ & Q2 & Q3).
    - rewrite Hc. split; [constructor|intros id []].
    - intros a id [Qa2 Qa3]. split; [exact Qa2|]. intros k Hk. destruct (Qa3 k Hk) as (q1 & q2 & q3).
      split; [exact q1|]. split; [exact q2|].
      rewrite <- q3. apply (get_node_upd_node_proj inp (fun n => f_cutset (n_flags n))). reflexivity.
    - (* the exact parent [src] of an inexact node [id] *)
      intros b id eid Pb [Qb2 Qb3] Eex Hin src Es Ec.
      assert (Hsrc : src < length (m_nodes m) /\ d0 < n_depth (gn m src)).
      { destruct (Nat.lt_ge_cases id (length (m_nodes m))) as [Hlt|Hge].
        - destruct (HFinb id eid Hlt Hin) as (b1 & b2 & b3). split; [exact b2|]. fold src in b3.
          destruct (Nat.lt_ge_cases (S d0) (n_depth (gn m id))) as [G|G]; [lia|].
          rewrite (HFsh id Hlt G) in Eex. discriminate.
        - rewrite gn_out_of_range in Hin by exact Hge. destruct Hin. }
      set (b1 := with_cutset b (m_cutset b ++ [src])).
      set (b2 := upd_node b1 src (fun n0 => set_flags n0 (fl_set_cutset (n_flags n0) true))).
      assert (Hsame : gn b2 src = set_flags (gn b src) (fl_set_cutset (n_flags (gn b src)) true)).
      { unfold b2. rewrite gn_upd_same; [reflexivity|]. change (m_nodes b1) with (m_nodes b).
        destruct Pb as (_ & _ & -> & _). apply Hsrc. }
      split.
      + change (m_cutset b2) with (m_cutset b ++ [src]). apply NoDup_app_fresh; [exact Qb2|].
        intros Hmem. destruct (Qb3 src Hmem) as (_ & _ & q3). congruence.
      + intros k Hk. change (m_cutset b2) with (m_cutset b ++ [src]) in Hk.
        apply in_app_or in Hk. destruct Hk as [Hk|[<-|[]]].
        * destruct (Qb3 k Hk) as (q1 & q2 & q3). split; [exact q1|]. split; [exact q2|].
          destruct (Nat.eq_dec src k) as [<-|Hne]; [rewrite Hsame; reflexivity|].
          unfold b2. rewrite gn_upd_other by exact Hne. exact q3.
        * split; [apply Hsrc|]. split; [apply Hsrc|]. rewrite Hsame. reflexivity.
    - split; [exact Q2|]. intros id Hid. destruct (Q3 id Hid) as (a & b & _). auto.
  Qed.

  Lemma finalize_cutset_facts (m : mdd) :
    Finv m -> m_cutset m = [] ->
    NoDup (m_cutset (finalize_cutset inp m)) /\
    (ci_type inp = Relaxed -> forall id, In id (m_cutset (finalize_cutset inp m)) ->
       id < length (m_nodes m) /\ d0 < n_depth (gn m id)).
  Proof.
    intros HF Hc. unfold finalize_cutset. cbv zeta.
    set (m1 := match m_lel m with
               | None => with_lel_exact m (Some (length (m_layers m))) (m_is_exact m)
               | Some _ => m end).
    assert (H1 : m_nodes m1 = m_nodes m /\ m_edges m1 = m_edges m /\ m_crash m1 = m_crash m /\
                 m_layers m1 = m_layers m /\ m_next m1 = m_next m /\ m_cutset m1 = m_cutset m /\
                 m_lel m1 = match m_lel m with None => Some (length (m_layers m)) | Some k => Some k end).
    { unfold m1. destruct (m_lel m) eqn:El; repeat split; auto. }
    destruct H1 as (A1 & A2 & A3 & A4 & A5 & A6 & A7).
    assert (Hg : forall k, gn m1 k = gn m k) by (intros k; unfold get_node; rewrite A1; reflexivity).
    assert (Hnil : NoDup (m_cutset m1) /\
                   (ci_type inp = Relaxed -> forall id, In id (m_cutset m1) -> id < length (m_nodes m) /\ d0 < n_depth (gn m id))).
    { rewrite A6, Hc. split; [constructor|intros _ id []]. }
    destruct Hclean as [Hf|Hf]; rewrite Hf.
    - destruct (is_relaxed_ct (ci_type inp) || m_is_exact m); [|exact Hnil].
      destruct (lel_cutset_spec inp m1 (opt_default 0 (m_lel m1))) as [_ L2].
      rewrite L2, A6, Hc, A4, A7. simpl app.
      destruct (m_lel m) as [k|] eqn:El; cbn [opt_default].
      + destruct (nth_error (m_layers m) k) as [ids|] eqn:En; [|split; [constructor|intros _ id []]].
        split.
        * pose proof (F_nodup _ HF) as Hnd. rewrite Forall_forall in Hnd. apply Hnd. eapply nth_error_In; eauto.
        * intros Hr id Hid. destruct (F_layers _ HF k ids id En Hid) as [a b]. split; [exact a|].
          pose proof (F_lel _ HF k El Hr). lia.
      + destruct (nth_error (m_layers m) (length (m_layers m))) as [ids|] eqn:En; [|split; [constructor|intros _ id []]].
        exfalso. assert (length (m_layers m) < length (m_layers m)); [|lia].
        apply nth_error_Some. rewrite En. discriminate.
    - destruct (is_relaxed_ct (ci_type inp) || m_is_exact m); [|exact Hnil].
      destruct (frontier_cutset_facts m1) as [R1 R2].
      + intros id eid Hid Hin. rewrite A1 in Hid. rewrite Hg in Hin. unfold get_edge. rewrite A2, A1, !Hg.
        apply (F_inb _ HF); auto.
      + intros id Hid Hs. rewrite A1 in Hid. rewrite Hg in *. apply (F_shallow _ HF); auto.
      + rewrite A6. exact Hc.
      + split; [exact R1|]. intros _ id Hid. destruct (R2 id Hid) as [a b]. rewrite A1 in a. rewrite Hg in b. auto.
  Qed.

  Lemma finalize_layers_same (m : mdd) :
    m_nodes (finalize_layers inp m) = m_nodes m /\ m_edges (finalize_layers inp m) = m_edges m /\
    m_path (finalize_layers inp m) = m_path m /\ m_next (finalize_layers inp m) = m_next m /\
    m_cutset (finalize_layers inp m) = m_cutset m.
  Proof.
    unfold finalize_layers. rewrite not_pooled'.
    destruct (m_next m) eqn:E; (split; [|split; [|split; [|split]]]); try reflexivity; auto.
  Qed.

  Lemma finalize_facts tb tb2 (ml : mdd) :
    Post ml -> Sinv inp ml -> Xs inp ml ->
    let m := finalize st_eqb inp tb tb2 ml in
    m_crash m = false /\
    length (m_nodes m) = length (m_nodes ml) /\
    (forall id, id < length (m_nodes m) -> d0 <= n_depth (gn m id) <= N) /\
    layers_ok m /\
    length (m_layers m) <= S N /\
    (forall id, In id (m_next m) -> n_depth (gn m id) = N) /\
    (forall b, m_best m = Some b -> In b (m_next m)) /\
    (forall b, m_best_exact m = Some b -> In b (m_next m)) /\
    NoDup (m_cutset m) /\
    (ci_type inp = Relaxed -> forall id, In id (m_cutset m) -> id < length (m_nodes m) /\ d0 < n_depth (gn m id)).
  Proof.
    intros HPost HS HX.
    destruct (finalize_spec st_eqb inp Hclean tb tb2 ml HS HX) as (Pl6 & Nl6 & _).
    pose proof (finalize_layers_eq st_eqb inp tb tb2 ml) as Hlayers.
    pose proof (finalize_layers_Finv ml HPost) as HF1.
    destruct (finalize_layers_same ml) as (S1 & S2 & S3 & S4 & S5).
    unfold finalize in *.
    set (m1 := finalize_layers inp ml) in *.
    set (m2 := find_best_node inp tb tb2 m1) in *.
    set (m3 := finalize_exact inp m2) in *.
    set (m4 := finalize_cutset inp m3) in *.
    pose proof (compute_local_bounds_keq inp Hclean m4) as K5.
    set (m5 := compute_local_bounds inp m4) in *.
    pose proof (compute_thresholds_keq st_eqb inp m5) as K6.
    set (m6 := compute_thresholds st_eqb inp m5) in *.
    cbv zeta.
    assert (P1l : peq inp ml m1) by (apply peq_same_nodes; auto).
    assert (P16 : peq inp m1 m6) by (eapply peq_trans; [apply peq_sym; exact P1l|exact Pl6]).
    pose proof P16 as (_ & _ & Len16 & C16).
    assert (Hd : forall k, n_depth (gn m6 k) = n_depth (gn m1 k)).
    { intros k. destruct (C16 k) as (_ & _ & _ & _ & _ & _ & c7). congruence. }
    assert (HF3 : Finv m3) by (apply (Finv_same m1); auto; reflexivity).
    assert (Hc3 : m_cutset m3 = []).
    { change (m_cutset m3) with (m_cutset m1). rewrite S5. apply (X_cutset _ _ _ HX). }
    destruct (finalize_cutset_facts m3 HF3 Hc3) as [Cnd Cdep].
    destruct K5 as (_ & N5 & B5 & BE5 & Cs5). destruct K6 as (_ & N6 & B6 & BE6 & Cs6).
    assert (Hcr : m_crash m6 = false).
    { unfold m6. rewrite (ins_compute_thresholds _ insens_crash). unfold m5.
      rewrite (ins_compute_local_bounds _ insens_crash). unfold m4.
      rewrite (ins_finalize_cutset _ insens_crash) by reflexivity. apply (F_crash _ HF1). }
    assert (Hb4 : m_best m4 = m_best m3) by (apply (ins_finalize_cutset _ insens_best); reflexivity).
    assert (Hbe4 : m_best_exact m4 = m_best_exact m3) by (apply (ins_finalize_cutset _ insens_best_exact); reflexivity).
    assert (Hn6 : m_next m6 = m_next m1) by (rewrite Nl6, S4; reflexivity).
    assert (Hbest2 : forall b, m_best m2 = Some b -> In b (m_next m1)).
    { intros b Hb. unfold m2, find_best_node in Hb. msimpl_in Hb.
      apply MddExact.pick_In in Hb. apply (argmax_candidates_In inp Hclean) in Hb. exact Hb. }
    split; [exact Hcr|]. split; [rewrite Len16, S1; reflexivity|]. split; [|split; [|split; [|split; [|split; [|split; [|split]]]]]].
    - intros id Hid. rewrite Hd. apply (F_depth _ HF1). lia.
    - intros i ids id H1 H2. rewrite Hlayers in H1. destruct (F_layers _ HF1 i ids id H1 H2) as [a b].
      rewrite Hd. split; [lia|exact b].
    - rewrite Hlayers. apply (F_nlayers _ HF1).
    - intros id Hid. rewrite Hn6 in Hid. rewrite Hd. apply (F_next _ HF1); exact Hid.
    - intros b Hb. rewrite Hn6. rewrite B6, B5, Hb4 in Hb. apply Hbest2. exact Hb.
    - intros b Hb. rewrite Hn6. rewrite BE6, BE5, Hbe4 in Hb.
      unfold m3, finalize_exact in Hb. cbv zeta in Hb. msimpl_in Hb.
      destruct (is_relaxed_ct (ci_type inp) && has_exact_best_path inp (S (length (m_nodes m2))) m2 (m_best m2)).
      + apply Hbest2; exact Hb.
      + unfold m2, find_best_node in Hb. msimpl_in Hb.
        apply MddExact.pick_In in Hb. apply (argmax_candidates_In inp Hclean) in Hb. apply filter_In in Hb. tauto.
    - rewrite Cs6, Cs5. exact Cnd.
    - intros Hr id Hid. rewrite Cs6, Cs5 in Hid. destruct (Cdep Hr id Hid) as [a b].
      change (m_nodes m3) with (m_nodes m1) in a. change (gn m3 id) with (gn m1 id) in b.
      rewrite Hd. split; [lia|exact b].
  Qed.

  Lemma drain_cutset_In (m : mdd) sp :
    In sp (drain_cutset inp m) -> exists id, In id (m_cutset m) /\ sp_depth sp = n_depth (gn m id).
  Proof.
    unfold drain_cutset. destruct (dd_best_value inp m) as [bv|]; [|intros []].
    intros Hin. apply in_flat_map in Hin. destruct Hin as (id & Hid & Hsp).
    destruct (f_marked (n_flags (gn m id))); [|destruct Hsp].
    destruct Hsp as [<-|[]]. exists id. split; [exact Hid|reflexivity].
  Qed.

  (* K5: the size of the diagram *)
  Variable D : nat.
  Hypothesis dom_bound : forall x s, length (domain pb x s) <= D.

  (* Where the bound comes from ([cnt_ok], [cnt_ok_step] below): a move adds at most one node (the merged one) and
     the expansion of k nodes at most k * D children.  The root layer expands one node and the layer below it at
     most D (nothing is squashed before two layers are recorded); every later layer expands at most W.  With at
     most N + 2 layers: 1 + (1 + D) + (1 + D * D) + N * (1 + W * D).  [Kbound] (section Assembly) is this number
     for [mk_input cfg ..]. *)
  Definition Mbound : nat := 3 + D + D * D + N * (1 + W * D).

  Lemma branch_on_counts (m : mdd) id d :
    length (m_nodes (branch_on st_eqb inp m id d)) <= S (length (m_nodes m)) /\
    length (m_next (branch_on st_eqb inp m id d)) <= S (length (m_next m)).
  Proof.
    pattern (branch_on st_eqb inp m id d). apply branch_on_cases.
    intros s ns cost m1 arc n. split.
    - intros t _ _. split; [rewrite append_edge_nodes_length|]; apply Nat.le_succ_diag_r.
    - cbn [m_nodes m_next with_next]. rewrite append_edge_nodes_length. cbn [m_nodes with_nodes].
      rewrite !app_length. simpl. lia.
  Qed.

  Lemma fold_branch_counts id var vals : forall (m : mdd),
    length (m_nodes (fold_left (fun m val => branch_on st_eqb inp m id {| d_var := var; d_val := val |}) vals m))
      <= length (m_nodes m) + length vals /\
    length (m_next (fold_left (fun m val => branch_on st_eqb inp m id {| d_var := var; d_val := val |}) vals m))
      <= length (m_next m) + length vals.
  Proof.
    induction vals as [|v vals IH]; intros m; simpl; [lia|].
    destruct (IH (branch_on st_eqb inp m id {| d_var := var; d_val := v |})) as [I1 I2].
    destruct (branch_on_counts m id {| d_var := var; d_val := v |}) as [B1 B2]. lia.
  Qed.

  Lemma expand_node_counts var (m : mdd) id :
    length (m_nodes (expand_node st_eqb inp var m id)) <= length (m_nodes m) + D /\
    length (m_next (expand_node st_eqb inp var m id)) <= length (m_next m) + D.
  Proof.
    unfold expand_node. cbv zeta. destruct (Z.gtb _ _).
    - match goal with |- context [fold_left _ ?vals ?mm] =>
        destruct (fold_branch_counts id var vals mm) as [F1 F2]; pose proof (dom_bound var (n_state (gn m id))) as Hd end.
      msimpl_in F1. msimpl_in F2. rewrite upd_nth_length in F1. lia.
    - msimpl. rewrite upd_nth_length. lia.
  Qed.

  Lemma expand_layer_counts var l : forall (m : mdd),
    length (m_nodes (fold_left (expand_node st_eqb inp var) l m)) <= length (m_nodes m) + length l * D /\
    length (m_next (fold_left (expand_node st_eqb inp var) l m)) <= length (m_next m) + length l * D.
  Proof.
    induction l as [|id l IH]; intros m; simpl; [lia|].
    destruct (IH (expand_node st_eqb inp var m id)) as [I1 I2].
    destruct (expand_node_counts var m id) as [E1 E2]. lia.
  Qed.

  Lemma move_first_layers_len (m m' : mdd) l :
    move_to_next_layer_clean st_eqb inp m = (m', Some l) ->
    ci_type inp = Relaxed -> length (m_layers m) <= 1 -> length l <= length (m_next m).
  Proof.
    rewrite move_clean_unfold. destruct (m_next m) as [|x nx] eqn:Hn; [discriminate|]. rewrite <- Hn.
    destruct (prefilter _ _ _ _) as [m1 l1] eqn:H1.
    destruct (filter_with_dominance _ _ _) as [m2 l2] eqn:H2.
    destruct (squash_if_needed _ _ _ _) as [m3 l3] eqn:H3.
    intros H Ht Hl; inversion H; subst.
    destruct (stages_layers _ _ _ _ _ _ _ _ _ _ H1 H2 H3) as (HL & _ & Hlen).
    rewrite squash_relaxed_first_layers in H3; [|exact Ht|rewrite HL; exact Hl].
    inversion H3; subst. exact Hlen.
  Qed.

  Definition cnt_ok (m : mdd) : Prop :=
    (length (m_layers m) = 0 -> length (m_nodes m) <= 1 /\ length (m_next m) <= 1) /\
    (length (m_layers m) = 1 -> length (m_nodes m) <= 2 + D /\ length (m_next m) <= D) /\
    (2 <= length (m_layers m) ->
       length (m_nodes m) <= 3 + D + D * D + (length (m_layers m) - 2) * (1 + W * D)).

  Lemma cnt_ok_bound (m : mdd) : cnt_ok m -> length (m_layers m) <= N + 2 -> length (m_nodes m) <= Mbound.
  Proof.
    intros (C0 & C1 & C2) Hk. unfold Mbound.
    destruct (length (m_layers m)) as [|[|k]] eqn:Ek.
    - destruct C0; auto. lia.
    - destruct C1; auto. lia.
    - assert (H2 : 2 <= S (S k)) by lia. specialize (C2 H2).
      assert (Hm : (S (S k) - 2) * (1 + W * D) <= N * (1 + W * D)) by (apply Nat.mul_le_mono_r; lia).
      lia.
  Qed.

  (* the counters after one more layer: [k] nodes were expanded, each has at most D children, and
     squashing added at most one node *)
  Lemma cnt_ok_step (m m' : mdd) k :
    cnt_ok m -> length (m_layers m') = S (length (m_layers m)) ->
    length (m_nodes m') <= S (length (m_nodes m)) + k * D ->
    length (m_next m') <= k * D ->
    (length (m_layers m) <= 1 -> k <= length (m_next m)) ->
    (2 <= length (m_layers m) -> k <= W) ->
    cnt_ok m'.
  Proof.
    intros (C0 & C1 & C2) Hly Hn Hx H01 H2. unfold cnt_ok. rewrite Hly.
    destruct (length (m_layers m)) as [|[|j]].
    - destruct C0 as [c1 c2]; [reflexivity|]. specialize (H01 (Nat.le_0_l 1)).
      assert (Hm : k * D <= 1 * D) by (apply Nat.mul_le_mono_r; lia).
      split; [discriminate|]. split; [intros _; lia|intros G; lia].
    - destruct C1 as [c1 c2]; [reflexivity|]. specialize (H01 (Nat.le_refl 1)).
      assert (Hm : k * D <= D * D) by (apply Nat.mul_le_mono_r; lia).
      split; [discriminate|]. split; [discriminate|]. intros _. simpl. lia.
    - assert (G : 2 <= S (S j)) by lia. specialize (C2 G). specialize (H2 G).
      assert (Hm : k * D <= W * D) by (apply Nat.mul_le_mono_r; exact H2).
      split; [discriminate|]. split; [discriminate|]. intros _.
      replace (S (S (S j)) - 2) with (S (S (S j) - 2)) by lia.
      rewrite Nat.mul_succ_l. lia.
  Qed.

  (* ---------------------------------------------------------------- the traversal, for any filters
     The cache filter and the dominance filter enter the argument through one fact only: run on the open
     layer of a diagram whose stores are fit ([Sok], a property of the cache and of the dominance store:
     long enough for the depths met, say), they do not crash and leave the stores fit.  Whatever else they
     do is [ceq].  The statements for "no cache, no rule" that follow the section take [Sok] to be True. *)
  Lemma filters_step dn (m : mdd) l m1 l1 m2 l2 :
    prefilter st_eqb inp m l = (m1, l1) -> filter_with_dominance inp m1 l1 = (m2, l2) ->
    m_crash m2 = m_crash m -> Pinv dn m -> Pinv dn m2 /\ keep m m2 /\ ceq inp m m2 /\ incl l2 l.
  Proof.
    intros H1 H2 Hc HP.
    pose proof (prefilter_ceq st_eqb inp Hclean m l) as [C1 I1]. rewrite H1 in C1, I1.
    pose proof (filter_with_dominance_ceq inp m1 l1) as [C2 I2]. rewrite H2 in C2, I2. cbn [fst snd] in *.
    assert (C : ceq inp m m2) by (eapply ceq_trans; eassumption).
    split; [eapply Pinv_ceq; eassumption|]. split; [apply keep_ceq; assumption|]. split; [exact C|].
    eapply incl_tran; eassumption.
  Qed.

  Section Traversal.
    Variable Sok : mdd -> Prop.
    Hypothesis Sok_stores : forall m m' : mdd, m_cache m' = m_cache m -> m_dom m' = m_dom m -> Sok m -> Sok m'.
    Hypothesis filters_ok : forall dn (m : mdd) l m1 l1 m2 l2,
      prefilter st_eqb inp m l = (m1, l1) -> filter_with_dominance inp m1 l1 = (m2, l2) ->
      Pinv dn m -> dn <= N -> in_open m l -> Sok m -> m_crash m2 = m_crash m /\ Sok m2.

    Lemma move_some_step_gen (m m' : mdd) l :
      move_to_next_layer_clean st_eqb inp m = (m', Some l) -> Linv m -> Sok m -> Minv m m' l /\ Sok m'.
    Proof.
      rewrite move_clean_unfold. intros H [L1 L2 L3 L4 L5 L6 L7] HS.
      set (d := m_curr_depth m) in *.
      destruct (m_next m) as [|x nx] eqn:Hn; [discriminate|]. rewrite <- Hn in H.
      set (ma := with_next m []) in *.
      assert (HPa : Pinv d ma) by (apply Pinv_with_next; [exact L1|intros id []]).
      assert (Hka : keep m ma) by apply keep_with_next.
      assert (Hoa : in_open ma (m_next m)) by (intros id Hid; apply (P_next _ _ L1); exact Hid).
      destruct (prefilter st_eqb inp ma (m_next m)) as [m1 l1] eqn:H1.
      destruct (filter_with_dominance inp m1 l1) as [m2 l2] eqn:H2.
      destruct (squash_if_needed st_eqb inp m2 l2) as [m3 l3] eqn:H3.
      inversion H; subst m' l; clear H.
      destruct (filters_ok d ma _ m1 l1 m2 l2 H1 H2 HPa L4 Hoa) as [Hcr HS2];
        [apply (Sok_stores m); [reflexivity|reflexivity|exact HS]|].
      destruct (filters_step d ma _ m1 l1 m2 l2 H1 H2 Hcr HPa) as (B1 & B2 & B3 & B4).
      assert (Hk2 : keep m m2) by (eapply keep_trans; eassumption).
      assert (Ho2 : in_open m2 l2) by (apply (in_open_keep ma m2 (m_next m) l2); assumption).
      destruct (squash_step d m2 l2 m3 l3 H3 B1) as (C1 & C2 & C3 & C4 & C5); auto.
      { rewrite (k_layers _ _ Hk2). exact L3. }
      assert (Hk3 : keep m m3) by (eapply keep_trans; eauto).
      destruct B3 as ((_ & _ & Hlen2 & _) & Hn2 & _ & _ & Hlel2 & _).
      change (length (m_nodes m2) = length (m_nodes m)) in Hlen2. change (m_lel m2 = m_lel m) in Hlel2.
      assert (Hn3 : m_next m3 = []) by (rewrite (squash_next st_eqb inp _ _ _ _ H3); exact Hn2).
      set (from := m_layer_end m3). set (to := length (m_nodes m3)).
      set (m4 := push_layer m3 (seq from (to - from)) to).
      assert (Hgn4 : forall k, gn m4 k = gn m3 k) by reflexivity.
      split.
      2:{ assert (Hq : forall X (g : mdd -> X),
                    inert inp g -> (forall a k x, g (with_lel_exact a k x) = g a) -> g m3 = g m2).
          { intros X g G1 G2. pose proof (inert_squash_if_needed st_eqb inp g G1 G2 m2 l2 Hwidth) as E.
            rewrite H3 in E. exact E. }
          apply (Sok_stores m2); [apply (Hq _ _ (inert_cache inp))|apply (Hq _ _ (inert_dom inp))|exact HS2]; reflexivity. }
      split.
      - apply Pinv_push_layer; auto.
      - change (m_crash m4) with (m_crash m3). rewrite (k_crash _ _ Hk3). exact L2.
      - change (m_curr_depth m4) with (m_curr_depth m3). apply (k_cd _ _ Hk3).
      - exact L3.
      - eexists. unfold m4. msimpl. rewrite (k_layers _ _ Hk3). reflexivity.
      - apply layers_ok_push.
        + eapply layers_ok_keep; eauto.
        + intros id Hid. apply in_seq in Hid. split; [unfold to in Hid; lia|].
          rewrite (P_open _ _ C1 id) by (unfold from, to in Hid; lia).
          rewrite (k_layers _ _ Hk3). exact L3.
      - unfold m4. msimpl. apply Forall_app. split; [rewrite (k_layers _ _ Hk3); exact L6|].
        constructor; [apply seq_NoDup|constructor].
      - intros k Hk Hr. change (m_lel m4) with (m_lel m3) in Hk.
        destruct (C5 k Hk) as [Hold|Hnew]; [|auto]. rewrite Hlel2 in Hold. apply L7; auto.
      - exact Hn3.
      - intros id Hid. destruct (C4 id Hid) as [c1 c2]. rewrite Hgn4. split; [exact c2|].
        apply (P_open _ _ C1); auto.
      - change (length (m_nodes m4)) with (length (m_nodes m3)). lia.
    Qed.

    (* one iteration that goes on: the next diagram of the loop *)
    Lemma loop_iteration var (m m3 : mdd) l :
      let m2 := with_polls (add_log m (EvNextVar (m_curr_depth m) (map (fun id => n_state (gn m id)) (m_next m)) (Some var)))
                           (S (m_polls m)) in
      let m4 := fold_left (expand_node st_eqb inp var) l m3 in
      Linv m -> Sok m -> m_curr_depth m < N ->
      move_to_next_layer_clean st_eqb inp m2 = (m3, Some l) ->
      Minv m2 m3 l /\ Linv (with_depth m4 (S (m_curr_depth m4))) /\ Sok (with_depth m4 (S (m_curr_depth m4))) /\
      m_curr_depth m4 = m_curr_depth m.
    Proof.
      intros m2 m4 HL HS Hlt Hmv.
      assert (HL2 : Linv m2) by (apply (Linv_frame m); auto; reflexivity).
      destruct (move_some_step_gen m2 m3 l Hmv HL2) as [HM HS3]; [apply (Sok_stores m); auto|].
      destruct (expand_finish var m2 m3 l HM Hlt) as [HL4 Hcd4].
      split; [exact HM|]. split; [exact HL4|]. split; [|exact Hcd4].
      apply (Sok_stores m3); [| |exact HS3]; cbn [m_cache m_dom with_depth];
        [apply (inert_fold_expand st_eqb inp _ (inert_cache inp))|apply (inert_fold_expand st_eqb inp _ (inert_dom inp))].
    Qed.

    (* an iteration that goes on raises m_curr_depth by one and next_variable answers None from depth N on, so
       N - m_curr_depth m + 1 iterations are enough: compile gives N + 2 *)
    Lemma layer_loop_post_gen : forall fuel (m : mdd),
      Linv m -> Sok m -> N - m_curr_depth m < fuel ->
      exists m', layer_loop st_eqb inp fuel m = (m', LoopDone) /\ Post m' /\ Sok m'.
    Proof.
      induction fuel as [|fuel IH]; intros m HL HS Hf; [lia|].
      rewrite layer_loop_step. cbv zeta.
      set (states := map (fun id => n_state (gn m id)) (m_next m)).
      destruct (Nat.lt_ge_cases (m_curr_depth m) N) as [Hlt|Hge].
      - destruct (nv_some (m_curr_depth m) states Hlt) as [var Hv]. rewrite Hv.
        set (m1 := add_log m (EvNextVar (m_curr_depth m) states (Some var))).
        set (m2 := with_polls m1 (S (m_polls m1))).
        destruct (move_to_next_layer_clean st_eqb inp m2) as [m3 [l|]] eqn:Hmv.
        + destruct (loop_iteration var m m3 l HL HS Hlt Hmv) as (_ & HL4 & HS4 & Hcd4).
          apply IH; [exact HL4|exact HS4|]. msimpl. rewrite Hcd4. lia.
        + exists m3. split; [reflexivity|].
          destruct (move_none_inv m2 m3 Hmv) as [E1 E2]. split.
          * right. exists m2. split; [apply (Linv_frame m); auto; reflexivity|auto].
          * rewrite E2. apply (Sok_stores m); auto.
      - rewrite (nv_none _ states Hge).
        eexists. split; [reflexivity|]. split; [|apply (Sok_stores m); auto]. left. split; [|exact Hge].
        apply (Linv_frame m); auto; reflexivity.
    Qed.

    Lemma layer_loop_count_gen : forall fuel (m m' : mdd) e,
      ci_type inp = Relaxed -> Linv m -> Sok m -> cnt_ok m ->
      layer_loop st_eqb inp fuel m = (m', e) -> length (m_nodes m') <= Mbound.
    Proof.
      induction fuel as [|fuel IH]; intros m m' e Ht HL HS HC H.
      - simpl in H. inversion H; subst. apply cnt_ok_bound; [exact HC|].
        pose proof (L_cd _ HL). pose proof (L_cdN _ HL). lia.
      - assert (Hhere : length (m_nodes m) <= Mbound).
        { apply cnt_ok_bound; [exact HC|]. pose proof (L_cd _ HL). pose proof (L_cdN _ HL). lia. }
        revert H. rewrite layer_loop_step. cbv zeta.
        set (states := map (fun id => n_state (gn m id)) (m_next m)).
        destruct (next_variable (ci_problem inp) (m_curr_depth m) states) as [var|] eqn:Hv.
        2:{ intros H; inversion H; subst. exact Hhere. }
        assert (Hlt : m_curr_depth m < N).
        { destruct (Nat.lt_ge_cases (m_curr_depth m) N) as [G|G]; [exact G|].
          rewrite (nv_none _ states G) in Hv. discriminate. }
        set (m1 := add_log m (EvNextVar (m_curr_depth m) states (Some var))).
        set (m2 := with_polls m1 (S (m_polls m1))).
        destruct (move_to_next_layer_clean st_eqb inp m2) as [m3 [l|]] eqn:Hmv.
        2:{ intros H; inversion H; subst. destruct (move_none_inv m2 m' Hmv) as [_ ->]. exact Hhere. }
        destruct (loop_iteration var m m3 l HL HS Hlt Hmv) as (HM & HL4 & HS4 & Hcd4).
        destruct (expand_layer_counts var l m3) as [X1 X2].
        set (m4 := fold_left (expand_node st_eqb inp var) l m3) in *.
        intros H. apply (IH _ _ _ Ht HL4 HS4) in H; [exact H|].
        (* the counters after one more layer *)
        pose proof (M_len _ _ _ HM) as Hlen3. msimpl_in Hlen3.
        rewrite (M_next _ _ _ HM) in X2. simpl in X2.
        destruct (M_layers _ _ _ HM) as [ids Hly]. msimpl_in Hly.
        pose proof (expand_layer_step var (m_curr_depth m2) l m3 (M_P _ _ _ HM) (M_l _ _ _ HM)) as [_ Hk4].
        assert (Hk5 : length (m_layers (with_depth m4 (S (m_curr_depth m4)))) = S (length (m_layers m))).
        { msimpl. fold m4 in Hk4. rewrite (k_layers _ _ Hk4), Hly, app_length. simpl. lia. }
        apply (cnt_ok_step m _ (length l)); [exact HC|exact Hk5|msimpl; lia|msimpl; lia| |].
        + intros G. apply (move_first_layers_len m2 m3 l Hmv Ht G).
        + intros G. apply (move_clean_width_relaxed st_eqb inp m2 m3 l Hmv Ht); [exact G|exact Hwidth].
    Qed.

    Lemma compile_unfold_gen tb tb2 c ds polls :
      Sok (initialize inp c ds polls) ->
      exists ml, layer_loop st_eqb inp (S (S N)) (initialize inp c ds polls) = (ml, LoopDone) /\
                 Post ml /\ Sinv inp ml /\ Xs inp ml /\
                 compile st_eqb inp tb tb2 c ds polls = (finalize st_eqb inp tb tb2 ml, Compiled).
    Proof.
      intros HS.
      destruct (layer_loop_post_gen (S (S N)) (initialize inp c ds polls) (Linv_initialize c ds polls) HS)
        as (ml & Hl & HP & _).
      { simpl. lia. }
      destruct (layer_loop_Sinv st_eqb st_eqb_spec inp Hclean (S (S N)) c ds polls) as [HS' HX].
      rewrite Hl in HS', HX. cbn [fst] in HS', HX.
      exists ml. split; [exact Hl|]. split; [exact HP|]. split; [exact HS'|]. split; [exact HX|].
      unfold compile. cbv zeta. rewrite Hl. reflexivity.
    Qed.

    (* every compilation completes, and the finished diagram has the properties of [finalize_facts] *)
    Lemma compile_final_gen tb tb2 c ds polls (m : mdd) out :
      Sok (initialize inp c ds polls) ->
      compile st_eqb inp tb tb2 c ds polls = (m, out) ->
      out = Compiled /\ m_crash m = false /\
      (forall id, id < length (m_nodes m) -> d0 <= n_depth (gn m id) <= N) /\
      layers_ok m /\
      length (m_layers m) <= S N /\
      (forall id, In id (m_next m) -> n_depth (gn m id) = N) /\
      (forall b, m_best m = Some b -> In b (m_next m)) /\
      (forall b, m_best_exact m = Some b -> In b (m_next m)) /\
      NoDup (m_cutset m) /\
      (ci_type inp = Relaxed -> forall id, In id (m_cutset m) -> id < length (m_nodes m) /\ d0 < n_depth (gn m id)).
    Proof.
      intros HS H. destruct (compile_unfold_gen tb tb2 c ds polls HS) as (ml & _ & HP & HS' & HX & Hc).
      rewrite Hc in H. apply pair_eq_inv in H. destruct H as [<- <-].
      destruct (finalize_facts tb tb2 ml HP HS' HX) as (F1 & _ & F). split; [reflexivity|]. split; [exact F1|exact F].
    Qed.

    Lemma compile_node_count_gen tb tb2 c ds polls (m : mdd) out :
      Sok (initialize inp c ds polls) -> ci_type inp = Relaxed ->
      compile st_eqb inp tb tb2 c ds polls = (m, out) -> length (m_nodes m) <= Mbound.
    Proof.
      intros HS Ht H. destruct (compile_unfold_gen tb tb2 c ds polls HS) as (ml & Hl & HP & HS' & HX & Hc).
      rewrite Hc in H. inversion H; subst.
      destruct (finalize_facts tb tb2 ml HP HS' HX) as (_ & -> & _).
      eapply layer_loop_count_gen; [exact Ht|apply Linv_initialize|exact HS| |exact Hl].
      split; [|split]; simpl; intros; try discriminate; lia.
    Qed.

    (* the cut-set has no duplicates and lies among the nodes *)
    Lemma cutset_size_bound_gen tb tb2 c ds polls (m : mdd) out :
      Sok (initialize inp c ds polls) -> ci_type inp = Relaxed ->
      compile st_eqb inp tb tb2 c ds polls = (m, out) -> length (drain_cutset inp m) <= Mbound.
    Proof.
      intros HS Ht H.
      pose proof (compile_node_count_gen tb tb2 c ds polls m out HS Ht H) as Hn.
      destruct (compile_final_gen tb tb2 c ds polls m out HS H) as (_ & _ & _ & _ & _ & _ & _ & _ & Fnd & Fc).
      assert (H1 : length (drain_cutset inp m) <= length (m_cutset m)).
      { unfold drain_cutset. destruct (dd_best_value inp m); [|simpl; lia].
        apply flat_map_length_le. intros id. destruct (f_marked _); simpl; lia. }
      assert (H2 : length (m_cutset m) <= length (m_nodes m)).
      { apply NoDup_bounded_length; [exact Fnd|]. intros id Hid. apply (Fc Ht id Hid). }
      lia.
    Qed.
  End Traversal.

  (* no cache, no rule: the filters only log *)
  Lemma plain_filters (m : mdd) l m1 l1 m2 l2 :
    prefilter st_eqb inp m l = (m1, l1) -> filter_with_dominance inp m1 l1 = (m2, l2) -> m_crash m2 = m_crash m.
  Proof.
    intros H1 H2.
    pose proof (dom_retain_crash (sort_by (dom_order inp m1) l1) m1) as C2.
    change (dom_retain inp m1 _) with (filter_with_dominance inp m1 l1) in C2. rewrite H2 in C2.
    cbn [fst] in C2. rewrite C2.
    unfold prefilter in H1. destruct (Nat.ltb _ _); [|inversion H1; reflexivity].
    pose proof (filter_with_cache_crash l m) as C1. rewrite H1 in C1. exact C1.
  Qed.

  Definition plain (_ : mdd) : Prop := True.
  Lemma plain_stores (m m' : mdd) : m_cache m' = m_cache m -> m_dom m' = m_dom m -> plain m -> plain m'.
  Proof. intros _ _ H. exact H. Qed.

  Lemma plain_ok dn (m : mdd) l m1 l1 m2 l2 :
    prefilter st_eqb inp m l = (m1, l1) -> filter_with_dominance inp m1 l1 = (m2, l2) ->
    Pinv dn m -> dn <= N -> in_open m l -> plain m -> m_crash m2 = m_crash m /\ plain m2.
  Proof. intros H1 H2 _ _ _ _. split; [exact (plain_filters m l m1 l1 m2 l2 H1 H2)|exact I]. Qed.

  Lemma move_some_step (m m' : mdd) l :
    move_to_next_layer_clean st_eqb inp m = (m', Some l) -> Linv m -> Minv m m' l.
  Proof. intros H HL. apply (move_some_step_gen plain plain_stores plain_ok m m' l H HL I). Qed.

  Lemma compile_final tb tb2 c ds polls (m : mdd) out :
    compile st_eqb inp tb tb2 c ds polls = (m, out) ->
    out = Compiled /\ m_crash m = false /\
    (forall id, id < length (m_nodes m) -> d0 <= n_depth (gn m id) <= N) /\
    layers_ok m /\
    length (m_layers m) <= S N /\
    (forall id, In id (m_next m) -> n_depth (gn m id) = N) /\
    (forall b, m_best m = Some b -> In b (m_next m)) /\
    (forall b, m_best_exact m = Some b -> In b (m_next m)) /\
    NoDup (m_cutset m) /\
    (ci_type inp = Relaxed -> forall id, In id (m_cutset m) -> id < length (m_nodes m) /\ d0 < n_depth (gn m id)).
  Proof. exact (compile_final_gen plain plain_stores plain_ok tb tb2 c ds polls m out I). Qed.

  (* P0 (K0) *)
  Theorem compile_completes tb tb2 c ds polls (m : mdd) out :
    compile st_eqb inp tb tb2 c ds polls = (m, out) -> out = Compiled /\ m_crash m = false.
  Proof. intros H. destruct (compile_final _ _ _ _ _ _ _ H) as (F0 & F1 & _). split; assumption. Qed.

  (* P1 *)
  Theorem compile_node_depth tb tb2 c ds polls (m : mdd) out id :
    compile st_eqb inp tb tb2 c ds polls = (m, out) ->
    id < length (m_nodes m) -> d0 <= n_depth (gn m id) <= N.
  Proof. intros H. apply (compile_final _ _ _ _ _ _ _ H). Qed.

  Theorem compile_layer_depth tb tb2 c ds polls (m : mdd) out i ids id :
    compile st_eqb inp tb tb2 c ds polls = (m, out) ->
    nth_error (m_layers m) i = Some ids -> In id ids ->
    id < length (m_nodes m) /\ n_depth (gn m id) = d0 + i.
  Proof. intros H. apply (compile_final _ _ _ _ _ _ _ H). Qed.

  Theorem compile_next_depth tb tb2 c ds polls (m : mdd) out id :
    compile st_eqb inp tb tb2 c ds polls = (m, out) -> In id (m_next m) -> n_depth (gn m id) = N.
  Proof. intros H. apply (compile_final _ _ _ _ _ _ _ H). Qed.

  Theorem compile_best_depth tb tb2 c ds polls (m : mdd) out b :
    compile st_eqb inp tb tb2 c ds polls = (m, out) ->
    m_best m = Some b \/ m_best_exact m = Some b -> n_depth (gn m b) = N.
  Proof.
    intros H Hb. destruct (compile_final _ _ _ _ _ _ _ H) as (_ & _ & _ & _ & _ & F & G1 & G2 & _).
    apply F. destruct Hb as [Hb|Hb]; [apply G1|apply G2]; exact Hb.
  Qed.

  Theorem compile_layers_count tb tb2 c ds polls (m : mdd) out :
    compile st_eqb inp tb tb2 c ds polls = (m, out) -> length (m_layers m) <= S N.
  Proof. intros H. apply (compile_final _ _ _ _ _ _ _ H). Qed.

  (* P2 (K3_depth); K3's hypothesis [dd_is_exact m = false] is not needed *)
  Theorem cutset_depth tb tb2 c ds polls (m : mdd) out sp :
    ci_type inp = Relaxed ->
    compile st_eqb inp tb tb2 c ds polls = (m, out) ->
    In sp (drain_cutset inp m) -> d0 < sp_depth sp <= N.
  Proof.
    intros Hr H Hin.
    destruct (compile_final _ _ _ _ _ _ _ H) as (_ & _ & Fd & _ & _ & _ & _ & _ & _ & Fc).
    destruct (drain_cutset_In _ sp Hin) as (id & Hid & ->).
    destruct (Fc Hr id Hid) as [a b]. specialize (Fd id a). lia.
  Qed.

  Theorem cutset_nodup tb tb2 c ds polls (m : mdd) out :
    compile st_eqb inp tb tb2 c ds polls = (m, out) -> NoDup (m_cutset m).
  Proof.
    intros H. apply (compile_final _ _ _ _ _ _ _ H).
  Qed.

  Lemma compile_node_count tb tb2 c ds polls (m : mdd) out :
    ci_type inp = Relaxed ->
    compile st_eqb inp tb tb2 c ds polls = (m, out) -> length (m_nodes m) <= Mbound.
  Proof. exact (compile_node_count_gen plain plain_stores plain_ok tb tb2 c ds polls m out I). Qed.

  (* P3 (K5) *)
  Theorem cutset_size_bound tb tb2 c ds polls (m : mdd) out :
    ci_type inp = Relaxed ->
    compile st_eqb inp tb tb2 c ds polls = (m, out) -> length (drain_cutset inp m) <= Mbound.
  Proof. exact (cutset_size_bound_gen plain plain_stores plain_ok tb tb2 c ds polls m out I). Qed.

  (* K1, K3_good *)
  Theorem cutset_good tb tb2 c ds polls (m : mdd) out sp :
    good pb root ->
    compile st_eqb inp tb tb2 c ds polls = (m, out) ->
    In sp (drain_cutset inp m) -> good pb sp.
  Proof.
    intros (Hr0 & ds0 & G1 & G2 & G3) H Hin.
    destruct (compile_completes tb tb2 c ds polls m out H) as [-> _].
    destruct (cutset_nodes_exact st_eqb st_eqb_spec inp Hclean tb tb2 c ds polls m sp H Hin)
      as (id & _ & Hlt & _ & _ & Hpath & _ & _ & Hdep & Hrep & Hlen).
    split.
    - rewrite Hdep. apply (compile_node_depth tb tb2 c ds polls m Compiled id H Hlt).
    - exists (ds0 ++ rev (chain inp m id)). split; [|split].
      + rewrite app_length, rev_length, G1, Hlen. reflexivity.
      + rewrite Hpath. apply Permutation_app; [exact G2|]. apply Permutation_sym, Permutation_rev.
      + rewrite replay_sat_app, G3. exact Hrep.
  Qed.

  Theorem best_exact_feasible tb tb2 c ds polls (m : mdd) out v :
    good pb root ->
    compile st_eqb inp tb tb2 c ds polls = (m, out) ->
    dd_best_exact_value inp m = Some v ->
    exists sol, dd_best_exact_solution inp m = Some sol /\ feasible pb sol v.
  Proof.
    intros (Hr0 & ds0 & G1 & G2 & G3) H Hv.
    destruct (compile_completes tb tb2 c ds polls m out H) as [-> _].
    unfold dd_best_exact_value in Hv. unfold dd_best_exact_solution.
    destruct (m_best_exact m) as [b|] eqn:Eb; [|discriminate]. simpl in Hv. inversion Hv; subst v. simpl.
    destruct (best_exact_solution_genuine st_eqb st_eqb_spec inp Hclean tb tb2 c ds polls m b H Eb)
      as (Hlt & _ & Hrep & Hpath & Hlen).
    pose proof (compile_best_depth tb tb2 c ds polls m Compiled b H (or_intror Eb)) as HdN.
    eexists. split; [reflexivity|].
    exists (ds0 ++ rev (chain inp m b)), (n_state (gn m b)). split; [|split].
    - rewrite app_length, rev_length, G1, Hlen, HdN. lia.
    - rewrite Hpath. apply Permutation_app; [exact G2|]. apply Permutation_sym, Permutation_rev.
    - rewrite replay_sat_app, G3. exact Hrep.
  Qed.
End Progress.

(* the contracts of SolverProofs.v:
   [mk_input cfg ct n lb] meets the section hypotheses of [Progress] as soon as the configuration is
   [config_ok] (no cache, no dominance rule, no cutoff), uses a clean diagram flavour, a width >= 1,
   and the problem has a static variable order:
     ci_use_cache (mk_input ..) = sc_use_cache cfg,  ci_domrule = sc_domrule cfg,  ci_cutoff = sc_cutoff cfg,
     ci_flavour = sc_flavour cfg,  ci_width = sc_width cfg,  ci_problem = sc_problem cfg,  ci_root = n
   all by computation.  Each K*_holds below is stated exactly like the hypothesis K* of SolverProofs.v,
   with good := good (sc_problem cfg), feasible := feasible (sc_problem cfg), M := Kbound. *)
Section Assembly.
  Context {St : Type}.
  Variable st_eqb : St -> St -> bool.
  Hypothesis st_eqb_spec : forall a b, st_eqb a b = true <-> a = b.
  Variable cfg : @sconfig St.
  Notation P := (sc_problem cfg).
  Notation N := (nb_vars (sc_problem cfg)).

  Hypothesis cfg_ok : config_ok cfg.
  Hypothesis cfg_clean : sc_flavour cfg = CleanLEL \/ sc_flavour cfg = CleanFC.
  Hypothesis cfg_width : 1 <= sc_width cfg.
  Hypothesis cfg_nv_some : forall k l, k < N -> exists x, next_variable P k l = Some x.
  Hypothesis cfg_nv_none : forall k l, N <= k -> next_variable P k l = None.

  Lemma mk_input_fields ct (n : @subproblem St) lb :
    ci_flavour (mk_input cfg ct n lb) = sc_flavour cfg /\ ci_type (mk_input cfg ct n lb) = ct /\
    ci_problem (mk_input cfg ct n lb) = sc_problem cfg /\ ci_width (mk_input cfg ct n lb) = sc_width cfg /\
    ci_root (mk_input cfg ct n lb) = n /\ ci_best_lb (mk_input cfg ct n lb) = lb /\
    ci_use_cache (mk_input cfg ct n lb) = sc_use_cache cfg /\ ci_domrule (mk_input cfg ct n lb) = sc_domrule cfg /\
    ci_cutoff (mk_input cfg ct n lb) = sc_cutoff cfg.
  Proof. repeat split. Qed.

  (* the hypothesis good_root of SolverProofs.v *)
  Lemma good_root_holds : good P (root_node cfg).
  Proof. apply good_root_node_gen; reflexivity. Qed.

  Theorem K0_holds : forall ct n lb c ds polls m out,
    dd_ct ct -> good P n -> sp_depth n <= N ->
    compile st_eqb (mk_input cfg ct n lb) 0 0 c ds polls = (m, out) ->
    out = Compiled /\ m_crash m = false.
  Proof.
    intros ct n lb c ds polls m out _ _ Hd H. destruct cfg_ok as (O1 & O2 & O3 & _).
    exact (compile_completes st_eqb st_eqb_spec (mk_input cfg ct n lb) cfg_clean O1 O2 O3 cfg_width
             cfg_nv_some cfg_nv_none Hd 0 0 c ds polls m out H).
  Qed.

  Theorem K1_holds : forall ct n lb c ds polls m out,
    dd_ct ct -> good P n -> sp_depth n <= N ->
    compile st_eqb (mk_input cfg ct n lb) 0 0 c ds polls = (m, out) ->
    forall v, dd_best_exact_value (mk_input cfg ct n lb) m = Some v ->
    exists sol, dd_best_exact_solution (mk_input cfg ct n lb) m = Some sol /\ feasible P sol v.
  Proof.
    intros ct n lb c ds polls m out _ Hg Hd H v Hv. destruct cfg_ok as (O1 & O2 & O3 & _).
    exact (best_exact_feasible st_eqb st_eqb_spec (mk_input cfg ct n lb) cfg_clean O1 O2 O3 cfg_width
             cfg_nv_some cfg_nv_none Hd 0 0 c ds polls m out v Hg H Hv).
  Qed.

  Theorem K3_good_holds : forall n lb c ds polls m out,
    good P n -> sp_depth n <= N ->
    compile st_eqb (mk_input cfg Relaxed n lb) 0 0 c ds polls = (m, out) ->
    dd_is_exact m = false ->
    forall x, In x (drain_cutset (mk_input cfg Relaxed n lb) m) -> good P x.
  Proof.
    intros n lb c ds polls m out Hg Hd H _ x Hx. destruct cfg_ok as (O1 & O2 & O3 & _).
    exact (cutset_good st_eqb st_eqb_spec (mk_input cfg Relaxed n lb) cfg_clean O1 O2 O3 cfg_width
             cfg_nv_some cfg_nv_none Hd 0 0 c ds polls m out x Hg H Hx).
  Qed.

  Theorem K3_depth_holds : forall n lb c ds polls m out,
    good P n -> sp_depth n <= N ->
    compile st_eqb (mk_input cfg Relaxed n lb) 0 0 c ds polls = (m, out) ->
    dd_is_exact m = false ->
    forall x, In x (drain_cutset (mk_input cfg Relaxed n lb) m) -> sp_depth n < sp_depth x <= N.
  Proof.
    intros n lb c ds polls m out _ Hd H _ x Hx. destruct cfg_ok as (O1 & O2 & O3 & _).
    exact (cutset_depth st_eqb st_eqb_spec (mk_input cfg Relaxed n lb) cfg_clean O1 O2 O3 cfg_width
             cfg_nv_some cfg_nv_none Hd 0 0 c ds polls m out x eq_refl H Hx).
  Qed.

  Variable D : nat.
  Hypothesis cfg_dom_bound : forall x s, length (domain P x s) <= D.

  Definition Kbound : nat := 3 + D + D * D + N * (1 + sc_width cfg * D).

  Theorem K5_holds : forall n lb c ds polls m out,
    good P n -> sp_depth n <= N ->
    compile st_eqb (mk_input cfg Relaxed n lb) 0 0 c ds polls = (m, out) ->
    dd_is_exact m = false ->
    length (drain_cutset (mk_input cfg Relaxed n lb) m) <= Kbound.
  Proof.
    intros n lb c ds polls m out _ Hd H _. destruct cfg_ok as (O1 & O2 & O3 & _).
    exact (cutset_size_bound st_eqb st_eqb_spec (mk_input cfg Relaxed n lb) cfg_clean O1 O2 O3 cfg_width
             cfg_nv_some cfg_nv_none Hd D cfg_dom_bound 0 0 c ds polls m out eq_refl H).
  Qed.
End Assembly.

Print Assumptions compile_completes.
Print Assumptions compile_node_depth.
Print Assumptions compile_layer_depth.
Print Assumptions compile_best_depth.
Print Assumptions cutset_depth.
Print Assumptions cutset_nodup.
Print Assumptions cutset_size_bound.
Print Assumptions cutset_good.
Print Assumptions best_exact_feasible.
Print Assumptions good_set_ub_holds.
Print Assumptions K0_holds.
Print Assumptions K1_holds.
Print Assumptions K3_good_holds.
Print Assumptions K3_depth_holds.
Print Assumptions K5_holds.
