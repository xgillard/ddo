(* MddSim.v — semantic theorems about Mdd.compile for the clean flavours (CleanLEL, CleanFC):
   C06 (a relaxed diagram is a valid upper bound and claims exactness truthfully), C07 (declared-exact /
   exact-mode diagrams give the optimum), C08 (iii) (cut-set upper bounds are valid) and (iv) (the cut-set
   covers what remains).  Everything is Qed; no axiom (see the Print Assumptions at the end).

   Setting (Section Sim): inp with a clean flavour, no cache, no cutoff, width >= 1,
   sp_depth root <= N, static variable order (nv_static / nv_some / nv_none), a well-formed model
   (cov: cov_refl, cov_sim, merge_cov, relax_ge, rub_adm) and ONE arithmetic guard stated on the MODEL
   only: every feasible partial run from the root has a value in [-B, B] with 2B <= IMAX (Hguard; see
   frun_bounded / frun_length for how bounded transition costs discharge it).  Nothing is assumed about the
   values stored in the diagram: relaxed values may saturate, the proofs only use clampZ_mono.
   The simulation argument (Section Tracked) is parametric in what a dominance rule does: [tracking tau Sok keep]
   says that the filter preserves the store invariant Sok and never drops a node that covers a state from which some
   completion exceeds the threshold tau >= lb.  Without a rule (Hnodom) tau = lb and the filter drops nothing
   (no_rule); DomSearch.v instantiates it with a rule.  Hnodom stands among the premises of Section Sim, but no
   proof of Section Tracked uses it, so the closed *_tracked theorems do not take it.
   Other files apply the lemmas of Section Sim with all section premises written out; where a proof would need
   fewer premises than such a call passes, [Proof using] keeps the list the callers rely on.

   Main definitions
     frun pb k s v ds      feasible run: decision j is on the variable of depth k+j and in the domain
     vstar                 oadd (sp_value root) (H pb (sp_depth root) (sp_state root))  (= opt_enum_from, vstar_opt_enum)
     dpath m i c sc ds t s'  a path of arcs of m from node c (layer i) to node t following the true run ds
                           from state sc: each arc carries the decision, costs at least the true cost, and
                           its target covers the true state
     Einv / Ninv           arc-level and node-level invariants of a diagram under compilation
     enabled               a Restricted compilation has truncated no layer yet; runs are tracked only while this holds
     moved                 what one _move_to_next_layer establishes (move_sim_keep)
     Linv_at / Post        invariant of the layer loop and what it yields at LoopDone: tracking of every
                           completion exceeding tau from the root (Tinv) and from every expanded node (UTinv)
   Main theorems
     S1_tracked, S2_tracked, S2_mode_tracked, S3c_tracked, S3_tracked, S4_tracked      for any [tracking]
     S1_relaxed_upper_bound, S2_exact_truthful, S2_exact_mode, S3_cutset_ub, S4_cutset_covers   without a rule
     K2_holds, K3_ub_holds, K4_holds (+ K4_ub_holds)   the contracts of SolverProofs.v *)
Require Import DDO.Base DDO.Fringe DDO.DP DDO.Cache DDO.Dom DDO.Mdd DDO.Viz DDO.MddStruct DDO.MddExact.
Local Open Scope Z_scope.

Lemma fold_left_hit {A B} (Inv P : A -> Prop) (f : A -> B -> A) (l : list B) (a : A) (x : B) :
  In x l -> Inv a ->
  (forall a y, In y l -> Inv a -> Inv (f a y)) ->
  (forall a, Inv a -> P (f a x)) ->
  (forall a y, In y l -> Inv a -> P a -> P (f a y)) ->
  P (fold_left f l a).
Proof.
  intros Hin Ha Hinv Hx Hp.
  assert (G : forall l0 a0, incl l0 l -> Inv a0 -> (In x l0 \/ P a0) -> P (fold_left f l0 a0)).
  { induction l0 as [|y l0 IH]; intros a0 Hincl I0 Hor; simpl.
    - destruct Hor as [[]|Hor]; exact Hor.
    - assert (Hy : In y l) by (apply Hincl; left; reflexivity).
      apply IH.
      + intros z Hz. apply Hincl. right; exact Hz.
      + apply Hinv; assumption.
      + destruct Hor as [[->|Hor]|Hor].
        * right. apply Hx; assumption.
        * left; exact Hor.
        * right. apply Hp; assumption. }
  apply G; auto. apply incl_refl.
Qed.

Lemma fold_left_inv2 {A B} (Inv : A -> Prop) (f : A -> B -> A) (l : list B) (a : A) :
  Inv a -> (forall a y, Inv a -> Inv (f a y)) -> Inv (fold_left f l a).
Proof. intros Ha H. apply (MddStruct.fold_left_inv Inv); [intros b y _; apply H|exact Ha]. Qed.

Lemma app_snoc_cases {A} (ds : list A) d ds1 ds2 :
  ds ++ [d] = ds1 ++ ds2 ->
  (ds2 = [] /\ ds1 = ds ++ [d]) \/ exists ds2', ds2 = ds2' ++ [d] /\ ds = ds1 ++ ds2'.
Proof.
  intros H. destruct (rev ds2) as [|x r] eqn:E.
  - left. assert (ds2 = []) by (rewrite <- (rev_involutive ds2), E; reflexivity). subst.
    rewrite app_nil_r in H. auto.
  - right. assert (E2 : ds2 = rev r ++ [x]) by (rewrite <- (rev_involutive ds2), E; reflexivity).
    subst ds2. rewrite app_assoc in H. apply app_inj_tail in H. destruct H as [H1 H2]. subst.
    exists (rev r). auto.
Qed.

Lemma clamp_ge z w : in_isize w -> w <= z -> w <= clampZ z.
Proof. intros Hw Hle. rewrite <- (clampZ_id w Hw). apply clampZ_mono; exact Hle. Qed.

Lemma sat_add_ge a b w : in_isize w -> w <= a + b -> w <= sat_add a b.
Proof. apply clamp_ge. Qed.

Section Sem.
  Context {St : Type}.
  Variable pb : problem St.
  Let N := nb_vars pb.
  Hypothesis nv_static : forall k l1 l2, next_variable pb k l1 = next_variable pb k l2.
  Hypothesis nv_some : forall k l, (k < N)%nat -> exists x, next_variable pb k l = Some x.
  Hypothesis nv_none : forall k l, (N <= k)%nat -> next_variable pb k l = None.

  Definition var_ok (k : nat) (d : decision) : bool :=
    match next_variable pb k [] with Some x => Nat.eqb x (d_var d) | None => false end.

  (* a feasible run: each decision is on the variable of its depth and in the domain *)
  Fixpoint frun (k : nat) (s : St) (v : Z) (ds : list decision) : option (St * Z) :=
    match ds with
    | [] => Some (s, v)
    | d :: ds' =>
        if var_ok k d && in_domain pb s d then
          let s' := transition pb s d in frun (S k) s' (v + transition_cost pb s s' d) ds'
        else None
    end.

  Lemma frun_app ds1 : forall k s v ds2,
    frun k s v (ds1 ++ ds2) =
    match frun k s v ds1 with Some (s1, v1) => frun (k + length ds1) s1 v1 ds2 | None => None end.
  Proof.
    induction ds1 as [|d ds1 IH]; intros k s v ds2; simpl.
    - rewrite Nat.add_0_r. reflexivity.
    - destruct (var_ok k d && in_domain pb s d); auto. rewrite IH.
      replace (k + S (length ds1))%nat with (S k + length ds1)%nat by lia. reflexivity.
  Qed.

  Lemma frun_shift ds : forall k s v a s' v',
    frun k s v ds = Some (s', v') -> frun k s (v + a) ds = Some (s', v' + a).
  Proof.
    induction ds as [|d ds IH]; intros k s v a s' v' H; simpl in *.
    - inversion H; subst; reflexivity.
    - destruct (var_ok k d && in_domain pb s d); [|discriminate].
      replace (v + a + transition_cost pb s (transition pb s d) d)
        with (v + transition_cost pb s (transition pb s d) d + a) by lia.
      apply IH; exact H.
  Qed.

  Lemma frun_replay ds : forall k s v r, frun k s v ds = Some r -> replay pb ds s v = Some r.
  Proof.
    induction ds as [|d ds IH]; intros k s v r H; simpl in *; auto.
    destruct (var_ok k d); simpl in H; [|discriminate].
    destruct (in_domain pb s d); [|discriminate]. unfold step. eapply IH; eauto.
  Qed.

  Lemma in_domain_In s d : in_domain pb s d = true -> In (d_val d) (domain pb (d_var d) s).
  Proof.
    unfold in_domain. intros H. apply existsb_exists in H. destruct H as (x & Hx & He).
    apply Z.eqb_eq in He. subst. exact Hx.
  Qed.

  Lemma In_in_domain s d : In (d_val d) (domain pb (d_var d) s) -> in_domain pb s d = true.
  Proof. intros H. unfold in_domain. apply existsb_exists. exists (d_val d). split; [exact H|apply Z.eqb_refl]. Qed.

  Lemma var_ok_spec k d l : var_ok k d = true <-> next_variable pb k l = Some (d_var d).
  Proof.
    unfold var_ok. rewrite (nv_static k l []). destruct (next_variable pb k []) as [x|].
    - rewrite Nat.eqb_eq. split; [intros ->; reflexivity|intros H; inversion H; reflexivity].
    - split; discriminate.
  Qed.

  Lemma fold_omax_ge (f : Z -> option Z) (l : list Z) x y :
    In x l -> f x = Some y ->
    exists h, fold_right (fun val acc => omax (f val) acc) None l = Some h /\ y <= h.
  Proof.
    induction l as [|z l IH]; intros Hin Hf; [destruct Hin|]. simpl.
    destruct Hin as [->|Hin].
    - rewrite Hf. destruct (fold_right _ None l) as [m|]; simpl.
      + exists (Z.max y m). split; [reflexivity|lia].
      + exists y. split; [reflexivity|lia].
    - destruct (IH Hin Hf) as (h & Hh & Hle). rewrite Hh.
      destruct (f z) as [c|]; simpl.
      + exists (Z.max c h). split; [reflexivity|lia].
      + exists h. auto.
  Qed.

  Lemma fold_omax_attained (f : Z -> option Z) (l : list Z) h :
    fold_right (fun val acc => omax (f val) acc) None l = Some h ->
    exists x, In x l /\ f x = Some h.
  Proof.
    revert h. induction l as [|z l IH]; intros h H; simpl in H; [discriminate|].
    destruct (f z) as [c|] eqn:Ef; destruct (fold_right _ None l) as [m|] eqn:Em; simpl in H; inversion H; subst.
    - destruct (Z.max_spec c m) as [[_ E]|[_ E]]; rewrite E.
      + destruct (IH m eq_refl) as (x & Hx & Hfx). exists x. split; [right; exact Hx|exact Hfx].
      + exists z. split; [left; reflexivity|exact Ef].
    - exists z. split; [left; reflexivity|exact Ef].
    - destruct (IH h eq_refl) as (x & Hx & Hfx). exists x. split; [right; exact Hx|exact Hfx].
  Qed.

  Lemma H_end k s : (N <= k)%nat -> H pb k s = Some 0.
  Proof.
    intros Hk. unfold H. fold N. destruct (S N - k)%nat eqn:E; [reflexivity|].
    simpl. rewrite nv_none by exact Hk. reflexivity.
  Qed.

  Lemma H_step k s x : (k < N)%nat -> next_variable pb k [s] = Some x ->
    H pb k s = fold_right (fun val acc =>
                 let d := {| d_var := x; d_val := val |} in
                 let s' := transition pb s d in
                 omax (oadd (transition_cost pb s s' d) (H pb (S k) s')) acc) None (domain pb x s).
  Proof.
    intros Hk Hx. unfold H. fold N. replace (S N - k)%nat with (S (S N - S k))%nat by lia.
    cbn [hstar]. rewrite Hx. reflexivity.
  Qed.

  (* every full feasible run is dominated by H *)
  Lemma frun_le_H ds : forall k s v s' v',
    (k + length ds = N)%nat -> frun k s v ds = Some (s', v') ->
    exists h, H pb k s = Some h /\ v' <= v + h.
  Proof.
    induction ds as [|d ds IH]; intros k s v s' v' Hlen Hr; simpl in *.
    - inversion Hr; subst. exists 0. split; [apply H_end; lia|lia].
    - destruct (var_ok k d) eqn:Ev; simpl in Hr; [|discriminate].
      destruct (in_domain pb s d) eqn:Ed; [|discriminate].
      apply (var_ok_spec k d [s]) in Ev. apply in_domain_In in Ed.
      destruct (IH (S k) _ _ s' v' ltac:(lia) Hr) as (h1 & Hh1 & Hle1).
      rewrite (H_step k s (d_var d)) by (auto; lia).
      set (f := fun val => let d0 := {| d_var := d_var d; d_val := val |} in
                 oadd (transition_cost pb s (transition pb s d0) d0) (H pb (S k) (transition pb s d0))).
      destruct (fold_omax_ge f (domain pb (d_var d) s) (d_val d)
                  (transition_cost pb s (transition pb s d) d + h1) Ed) as (h & Hh & Hle).
      { unfold f. cbv zeta. destruct d as [x val]. simpl. rewrite Hh1. reflexivity. }
      exists h. split; [exact Hh|lia].
  Qed.

  (* H is attained by a full feasible run *)
  Lemma H_attained n : forall k s v h, (N - k = n)%nat -> (k <= N)%nat -> H pb k s = Some h ->
    exists ds s', frun k s v ds = Some (s', v + h) /\ (k + length ds = N)%nat.
  Proof.
    induction n as [|n IH]; intros k s v h Hn Hk Hh.
    - rewrite H_end in Hh by lia. inversion Hh; subst. exists [], s. simpl. split; [f_equal; f_equal; lia|lia].
    - assert (Hlt : (k < N)%nat) by lia.
      destruct (nv_some k [s] Hlt) as [x Hx].
      rewrite (H_step k s x Hlt Hx) in Hh.
      apply fold_omax_attained in Hh. destruct Hh as (val & Hin & Hf). cbv zeta in Hf.
      set (d := {| d_var := x; d_val := val |}) in *.
      destruct (H pb (S k) (transition pb s d)) as [h1|] eqn:E1; [|discriminate].
      simpl in Hf. inversion Hf; subst h.
      destruct (IH (S k) (transition pb s d) (v + transition_cost pb s (transition pb s d) d) h1)
        as (ds & s' & Hr & Hl); [lia|lia|exact E1|].
      exists (d :: ds), s'. split; [|simpl; lia].
      simpl. assert (Ev : var_ok k d = true) by (apply (var_ok_spec k d [s]); exact Hx).
      rewrite Ev. rewrite (In_in_domain s d) by exact Hin. simpl. rewrite Hr. f_equal. f_equal. lia.
  Qed.

  (* the last state of a run only depends on the decisions *)
  Lemma frun_state ds : forall k s v s' v', frun k s v ds = Some (s', v') ->
    s' = fold_left (transition pb) ds s.
  Proof.
    induction ds as [|d ds IH]; intros k s v s' v' H; simpl in *.
    - inversion H; reflexivity.
    - destruct (var_ok k d && in_domain pb s d); [|discriminate]. eapply IH; eauto.
  Qed.

  (* how the arithmetic guard of Section Sim is discharged: with transition costs bounded by C, every
     feasible run of r decisions from value v stays within v -+ C * r (and r <= N - k) *)
  Lemma frun_bounded C :
    (forall s d, - C <= transition_cost pb s (transition pb s d) d <= C) ->
    forall ds k s v s' v', frun k s v ds = Some (s', v') ->
    v - C * Z.of_nat (length ds) <= v' <= v + C * Z.of_nat (length ds).
  Proof.
    intros HC. induction ds as [|d ds IH]; intros k s v s' v' H; simpl in H.
    - inversion H; subst. simpl. lia.
    - destruct (var_ok k d && in_domain pb s d); [|discriminate].
      specialize (IH _ _ _ _ _ H). specialize (HC s d).
      change (length (d :: ds)) with (S (length ds)). rewrite Nat2Z.inj_succ. nia.
  Qed.

  Lemma frun_length ds : forall k s v r, frun k s v ds = Some r -> (k <= N -> k + length ds <= N)%nat.
  Proof.
    induction ds as [|d ds IH]; intros k s v r Hr Hk; simpl in *; [lia|].
    destruct (var_ok k d) eqn:Ev; simpl in Hr; [|discriminate].
    destruct (in_domain pb s d); [|discriminate].
    assert (Hlt : (k < N)%nat).
    { destruct (Nat.lt_ge_cases k N) as [H1|H1]; [exact H1|].
      unfold var_ok in Ev. rewrite nv_none in Ev by exact H1. discriminate. }
    specialize (IH (S k) _ _ r Hr Hlt). lia.
  Qed.

  (* the exhaustive enumeration of DP.v computes the same optimum as the Bellman recursion *)
  Lemma enum_hstar fuel : forall k s v,
    zmax_list (map snd (enum_from pb fuel k s v)) = oadd v (hstar pb fuel k s).
  Proof.
    induction fuel as [|fuel IH]; intros k s v; simpl.
    - f_equal. lia.
    - destruct (next_variable pb k [s]) as [x|]; [|simpl; f_equal; lia].
      induction (domain pb x s) as [|val dom IHd]; simpl; [reflexivity|].
      rewrite map_app, zmax_list_app, IHd. unfold step.
      rewrite map_map.
      assert (E : map (fun p : list decision * Z => snd (let '(ds, w) := p in ({| d_var := x; d_val := val |} :: ds, w)))
                    (enum_from pb fuel (S k) (transition pb s {| d_var := x; d_val := val |})
                       (v + transition_cost pb s (transition pb s {| d_var := x; d_val := val |}) {| d_var := x; d_val := val |}))
                = map snd (enum_from pb fuel (S k) (transition pb s {| d_var := x; d_val := val |})
                       (v + transition_cost pb s (transition pb s {| d_var := x; d_val := val |}) {| d_var := x; d_val := val |}))).
      { apply map_ext. intros [ds w]. reflexivity. }
      rewrite E, IH.
      destruct (hstar pb fuel (S k) (transition pb s {| d_var := x; d_val := val |})) as [h|]; simpl.
      + match goal with |- context [fold_right ?f None dom] => destruct (fold_right f None dom) as [a|] end; simpl.
        * f_equal. lia.
        * f_equal. lia.
      + match goal with |- context [fold_right ?f None dom] => destruct (fold_right f None dom) as [a|] end; reflexivity.
  Qed.

  Lemma opt_enum_from_H k s v : opt_enum_from pb k s v = oadd v (H pb k s).
  Proof. unfold opt_enum_from, H. apply enum_hstar. Qed.

  Lemma frun_snoc k s v ds d s1 v1 :
    frun k s v ds = Some (s1, v1) ->
    frun k s v (ds ++ [d]) =
      if var_ok (k + length ds) d && in_domain pb s1 d
      then Some (transition pb s1 d, v1 + transition_cost pb s1 (transition pb s1 d) d) else None.
  Proof. intros H. rewrite frun_app, H. reflexivity. Qed.
End Sem.

Local Open Scope nat_scope.

(* the cache filter leaves the dominance store alone (expansion and squash: MddStruct.inert_dom) *)
Section StoreFrame.
  Context {St : Type}.
  Variable st_eqb : St -> St -> bool.
  Variable inp : @cinput St.
  Notation mdd := (@mdd St).
  Notation gn := (get_node inp).

  Lemma dom_cache_get (m : mdd) s d : m_dom (fst (cache_get st_eqb inp m s d)) = m_dom m.
  Proof.
    unfold cache_get. destruct (ci_use_cache inp); [|reflexivity].
    destruct (get_threshold _ _ _ _); reflexivity.
  Qed.

  Lemma dom_filter_with_cache l : forall (m : mdd), m_dom (fst (filter_with_cache st_eqb inp m l)) = m_dom m.
  Proof.
    induction l as [|id l IH]; intros m; cbn [filter_with_cache]; [reflexivity|].
    pose proof (dom_cache_get m (n_state (gn m id)) (n_depth (gn m id))) as Hc.
    destruct (cache_get st_eqb inp m (n_state (gn m id)) (n_depth (gn m id))) as [m1 th]. cbn [fst] in Hc.
    destruct th as [t|].
    - destruct (Z.gtb _ _).
      + specialize (IH m1). destruct (filter_with_cache st_eqb inp m1 l) as [m2 r]. cbn [fst] in *. congruence.
      + rewrite IH. cbn [m_dom upd_node with_nodes]. exact Hc.
    - specialize (IH m1). destruct (filter_with_cache st_eqb inp m1 l) as [m2 r]. cbn [fst] in *. congruence.
  Qed.

  Lemma dom_prefilter (m : mdd) l : m_dom (fst (prefilter st_eqb inp m l)) = m_dom m.
  Proof. unfold prefilter. destruct (Nat.ltb _ _); [apply dom_filter_with_cache|reflexivity]. Qed.
End StoreFrame.

Section Sim.
  Context {St : Type}.
  Variable st_eqb : St -> St -> bool.
  Hypothesis st_eqb_spec : forall a b, st_eqb a b = true <-> a = b.
  Variable inp : @cinput St.
  Let pb := ci_problem inp.
  Let rlx := ci_relax inp.
  Let root := ci_root inp.
  Let lb := ci_best_lb inp.
  Let N := nb_vars pb.
  Let rd := sp_depth root.
  Let rs := sp_state root.
  Let rv := sp_value root.
  Hypothesis Hclean : ci_flavour inp = CleanLEL \/ ci_flavour inp = CleanFC.
  Hypothesis Hnocache : ci_use_cache inp = false.
  Hypothesis Hnodom : ci_domrule inp = None.
  Hypothesis Hnocut : ci_cutoff inp = 0.
  Hypothesis Hwidth : 1 <= ci_width inp.
  Hypothesis Hrd : rd <= N.
  Hypothesis nv_static : forall k l1 l2, next_variable pb k l1 = next_variable pb k l2.
  Hypothesis nv_some : forall k l, k < N -> exists x, next_variable pb k l = Some x.
  Hypothesis nv_none : forall k l, N <= k -> next_variable pb k l = None.
  (* the well-formed model *)
  Variable cov : St -> St -> Prop.
  Hypothesis cov_refl : forall s, cov s s.
  Hypothesis cov_sim : forall s s' x v, cov s s' -> In v (domain pb x s') ->
    let d := {| d_var := x; d_val := v |} in
    In v (domain pb x s) /\ cov (transition pb s d) (transition pb s' d) /\
    (transition_cost pb s' (transition pb s' d) d <= transition_cost pb s (transition pb s d) d)%Z.
  Hypothesis merge_cov : forall L s s', In s L -> cov s s' -> cov (merge rlx L) s'.
  Hypothesis relax_ge : forall src dst mg d c, (c <= relax rlx src dst mg d c)%Z.
  Hypothesis rub_adm : forall k s s' h, cov s s' -> H pb k s' = Some h -> (h <= fast_upper_bound rlx s)%Z.
  (* arithmetic guard (model level): every feasible partial run from the root stays within [-B, B],
     and 2B fits in an isize.  Nothing is assumed on the values stored in the diagram. *)
  Variable B : Z.
  Hypothesis HB : (2 * B <= IMAX)%Z.
  Hypothesis Hguard : forall ds s' v', frun pb rd rs rv ds = Some (s', v') -> (- B <= v' <= B)%Z.

  Notation mdd := (@mdd St).
  Notation node := (@node St).
  Notation gn := (get_node inp).
  Notation frn := (frun pb).

  Lemma guard_isize ds s' v' : frn rd rs rv ds = Some (s', v') -> in_isize v'.
  Proof. intros H. apply Hguard in H. unfold in_isize, IMIN, IMAX in *. lia. Qed.

  Definition is_ex (m : mdd) (id : nat) : bool := fl_is_exact (n_flags (gn m id)).

  (* growth: nodes, arcs and the open layer are only added to (MddStruct.ext) and no inbound list loses an arc; every
     step of an expansion or a squash is one *)
  Definition inbinc (m m' : mdd) : Prop := forall x, incl (n_inb (gn m x)) (n_inb (gn m' x)).
  Definition gr (m m' : mdd) : Prop := ext inp m m' /\ inbinc m m'.

  Lemma inbinc_refl m : inbinc m m.
  Proof. intros x; apply incl_refl. Qed.

  Lemma inbinc_trans a b c : inbinc a b -> inbinc b c -> inbinc a c.
  Proof. intros H1 H2 x. eapply incl_tran; [apply H1|apply H2]. Qed.

  Lemma gr_refl m : gr m m.
  Proof. split; [apply ext_refl|apply inbinc_refl]. Qed.

  Lemma gr_trans a b c : gr a b -> gr b c -> gr a c.
  Proof. intros [E1 I1] [E2 I2]. split; [eapply ext_trans; eauto|eapply inbinc_trans; eauto]. Qed.

  Lemma inbinc_same_nodes (m m' : mdd) : m_nodes m' = m_nodes m -> inbinc m m'.
  Proof. intros H x. unfold get_node. rewrite H. apply incl_refl. Qed.

  Lemma inbinc_upd_node (m : mdd) id f : (forall n, n_inb (f n) = n_inb n) -> inbinc m (upd_node m id f).
  Proof.
    intros Hf x. destruct (Nat.eq_dec id x) as [->|Hne].
    - destruct (Nat.lt_ge_cases x (length (m_nodes m))) as [Hlt|Hge].
      + rewrite gn_upd_same by exact Hlt. rewrite Hf. apply incl_refl.
      + rewrite gn_upd_out by exact Hge. apply incl_refl.
    - rewrite gn_upd_other by exact Hne. apply incl_refl.
  Qed.

  Lemma inbinc_append_edge (m : mdd) e : inbinc m (append_edge inp m e).
  Proof.
    intros x. destruct (Nat.eq_dec x (e_to e)) as [->|Hne].
    - destruct (Nat.lt_ge_cases (e_to e) (length (m_nodes m))) as [Hlt|Hge].
      + rewrite gn_append_same by exact Hlt. cbv zeta. nsimpl. apply incl_tl, incl_refl.
      + unfold get_node. msimpl. rewrite upd_nth_out by exact Hge. apply incl_refl.
    - rewrite gn_append_other by exact Hne. apply incl_refl.
  Qed.

  Lemma inbinc_snoc (m : mdd) n : inbinc m (with_nodes m (m_nodes m ++ [n])).
  Proof.
    intros x. destruct (Nat.lt_ge_cases x (length (m_nodes m))) as [Hlt|Hge].
    - rewrite gn_snoc_old by exact Hlt. apply incl_refl.
    - rewrite (gn_out_of_range inp m x Hge). intros y [].
  Qed.

  Lemma gr_add_log (m : mdd) ev : gr m (add_log m ev).
  Proof. split; [apply ext_add_log|apply inbinc_same_nodes; reflexivity]. Qed.

  Lemma gr_upd_node (m : mdd) id f :
    (forall n, n_state (f n) = n_state n) -> (forall n, n_inb (f n) = n_inb n) -> gr m (upd_node m id f).
  Proof. intros H1 H2. split; [apply ext_upd_node; exact H1|apply inbinc_upd_node; exact H2]. Qed.

  Lemma gr_append_edge (m : mdd) e : gr m (append_edge inp m e).
  Proof. split; [apply ext_append_edge|apply inbinc_append_edge]. Qed.

  Lemma gr_snoc (m : mdd) n : gr m (with_nodes m (m_nodes m ++ [n])).
  Proof. split; [apply ext_with_nodes_app|apply inbinc_snoc]. Qed.

  Lemma gr_with_next_app (m : mdd) k : gr m (with_next m (m_next m ++ k)).
  Proof. split; [apply ext_with_next_app|apply inbinc_same_nodes; reflexivity]. Qed.

  Lemma gr_fold {X} (f : mdd -> X -> mdd) l m : (forall a x, gr a (f a x)) -> gr m (fold_left f l m).
  Proof. apply fold_left_rel; [apply gr_refl|apply gr_trans]. Qed.

  Lemma gr_branch_on m id d : gr m (branch_on st_eqb inp m id d).
  Proof.
    unfold branch_on. cbv zeta.
    match goal with |- context [find_next ?a ?b ?c ?d] => destruct (find_next a b c d) end.
    - eapply gr_trans; [apply gr_add_log|]. eapply gr_trans; [apply gr_add_log|]. apply gr_append_edge.
    - eapply gr_trans; [apply gr_add_log|]. eapply gr_trans; [apply gr_add_log|].
      eapply gr_trans; [apply gr_snoc|]. eapply gr_trans; [apply gr_append_edge|].
      apply (gr_with_next_app _ [_]).
  Qed.

  Lemma gr_expand_node var m id : gr m (expand_node st_eqb inp var m id).
  Proof.
    unfold expand_node. cbv zeta. destruct (_ >? _)%Z.
    - eapply gr_trans; [|apply gr_fold; intros; apply gr_branch_on].
      eapply gr_trans; [|apply gr_add_log]. apply gr_upd_node; reflexivity.
    - apply gr_upd_node; reflexivity.
  Qed.

  Lemma gr_ceq m m' : ceq inp m m' -> ext inp m m' -> gr m m'.
  Proof.
    intros ((_ & _ & _ & A4) & _) He. split; [exact He|].
    intros x. destruct (A4 x) as (_ & _ & _ & c4 & _). rewrite c4. apply incl_refl.
  Qed.

  (* facts a growth step transports *)
  Lemma gr_edge m m' eid : gr m m' -> eid < length (m_edges m) -> get_edge m' eid = get_edge m eid.
  Proof.
    intros [E _] H. destruct (ext_edges _ _ _ E) as [k Hk]. unfold get_edge. rewrite Hk.
    apply app_nth1. exact H.
  Qed.

  Lemma gr_state m m' id : gr m m' -> id < length (m_nodes m) -> n_state (gn m' id) = n_state (gn m id).
  Proof. intros [E _] H. apply (ext_state _ _ _ E). exact H. Qed.

  Lemma gr_nodes m m' : gr m m' -> length (m_nodes m) <= length (m_nodes m').
  Proof. intros [E _]. apply (ext_nodes _ _ _ E). Qed.

  Lemma gr_edges_len m m' : gr m m' -> length (m_edges m) <= length (m_edges m').
  Proof. intros [E _]. destruct (ext_edges _ _ _ E) as [k Hk]. rewrite Hk, app_length. lia. Qed.

  Lemma gr_next m m' x : gr m m' -> In x (m_next m) -> In x (m_next m').
  Proof. intros [E _] H. destruct (ext_next _ _ _ E) as [k Hk]. rewrite Hk. apply in_or_app. left; exact H. Qed.

  Lemma gr_layers m m' : gr m m' -> m_layers m' = m_layers m.
  Proof. intros [E _]. apply (ext_layers _ _ _ E). Qed.

  (* [dpath m i u s ds t s']: arcs of m from node u of layer i to node t, one per decision of ds; s is a true state that
     u covers, s' the state ds leads to from s.  Every arc costs at least the true transition and its target covers
     the true state. *)
  Inductive dpath (m : mdd) : nat -> nat -> St -> list decision -> nat -> St -> Prop :=
  | dp_nil : forall i u s, u < length (m_nodes m) -> cov (n_state (gn m u)) s -> dpath m i u s [] u s
  | dp_snoc : forall i u s ds t s' d eid t',
      dpath m i u s ds t s' ->
      In t (nth (i + length ds) (m_layers m) []) ->
      t' < length (m_nodes m) -> eid < length (m_edges m) -> In eid (n_inb (gn m t')) ->
      e_from (get_edge m eid) = t -> e_dec (get_edge m eid) = d ->
      (transition_cost pb s' (transition pb s' d) d <= e_cost (get_edge m eid))%Z ->
      cov (n_state (gn m t')) (transition pb s' d) ->
      dpath m i u s (ds ++ [d]) t' (transition pb s' d).

  Lemma dpath_cov m i u s ds t s' : dpath m i u s ds t s' -> cov (n_state (gn m t)) s'.
  Proof. intros H. destruct H; auto. Qed.

  Lemma dpath_range m i u s ds t s' : dpath m i u s ds t s' -> t < length (m_nodes m).
  Proof. intros H. destruct H; auto. Qed.

  Lemma dpath_state m i u s ds t s' : dpath m i u s ds t s' -> s' = fold_left (transition pb) ds s.
  Proof. intros H. induction H; [reflexivity|]. rewrite fold_left_app. simpl. congruence. Qed.

  Lemma nth_layers_app (ls : list (list nat)) x i t : In t (nth i ls []) -> In t (nth i (ls ++ [x]) []).
  Proof.
    intros H. destruct (Nat.lt_ge_cases i (length ls)) as [Hlt|Hge].
    - rewrite app_nth1 by exact Hlt. exact H.
    - rewrite nth_overflow in H by exact Hge. destruct H.
  Qed.

  (* transport along: growth, then possibly one more pushed layer *)
  Lemma dpath_transport m m' i u s ds t s' :
    dpath m i u s ds t s' ->
    length (m_nodes m) <= length (m_nodes m') ->
    (forall x, x < length (m_nodes m) -> n_state (gn m' x) = n_state (gn m x)) ->
    (forall x, incl (n_inb (gn m x)) (n_inb (gn m' x))) ->
    length (m_edges m) <= length (m_edges m') ->
    (forall eid, eid < length (m_edges m) -> get_edge m' eid = get_edge m eid) ->
    (forall k x, In x (nth k (m_layers m) []) -> In x (nth k (m_layers m') [])) ->
    dpath m' i u s ds t s'.
  Proof.
    intros Hp Hn Hs Hi He Hg Hl. induction Hp.
    - apply dp_nil; [lia|]. rewrite Hs by assumption. assumption.
    - apply (dp_snoc m' i u s ds t s' d eid t'); auto; try lia.
      + apply Hi. assumption.
      + rewrite Hg by assumption. assumption.
      + rewrite Hg by assumption. assumption.
      + rewrite Hg by assumption. assumption.
      + rewrite Hs by assumption. assumption.
  Qed.

  Lemma dpath_gr m m' i u s ds t s' : gr m m' -> dpath m i u s ds t s' -> dpath m' i u s ds t s'.
  Proof.
    intros G Hp. eapply dpath_transport; eauto.
    - apply gr_nodes; auto.
    - intros; apply gr_state; auto.
    - apply G.
    - apply gr_edges_len; auto.
    - intros; apply gr_edge; auto.
    - intros k x. rewrite (gr_layers _ _ G). auto.
  Qed.

  Lemma dpath_peq m m' i u s ds t s' :
    peq inp m m' -> (forall k x, In x (nth k (m_layers m) []) -> In x (nth k (m_layers m') [])) ->
    dpath m i u s ds t s' -> dpath m' i u s ds t s'.
  Proof.
    intros (A1 & A2 & A3 & A4) Hl Hp. eapply dpath_transport; eauto; try lia.
    - intros x _. destruct (A4 x) as (c1 & _). congruence.
    - intros x. destruct (A4 x) as (_ & _ & _ & c4 & _). rewrite c4. apply incl_refl.
    - rewrite A1. lia.
    - intros eid _. apply ge_edges_eq. exact A1.
  Qed.

  Lemma dpath_split m i u s ds t s' : dpath m i u s ds t s' -> forall ds1 ds2, ds = ds1 ++ ds2 ->
    exists c sc, dpath m i u s ds1 c sc /\ dpath m (i + length ds1) c sc ds2 t s'.
  Proof.
    intros Hp. induction Hp as [i u s Hu Hc|i u s ds t s' d eid t' Hp IH Hlay Ht' He Hin Hf Hd Hcost Hcov];
      intros ds1 ds2 E.
    - symmetry in E. apply app_eq_nil in E. destruct E as [-> ->].
      exists u, s. split; apply dp_nil; auto.
    - apply app_snoc_cases in E. destruct E as [[-> ->]|(ds2' & -> & ->)].
      + exists t', (transition pb s' d). split.
        * eapply dp_snoc; eauto.
        * apply dp_nil; auto.
      + destruct (IH ds1 ds2' eq_refl) as (c & sc & P1 & P2).
        exists c, sc. split; [exact P1|].
        eapply dp_snoc; eauto. rewrite app_length in Hlay. rewrite <- Nat.add_assoc. exact Hlay.
  Qed.

  Record Einv (m : mdd) : Prop := {
    E_le : m_layer_end m <= length (m_nodes m);
    E_from : forall eid, eid < length (m_edges m) -> e_from (get_edge m eid) < m_layer_end m;
    E_inb : forall id eid, id < length (m_nodes m) -> In eid (n_inb (gn m id)) ->
      eid < length (m_edges m) /\
      (sat_add (n_vtop (gn m (e_from (get_edge m eid)))) (e_cost (get_edge m eid)) <= n_vtop (gn m id))%Z /\
      (is_ex m id = true ->
         is_ex m (e_from (get_edge m eid)) = true /\
         n_state (gn m id) = transition pb (n_state (gn m (e_from (get_edge m eid)))) (e_dec (get_edge m eid)) /\
         n_depth (gn m id) = S (n_depth (gn m (e_from (get_edge m eid))))) }.

  Lemma Einv_peq m m' :
    peq inp m m' -> m_layer_end m <= m_layer_end m' -> m_layer_end m' <= length (m_nodes m') ->
    Einv m -> Einv m'.
  Proof.
    intros (A1 & A2 & A3 & A4) Hl1 Hl2 [E1 E2 E3]. split.
    - exact Hl2.
    - intros eid He. rewrite A1 in He. rewrite (ge_edges_eq m m' eid A1). specialize (E2 eid He). lia.
    - intros id eid Hid Hin. rewrite A3 in Hid.
      pose proof (A4 id) as Cid. pose proof (core_eq_is_exact _ _ Cid) as Xid.
      destruct Cid as (c1 & c2 & c3 & c4 & c5 & c6 & c7).
      rewrite <- c4 in Hin. destruct (E3 id eid Hid Hin) as (G1 & G2 & G3).
      rewrite (ge_edges_eq m m' eid A1). rewrite A1.
      set (p := e_from (get_edge m eid)) in *.
      pose proof (A4 p) as Cp. pose proof (core_eq_is_exact _ _ Cp) as Xp.
      destruct Cp as (p1 & p2 & p3 & p4 & p5 & p6 & p7).
      unfold is_ex in *. rewrite <- c1, <- c2, <- c7, <- p1, <- p2, <- p7, <- Xid, <- Xp. auto.
  Qed.

  Lemma Einv_ceq m m' : ceq inp m m' -> Einv m -> Einv m'.
  Proof.
    intros (Hp & _ & Hl & _) HE. eapply Einv_peq; eauto; [lia|].
    destruct Hp as (_ & _ & A3 & _). rewrite Hl, A3. apply (E_le _ HE).
  Qed.

  Lemma Einv_append_edge (m : mdd) e :
    Einv m -> e_from e < m_layer_end m -> m_layer_end m <= e_to e -> e_to e < length (m_nodes m) ->
    (is_ex m (e_to e) = true -> is_ex m (e_from e) = true ->
       n_state (gn m (e_to e)) = transition pb (n_state (gn m (e_from e))) (e_dec e) /\
       n_depth (gn m (e_to e)) = S (n_depth (gn m (e_from e)))) ->
    Einv (append_edge inp m e).
  Proof.
    intros [E1 E2 E3] Hfrom Hto Hlt Hex.
    assert (Hedges : m_edges (append_edge inp m e) = m_edges m ++ [e]) by reflexivity.
    assert (Hlen : length (m_nodes (append_edge inp m e)) = length (m_nodes m))
      by (msimpl; apply upd_nth_length).
    assert (Helen : length (m_edges (append_edge inp m e)) = S (length (m_edges m)))
      by (rewrite Hedges, app_length; simpl; lia).
    assert (Hsrc : forall k, k < m_layer_end m -> gn (append_edge inp m e) k = gn m k).
    { intros k Hk. apply gn_append_other. lia. }
    split.
    - rewrite Hlen. exact E1.
    - intros eid He. rewrite Helen in He. change (m_layer_end (append_edge inp m e)) with (m_layer_end m).
      destruct (Nat.eq_dec eid (length (m_edges m))) as [->|Hne].
      + rewrite (ge_snoc_new m _ e Hedges). exact Hfrom.
      + rewrite (ge_snoc_old m _ e eid Hedges) by lia. apply E2. lia.
    - intros id eid Hid Hin. rewrite Hlen in Hid. rewrite Helen. unfold is_ex.
      destruct (Nat.eq_dec id (e_to e)) as [->|Hidne].
      + rewrite (gn_append_same inp m e Hlt) in Hin. rewrite (gn_append_same inp m e Hlt).
        cbv zeta in Hin |- *. nsimpl_in Hin. nsimpl.
        rewrite fl_is_exact_set_exact.
        destruct Hin as [<-|Hin].
        * rewrite (ge_snoc_new m _ e Hedges). rewrite Hsrc by exact Hfrom.
          split; [lia|]. split.
          -- destruct (sat_add (n_vtop (gn m (e_from e))) (e_cost e) >=? n_vtop (gn m (e_to e)))%Z eqn:Eb.
             ++ lia.
             ++ rewrite Z.geb_leb in Eb. apply Z.leb_gt in Eb. lia.
          -- intros Hx. apply andb_true_iff in Hx. destruct Hx as [Hx Hr].
             apply andb_true_iff in Hx. destruct Hx as [Hp Ht].
             split; [exact Hp|]. apply Hex; assumption.
        * destruct (E3 _ eid Hlt Hin) as (G1 & G2 & G3).
          rewrite (ge_snoc_old m _ e eid Hedges) by exact G1.
          rewrite Hsrc by (apply E2; exact G1).
          split; [lia|]. split.
          -- destruct (sat_add (n_vtop (gn m (e_from e))) (e_cost e) >=? n_vtop (gn m (e_to e)))%Z eqn:Eb.
             ++ rewrite Z.geb_leb in Eb. apply Z.leb_le in Eb. lia.
             ++ exact G2.
          -- intros Hx. apply andb_true_iff in Hx. destruct Hx as [Hx Hr].
             apply andb_true_iff in Hx. destruct Hx as [Hp Ht]. apply G3. exact Ht.
      + rewrite (gn_append_other inp m e id Hidne) in Hin. rewrite (gn_append_other inp m e id Hidne).
        destruct (E3 _ eid Hid Hin) as (G1 & G2 & G3).
        rewrite (ge_snoc_old m _ e eid Hedges) by exact G1.
        rewrite Hsrc by (apply E2; exact G1). split; [lia|]. split; assumption.
  Qed.

  Lemma Einv_snoc (m : mdd) n : Einv m -> n_inb n = [] -> Einv (with_nodes m (m_nodes m ++ [n])).
  Proof.
    intros [E1 E2 E3] Hn. split.
    - rewrite len_snoc. msimpl. lia.
    - exact E2.
    - intros id eid Hid Hin. rewrite len_snoc in Hid. unfold is_ex.
      destruct (Nat.eq_dec id (length (m_nodes m))) as [->|Hne].
      + rewrite gn_snoc_new in Hin. rewrite Hn in Hin. destruct Hin.
      + assert (Hid' : id < length (m_nodes m)) by lia.
        rewrite (gn_snoc_old inp m n id Hid') in Hin. rewrite (gn_snoc_old inp m n id Hid').
        destruct (E3 _ eid Hid' Hin) as (G1 & G2 & G3).
        change (m_edges (with_nodes m (m_nodes m ++ [n]))) with (m_edges m).
        change (get_edge (with_nodes m (m_nodes m ++ [n])) eid) with (get_edge m eid).
        rewrite gn_snoc_old by (specialize (E2 eid G1); lia). auto.
  Qed.

  (* an update of an OPEN node that keeps state, value, inbound list, depth and can only clear exactness *)
  Lemma Einv_upd_open (m : mdd) id f :
    Einv m -> m_layer_end m <= id ->
    (forall n, n_state (f n) = n_state n /\ n_vtop (f n) = n_vtop n /\ n_inb (f n) = n_inb n /\
               n_depth (f n) = n_depth n /\
               (fl_is_exact (n_flags (f n)) = true -> fl_is_exact (n_flags n) = true)) ->
    Einv (upd_node m id f).
  Proof.
    intros [E1 E2 E3] Hid Hf.
    assert (Hlen : length (m_nodes (upd_node m id f)) = length (m_nodes m)) by (msimpl; apply upd_nth_length).
    assert (Hsrc : forall k, k < m_layer_end m -> gn (upd_node m id f) k = gn m k).
    { intros k Hk. apply gn_upd_other. lia. }
    split.
    - rewrite Hlen. exact E1.
    - exact E2.
    - intros x eid Hx Hin. rewrite Hlen in Hx. unfold is_ex.
      change (m_edges (upd_node m id f)) with (m_edges m).
      change (get_edge (upd_node m id f) eid) with (get_edge m eid).
      destruct (Nat.eq_dec id x) as [->|Hne].
      + rewrite (gn_upd_same inp m x f Hx) in Hin. rewrite (gn_upd_same inp m x f Hx).
        destruct (Hf (gn m x)) as (f1 & f2 & f3 & f4 & f5). rewrite f3 in Hin.
        destruct (E3 _ eid Hx Hin) as (G1 & G2 & G3).
        rewrite Hsrc by (apply E2; exact G1). rewrite f1, f2, f4. split; [exact G1|]. split; [exact G2|].
        intros Hex. apply G3. apply f5. exact Hex.
      + rewrite (gn_upd_other inp m id f x Hne) in Hin. rewrite (gn_upd_other inp m id f x Hne).
        destruct (E3 _ eid Hx Hin) as (G1 & G2 & G3).
        rewrite Hsrc by (apply E2; exact G1). auto.
  Qed.

  Lemma Einv_frame m m' :
    m_nodes m' = m_nodes m -> m_edges m' = m_edges m ->
    m_layer_end m <= m_layer_end m' -> m_layer_end m' <= length (m_nodes m') ->
    Einv m -> Einv m'.
  Proof.
    intros Hn He H1 H2 [E1 E2 E3].
    assert (Hg : forall k, gn m' k = gn m k) by (intros; apply gn_nodes_eq; exact Hn).
    assert (Hge : forall k, get_edge m' k = get_edge m k) by (intros; apply ge_edges_eq; exact He).
    split.
    - exact H2.
    - intros eid Hlt. rewrite He in Hlt. rewrite Hge. specialize (E2 eid Hlt). lia.
    - intros id eid Hid Hin. rewrite Hn in Hid. rewrite Hg in Hin. unfold is_ex. rewrite He, Hge, !Hg.
      apply E3; assumption.
  Qed.

  (* what the invariant buys along a diagram path from the root *)
  Lemma dpath_vtop_gen m i u s ds t s' k v :
    Einv m -> dpath m i u s ds t s' -> (v <= n_vtop (gn m u))%Z ->
    (forall ds1 s1 v1, frn k s v ds1 = Some (s1, v1) -> in_isize v1) ->
    forall s'' v', frn k s v ds = Some (s'', v') -> (v' <= n_vtop (gn m t))%Z.
  Proof.
    intros HE Hp Hroot Hiso.
    induction Hp as [i u s Hu Hc|i u s ds t s' d eid t' Hp IH Hlay Ht' He Hin Hf Hd Hcost Hcov];
      intros s'' v' Hr.
    - simpl in Hr. inversion Hr; subst. exact Hroot.
    - specialize (IH Hroot Hiso).
      pose proof (Hiso _ _ _ Hr) as Hisov.
      rewrite frun_app in Hr. destruct (frn k s v ds) as [[s1 v1]|] eqn:E1; [|discriminate].
      pose proof (IH _ _ eq_refl) as Hv1.
      pose proof (frun_state pb _ _ _ _ _ _ E1) as Hs1.
      pose proof (dpath_state _ _ _ _ _ _ _ Hp) as Hs1'.
      assert (s1 = s') by congruence. subst s1.
      cbn [frun] in Hr.
      match type of Hr with context [if ?c then _ else _] => destruct c end; [|discriminate].
      injection Hr as _ Hv'. subst v'.
      destruct (E_inb _ HE t' eid Ht' Hin) as (_ & G2 & _). rewrite Hf in G2.
      eapply Z.le_trans; [|exact G2]. apply sat_add_ge; [exact Hisov|]. rewrite <- Hs1'. lia.
  Qed.

  Lemma dpath_vtop m ds u s' :
    Einv m -> dpath m 0 0 rs ds u s' -> (rv <= n_vtop (gn m 0))%Z ->
    forall s'' v', frn rd rs rv ds = Some (s'', v') -> (v' <= n_vtop (gn m u))%Z.
  Proof.
    intros HE Hp Hroot. eapply dpath_vtop_gen; eauto. intros; eapply guard_isize; eauto.
  Qed.

  Lemma dpath_exact m i u s ds t s' :
    Einv m -> dpath m i u s ds t s' -> n_state (gn m u) = s -> is_ex m t = true ->
    n_state (gn m t) = s' /\ n_depth (gn m t) = n_depth (gn m u) + length ds /\ is_ex m u = true.
  Proof.
    intros HE Hp. induction Hp as [i u s Hu Hc|i u s ds t s' d eid t' Hp IH Hlay Ht' He Hin Hf Hd Hcost Hcov];
      intros Hs Hex.
    - split; [exact Hs|]. split; [simpl; lia|exact Hex].
    - destruct (E_inb _ HE t' eid Ht' Hin) as (_ & _ & G3). destruct (G3 Hex) as (X1 & X2 & X3).
      rewrite Hf in X1, X2, X3. rewrite Hd in X2.
      destruct (IH Hs X1) as (I1 & I2 & I3).
      split; [rewrite X2, I1; reflexivity|]. split; [|exact I3].
      rewrite X3, I2, app_length. simpl. lia.
  Qed.

  (* without a cache (Hnocache) and without a rule (Hnodom) the two filters keep every node *)
  Lemma filter_with_cache_nocache l : forall m, snd (filter_with_cache st_eqb inp m l) = l.
  Proof.
    induction l as [|id l IH]; intros m; [reflexivity|].
    cbn [filter_with_cache]. cbv zeta. unfold cache_get. rewrite Hnocache.
    match goal with |- context [filter_with_cache st_eqb inp ?mm l] =>
      specialize (IH mm); destruct (filter_with_cache st_eqb inp mm l) as [m2 r] end.
    simpl in *. congruence.
  Qed.

  Lemma dom_retain_nodom l : forall m, snd (dom_retain inp m l) = l.
  Proof.
    induction l as [|id l IH]; intros m; [reflexivity|].
    cbn [dom_retain]. cbv zeta. destruct (fl_is_exact (n_flags (gn m id))).
    - unfold dom_query. rewrite Hnodom. cbn [dc_dominated].
      match goal with |- context [dom_retain inp ?mm l] =>
        specialize (IH mm); destruct (dom_retain inp mm l) as [m2 r] end.
      simpl in *. congruence.
    - specialize (IH m). destruct (dom_retain inp m l) as [m2 r]. simpl in *. congruence.
  Qed.

  Lemma filter_with_dominance_nodom m l x :
    In x (snd (filter_with_dominance inp m l)) <-> In x l.
  Proof. unfold filter_with_dominance. rewrite dom_retain_nodom. apply sort_by_In. Qed.

  Lemma branch_on_spec (m : mdd) id d :
    (forall x, In x (m_next m) -> x < length (m_nodes m)) ->
    let m' := branch_on st_eqb inp m id d in
    let s := n_state (gn m id) in
    exists t, In t (m_next m') /\ t < length (m_nodes m') /\
      In (length (m_edges m)) (n_inb (gn m' t)) /\
      get_edge m' (length (m_edges m)) =
        {| e_from := id; e_to := t; e_dec := d; e_cost := transition_cost pb s (transition pb s d) d |} /\
      n_state (gn m' t) = transition pb s d /\
      length (m_edges m') = S (length (m_edges m)).
  Proof.
    intros Hnext. cbv zeta. unfold branch_on. cbv zeta.
    set (s := n_state (gn m id)).
    set (ns := transition (ci_problem inp) s d).
    set (cost := transition_cost (ci_problem inp) s ns d).
    set (m1 := add_log (add_log m (EvTransition s d ns)) (EvCost s ns d cost)).
    assert (Hgn1 : forall k, gn m1 k = gn m k) by reflexivity.
    destruct (find_next st_eqb inp m1 ns) as [t|] eqn:Hfind.
    - unfold find_next in Hfind. apply find_some in Hfind. destruct Hfind as [Hin Heq].
      apply st_eqb_spec in Heq. change (m_next m1) with (m_next m) in Hin.
      pose proof (Hnext t Hin) as Ht.
      set (e := {| e_from := id; e_to := t; e_dec := d; e_cost := cost |}).
      exists t. split; [exact Hin|]. split; [msimpl; rewrite upd_nth_length; exact Ht|].
      split; [|split; [|split]].
      + change t with (e_to e) at 1. rewrite gn_append_same by exact Ht. cbv zeta. nsimpl. left; reflexivity.
      + apply (ge_snoc_new m1 _ e). reflexivity.
      + change t with (e_to e). rewrite gn_append_same by exact Ht. cbv zeta. nsimpl. exact Heq.
      + msimpl. rewrite app_length. simpl. lia.
    - set (t := length (m_nodes m1)).
      set (n := {| n_state := ns; n_vtop := sat_add (n_vtop (gn m id)) cost; n_vbot := IMIN;
                   n_best := None; n_inb := []; n_rub := IMAX; n_theta := None;
                   n_flags := fl_set_exact fl_new_exact (fl_is_exact (n_flags (gn m id)));
                   n_depth := S (n_depth (gn m id)) |}).
      set (m2 := with_nodes m1 (m_nodes m1 ++ [n])).
      set (e := {| e_from := id; e_to := t; e_dec := d; e_cost := cost |}).
      set (m3 := append_edge inp m2 e).
      assert (Hlen2 : length (m_nodes m2) = S t) by apply len_snoc.
      assert (Hgn2new : gn m2 t = n) by apply gn_snoc_new.
      assert (Ht2 : e_to e < length (m_nodes m2)) by (simpl e_to; lia).
      exists t. change (gn (with_next m3 (m_next m3 ++ [t]))) with (gn m3).
      split; [msimpl; apply in_or_app; right; left; reflexivity|].
      assert (Hlen3 : length (m_nodes m3) = S t).
      { unfold m3. msimpl. rewrite upd_nth_length. exact Hlen2. }
      split; [change (t < length (m_nodes m3)); lia|].
      split; [|split; [|split]].
      + unfold m3. change t with (e_to e) at 1. rewrite gn_append_same by exact Ht2. cbv zeta. nsimpl. left; reflexivity.
      + apply (ge_snoc_new m2 _ e). reflexivity.
      + unfold m3. change t with (e_to e). rewrite gn_append_same by exact Ht2. cbv zeta. nsimpl.
        simpl e_to. rewrite Hgn2new. reflexivity.
      + change (length (m_edges m3) = S (length (m_edges m))). unfold m3. msimpl.
        rewrite app_length. simpl. lia.
  Qed.

  Lemma Einv_branch_on (m : mdd) id d :
    Einv m -> id < m_layer_end m ->
    (forall x, In x (m_next m) -> m_layer_end m <= x < length (m_nodes m) /\
                                 n_depth (gn m x) = S (n_depth (gn m id))) ->
    Einv (branch_on st_eqb inp m id d).
  Proof.
    intros HE Hid Hnext. unfold branch_on. cbv zeta.
    set (s := n_state (gn m id)).
    set (ns := transition (ci_problem inp) s d).
    set (cost := transition_cost (ci_problem inp) s ns d).
    set (m1 := add_log (add_log m (EvTransition s d ns)) (EvCost s ns d cost)).
    assert (HE1 : Einv m1).
    { eapply Einv_frame; [| | | |exact HE]; try reflexivity. apply (E_le _ HE). }
    assert (Hgn1 : forall k, gn m1 k = gn m k) by reflexivity.
    destruct (find_next st_eqb inp m1 ns) as [t|] eqn:Hfind.
    - unfold find_next in Hfind. apply find_some in Hfind. destruct Hfind as [Hin Heq].
      apply st_eqb_spec in Heq. change (m_next m1) with (m_next m) in Hin.
      destruct (Hnext t Hin) as [Hr Hd].
      apply Einv_append_edge; nsimpl.
      + exact HE1.
      + exact Hid.
      + change (m_layer_end m1) with (m_layer_end m). lia.
      + change (length (m_nodes m1)) with (length (m_nodes m)). lia.
      + intros _ _. rewrite !Hgn1. split; [exact Heq|exact Hd].
    - set (t := length (m_nodes m1)).
      set (n := {| n_state := ns; n_vtop := sat_add (n_vtop (gn m id)) cost; n_vbot := IMIN;
                   n_best := None; n_inb := []; n_rub := IMAX; n_theta := None;
                   n_flags := fl_set_exact fl_new_exact (fl_is_exact (n_flags (gn m id)));
                   n_depth := S (n_depth (gn m id)) |}).
      set (m2 := with_nodes m1 (m_nodes m1 ++ [n])).
      assert (HE2 : Einv m2) by (apply Einv_snoc; [exact HE1|reflexivity]).
      pose proof (E_le _ HE1) as Hle1.
      assert (HE3 : Einv (append_edge inp m2 {| e_from := id; e_to := t; e_dec := d; e_cost := cost |})).
      { apply Einv_append_edge; nsimpl.
        - exact HE2.
        - exact Hid.
        - change (m_layer_end m2) with (m_layer_end m1). exact Hle1.
        - unfold m2. rewrite len_snoc. unfold t. lia.
        - intros _ _. unfold m2, t. rewrite gn_snoc_new.
          rewrite gn_snoc_old by (change (m_layer_end m1) with (m_layer_end m) in Hle1; lia).
          rewrite Hgn1. split; reflexivity. }
      eapply Einv_frame; [| | | |exact HE3]; try reflexivity. apply (E_le _ HE3).
  Qed.

  Definition Cinv (dn : nat) (m : mdd) : Prop :=
    Dinv inp m /\ Xinv inp m /\ next_depth inp dn m /\ Einv m.

  Lemma branch_on_Cinv (m : mdd) id d :
    Cinv (S (n_depth (gn m id))) m -> id < m_layer_end m ->
    in_domain pb (n_state (gn m id)) d = true ->
    (exists states, next_variable pb (n_depth (gn m id)) states = Some (d_var d)) ->
    Cinv (S (n_depth (gn m id))) (branch_on st_eqb inp m id d) /\
    stable inp m (branch_on st_eqb inp m id d).
  Proof.
    intros (HD & HX & Hnd & HE) Hid Hdom Hv.
    destruct (branch_on_inv st_eqb st_eqb_spec inp Hclean m id d HD HX Hid Hnd Hdom Hv) as (B1 & B2 & B3 & B4).
    split; [|exact B3]. split; [exact B1|]. split; [exact B2|]. split; [exact B4|].
    apply Einv_branch_on; auto. intros x Hx. split; [apply (D_next _ _ _ HD x Hx)|apply Hnd; exact Hx].
  Qed.

  Lemma prefix_isize ds s' v' h :
    frn rd rs rv ds = Some (s', v') -> rd + length ds <= N -> H pb (rd + length ds) s' = Some h ->
    in_isize (v' + h).
  Proof.
    intros Hr Hle Hh.
    destruct (H_attained pb nv_static nv_some nv_none (N - (rd + length ds)) (rd + length ds) s' v' h eq_refl Hle Hh)
      as (ds2 & s2 & Hr2 & _).
    apply (guard_isize (ds ++ ds2) s2). rewrite frun_app, Hr. exact Hr2.
  Qed.

  Lemma Cinv_ceq dn m m' : ceq inp m m' -> Cinv dn m -> Cinv dn m'.
  Proof.
    intros Hc (HD & HX & Hnd & HE).
    split; [eapply (Dg_ceq inp Hclean); eauto|]. split; [eapply Xinv_ceq; eauto|]. split; [|eapply Einv_ceq; eauto].
    intros k Hk. destruct Hc as ((_ & _ & _ & A4) & Hn & _). rewrite Hn in Hk.
    destruct (A4 k) as (_ & _ & _ & _ & _ & _ & c7). rewrite <- c7. apply Hnd; exact Hk.
  Qed.

  (* one branch_on of the fold inside expand_node m u *)
  Lemma expand_node_branch var (m a : mdd) u val :
    let dn := S (n_depth (gn m u)) in
    Cinv dn m -> u < m_layer_end m ->
    (exists states, next_variable pb (n_depth (gn m u)) states = Some var) ->
    In val (domain pb var (n_state (gn m u))) ->
    Cinv dn a /\ stable inp m a /\ gr m a ->
    let b := branch_on st_eqb inp a u {| d_var := var; d_val := val |} in
    Cinv dn b /\ stable inp m b /\ gr m b.
  Proof.
    intros dn (HD & _) Hu Hvar Hval (Ca & Sa & Ga). cbv zeta.
    assert (Hulen : u < length (m_nodes m)) by (pose proof (D_le _ _ _ HD); lia).
    pose proof Sa as (s1 & s2 & s3 & s4 & s5).
    destruct (s4 u Hulen) as [Hs Hdp].
    assert (Hdn : dn = S (n_depth (gn a u))) by (unfold dn; rewrite Hdp; reflexivity).
    rewrite Hdn in Ca.
    destruct (branch_on_Cinv a u {| d_var := var; d_val := val |} Ca) as [C' S'].
    - rewrite s1. exact Hu.
    - rewrite Hs. apply In_in_domain. exact Hval.
    - rewrite Hdp. exact Hvar.
    - split; [rewrite Hdn; exact C'|]. split; [eapply stable_trans; eauto|].
      eapply gr_trans; [exact Ga|apply gr_branch_on].
  Qed.

  Lemma expand_node_track var (m : mdd) i0 c0 sc0 vc0 u ds s' v' dval h :
    let d := {| d_var := var; d_val := dval |} in
    let dn := S (n_depth (gn m u)) in
    Cinv dn m -> u < m_layer_end m ->
    (exists states, next_variable pb (n_depth (gn m u)) states = Some var) ->
    (vc0 <= n_vtop (gn m c0))%Z ->
    (forall ds1 s1 v1, frn (rd + i0) sc0 vc0 ds1 = Some (s1, v1) -> in_isize v1) ->
    In u (nth (i0 + length ds) (m_layers m) []) ->
    dpath m i0 c0 sc0 ds u s' -> frn (rd + i0) sc0 vc0 ds = Some (s', v') ->
    In dval (domain pb var s') ->
    H pb (rd + i0 + length ds) s' = Some h -> (lb < v' + h)%Z -> in_isize (v' + h) ->
    let m' := expand_node st_eqb inp var m u in
    exists t', In t' (m_next m') /\ dpath m' i0 c0 sc0 (ds ++ [d]) t' (transition pb s' d).
  Proof.
    intros d dn HC Hu Hvar Hroot Hisoall Hlay Hp Hr Hdv Hh Hprom Hiso. cbv zeta.
    pose proof (dpath_range _ _ _ _ _ _ _ Hp) as Hulen.
    pose proof (dpath_cov _ _ _ _ _ _ _ Hp) as Hcov.
    pose proof (dpath_vtop_gen m i0 c0 sc0 ds u s' (rd + i0) vc0 (proj2 (proj2 (proj2 HC))) Hp Hroot Hisoall _ _ Hr) as Hvt.
    pose proof (rub_adm _ _ _ _ Hcov Hh) as Hrub.
    unfold expand_node. cbv zeta.
    set (state := n_state (gn m u)) in *.
    set (m1 := upd_node m u (fun n => set_rub n (fast_upper_bound (ci_relax inp) state))).
    assert (Hc1 : ceq inp m m1) by (apply ceq_upd_node; intros n; apply core_eq_set_rub).
    assert (Hvt1 : n_vtop (gn m1 u) = n_vtop (gn m u)).
    { destruct Hc1 as ((_ & _ & _ & A4) & _). destruct (A4 u) as (_ & c2 & _). symmetry; exact c2. }
    assert (Hub : (sat_add (fast_upper_bound (ci_relax inp) state) (n_vtop (gn m1 u)) >? ci_best_lb inp)%Z = true).
    { apply Z.gtb_lt. fold lb. eapply Z.lt_le_trans; [exact Hprom|].
      apply sat_add_ge; [exact Hiso|]. rewrite Hvt1. fold rlx. lia. }
    rewrite Hub.
    set (m2 := add_log m1 (EvDomain var state)).
    assert (Hc2 : ceq inp m m2) by (eapply ceq_trans; [exact Hc1|apply ceq_add_log]).
    assert (Hg2 : gr m m2).
    { apply (gr_trans m m1 m2); [unfold m1; apply gr_upd_node; intros; reflexivity|apply gr_add_log]. }
    destruct (cov_sim _ _ var dval Hcov Hdv) as (Sd & Scov & Scost). fold d in Scov, Scost.
    apply (fold_left_hit (fun a => Cinv dn a /\ stable inp m a /\ gr m a)
             (fun a => exists t', In t' (m_next a) /\ dpath a i0 c0 sc0 (ds ++ [d]) t' (transition pb s' d))
             (fun m0 val => branch_on st_eqb inp m0 u {| d_var := var; d_val := val |})
             (domain pb var state) m2 dval Sd).
    - split; [eapply Cinv_ceq; eauto|]. split; [apply ceq_stable; exact Hc2|exact Hg2].
    - intros a val Hval Ia. exact (expand_node_branch var m a u val HC Hu Hvar Hval Ia).
    - intros a ((Da & _) & Sa & Ga).
      destruct (branch_on_spec a u d) as (t & T1 & T2 & T3 & T4 & T5 & T6).
      { intros x Hx. apply (D_next _ _ _ Da x Hx). }
      set (b := branch_on st_eqb inp a u d) in *.
      assert (Gab : gr a b) by apply gr_branch_on.
      assert (Gmb : gr m b) by (eapply gr_trans; eauto).
      exists t. split; [exact T1|].
      apply (dp_snoc b i0 c0 sc0 ds u s' d (length (m_edges a)) t).
      + eapply dpath_gr; eauto.
      + rewrite (gr_layers _ _ Gmb). exact Hlay.
      + exact T2.
      + lia.
      + exact T3.
      + rewrite T4. reflexivity.
      + rewrite T4. reflexivity.
      + rewrite T4. nsimpl. rewrite (gr_state _ _ u Ga Hulen). fold state. exact Scost.
      + rewrite T5. rewrite (gr_state _ _ u Ga Hulen). exact Scov.
    - intros a val _ _ (t' & Ht' & Hp').
      pose proof (gr_branch_on a u {| d_var := var; d_val := val |}) as Gab.
      exists t'. split; [eapply gr_next; eauto|eapply dpath_gr; eauto].
  Qed.

  Lemma expand_node_Cinv var (m : mdd) id :
    Cinv (S (n_depth (gn m id))) m -> id < m_layer_end m ->
    (exists states, next_variable pb (n_depth (gn m id)) states = Some var) ->
    Cinv (S (n_depth (gn m id))) (expand_node st_eqb inp var m id) /\
    stable inp m (expand_node st_eqb inp var m id).
  Proof.
    intros HC Hid Hvar. unfold expand_node. cbv zeta.
    set (state := n_state (gn m id)).
    set (m1 := upd_node m id (fun n => set_rub n (fast_upper_bound (ci_relax inp) state))).
    assert (Hc1 : ceq inp m m1) by (apply ceq_upd_node; intros n; apply core_eq_set_rub).
    destruct (_ >? _)%Z; [|split; [eapply Cinv_ceq; eauto|apply ceq_stable; exact Hc1]].
    set (m2 := add_log m1 (EvDomain var state)).
    assert (Hc2 : ceq inp m m2) by (eapply ceq_trans; [exact Hc1|apply ceq_add_log]).
    assert (G : Cinv (S (n_depth (gn m id))) (fold_left (fun m0 val => branch_on st_eqb inp m0 id {| d_var := var; d_val := val |})
                                               (domain (ci_problem inp) var state) m2) /\
                stable inp m (fold_left (fun m0 val => branch_on st_eqb inp m0 id {| d_var := var; d_val := val |})
                                (domain (ci_problem inp) var state) m2) /\
                gr m (fold_left (fun m0 val => branch_on st_eqb inp m0 id {| d_var := var; d_val := val |})
                        (domain (ci_problem inp) var state) m2)).
    { apply (fold_left_inv (fun a => Cinv (S (n_depth (gn m id))) a /\ stable inp m a /\ gr m a)).
      - split; [eapply Cinv_ceq; eauto|]. split; [apply ceq_stable; exact Hc2|].
        apply (gr_trans m m1 m2); [unfold m1; apply gr_upd_node; intros; reflexivity|apply gr_add_log].
      - intros a val Hval Ia. exact (expand_node_branch var m a id val HC Hid Hvar Hval Ia). }
    split; apply G.
  Qed.

  Lemma root_vtop m : Dinv inp m -> (rv <= n_vtop (gn m 0))%Z.
  Proof. intros HD. destruct (D_root _ _ _ HD) as (_ & _ & r3 & _). fold root in r3. unfold rv. lia. Qed.

  (* one expand_node of the fold over the layer l *)
  Lemma expand_layer_node var l d (m a : mdd) id :
    Cinv (S d) m -> (forall id, In id l -> id < m_layer_end m /\ n_depth (gn m id) = d) ->
    (exists states, next_variable pb d states = Some var) ->
    In id l -> Cinv (S d) a /\ stable inp m a /\ gr m a ->
    (id < m_layer_end a /\ n_depth (gn a id) = d) /\
    let b := expand_node st_eqb inp var a id in Cinv (S d) b /\ stable inp m b /\ gr m b.
  Proof.
    intros (HD & _) Hl Hv Hin (Ca & Sa & Ga).
    pose proof Sa as (s1 & s2 & s3 & s4 & s5).
    destruct (Hl id Hin) as [Hlt Hdp].
    destruct (s4 id ltac:(pose proof (D_le _ _ _ HD); lia)) as [_ Hdp'].
    assert (Hd : n_depth (gn a id) = d) by congruence.
    split; [split; [rewrite s1; exact Hlt|exact Hd]|].
    destruct (expand_node_Cinv var a id) as [C' S'].
    - rewrite Hd. exact Ca.
    - rewrite s1. exact Hlt.
    - rewrite Hd. exact Hv.
    - rewrite Hd in C'. split; [exact C'|]. split; [eapply stable_trans; eauto|].
      eapply gr_trans; [exact Ga|apply gr_expand_node].
  Qed.

  Lemma expand_layer_Cinv var l d : forall (m : mdd),
    Cinv (S d) m -> (forall id, In id l -> id < m_layer_end m /\ n_depth (gn m id) = d) ->
    (exists states, next_variable pb d states = Some var) ->
    Cinv (S d) (fold_left (expand_node st_eqb inp var) l m) /\
    stable inp m (fold_left (expand_node st_eqb inp var) l m) /\
    gr m (fold_left (expand_node st_eqb inp var) l m).
  Proof.
    intros m HC Hl Hv.
    apply (fold_left_inv (fun a => Cinv (S d) a /\ stable inp m a /\ gr m a)).
    - split; [exact HC|]. split; [apply stable_refl|apply gr_refl].
    - intros a id Hin Ia. apply (expand_layer_node var l d m a id HC Hl Hv Hin Ia).
  Qed.

  Lemma expand_layer_track var l dd (m : mdd) i0 c0 sc0 vc0 u ds s' v' dval h :
    let d := {| d_var := var; d_val := dval |} in
    Cinv (S dd) m -> (forall id, In id l -> id < m_layer_end m /\ n_depth (gn m id) = dd) ->
    (exists states, next_variable pb dd states = Some var) ->
    c0 < m_layer_end m -> (vc0 <= n_vtop (gn m c0))%Z ->
    (forall ds1 s1 v1, frn (rd + i0) sc0 vc0 ds1 = Some (s1, v1) -> in_isize v1) ->
    In u l -> In u (nth (i0 + length ds) (m_layers m) []) ->
    dpath m i0 c0 sc0 ds u s' -> frn (rd + i0) sc0 vc0 ds = Some (s', v') ->
    In dval (domain pb var s') ->
    H pb (rd + i0 + length ds) s' = Some h -> (lb < v' + h)%Z -> in_isize (v' + h) ->
    let m' := fold_left (expand_node st_eqb inp var) l m in
    exists t', In t' (m_next m') /\ dpath m' i0 c0 sc0 (ds ++ [d]) t' (transition pb s' d).
  Proof.
    intros d HC Hl Hv Hc0 Hvc0 Hisoall Hu Hlay Hp Hr Hdv Hh Hprom Hiso. cbv zeta.
    apply (fold_left_hit (fun a => Cinv (S dd) a /\ stable inp m a /\ gr m a)
             (fun a => exists t', In t' (m_next a) /\ dpath a i0 c0 sc0 (ds ++ [d]) t' (transition pb s' d))
             (expand_node st_eqb inp var) l m u Hu).
    - split; [exact HC|]. split; [apply stable_refl|apply gr_refl].
    - intros a id Hin Ia. apply (expand_layer_node var l dd m a id HC Hl Hv Hin Ia).
    - intros a Ia. destruct (expand_layer_node var l dd m a u HC Hl Hv Hu Ia) as ((Hltu & Hdu) & _).
      destruct Ia as (Ca & (_ & _ & s3 & _) & Ga).
      apply (expand_node_track var a i0 c0 sc0 vc0 u ds s' v' dval h); auto.
      + rewrite Hdu. exact Ca.
      + rewrite Hdu. exact Hv.
      + destruct (s3 c0 Hc0) as (_ & q2 & _). rewrite <- q2. exact Hvc0.
      + rewrite (gr_layers _ _ Ga). exact Hlay.
      + eapply dpath_gr; eauto.
    - intros a id _ _ (t' & Ht' & Hp'). pose proof (gr_expand_node var a id) as Gab.
      exists t'. split; [eapply gr_next; eauto|eapply dpath_gr; eauto].
  Qed.

  Lemma gr_redirect_step merged mid (a : mdd) eid : gr a (redirect_step inp merged mid a eid).
  Proof. unfold redirect_step. cbv zeta. eapply gr_trans; [apply gr_add_log|apply gr_append_edge]. Qed.

  Lemma gr_drop_step merged mid (a : mdd) did : gr a (drop_step inp merged mid a did).
  Proof.
    unfold drop_step. rewrite redirect_edges_fold.
    set (a1 := upd_node a did (fun n => set_flags n (fl_set_deleted (n_flags n) true))).
    apply (gr_trans a a1); [unfold a1; apply gr_upd_node; intros; reflexivity|].
    apply gr_fold. intros; apply gr_redirect_step.
  Qed.

  Definition Rinv (mid : nat) (b : mdd) : Prop :=
    Einv b /\ m_layer_end b <= mid /\ mid < length (m_nodes b) /\ f_relaxed (n_flags (gn b mid)) = true.

  Lemma Rinv_redirect_step merged mid (b : mdd) eid :
    Rinv mid b -> eid < length (m_edges b) -> Rinv mid (redirect_step inp merged mid b eid).
  Proof.
    intros (HE & H1 & H2 & H3) He. unfold redirect_step. cbv zeta.
    match goal with |- Rinv mid (append_edge inp ?aa ?ee) => set (a1 := aa); set (e := ee) end.
    assert (HE1 : Einv a1) by (eapply Einv_frame; [| | | |exact HE]; try reflexivity; apply (E_le _ HE)).
    assert (Hnx : is_ex a1 mid = false).
    { unfold is_ex, fl_is_exact. change (gn a1 mid) with (gn b mid). rewrite H3. apply andb_false_r. }
    split; [|split; [|split]].
    - apply Einv_append_edge; unfold e; nsimpl; auto.
      + apply (E_from _ HE). exact He.
      + intros Hx. rewrite Hnx in Hx. discriminate.
    - exact H1.
    - msimpl. rewrite upd_nth_length. exact H2.
    - change mid with (e_to e). rewrite gn_append_same by exact H2. cbv zeta. nsimpl. exact H3.
  Qed.

  Lemma Rinv_upd_flag mid (b : mdd) id fl :
    (forall n, f_exact (fl n) = f_exact (n_flags n) /\ f_relaxed (fl n) = f_relaxed (n_flags n)) ->
    Rinv mid b -> Rinv mid (upd_node b id (fun n => set_flags n (fl n))).
  Proof.
    intros Hfl (HE & H1 & H2 & H3).
    assert (Hc : ceq inp b (upd_node b id (fun n => set_flags n (fl n)))).
    { apply ceq_upd_node. intros n. destruct (Hfl n). apply core_eq_set_flags_nc; assumption. }
    split; [eapply Einv_ceq; eauto|]. split; [exact H1|]. split; [msimpl; rewrite upd_nth_length; exact H2|].
    destruct Hc as ((_ & _ & _ & A4) & _). destruct (A4 mid) as (_ & _ & _ & _ & _ & c6 & _). congruence.
  Qed.

  Lemma Rinv_drop_step merged mid (b : mdd) did :
    Rinv mid b -> did < length (m_nodes b) -> Rinv mid (drop_step inp merged mid b did).
  Proof.
    intros HR Hd. unfold drop_step. rewrite redirect_edges_fold.
    set (b1 := upd_node b did (fun n => set_flags n (fl_set_deleted (n_flags n) true))).
    assert (HR1 : Rinv mid b1) by (apply (Rinv_upd_flag mid b did (fun n => fl_set_deleted (n_flags n) true)); auto).
    assert (Hd1 : did < length (m_nodes b1)) by (unfold b1; msimpl; rewrite upd_nth_length; exact Hd).
    assert (Hall : forall eid, In eid (n_inb (gn b1 did)) -> eid < length (m_edges b1)).
    { intros eid Hin. destruct HR1 as (HE1 & _). apply (E_inb _ HE1 did eid Hd1 Hin). }
    apply (fold_left_inv (fun a => Rinv mid a /\ gr b1 a)).
    - split; [exact HR1|apply gr_refl].
    - intros a eid Hin (Ra & Ga). split.
      + apply Rinv_redirect_step; [exact Ra|]. pose proof (gr_edges_len _ _ Ga). specialize (Hall eid Hin). lia.
      + eapply gr_trans; [exact Ga|apply gr_redirect_step].
  Qed.

  Lemma redirect_step_track merged mid (b : mdd) i0 c0 sc0 eid0 ds0 t s0 d0 :
    mid < length (m_nodes b) -> eid0 < length (m_edges b) ->
    dpath b i0 c0 sc0 ds0 t s0 -> In t (nth (i0 + length ds0) (m_layers b) []) ->
    e_from (get_edge b eid0) = t -> e_dec (get_edge b eid0) = d0 ->
    (transition_cost pb s0 (transition pb s0 d0) d0 <= e_cost (get_edge b eid0))%Z ->
    cov (n_state (gn b mid)) (transition pb s0 d0) ->
    dpath (redirect_step inp merged mid b eid0) i0 c0 sc0 (ds0 ++ [d0]) mid (transition pb s0 d0).
  Proof.
    intros Hmid He Hp Hlay Hf Hd Hcost Hcov.
    pose proof (gr_redirect_step merged mid b eid0) as G.
    set (b' := redirect_step inp merged mid b eid0) in *.
    set (e := get_edge b eid0) in *.
    set (rc := relax (ci_relax inp) (n_state (gn b (e_from e))) (n_state (gn b (e_to e))) merged (e_dec e) (e_cost e)).
    set (e' := {| e_from := e_from e; e_to := mid; e_dec := e_dec e; e_cost := rc |}).
    assert (Hb' : b' = append_edge inp (add_log b (EvRelax (n_state (gn b (e_from e))) (n_state (gn b (e_to e)))
                                  merged (e_dec e) (e_cost e) rc)) e') by reflexivity.
    assert (Hedges : m_edges b' = m_edges b ++ [e']) by (rewrite Hb'; reflexivity).
    assert (Hnew : get_edge b' (length (m_edges b)) = e') by (apply (ge_snoc_new b b' e' Hedges)).
    apply (dp_snoc b' i0 c0 sc0 ds0 t s0 d0 (length (m_edges b)) mid).
    - eapply dpath_gr; eauto.
    - rewrite (gr_layers _ _ G). exact Hlay.
    - pose proof (gr_nodes _ _ G). lia.
    - rewrite Hedges, app_length. simpl. lia.
    - rewrite Hb'. change mid with (e_to e') at 1. rewrite gn_append_same by exact Hmid.
      cbv zeta. nsimpl. left; reflexivity.
    - rewrite Hnew. exact Hf.
    - rewrite Hnew. exact Hd.
    - rewrite Hnew. unfold e'. nsimpl. unfold rc. fold rlx.
      eapply Z.le_trans; [exact Hcost|apply relax_ge].
    - rewrite (gr_state _ _ mid G Hmid). exact Hcov.
  Qed.

  (* the sources of the arcs *)
  Definition Src (m : mdd) (c : nat) : Prop :=
    exists eid, eid < length (m_edges m) /\ e_from (get_edge m eid) = c.
  Definition srcs (m m' : mdd) : Prop := forall c, Src m' c -> Src m c.
  Lemma srcs_refl m : srcs m m. Proof. intros c H; exact H. Qed.

  Lemma srcs_trans a b c : srcs a b -> srcs b c -> srcs a c.
  Proof. intros H1 H2 x Hx. apply H1, H2, Hx. Qed.

  Lemma srcs_edges_eq (m m' : mdd) : m_edges m' = m_edges m -> srcs m m'.
  Proof.
    intros He c (eid & H1 & H2). exists eid. rewrite He in H1. rewrite (ge_edges_eq m m' eid He) in H2. auto.
  Qed.

  Lemma srcs_redirect_step merged mid (a : mdd) eid :
    eid < length (m_edges a) -> srcs a (redirect_step inp merged mid a eid).
  Proof.
    intros He c (x & H1 & H2). unfold redirect_step in H1, H2. cbv zeta in H1, H2.
    match type of H1 with _ < length (m_edges (append_edge inp ?aa ?ee)) => set (a1 := aa) in *; set (e := ee) in * end.
    assert (Hedges : m_edges (append_edge inp a1 e) = m_edges a ++ [e]) by reflexivity.
    rewrite Hedges, app_length in H1. simpl in H1.
    destruct (Nat.eq_dec x (length (m_edges a))) as [->|Hne].
    - rewrite (ge_snoc_new a _ e Hedges) in H2. unfold e in H2. nsimpl_in H2. exists eid. auto.
    - rewrite (ge_snoc_old a _ e x Hedges) in H2 by lia. exists x. split; [lia|exact H2].
  Qed.

  Lemma srcs_drop_step merged mid (b : mdd) did :
    Rinv mid b -> did < length (m_nodes b) -> srcs b (drop_step inp merged mid b did).
  Proof.
    intros HR Hd. unfold drop_step. rewrite redirect_edges_fold.
    set (b1 := upd_node b did (fun n => set_flags n (fl_set_deleted (n_flags n) true))).
    assert (HR1 : Rinv mid b1) by (apply (Rinv_upd_flag mid b did (fun n => fl_set_deleted (n_flags n) true)); auto).
    assert (Hd1 : did < length (m_nodes b1)) by (unfold b1; msimpl; rewrite upd_nth_length; exact Hd).
    assert (Hall : forall eid, In eid (n_inb (gn b1 did)) -> eid < length (m_edges b1)).
    { intros eid Hin. destruct HR1 as (HE1 & _). apply (E_inb _ HE1 did eid Hd1 Hin). }
    assert (S01 : srcs b b1) by (apply srcs_edges_eq; reflexivity).
    eapply srcs_trans; [exact S01|].
    apply (fold_left_inv (fun a => gr b1 a /\ srcs b1 a)).
    - split; [apply gr_refl|apply srcs_refl].
    - intros a eid Hin (Ga & Sa). split.
      + eapply gr_trans; [exact Ga|apply gr_redirect_step].
      + eapply srcs_trans; [exact Sa|]. apply srcs_redirect_step.
        pose proof (gr_edges_len _ _ Ga). specialize (Hall eid Hin). lia.
  Qed.

  Lemma srcs_drop_fold merged mid mrg (m2 : mdd) :
    Rinv mid m2 -> (forall x, In x mrg -> x < length (m_nodes m2)) ->
    srcs m2 (fold_left (drop_step inp merged mid) mrg m2).
  Proof.
    intros HR Hmrg.
    apply (fold_left_inv (fun b => Rinv mid b /\ gr m2 b /\ srcs m2 b)).
    - split; [exact HR|]. split; [apply gr_refl|apply srcs_refl].
    - intros b x Hx (Rb & Gb & Sb).
      assert (Hxb : x < length (m_nodes b)) by (pose proof (gr_nodes _ _ Gb); specialize (Hmrg x Hx); lia).
      split; [apply Rinv_drop_step; auto|]. split.
      + eapply gr_trans; [exact Gb|apply gr_drop_step].
      + eapply srcs_trans; [exact Sb|apply srcs_drop_step; auto].
  Qed.

  Lemma drop_fold_track merged mid mrg (m2 : mdd) :
    Rinv mid m2 -> (forall x, In x mrg -> x < length (m_nodes m2)) ->
    let m3 := fold_left (drop_step inp merged mid) mrg m2 in
    Rinv mid m3 /\ gr m2 m3 /\
    forall i0 c0 sc0 u ds0 d0 t s0 eid0, In u mrg -> In eid0 (n_inb (gn m2 u)) ->
      dpath m2 i0 c0 sc0 ds0 t s0 -> In t (nth (i0 + length ds0) (m_layers m2) []) ->
      e_from (get_edge m2 eid0) = t -> e_dec (get_edge m2 eid0) = d0 ->
      (transition_cost pb s0 (transition pb s0 d0) d0 <= e_cost (get_edge m2 eid0))%Z ->
      cov (n_state (gn m2 mid)) (transition pb s0 d0) ->
      dpath m3 i0 c0 sc0 (ds0 ++ [d0]) mid (transition pb s0 d0).
  Proof.
    intros HR Hmrg. cbv zeta.
    assert (Hstep : forall b x, In x mrg -> Rinv mid b /\ gr m2 b ->
               Rinv mid (drop_step inp merged mid b x) /\ gr m2 (drop_step inp merged mid b x)).
    { intros b x Hx (Rb & Gb). split.
      - apply Rinv_drop_step; [exact Rb|]. pose proof (gr_nodes _ _ Gb). specialize (Hmrg x Hx). lia.
      - eapply gr_trans; [exact Gb|apply gr_drop_step]. }
    assert (Hall : Rinv mid (fold_left (drop_step inp merged mid) mrg m2) /\
                   gr m2 (fold_left (drop_step inp merged mid) mrg m2)).
    { apply (fold_left_inv (fun b => Rinv mid b /\ gr m2 b)); [split; [exact HR|apply gr_refl]|].
      intros b x Hx Hb. apply Hstep; assumption. }
    destruct Hall as [A1 A2]. split; [exact A1|]. split; [exact A2|].
    intros i0 c0 sc0 u ds0 d0 t s0 eid0 Hu Hin Hp Hlay Hf Hd Hcost Hcov.
    assert (Hmid2 : mid < length (m_nodes m2)) by apply HR.
    assert (Hu2 : u < length (m_nodes m2)) by (apply Hmrg; exact Hu).
    assert (He2 : eid0 < length (m_edges m2)).
    { destruct HR as (HE & _). apply (E_inb _ HE u eid0 Hu2 Hin). }
    set (P := fun b : mdd => dpath b i0 c0 sc0 (ds0 ++ [d0]) mid (transition pb s0 d0)).
    apply (fold_left_hit (fun b => Rinv mid b /\ gr m2 b) P (drop_step inp merged mid) mrg m2 u Hu).
    - split; [exact HR|apply gr_refl].
    - intros b y Hy Hb. apply Hstep; assumption.
    - intros b (Rb & Gb). unfold drop_step. rewrite redirect_edges_fold.
      set (b1 := upd_node b u (fun n => set_flags n (fl_set_deleted (n_flags n) true))).
      assert (HR1 : Rinv mid b1) by (apply (Rinv_upd_flag mid b u (fun n => fl_set_deleted (n_flags n) true)); auto).
      assert (G1 : gr m2 b1).
      { eapply gr_trans; [exact Gb|]. unfold b1. apply gr_upd_node; intros; reflexivity. }
      assert (Hu1 : u < length (m_nodes b1)) by (pose proof (gr_nodes _ _ G1); lia).
      assert (Hin1 : In eid0 (n_inb (gn b1 u))) by (destruct G1 as [_ I1]; apply I1; exact Hin).
      assert (Hall1 : forall eid, In eid (n_inb (gn b1 u)) -> eid < length (m_edges b1)).
      { intros eid Hi. destruct HR1 as (HE1 & _). apply (E_inb _ HE1 u eid Hu1 Hi). }
      apply (fold_left_hit (fun c => Rinv mid c /\ gr b1 c) P (redirect_step inp merged mid)
               (n_inb (gn b1 u)) b1 eid0 Hin1).
      + split; [exact HR1|apply gr_refl].
      + intros c y Hy (Rc & Gc). split.
        * apply Rinv_redirect_step; [exact Rc|]. pose proof (gr_edges_len _ _ Gc). specialize (Hall1 y Hy). lia.
        * eapply gr_trans; [exact Gc|apply gr_redirect_step].
      + intros c (Rc & Gc). assert (G2c : gr m2 c) by (eapply gr_trans; eauto).
        apply (redirect_step_track merged mid c i0 c0 sc0 eid0 ds0 t s0 d0).
        * apply Rc.
        * pose proof (gr_edges_len _ _ G2c). lia.
        * eapply dpath_gr; eauto.
        * rewrite (gr_layers _ _ G2c). exact Hlay.
        * rewrite (gr_edge _ _ eid0 G2c He2). exact Hf.
        * rewrite (gr_edge _ _ eid0 G2c He2). exact Hd.
        * rewrite (gr_edge _ _ eid0 G2c He2). exact Hcost.
        * rewrite (gr_state _ _ mid G2c Hmid2). exact Hcov.
      + intros c y Hy (Rc & Gc) Pc. unfold P in *. eapply dpath_gr; [apply gr_redirect_step|exact Pc].
    - intros b y Hy (Rb & Gb) Pb. unfold P in *. eapply dpath_gr; [apply gr_drop_step|exact Pb].
  Qed.

  Lemma dpath_snoc_inv m i u s ds t' s'' :
    dpath m i u s ds t' s'' -> ds <> [] ->
    exists ds0 d0 t s0 eid0, ds = ds0 ++ [d0] /\ s'' = transition pb s0 d0 /\
      dpath m i u s ds0 t s0 /\ In t (nth (i + length ds0) (m_layers m) []) /\
      t' < length (m_nodes m) /\ eid0 < length (m_edges m) /\ In eid0 (n_inb (gn m t')) /\
      e_from (get_edge m eid0) = t /\ e_dec (get_edge m eid0) = d0 /\
      (transition_cost pb s0 (transition pb s0 d0) d0 <= e_cost (get_edge m eid0))%Z /\
      cov (n_state (gn m t')) (transition pb s0 d0).
  Proof.
    intros Hp Hne. destruct Hp as [i u s Hu Hc|i u s ds t s' d eid t' Hp Hlay Ht' He Hin Hf Hd Hcost Hcov].
    - congruence.
    - exists ds, d, t, s', eid. repeat split; auto.
  Qed.

  Lemma is_exact_set_relaxed (n : node) : fl_is_exact (n_flags (set_relaxed_flag n)) = false.
  Proof. unfold set_relaxed_flag, fl_is_exact. nsimpl. apply andb_false_r. Qed.

  Lemma relax_layer_sim (m : mdd) l dd :
    Dinv inp m -> Einv m -> layer_ok inp m l dd -> ci_width inp < length l ->
    Einv (fst (relax_layer st_eqb inp m l)) /\ gr m (fst (relax_layer st_eqb inp m l)) /\
    srcs m (fst (relax_layer st_eqb inp m l)) /\
    forall i0 c0 sc0 u ds s', In u l -> ds <> [] -> dpath m i0 c0 sc0 ds u s' ->
      exists u', In u' (snd (relax_layer st_eqb inp m l)) /\
                 dpath (fst (relax_layer st_eqb inp m l)) i0 c0 sc0 ds u' s'.
  Proof.
    intros HD HE Hl Hw.
    assert (Hex : exists w1, ci_width inp = S w1) by (exists (ci_width inp - 1); lia).
    destruct Hex as [w1 Ew]. rewrite Ew in Hw.
    rewrite (relax_layer_unfold st_eqb inp m l w1 Ew). cbv zeta.
    destruct (note_squash_fields inp Hclean m) as (F1 & F2 & F3 & F4 & F5 & F6 & F7 & F8 & F9).
    set (m0 := note_squash inp m) in *.
    assert (Hgn0 : forall k, gn m0 k = gn m k) by (intros k; apply gn_nodes_eq; exact F1).
    assert (G0 : gr m m0) by (split; [apply ext_note_squash|apply inbinc_same_nodes; exact F1]).
    assert (HE0 : Einv m0).
    { eapply Einv_frame; [exact F1|exact F2| | |exact HE]; [lia|]. rewrite F5, F1. apply (E_le _ HE). }
    set (sorted := sort_by (rank_order inp m0) l).
    assert (Hsorted : forall x, In x sorted <-> In x l) by (intros x; apply sort_by_In).
    set (keep := firstn w1 sorted). set (mrg := skipn w1 sorted).
    assert (Hsplit : sorted = keep ++ mrg) by (symmetry; apply firstn_skipn).
    set (mstates := map (fun id => n_state (gn m0 id)) mrg).
    set (merged := merge (ci_relax inp) mstates).
    set (m1 := add_log m0 (EvMerge mstates merged)).
    assert (G1 : gr m m1) by (eapply gr_trans; [exact G0|apply gr_add_log]).
    assert (HE1 : Einv m1).
    { eapply Einv_frame; [| | | |exact HE0]; try reflexivity. apply (E_le _ HE0). }
    assert (Hl1 : forall x, In x l -> m_layer_end m1 <= x < length (m_nodes m1)).
    { intros x Hx. destruct (Hl x Hx) as [Hr _]. change (m_layer_end m1) with (m_layer_end m0).
      change (length (m_nodes m1)) with (length (m_nodes m0)). rewrite F5, F1. exact Hr. }
    assert (Hkeep : forall x, In x keep -> In x l).
    { intros x Hx. apply Hsorted. rewrite Hsplit. apply in_or_app; left; exact Hx. }
    assert (Hmrg : forall x, In x mrg -> In x l).
    { intros x Hx. apply Hsorted. rewrite Hsplit. apply in_or_app; right; exact Hx. }
    (* the common argument once the merged node [mid] is in place in [m2] *)
    assert (Core : forall (m2 : mdd) mid, gr m m2 -> Rinv mid m2 -> n_state (gn m2 mid) = merged ->
              length (m_nodes m1) <= length (m_nodes m2) ->
              let m3 := fold_left (drop_step inp merged mid) mrg m2 in
              Einv m3 /\ gr m m3 /\ srcs m2 m3 /\
              forall i0 c0 sc0 u ds s', In u mrg -> ds <> [] -> dpath m i0 c0 sc0 ds u s' -> dpath m3 i0 c0 sc0 ds mid s').
    { intros m2 mid G2 R2 Hst Hlen. cbv zeta.
      assert (Hmrg2 : forall x, In x mrg -> x < length (m_nodes m2)).
      { intros x Hx. apply Hmrg in Hx. apply Hl1 in Hx. lia. }
      destruct (drop_fold_track merged mid mrg m2 R2 Hmrg2) as (T1 & T2 & T3).
      split; [apply T1|]. split; [eapply gr_trans; eauto|].
      split; [apply srcs_drop_fold; auto|].
      intros i0 c0 sc0 u ds s' Hu Hne Hp.
      destruct (dpath_snoc_inv _ _ _ _ _ _ _ Hp Hne) as (ds0 & d0 & t & s0 & eid0 & -> & -> & P0 & P1 & P2 & P3 & P4 & P5 & P6 & P7 & P8).
      apply (T3 i0 c0 sc0 u ds0 d0 t s0 eid0 Hu).
      - destruct G2 as [_ I2]. apply I2. exact P4.
      - eapply dpath_gr; eauto.
      - rewrite (gr_layers _ _ G2). exact P1.
      - rewrite (gr_edge _ _ eid0 G2 P3). exact P5.
      - rewrite (gr_edge _ _ eid0 G2 P3). exact P6.
      - rewrite (gr_edge _ _ eid0 G2 P3). exact P7.
      - rewrite Hst. unfold merged. fold rlx. apply (merge_cov mstates (n_state (gn m u))).
        + unfold mstates. rewrite <- Hgn0. apply (in_map (fun id => n_state (gn m0 id))). exact Hu.
        + exact P8. }
    destruct (find (fun id => st_eqb (n_state (gn m1 id)) merged) keep) as [rid|] eqn:Hrec.
    - (* recycled *)
      apply find_some in Hrec. destruct Hrec as [Hin Heq]. apply st_eqb_spec in Heq.
      pose proof (Hl1 rid (Hkeep rid Hin)) as Hr.
      set (m2 := upd_node m1 rid set_relaxed_flag).
      assert (G12 : gr m1 m2) by (unfold m2; apply gr_upd_node; intros; reflexivity).
      assert (HE2 : Einv m2).
      { unfold m2. apply Einv_upd_open; [exact HE1|lia|]. intros n.
        repeat split; auto. rewrite is_exact_set_relaxed. discriminate. }
      assert (R2 : Rinv rid m2).
      { split; [exact HE2|]. split; [change (m_layer_end m2) with (m_layer_end m1); lia|].
        split; [unfold m2; msimpl; rewrite upd_nth_length; lia|].
        unfold m2. rewrite gn_upd_same by lia. reflexivity. }
      destruct (Core m2 rid) as (C1 & C2 & C2s & C3).
      { eapply gr_trans; eauto. } { exact R2. }
      { unfold m2. rewrite gn_upd_same by lia. exact Heq. }
      { unfold m2. msimpl. rewrite upd_nth_length. lia. }
      cbv zeta in C1, C2, C2s, C3.
      set (m3 := fold_left (drop_step inp merged rid) mrg m2) in *.
      cbn [fst snd].
      set (m4 := upd_node m3 (nth w1 sorted 0) clear_deleted_flag).
      assert (Hc4 : ceq inp m3 m4).
      { unfold m4. apply ceq_upd_node. intros n. apply core_eq_set_flags_nc; reflexivity. }
      assert (G34 : gr m3 m4) by (unfold m4; apply gr_upd_node; intros; reflexivity).
      split; [eapply Einv_ceq; eauto|]. split; [eapply gr_trans; eauto|].
      split.
      { eapply srcs_trans; [apply (srcs_edges_eq m m2); unfold m2; msimpl; exact F2|].
        eapply srcs_trans; [exact C2s|]. apply srcs_edges_eq. reflexivity. }
      intros i0 c0 sc0 u ds s' Hu Hne Hp. apply Hsorted in Hu. rewrite Hsplit in Hu. apply in_app_or in Hu.
      destruct Hu as [Hu|Hu].
      + exists u. split.
        * assert (Hfs : firstn (S w1) sorted = firstn (S w1) (keep ++ mrg)) by (rewrite <- Hsplit; reflexivity).
          rewrite Hfs. rewrite firstn_app. apply in_or_app. left.
          rewrite firstn_all2; [exact Hu|]. unfold keep. rewrite firstn_length. lia.
        * eapply dpath_gr; [|exact Hp]. eapply gr_trans; eauto.
      + exists rid. split.
        * assert (Hfs : firstn (S w1) sorted = firstn (S w1) (keep ++ mrg)) by (rewrite <- Hsplit; reflexivity).
          rewrite Hfs. rewrite firstn_app. apply in_or_app. left.
          rewrite firstn_all2; [exact Hin|]. unfold keep. rewrite firstn_length. lia.
        * eapply dpath_gr; [exact G34|]. apply (C3 i0 c0 sc0 u); auto.
    - (* fresh merged node *)
      set (mid := length (m_nodes m1)).
      set (n := merged_node merged (n_depth (gn m1 (hd 0 mrg)))).
      set (m1' := with_nodes m1 (m_nodes m1 ++ [n])).
      set (m2 := upd_node m1' mid set_relaxed_flag).
      assert (Hlen1' : length (m_nodes m1') = S mid) by apply len_snoc.
      assert (G11' : gr m1 m1') by apply gr_snoc.
      assert (G12 : gr m1' m2) by (unfold m2; apply gr_upd_node; intros; reflexivity).
      assert (HE1' : Einv m1') by (apply Einv_snoc; [exact HE1|reflexivity]).
      pose proof (E_le _ HE1) as Hle1.
      assert (HE2 : Einv m2).
      { unfold m2. apply Einv_upd_open; [exact HE1'|exact Hle1|]. intros n0.
        repeat split; auto. rewrite is_exact_set_relaxed. discriminate. }
      assert (R2 : Rinv mid m2).
      { split; [exact HE2|]. split; [exact Hle1|].
        split; [unfold m2; msimpl; rewrite upd_nth_length; fold m1'; lia|].
        unfold m2. rewrite gn_upd_same by lia. reflexivity. }
      destruct (Core m2 mid) as (C1 & C2 & C2s & C3).
      { eapply gr_trans; [exact G1|]. eapply gr_trans; eauto. } { exact R2. }
      { unfold m2. rewrite gn_upd_same by lia. unfold m1', mid. rewrite gn_snoc_new. reflexivity. }
      { unfold m2. msimpl. rewrite upd_nth_length. fold m1'. lia. }
      cbv zeta in C1, C2, C2s, C3. cbn [fst snd].
      split; [exact C1|]. split; [exact C2|].
      split.
      { eapply srcs_trans; [apply (srcs_edges_eq m m2); unfold m2, m1'; msimpl; exact F2|exact C2s]. }
      intros i0 c0 sc0 u ds s' Hu Hne Hp. apply Hsorted in Hu. rewrite Hsplit in Hu. apply in_app_or in Hu.
      destruct Hu as [Hu|Hu].
      + exists u. split; [apply in_or_app; left; exact Hu|]. eapply dpath_gr; eauto.
      + exists mid. split; [apply in_or_app; right; left; reflexivity|]. apply (C3 i0 c0 sc0 u); auto.
  Qed.

  (* Restricted compilations stop tracking at their first truncation (m_lel is set by the first squash); Relaxed and
     Exact ones never stop *)
  Definition enabled (m : mdd) : Prop := ci_type inp = Restricted -> m_lel m = None.

  Lemma expand_layer_lel var l (m : mdd) : m_lel (fold_left (expand_node st_eqb inp var) l m) = m_lel m.
  Proof. apply inert_fold_expand, inert_lel. Qed.

  Lemma squash_sim (mc : mdd) lc dd :
    Dinv inp mc -> Xinv inp mc -> Einv mc -> layer_ok inp mc lc dd ->
    Einv (fst (squash_if_needed st_eqb inp mc lc)) /\ gr mc (fst (squash_if_needed st_eqb inp mc lc)) /\
    srcs mc (fst (squash_if_needed st_eqb inp mc lc)) /\
    (enabled (fst (squash_if_needed st_eqb inp mc lc)) -> enabled mc) /\
    forall i0 c0 sc0 u ds s', In u lc -> (1 < length (m_layers mc) -> ds <> []) ->
      enabled (fst (squash_if_needed st_eqb inp mc lc)) -> dpath mc i0 c0 sc0 ds u s' ->
      exists u', In u' (snd (squash_if_needed st_eqb inp mc lc)) /\
                 dpath (fst (squash_if_needed st_eqb inp mc lc)) i0 c0 sc0 ds u' s'.
  Proof.
    intros HD HX HE Hl. unfold squash_if_needed.
    assert (Htriv : Einv mc /\ gr mc mc /\ srcs mc mc /\ (enabled mc -> enabled mc) /\
              forall i0 c0 sc0 u ds s', In u lc -> (1 < length (m_layers mc) -> ds <> []) -> enabled mc ->
                dpath mc i0 c0 sc0 ds u s' -> exists u', In u' lc /\ dpath mc i0 c0 sc0 ds u' s').
    { split; [exact HE|]. split; [apply gr_refl|]. split; [apply srcs_refl|]. split; [auto|].
      intros i0 c0 sc0 u ds s' Hu _ _ Hp. exists u; auto. }
    destruct (ci_type inp) eqn:Et.
    - exact Htriv.
    - destruct (Nat.ltb (ci_width inp) (length lc) && Nat.ltb 1 (length (m_layers mc))) eqn:Eg; [|exact Htriv].
      apply andb_true_iff in Eg. destruct Eg as [E1 E2].
      apply Nat.ltb_lt in E1. apply Nat.ltb_lt in E2.
      destruct (relax_layer_sim mc lc dd HD HE Hl E1) as (R1 & R2 & R2s & R3).
      split; [exact R1|]. split; [exact R2|]. split; [exact R2s|]. split.
      + intros _ Ht. rewrite Et in Ht. discriminate.
      + intros i0 c0 sc0 u ds s' Hu Hne _ Hp. apply (R3 i0 c0 sc0 u); auto.
    - destruct (Nat.ltb (ci_width inp) (length lc)) eqn:Eg; [|exact Htriv].
      unfold restrict_layer. cbv zeta. cbn [fst snd].
      destruct (note_squash_fields inp Hclean mc) as (F1 & F2 & F3 & F4 & F5 & F6 & F7 & F8 & F9).
      set (m0 := note_squash inp mc) in *.
      assert (G0 : gr mc m0) by (split; [apply ext_note_squash|apply inbinc_same_nodes; exact F1]).
      assert (HE0 : Einv m0).
      { eapply Einv_frame; [exact F1|exact F2| | |exact HE]; [lia|]. rewrite F5, F1. apply (E_le _ HE). }
      set (ids := skipn (ci_width inp) (sort_by (rank_order inp m0) lc)).
      pose proof (mark_deleted_ceq inp ids m0) as Hc.
      assert (Hlel : m_lel (mark_deleted m0 ids) <> None).
      { destruct Hc as (_ & _ & _ & _ & Hlel & _). rewrite Hlel, F8. destruct (m_lel mc); discriminate. }
      split; [eapply Einv_ceq; eauto|]. split.
      { eapply gr_trans; [exact G0|]. apply gr_ceq; [exact Hc|apply ext_mark_deleted]. }
      split.
      { apply srcs_edges_eq. destruct Hc as ((Hce & _) & _). rewrite Hce. exact F2. }
      split.
      + intros Hen. exfalso. apply Hlel. apply Hen. exact Et.
      + intros i0 c0 sc0 u ds s' _ _ Hen. exfalso. apply Hlel. apply Hen. exact Et.
  Qed.

  Lemma dpath_ceq m m' i u s ds t s' : ceq inp m m' -> dpath m i u s ds t s' -> dpath m' i u s ds t s'.
  Proof.
    intros (Hp & _ & _ & Hl & _) H. eapply dpath_peq; eauto. intros k x. rewrite Hl. auto.
  Qed.

  (* the diagram the dominance filter of _move_to_next_layer runs on: the cache filter changes no node and no store *)
  Definition prefiltered (m : mdd) : mdd := fst (prefilter st_eqb inp (with_next m []) (m_next m)).

  Lemma prefiltered_spec (m : mdd) :
    ceq inp (with_next m []) (prefiltered m) /\ snd (prefilter st_eqb inp (with_next m []) (m_next m)) = m_next m /\
    (forall x, core_eq (gn m x) (gn (prefiltered m) x)) /\ m_dom (prefiltered m) = m_dom m.
  Proof.
    unfold prefiltered.
    assert (Hb : ceq inp (with_next m []) (fst (prefilter st_eqb inp (with_next m []) (m_next m))) /\
                 snd (prefilter st_eqb inp (with_next m []) (m_next m)) = m_next m).
    { unfold prefilter. destruct (Nat.ltb 0 (length (m_layers (with_next m [])))).
      - split; [apply (filter_with_cache_ceq st_eqb inp Hclean)|apply filter_with_cache_nocache].
      - split; [apply ceq_refl|reflexivity]. }
    destruct Hb as [Hc Hl]. split; [exact Hc|]. split; [exact Hl|]. split; [|exact (dom_prefilter st_eqb inp (with_next m []) (m_next m))].
    intros x. destruct Hc as ((_ & _ & _ & A4) & _). exact (A4 x).
  Qed.

  (* what one call of _move_to_next_layer establishes between the diagram [m] before, with its open layer m_next m at
     depth d, and the diagram [m3] after: the layer [ids] is closed, its surviving nodes [l] are to be expanded.
     [keep] is a set of nodes of the open layer that the dominance filter is known not to drop: only paths ending in
     such a node are promised a continuation (eighth clause) *)
  Definition moved (keep : nat -> Prop) (m m3 : mdd) (l ids : list nat) (d : nat) : Prop :=
    Cinv (S d) m3 /\ m_next m3 = [] /\
    (forall id, In id l -> id < m_layer_end m3 /\ n_depth (gn m3 id) = d) /\
    m_curr_depth m3 = m_curr_depth m /\ m_layers m3 = m_layers m ++ [ids] /\
    (forall id, In id l -> In id ids) /\
    (enabled m3 -> enabled m) /\
    (forall i0 c0 sc0 u ds s', In u (m_next m) -> keep u -> (1 < length (m_layers m) -> ds <> []) -> enabled m3 ->
      dpath m i0 c0 sc0 ds u s' -> exists u', In u' l /\ dpath m3 i0 c0 sc0 ds u' s') /\
    srcs m m3 /\
    (forall x, x < m_layer_end m -> core_eq (gn m x) (gn m3 x)) /\
    (forall x, Src m3 x -> ~ In x ids) /\
    (forall x, In x ids -> m_layer_end m <= x) /\
    m_layer_end m <= m_layer_end m3.

  (* Whatever the dominance filter does, the paths that reach a node of the layer which the filter keeps are continued
     to a node of the layer handed to the expansion. *)
  Lemma move_sim_keep (keep : nat -> Prop) (m : mdd) d :
    Cinv d m -> m_next m <> [] ->
    (forall u, In u (m_next m) -> keep u -> In u (snd (filter_with_dominance inp (prefiltered m) (m_next m)))) ->
    exists m3 l ids, move_to_next_layer_clean st_eqb inp m = (m3, Some l) /\ moved keep m m3 l ids d /\
      m_dom m3 = m_dom (fst (filter_with_dominance inp (prefiltered m) (m_next m))).
  Proof.
    intros (HD & HX & Hnd & HE) Hne Hkeep.
    destruct (prefiltered_spec m) as (Hcb & Hlb & _). unfold prefiltered in *.
    rewrite move_clean_unfold.
    destruct (m_next m) as [|c0 cs] eqn:En; [congruence|].
    set (curr := c0 :: cs) in *.
    set (ma := with_next m []).
    assert (Hpa : peq inp m ma) by (apply peq_same_nodes; reflexivity).
    assert (HDa : Dinv inp ma).
    { eapply (Dg_peq inp Hclean); [exact Hpa|exact HD|apply Nat.le_refl|apply (D_le _ _ _ HD)|]. intros id []. }
    assert (HXa : Xinv inp ma) by (eapply Xg_peq; [exact Hpa|reflexivity|reflexivity|reflexivity|exact HX]).
    assert (HEa : Einv ma).
    { eapply Einv_frame; [| | | |exact HE]; try reflexivity. apply (E_le _ HE). }
    assert (Hla : layer_ok inp ma curr d).
    { intros id Hid. rewrite <- En in Hid. split; [apply (D_next _ _ _ HD id Hid)|apply Hnd; exact Hid]. }
    fold ma in Hcb, Hlb, Hkeep |- *.
    destruct (prefilter st_eqb inp ma curr) as [mb lb0]. cbn [fst snd] in Hcb, Hlb, Hkeep |- *. subst lb0.
    pose proof (filter_with_dominance_ceq inp mb curr) as [Hcc Hlc].
    destruct (filter_with_dominance inp mb curr) as [mc lc]. cbn [fst snd] in Hcc, Hlc, Hkeep.
    assert (Hac : ceq inp ma mc) by (eapply ceq_trans; eauto).
    assert (HDc : Dinv inp mc) by (eapply (Dg_ceq inp Hclean); eauto).
    assert (HXc : Xinv inp mc) by (eapply Xinv_ceq; eauto).
    assert (HEc : Einv mc) by (eapply Einv_ceq; eauto).
    assert (Hlcl : layer_ok inp mc lc d).
    { eapply layer_ok_stable; [apply ceq_stable; exact Hac|exact Hla|exact Hlc]. }
    assert (Hnc : m_next mc = []) by (destruct Hac as (_ & Hn & _); rewrite Hn; reflexivity).
    (* squash *)
    destruct (squash_if_needed_inv st_eqb inp Hclean mc lc d HDc HXc Hlcl) as (Q1 & Q2 & Q3 & Q4 & Q5).
    destruct (squash_sim mc lc d HDc HXc HEc Hlcl) as (S1 & S2 & S2s & S3 & S4).
    pose proof (inert_squash_if_needed st_eqb inp _ (inert_dom inp) (fun _ _ _ => eq_refl) mc lc Hwidth) as Hdq.
    destruct (squash_if_needed st_eqb inp mc lc) as [md ld]. cbn [fst snd] in *.
    set (from := m_layer_end md). set (to := length (m_nodes md)).
    assert (Hft : from <= to) by apply (D_le _ _ _ Q1).
    set (m3 := push_layer md (seq from (to - from)) to).
    assert (Hp : peq inp md m3) by (apply peq_same_nodes; reflexivity).
    exists m3, ld, (seq from (to - from)).
    split; [reflexivity|].
    assert (Hlay3 : m_layers m3 = m_layers m ++ [seq from (to - from)]).
    { unfold m3. msimpl. f_equal. rewrite (gr_layers _ _ S2).
      destruct Hac as (_ & _ & _ & Hl & _). rewrite Hl. reflexivity. }
    assert (Hle_mc : m_layer_end mc = m_layer_end m).
    { destruct Hac as (_ & _ & Hl & _). rewrite Hl. reflexivity. }
    assert (Hle_md : m_layer_end md = m_layer_end m).
    { destruct Q3 as (q1 & _). rewrite q1. exact Hle_mc. }
    split; [|exact Hdq].
    split; [|split; [|split; [|split; [|split; [|split; [|split; [|split; [|split; [|split; [|split; [|split]]]]]]]]]]].
    - split; [|split; [|split]].
      + eapply (Dg_peq inp Hclean); [exact Hp|exact Q1|exact Hft|apply Nat.le_refl|].
        intros id Hid. unfold m3 in Hid. msimpl_in Hid. rewrite Q4, Hnc in Hid. destruct Hid.
      + apply Xg_push_layer.
        * eapply Xg_weaken; [|exact Q2]. exact Hft.
        * apply Nat.le_refl.
        * intros id Hid. apply in_seq in Hid. unfold m3. msimpl. unfold from, to in *. lia.
      + intros id Hid. unfold m3 in Hid. msimpl_in Hid. rewrite Q4, Hnc in Hid. destruct Hid.
      + apply (Einv_frame md m3); [reflexivity|reflexivity|exact Hft|apply Nat.le_refl|exact S1].
    - unfold m3. msimpl. rewrite Q4. exact Hnc.
    - intros id Hid. destruct (Q5 id Hid) as [Hr Hdp]. unfold m3. msimpl. split; [unfold to; lia|exact Hdp].
    - unfold m3. msimpl. destruct Q3 as (_ & _ & _ & _ & q5). rewrite q5.
      destruct Hac as (_ & _ & _ & _ & _ & _ & a7). rewrite a7. reflexivity.
    - exact Hlay3.
    - intros id Hid. destruct (Q5 id Hid) as [Hr _]. apply in_seq. unfold from, to. lia.
    - intros Hen. assert (Hmc : enabled mc) by (apply S3; exact Hen).
      intros Ht. specialize (Hmc Ht). destruct Hac as (_ & _ & _ & _ & Hlel & _). rewrite Hlel in Hmc. exact Hmc.
    - intros i0 cc0 sc0 u ds s' Hu Hk Hds Hen Hpth.
      assert (Hpc : dpath mc i0 cc0 sc0 ds u s').
      { eapply dpath_ceq; [exact Hac|]. eapply dpath_peq; [exact Hpa| |exact Hpth]. auto. }
      destruct (S4 i0 cc0 sc0 u ds s') as (u' & Hu' & Hp').
      + rewrite En in Hu. apply Hkeep; assumption.
      + intros H1. apply Hds. destruct Hac as (_ & _ & _ & Hl & _). rewrite Hl in H1. exact H1.
      + exact Hen.
      + exact Hpc.
      + exists u'. split; [exact Hu'|]. eapply dpath_peq; [exact Hp| |exact Hp'].
        intros k x. unfold m3. msimpl. apply nth_layers_app.
    - eapply srcs_trans; [|eapply srcs_trans; [exact S2s|apply srcs_edges_eq; reflexivity]].
      apply srcs_edges_eq. destruct Hac as ((Hce & _) & _). rewrite Hce. reflexivity.
    - intros x Hx.
      destruct Hpa as (_ & _ & _ & A4a). destruct Hac as ((_ & _ & _ & A4c) & _).
      destruct Q3 as (_ & _ & q3 & _). destruct Hp as (_ & _ & _ & A4p).
      eapply (core_eq_trans inp Hclean); [apply A4a|]. eapply (core_eq_trans inp Hclean); [apply A4c|].
      eapply (core_eq_trans inp Hclean); [apply q3; rewrite Hle_mc; exact Hx|apply A4p].
    - intros x (eid & He1 & He2) Hin. apply in_seq in Hin.
      change (m_edges m3) with (m_edges md) in He1. change (get_edge m3 eid) with (get_edge md eid) in He2.
      pose proof (E_from _ S1 eid He1) as Hf. rewrite He2 in Hf. unfold from in Hin. lia.
    - intros x Hin. apply in_seq in Hin. unfold from in Hin. lia.
    - unfold m3. msimpl. unfold to, from in *. lia.
  Qed.

  (* without a rule every node is kept: [moved (fun _ => True)], written out *)
  Lemma move_sim (m : mdd) d :
    Cinv d m -> m_next m <> [] ->
    exists m3 l ids, move_to_next_layer_clean st_eqb inp m = (m3, Some l) /\
      Cinv (S d) m3 /\ m_next m3 = [] /\
      (forall id, In id l -> id < m_layer_end m3 /\ n_depth (gn m3 id) = d) /\
      m_curr_depth m3 = m_curr_depth m /\ m_layers m3 = m_layers m ++ [ids] /\
      (forall id, In id l -> In id ids) /\
      (enabled m3 -> enabled m) /\
      (forall i0 c0 sc0 u ds s', In u (m_next m) -> (1 < length (m_layers m) -> ds <> []) -> enabled m3 ->
        dpath m i0 c0 sc0 ds u s' -> exists u', In u' l /\ dpath m3 i0 c0 sc0 ds u' s') /\
      srcs m m3 /\
      (forall x, x < m_layer_end m -> core_eq (gn m x) (gn m3 x)) /\
      (forall x, Src m3 x -> ~ In x ids) /\
      (forall x, In x ids -> m_layer_end m <= x) /\
      m_layer_end m <= m_layer_end m3.
  Proof using st_eqb_spec Hclean Hnocache Hnodom Hnocut Hwidth Hrd merge_cov relax_ge.
    intros HC Hne.
    destruct (move_sim_keep (fun _ => True) m d HC Hne)
      as (m3 & l & ids & A & (B1 & B2 & B3 & B4 & B5 & B6 & B7 & B8 & B9 & B10 & B11 & B12 & B13) & _).
    { intros u Hu _. apply filter_with_dominance_nodom. exact Hu. }
    exists m3, l, ids. repeat (split; [assumption|]).
    split; [|repeat (split; [assumption|]); assumption].
    intros i0 c0 sc0 u ds s' Hu. apply B8; auto.
  Qed.

  Lemma Src_branch_on (a : mdd) id d c : Src (branch_on st_eqb inp a id d) c -> Src a c \/ c = id.
  Proof.
    intros (eid & H1 & H2).
    destruct (branch_on_edge st_eqb inp a id d) as (e & He & Hf & _).
    rewrite He, app_length in H1. simpl in H1.
    destruct (Nat.eq_dec eid (length (m_edges a))) as [->|Hne].
    - right. rewrite (ge_snoc_new a _ e He) in H2. congruence.
    - left. exists eid. split; [lia|]. rewrite (ge_snoc_old a _ e eid He) in H2 by lia. exact H2.
  Qed.

  Lemma Src_expand_node var (a : mdd) id c : Src (expand_node st_eqb inp var a id) c -> Src a c \/ c = id.
  Proof.
    unfold expand_node. cbv zeta.
    set (a1 := upd_node a id _).
    assert (S1 : srcs a a1) by (apply srcs_edges_eq; reflexivity).
    destruct (_ >? _)%Z; [|intros H; left; apply S1; exact H].
    set (a2 := add_log a1 _).
    assert (S2 : srcs a a2) by (apply srcs_edges_eq; reflexivity).
    intros H.
    assert (G : forall l b, (forall x, Src b x -> Src a x \/ x = id) ->
              forall x, Src (fold_left (fun m0 val => branch_on st_eqb inp m0 id {| d_var := var; d_val := val |}) l b) x ->
              Src a x \/ x = id).
    { induction l as [|v l IH]; intros b Hb x Hx; simpl in Hx; [apply Hb; exact Hx|].
      apply (IH _ (fun y Hy => match Src_branch_on b id _ y Hy with
                               | or_introl H0 => Hb y H0 | or_intror H0 => or_intror H0 end) x Hx). }
    eapply (G _ a2); [|exact H]. intros x Hx. left. apply S2. exact Hx.
  Qed.

  Lemma Src_expand_layer var l : forall (a : mdd) c,
    Src (fold_left (expand_node st_eqb inp var) l a) c -> Src a c \/ In c l.
  Proof.
    induction l as [|id l IH]; intros a c H; simpl in H; [left; exact H|].
    destruct (IH _ c H) as [H1|H1]; [|right; right; exact H1].
    destruct (Src_expand_node var a id c H1) as [H2|H2]; [left; exact H2|right; left; congruence].
  Qed.

  Lemma frun_len_le ds : forall k s v r, frn k s v ds = Some r -> k <= N -> k + length ds <= N.
  Proof using Hnocut Hwidth Hrd nv_none. exact (frun_length pb nv_none ds). Qed.

  Definition Start (i : nat) (sc : St) (vc : Z) : Prop :=
    exists pre, frn rd rs rv pre = Some (sc, vc) /\ length pre = i.

  Lemma Start_isize i sc vc ds1 s1 v1 : Start i sc vc -> frn (rd + i) sc vc ds1 = Some (s1, v1) -> in_isize v1.
  Proof.
    intros (pre & Hp & Hl) Hr. apply (guard_isize (pre ++ ds1) s1). rewrite frun_app, Hp, Hl. exact Hr.
  Qed.

  Lemma Start_H_isize i sc vc ds1 s1 v1 h :
    Start i sc vc -> frn (rd + i) sc vc ds1 = Some (s1, v1) -> rd + i + length ds1 <= N ->
    H pb (rd + i + length ds1) s1 = Some h -> in_isize (v1 + h).
  Proof.
    intros (pre & Hp & Hl) Hr Hle Hh. subst i.
    apply (prefix_isize (pre ++ ds1) s1 v1 h); rewrite ?app_length, ?Nat.add_assoc; auto.
    rewrite frun_app, Hp. exact Hr.
  Qed.

  (* a clean chain is a feasible run from the root, and the node's value is the exact value of that run *)
  Lemma clean_chain_frun (m : mdd) id :
    Sinv inp m -> clean_chain inp m id -> id < length (m_nodes m) ->
    exists ds, frn rd rs rv ds = Some (n_state (gn m id), n_vtop (gn m id)) /\
               n_depth (gn m id) = rd + length ds.
  Proof.
    intros HS Hcc. induction Hcc as [Hr Hb|id eid Hr Hb Hcc IH]; intros Hid.
    - destruct (S_root _ _ HS) as (r1 & r2 & r3 & r4 & r5). exists []. simpl.
      rewrite r2, r3, r4. fold root. split; [reflexivity|unfold rd; lia].
    - destruct (S_nodes _ _ HS id Hid) as [_ Hok]. specialize (Hok Hr). rewrite Hb in Hok.
      destruct Hok as (b1 & b2 & b3 & b4 & b5 & b6 & b7 & b8 & b9).
      set (e := get_edge m eid) in *. set (p := e_from e) in *.
      destruct IH as (ds & Hrun & Hdep); [lia|].
      exists (ds ++ [e_dec e]).
      assert (Hvar : var_ok pb (rd + length ds) (e_dec e) = true).
      { destruct (S_var _ _ HS eid b1) as [st Hst]. fold e in Hst. fold p in Hst. rewrite Hdep in Hst.
        apply (var_ok_spec pb nv_static _ _ st). exact Hst. }
      assert (Hrun' : frn rd rs rv (ds ++ [e_dec e]) =
                Some (n_state (gn m id), (n_vtop (gn m p) + e_cost e)%Z)).
      { rewrite (frun_snoc pb rd rs rv ds (e_dec e) _ _ Hrun). rewrite Hvar. fold pb in b6. rewrite b6. simpl.
        fold pb in b4, b5. rewrite <- b4, <- b5. reflexivity. }
      split.
      + rewrite Hrun'. f_equal. f_equal. rewrite b7. unfold sat_add. rewrite clampZ_id; [reflexivity|].
        eapply guard_isize; eauto.
      + rewrite b8, Hdep, app_length. simpl. lia.
  Qed.

  (* a node-local invariant: no cut-set flag before _finalize; the rough bound of a node is IMAX or the user's bound
     of its state *)
  Definition Pn (n : node) : Prop :=
    f_cutset (n_flags n) = false /\ f_marked (n_flags n) = false /\
    (n_rub n = IMAX \/ n_rub n = fast_upper_bound rlx (n_state n)).
  Definition Ninv (m : mdd) : Prop := Forall Pn (m_nodes m).

  Lemma Ninv_node (m : mdd) x : Ninv m -> x < length (m_nodes m) -> Pn (gn m x).
  Proof. intros HN Hx. unfold Ninv in HN. rewrite Forall_forall in HN. apply HN. apply nth_In. exact Hx. Qed.

  (* the rough bound of a node dominates every completion of its state *)
  Lemma Ninv_rub_adm (m : mdd) x k h :
    Ninv m -> x < length (m_nodes m) -> H pb k (n_state (gn m x)) = Some h -> (h <= IMAX)%Z ->
    (h <= n_rub (gn m x))%Z.
  Proof.
    intros HN Hx Hh Hi. destruct (Ninv_node m x HN Hx) as (_ & _ & [Q|Q]); rewrite Q; [exact Hi|].
    apply (rub_adm k _ (n_state (gn m x)) h); [apply cov_refl|exact Hh].
  Qed.

  (* [Pn] reads only the state, the rough bound and the two flags; a fresh node has the bound IMAX *)
  Lemma Pn_reads (n n' : node) :
    n_state n' = n_state n -> n_rub n' = n_rub n -> f_cutset (n_flags n') = f_cutset (n_flags n) ->
    f_marked (n_flags n') = f_marked (n_flags n) -> Pn n -> Pn n'.
  Proof. unfold Pn. intros -> -> -> ->. auto. Qed.

  Lemma Pn_fresh (n : node) : n_rub n = IMAX -> f_cutset (n_flags n) = false -> f_marked (n_flags n) = false -> Pn n.
  Proof. intros Hr Hc Hm. split; [exact Hc|split; [exact Hm|left; exact Hr]]. Qed.

  Lemma Pn_rub (n : node) : Pn n -> Pn (set_rub n (fast_upper_bound rlx (n_state n))).
  Proof. intros (Hc & Hm & _). split; [exact Hc|split; [exact Hm|right; reflexivity]]. Qed.

  Lemma filter_with_cache_nodes l : forall (m : mdd), m_nodes (fst (filter_with_cache st_eqb inp m l)) = m_nodes m.
  Proof.
    induction l as [|id l IH]; intros m; [reflexivity|].
    cbn [filter_with_cache]. cbv zeta. unfold cache_get. rewrite Hnocache.
    match goal with |- context [filter_with_cache st_eqb inp ?mm l] =>
      specialize (IH mm); destruct (filter_with_cache st_eqb inp mm l) as [m2 r] end.
    simpl in *. exact IH.
  Qed.

  Lemma dom_retain_nodes l : forall (m : mdd), m_nodes (fst (dom_retain inp m l)) = m_nodes m.
  Proof.
    induction l as [|id l IH]; intros m; [reflexivity|].
    cbn [dom_retain]. cbv zeta. destruct (fl_is_exact (n_flags (gn m id))).
    - unfold dom_query. rewrite Hnodom. cbn [dc_dominated].
      match goal with |- context [dom_retain inp ?mm l] =>
        specialize (IH mm); destruct (dom_retain inp mm l) as [m2 r] end.
      simpl in *. exact IH.
    - specialize (IH m). destruct (dom_retain inp m l) as [m2 r]. simpl in *. exact IH.
  Qed.

  Lemma layer_loop_Ninv_any : forall fuel (m : mdd), Ninv m -> Ninv (fst (layer_loop st_eqb inp fuel m)).
  Proof. exact (nodes_ok_layer_loop st_eqb inp Pn Pn_reads Pn_fresh Pn_rub). Qed.

  Lemma Ninv_initialize c ds polls : Ninv (initialize inp c ds polls).
  Proof. constructor; [|constructor]. split; [reflexivity|split; [reflexivity|left; reflexivity]]. Qed.

  (* The layer loop.  Runs whose value exceeds a threshold tau >= lb are tracked.  [tracking] is all the argument needs
     of the dominance filter, in three clauses: lb <= tau; run on the prefiltered copy mb of a diagram m whose store
     satisfies Sok, the filter re-establishes Sok and drops no node of the open layer that is in [keep m]; and [keep m]
     holds of every open node covering a state from which some completion exceeds tau.  Sok is whatever invariant of
     the dominance store makes the second clause provable for the rule at hand.  Without a rule tau = lb, Sok and keep
     are trivial (no_rule).  Section Tracked takes the three clauses as the single premise [tracked], so that an
     instance is passed as one proof term. *)
  Definition tracking (tau : Z) (Sok : @dstore St Z -> Prop) (keep : mdd -> nat -> Prop) : Prop :=
    (lb <= tau)%Z /\
    (forall d (m mb : mdd), Cinv d m -> d <= N -> Sok (m_dom m) ->
       (forall x, core_eq (gn m x) (gn mb x)) -> m_dom mb = m_dom m ->
       Sok (m_dom (fst (filter_with_dominance inp mb (m_next m)))) /\
       forall u, In u (m_next m) -> keep m u -> In u (snd (filter_with_dominance inp mb (m_next m)))) /\
    (forall d (m : mdd) u s' h v, Cinv d m -> d <= N -> In u (m_next m) ->
       cov (n_state (gn m u)) s' -> H pb d s' = Some h -> (v <= n_vtop (gn m u))%Z -> (tau < v + h)%Z -> keep m u).

  Section Tracked.
  Variable tau : Z.
  Variable Sok : @dstore St Z -> Prop.
  Variable keep : mdd -> nat -> Prop.
  Hypothesis tracked : tracking tau Sok keep.

  Lemma run_prefix k0 s0 v0 ds sN w jj :
    frn k0 s0 v0 ds = Some (sN, w) -> k0 + length ds = N -> (tau < w)%Z -> jj < length ds ->
    exists s1 v1 dj rest h, frn k0 s0 v0 (firstn jj ds) = Some (s1, v1) /\ skipn jj ds = dj :: rest /\
      var_ok pb (k0 + jj) dj = true /\ In (d_val dj) (domain pb (d_var dj) s1) /\
      H pb (k0 + jj) s1 = Some h /\ (tau < v1 + h)%Z.
  Proof.
    intros Hr Hlen Hlb Hj.
    assert (Hfl : length (firstn jj ds) = jj) by (rewrite firstn_length; lia).
    rewrite <- (firstn_skipn jj ds) in Hr. rewrite frun_app in Hr. rewrite Hfl in Hr.
    destruct (frn k0 s0 v0 (firstn jj ds)) as [[s1 v1]|] eqn:E1; [|discriminate].
    destruct (skipn jj ds) as [|dj rest] eqn:Es.
    { exfalso. pose proof (skipn_length jj ds) as Hs. rewrite Es in Hs. simpl in Hs. lia. }
    assert (Hsl : length (dj :: rest) = length ds - jj) by (rewrite <- Es; apply skipn_length).
    destruct (frun_le_H pb nv_static nv_none (dj :: rest) (k0 + jj) s1 v1 sN w) as (h & Hh & Hle); [lia|exact Hr|].
    cbn [frun] in Hr. destruct (var_ok pb (k0 + jj) dj) eqn:Ev; [|discriminate].
    destruct (in_domain pb s1 dj) eqn:Ed; [|discriminate].
    exists s1, v1, dj, rest, h. repeat split; auto; [apply in_domain_In; exact Ed|lia].
  Qed.

  (* a promising run: complete, from the root, of a value above tau *)
  Definition prom (ds : list decision) (sN : St) (w : Z) : Prop :=
    frn rd rs rv ds = Some (sN, w) /\ rd + length ds = N /\ (tau < w)%Z.

  Lemma firstn_S_skipn {A} j (l : list A) x r : skipn j l = x :: r -> firstn (S j) l = firstn j l ++ [x].
  Proof.
    revert l. induction j as [|j IH]; intros l H.
    - simpl in H. subst l. reflexivity.
    - destruct l as [|y l]; [discriminate|]. simpl in H. specialize (IH l H).
      change (firstn (S (S j)) (y :: l)) with (y :: firstn (S j) l). rewrite IH. reflexivity.
  Qed.

  Definition Tinv (m : mdd) : Prop :=
    forall ds sN w, prom ds sN w -> enabled m ->
    exists u s', In u (m_next m) /\ dpath m 0 0 rs (firstn (m_curr_depth m - rd) ds) u s'.

  (* the same from any expanded node [c] of a closed layer [i], for any true state it covers *)
  Definition promC (i : nat) (sc : St) (vc : Z) (ds2 : list decision) (sN : St) (w : Z) : Prop :=
    frn (rd + i) sc vc ds2 = Some (sN, w) /\ rd + i + length ds2 = N /\ (tau < w)%Z.

  Definition UTinv (m : mdd) : Prop :=
    forall i c sc vc ds2 sN w, i < m_curr_depth m - rd ->
      In c (nth i (m_layers m) []) -> Src m c ->
      cov (n_state (gn m c)) sc -> (vc <= n_vtop (gn m c))%Z -> Start i sc vc ->
      promC i sc vc ds2 sN w -> enabled m ->
      n_depth (gn m c) = rd + i /\
      exists u s', In u (m_next m) /\ dpath m i c sc (firstn (m_curr_depth m - rd - i) ds2) u s'.

  Definition SrcLay (m : mdd) : Prop :=
    forall c, Src m c -> exists i, In c (nth i (m_layers m) []) /\ n_depth (gn m c) = rd + i.

  Definition Linv_at (m : mdd) : Prop :=
    Cinv (m_curr_depth m) m /\ rd <= m_curr_depth m /\ m_curr_depth m <= N /\
    length (m_layers m) = m_curr_depth m - rd /\ Tinv m /\ UTinv m /\ SrcLay m.

  Definition UPost (ml : mdd) : Prop :=
    forall i c sc vc ds2 sN w,
      In c (nth i (m_layers ml) []) -> Src ml c ->
      cov (n_state (gn ml c)) sc -> (vc <= n_vtop (gn ml c))%Z -> Start i sc vc ->
      promC i sc vc ds2 sN w -> enabled ml ->
      Einv ml /\ Xinv inp ml /\ length (m_layers ml) = N - rd /\ n_depth (gn ml c) = rd + i /\
      exists u s', In u (m_next ml) /\ m_layer_end ml <= u < length (m_nodes ml) /\ dpath ml i c sc ds2 u s'.

  Definition Post (ml : mdd) : Prop :=
    (forall u, In u (m_next ml) -> n_depth (gn ml u) = N) /\
    (forall ds sN w, prom ds sN w -> enabled ml ->
      Einv ml /\ length (m_layers ml) = N - rd /\
      exists u s', In u (m_next ml) /\ m_layer_end ml <= u < length (m_nodes ml) /\ dpath ml 0 0 rs ds u s') /\
    UPost ml /\ SrcLay ml /\ (m_next ml <> [] -> Xinv inp ml).

  Lemma dpath_frame m m' i u s ds t s' :
    m_nodes m' = m_nodes m -> m_edges m' = m_edges m -> m_layers m' = m_layers m ->
    dpath m i u s ds t s' -> dpath m' i u s ds t s'.
  Proof.
    intros Hn He Hl Hp. eapply dpath_transport; eauto; try (rewrite ?Hn, ?He; lia).
    - intros x _. rewrite (gn_nodes_eq inp m m' x Hn). reflexivity.
    - intros x. rewrite (gn_nodes_eq inp m m' x Hn). apply incl_refl.
    - intros eid _. apply ge_edges_eq. exact He.
    - intros k x. rewrite Hl. auto.
  Qed.

  (* the loop stops because every variable is assigned *)
  Lemma Post_all_assigned (m : mdd) ev : Linv_at m -> m_curr_depth m = N -> Post (add_log m ev).
  Proof.
    intros ((HD & HX & Hnd & HE) & Hd1 & Hd2 & Hlen & HT & HU & HSL) HdN.
    assert (HE' : Einv (add_log m ev)) by (eapply Einv_frame; [| | | |exact HE]; try reflexivity; apply (E_le _ HE)).
    assert (HX' : Xinv inp (add_log m ev)) by (eapply Xinv_ceq; [apply ceq_add_log|exact HX]).
    split; [|split; [|split; [|split]]].
    - intros u Hu. change (n_depth (gn m u) = N). rewrite <- HdN. apply Hnd. exact Hu.
    - intros ds sN w Hp Hen.
      split; [exact HE'|]. split; [msimpl; rewrite Hlen; lia|].
      destruct (HT ds sN w Hp Hen) as (u & s' & Hu & Hpth).
      exists u, s'. split; [exact Hu|]. split; [apply (D_next _ _ _ HD u Hu)|].
      destruct Hp as (_ & Hl & _).
      rewrite firstn_all2 in Hpth by lia.
      eapply dpath_frame; [| | |exact Hpth]; reflexivity.
    - intros i c sc vc ds2 sN w Hc HSrc Hcov Hvc HSt Hpc Hen.
      assert (Hi : i < m_curr_depth m - rd).
      { destruct (Nat.lt_ge_cases i (length (m_layers m))) as [Hlt|Hge]; [lia|].
        msimpl_in Hc. rewrite nth_overflow in Hc by exact Hge. destruct Hc. }
      destruct (HU i c sc vc ds2 sN w Hi Hc HSrc Hcov Hvc HSt Hpc Hen) as (Hdep & u & s' & Hu & Hpth).
      split; [exact HE'|]. split; [exact HX'|].
      split; [msimpl; rewrite Hlen; lia|]. split; [exact Hdep|].
      exists u, s'. split; [exact Hu|]. split; [apply (D_next _ _ _ HD u Hu)|].
      destruct Hpc as (_ & Hl & _).
      rewrite firstn_all2 in Hpth by lia.
      eapply dpath_frame; [| | |exact Hpth]; reflexivity.
    - exact HSL.
    - intros _. exact HX'.
  Qed.

  (* the loop stops because the next layer is empty: no run is tracked any more *)
  Lemma Post_empty_layer (m : mdd) ev p :
    Linv_at m -> m_next m = [] -> Post (push_layer (with_next (with_polls (add_log m ev) p) []) [] 0).
  Proof.
    intros (HC & Hd1 & Hd2 & Hlen & HT & HU & HSL) En.
    split; [intros u []|]. split; [|split; [|split]].
    - intros ds sN w Hp Hen. exfalso.
      destruct (HT ds sN w Hp Hen) as (u & s' & Hu & _). rewrite En in Hu. destruct Hu.
    - intros i c sc vc ds2 sN w Hc HSrc Hcov Hvc HSt Hpc Hen. exfalso.
      msimpl_in Hc.
      assert (Hi : i < m_curr_depth m - rd).
      { destruct (Nat.lt_ge_cases i (length (m_layers m))) as [Hlt|Hge]; [lia|].
        rewrite app_nth2 in Hc by exact Hge.
        destruct (i - length (m_layers m)) as [|k]; [simpl in Hc; destruct Hc|destruct k; simpl in Hc; destruct Hc]. }
      rewrite app_nth1 in Hc by lia.
      destruct (HU i c sc vc ds2 sN w Hi Hc HSrc Hcov Hvc HSt Hpc Hen) as (_ & u & s' & Hu & _).
      rewrite En in Hu. destruct Hu.
    - intros c Hc. destruct (HSL c Hc) as (i & Hi & Hdp). exists i.
      split; [msimpl; apply nth_layers_app; exact Hi|exact Hdp].
    - intros Hne. exfalso. apply Hne. reflexivity.
  Qed.

  (* one more layer: [m] satisfies the invariant at depth d < N, [m2] is [m] with the poll logged, the move
     [moved] gives [m3] and the nodes [l] to expand on variable [var]; [m5] is what the loop continues with *)
  Section Step.
    Variables (m m3 : mdd) (ev : event St) (p var : nat) (states : list St) (l ids : list nat).
    Let d := m_curr_depth m.
    Let m2 := with_polls (add_log m ev) p.
    Let m4 := fold_left (expand_node st_eqb inp var) l m3.
    Let m5 := with_depth m4 (S (m_curr_depth m4)).
    Hypothesis HL : Linv_at m.
    Hypothesis HdN : d < N.
    Hypothesis Hvar : next_variable pb d states = Some var.
    Hypothesis Hmv : moved (keep m2) m2 m3 l ids d.

    Lemma step_expand :
      Cinv (S d) m4 /\ stable inp m3 m4 /\ gr m3 m4 /\ m_curr_depth m4 = d /\ m_layers m4 = m_layers m ++ [ids].
    Proof.
      destruct Hmv as (C3 & _ & L3 & D3 & Ly3 & _).
      destruct (expand_layer_Cinv var l d m3 C3 L3) as (C4 & S4 & G4); [exists states; exact Hvar|].
      split; [exact C4|]. split; [exact S4|]. split; [exact G4|]. split.
      - destruct S4 as (_ & _ & _ & _ & s5). unfold m4. rewrite s5, D3. reflexivity.
      - unfold m4. rewrite (gr_layers _ _ G4). exact Ly3.
    Qed.

    Lemma step_enabled : enabled m5 -> enabled m3 /\ enabled m.
    Proof.
      intros Hen5. destruct Hmv as (_ & _ & _ & _ & _ & _ & En3 & _).
      assert (Hen3 : enabled m3).
      { intros Ht. specialize (Hen5 Ht). change (m_lel m5) with (m_lel m4) in Hen5.
        unfold m4 in Hen5. rewrite expand_layer_lel in Hen5. exact Hen5. }
      split; [exact Hen3|]. intros Ht. exact (En3 Hen3 Ht).
    Qed.

    (* the decision of depth d of a feasible run is on [var] *)
    Lemma step_var dj k : var_ok pb (rd + k) dj = true -> rd + k = d -> dj = {| d_var := var; d_val := d_val dj |}.
    Proof.
      intros P3 Hk. apply (var_ok_spec pb nv_static (rd + k) dj states) in P3. rewrite Hk, Hvar in P3.
      injection P3 as ->. destruct dj; reflexivity.
    Qed.

    (* a node of the open layer reached along a run whose value exceeds tau is kept by the filter *)
    Lemma kept_on_path i c sc vc ds2 sN w k u s' :
      promC i sc vc ds2 sN w -> i + k = d - rd -> Start i sc vc -> (vc <= n_vtop (gn m c))%Z ->
      In u (m_next m) -> dpath m i c sc (firstn k ds2) u s' -> keep m2 u.
    Proof.
      intros (Hrun & Hdsl & Hw) Hk HSt Hvc Hu Hpth.
      destruct tracked as (_ & _ & Hkept).
      destruct HL as (HC & Hd1 & _).
      assert (HC2 : Cinv d m2).
      { eapply Cinv_ceq; [|exact HC]. eapply ceq_trans; [apply ceq_add_log|apply ceq_with_polls]. }
      destruct (run_prefix (rd + i) sc vc ds2 sN w k Hrun Hdsl Hw ltac:(lia))
        as (s1 & v1 & dj & rest & h & P1 & _ & _ & _ & P5 & P6).
      assert (s1 = s').
      { rewrite (frun_state pb _ _ _ _ _ _ P1). symmetry. apply (dpath_state _ _ _ _ _ _ _ Hpth). }
      subst s1.
      apply (Hkept d m2 u s' h v1 HC2 ltac:(lia) Hu).
      - change (gn m2 u) with (gn m u). eapply dpath_cov; exact Hpth.
      - replace d with (rd + i + k) by lia. exact P5.
      - change (gn m2 u) with (gn m u).
        refine (dpath_vtop_gen m i c sc (firstn k ds2) u s' (rd + i) vc (proj2 (proj2 (proj2 HC))) Hpth Hvc _ s' v1 P1).
        intros ds1 s1 w1 Hr1. eapply Start_isize; eauto.
      - exact P6.
    Qed.

    (* a tracked path that ends in a node handed to the expansion is continued by one arc *)
    Lemma extend_tracked i c sc vc ds2 sN w k u' s' :
      promC i sc vc ds2 sN w -> i + k = d - rd -> Start i sc vc ->
      c < m_layer_end m3 -> (vc <= n_vtop (gn m3 c))%Z ->
      In u' l -> dpath m3 i c sc (firstn k ds2) u' s' ->
      exists t' s'', In t' (m_next m5) /\ dpath m5 i c sc (firstn (S k) ds2) t' s''.
    Proof.
      intros (Hrun & Hdsl & Hw) Hk HSt Hclt Hvc Hu' Hp3.
      destruct tracked as (Htau & _).
      destruct HL as (_ & Hd1 & _ & Hlen & _).
      destruct Hmv as (C3 & _ & L3 & _ & Ly3 & Lids & _).
      destruct (run_prefix (rd + i) sc vc ds2 sN w k Hrun Hdsl Hw ltac:(lia))
        as (s1 & v1 & dj & rest & h & P1 & P2 & P3 & P4 & P5 & P6).
      assert (Hfl : length (firstn k ds2) = k) by (rewrite firstn_length; lia).
      assert (s1 = s').
      { rewrite (frun_state pb _ _ _ _ _ _ P1). symmetry. apply (dpath_state _ _ _ _ _ _ _ Hp3). }
      subst s1.
      assert (Edj : dj = {| d_var := var; d_val := d_val dj |}).
      { apply (step_var dj (i + k)); [rewrite Nat.add_assoc; exact P3|lia]. }
      destruct (expand_layer_track var l d m3 i c sc vc u' (firstn k ds2) s' v1 (d_val dj) h) as (t' & Ht' & Hpt').
      - exact C3.
      - exact L3.
      - exists states. exact Hvar.
      - exact Hclt.
      - exact Hvc.
      - intros ds1 s1 w1 Hr1. eapply Start_isize; eauto.
      - exact Hu'.
      - rewrite Hfl, Ly3. change (m_layers m2) with (m_layers m).
        replace (i + k) with (length (m_layers m)) by lia.
        rewrite app_nth2 by lia. rewrite Nat.sub_diag. apply Lids. exact Hu'.
      - exact Hp3.
      - exact P1.
      - rewrite Edj in P4. exact P4.
      - rewrite Hfl. exact P5.
      - lia.
      - apply (Start_H_isize i sc vc (firstn k ds2) s' v1 h HSt P1); rewrite Hfl; [lia|exact P5].
      - exists t', (transition pb s' {| d_var := var; d_val := d_val dj |}).
        split; [exact Ht'|].
        rewrite (firstn_S_skipn k ds2 dj rest P2). rewrite Edj at 1.
        eapply dpath_frame; [| | |exact Hpt']; reflexivity.
    Qed.

    Lemma step_Tinv : Tinv m5.
    Proof.
      intros ds sN w (Hrun & Hdsl & Hw) Hen5.
      destruct (step_enabled Hen5) as [Hen3 Hen].
      destruct step_expand as (_ & _ & _ & Hcd4 & _).
      pose proof HL as ((HD & _ & _ & _) & Hd1 & _ & Hlen & HT & _).
      pose proof Hmv as (C3 & _ & L3 & _ & _ & _ & _ & T3 & _).
      change (m_curr_depth m5) with (S (m_curr_depth m4)). rewrite Hcd4.
      assert (Hpc : promC 0 rs rv ds sN w) by (unfold promC; rewrite !Nat.add_0_r; auto).
      assert (HSt : Start 0 rs rv) by (exists []; auto).
      destruct (HT ds sN w (conj Hrun (conj Hdsl Hw)) Hen) as (u & s' & Hu & Hpth). fold d in Hpth.
      destruct (T3 0 0 rs u (firstn (d - rd) ds) s') as (u' & Hu' & Hp3).
      - exact Hu.
      - apply (kept_on_path 0 0 rs rv ds sN w (d - rd) u s' Hpc); auto. apply root_vtop. exact HD.
      - intros H1. change (m_layers m2) with (m_layers m) in H1. rewrite Hlen in H1.
        intros E. apply (f_equal (@length _)) in E. rewrite firstn_length in E. simpl in E. lia.
      - exact Hen3.
      - eapply dpath_ceq; [|exact Hpth]. eapply ceq_trans; [apply ceq_add_log|apply ceq_with_polls].
      - replace (S d - rd) with (S (d - rd)) by lia.
        apply (extend_tracked 0 0 rs rv ds sN w (d - rd) u' s' Hpc); auto.
        + destruct (L3 u' Hu'). lia.
        + apply root_vtop. apply C3.
    Qed.

    Lemma step_UTinv : UTinv m5.
    Proof.
      intros i c sc vc ds2 sN w Hi Hc HSrc Hcov Hvc HSt Hpc Hen5.
      destruct (step_enabled Hen5) as [Hen3 Hen].
      destruct step_expand as (_ & S4 & _ & Hcd4 & Hly4).
      pose proof HL as ((_ & HX & _ & _) & Hd1 & _ & Hlen & _ & HU & _).
      pose proof Hmv as ((D3 & _) & _ & L3 & _ & _ & Lids & _ & T3 & Sr3 & Cl3 & Ns3 & Ge3 & Le3).
      change (m_curr_depth m5) with (S (m_curr_depth m4)) in Hi |- *. rewrite Hcd4 in Hi |- *.
      change (m_layers m5) with (m_layers m4) in Hc. rewrite Hly4 in Hc.
      change (gn m5 c) with (gn m4 c) in Hcov, Hvc |- *.
      change (m_layer_end m2) with (m_layer_end m) in Le3, Ge3.
      assert (HSrc4 : Src m4 c) by exact HSrc.
      pose proof S4 as (_ & _ & s43 & _).
      pose proof Hpc as (_ & Hdsl & _).
      destruct (Nat.lt_ge_cases i (d - rd)) as [Hij|Hij].
      - (* a start of an earlier layer *)
        rewrite app_nth1 in Hc by lia.
        assert (Hclt : c < m_layer_end m).
        { apply (X_layers _ _ _ HX (nth i (m_layers m) []) c); [apply nth_In; lia|exact Hc]. }
        destruct (Cl3 c Hclt) as (_ & q2 & _). change (gn m2 c) with (gn m c) in q2.
        assert (Hcore : core_eq (gn m c) (gn m4 c)).
        { eapply (core_eq_trans inp Hclean); [apply (Cl3 c Hclt)|]. apply s43. lia. }
        destruct Hcore as (k1 & k2 & _ & _ & _ & _ & k7).
        assert (HSrcm : Src m c).
        { destruct (Src_expand_layer var l m3 c HSrc4) as [H3|H3]; [apply Sr3 in H3; exact H3|].
          exfalso. apply Lids in H3. apply Ge3 in H3. lia. }
        rewrite <- k1 in Hcov. rewrite <- k2 in Hvc.
        destruct (HU i c sc vc ds2 sN w Hij Hc HSrcm Hcov Hvc HSt Hpc Hen) as (Hdep & u & s' & Hu & Hpth).
        fold d in Hpth.
        split; [rewrite <- k7; exact Hdep|].
        destruct (T3 i c sc u (firstn (d - rd - i) ds2) s') as (u' & Hu' & Hp3).
        + exact Hu.
        + apply (kept_on_path i c sc vc ds2 sN w (d - rd - i) u s' Hpc); auto. lia.
        + intros _ E. apply (f_equal (@length _)) in E. rewrite firstn_length in E. simpl in E. lia.
        + exact Hen3.
        + eapply dpath_ceq; [|exact Hpth]. eapply ceq_trans; [apply ceq_add_log|apply ceq_with_polls].
        + replace (S d - rd - i) with (S (d - rd - i)) by lia.
          apply (extend_tracked i c sc vc ds2 sN w (d - rd - i) u' s' Hpc); auto; [lia|lia|].
          rewrite <- q2. exact Hvc.
      - (* a start of the layer just expanded *)
        assert (i = d - rd) by lia. subst i.
        rewrite app_nth2 in Hc by lia. rewrite Hlen, Nat.sub_diag in Hc. simpl in Hc.
        assert (Hcl : In c l).
        { destruct (Src_expand_layer var l m3 c HSrc4) as [H3|H3]; [|exact H3]. exfalso. apply (Ns3 c H3). exact Hc. }
        destruct (L3 c Hcl) as [Hclt Hcdep].
        destruct (s43 c Hclt) as (k1 & k2 & _ & _ & _ & _ & k7).
        split; [rewrite <- k7, Hcdep; lia|].
        replace (S d - rd - (d - rd)) with 1 by lia.
        apply (extend_tracked (d - rd) c sc vc ds2 sN w 0 c sc Hpc); auto.
        + rewrite k2. exact Hvc.
        + apply dp_nil; [pose proof (D_le _ _ _ D3); lia|]. rewrite k1. exact Hcov.
    Qed.

    Lemma step_SrcLay : SrcLay m5.
    Proof.
      intros c HSrc. change (m_layers m5) with (m_layers m4). change (gn m5 c) with (gn m4 c).
      destruct step_expand as (_ & (_ & _ & s43 & _) & _ & _ & Hly4). rewrite Hly4.
      pose proof HL as ((_ & HX & _ & _) & Hd1 & _ & Hlen & _ & _ & HSL).
      pose proof Hmv as (_ & _ & L3 & _ & _ & Lids & _ & _ & Sr3 & Cl3 & _ & _ & Le3).
      change (m_layer_end m2) with (m_layer_end m) in Le3.
      destruct (Src_expand_layer var l m3 c HSrc) as [H3|H3].
      - apply Sr3 in H3. destruct (HSL c H3) as (i & Hi & Hdp). exists i. split; [apply nth_layers_app; exact Hi|].
        assert (Hclt : c < m_layer_end m).
        { destruct (Nat.lt_ge_cases i (length (m_layers m))) as [Hlt|Hge].
          - apply (X_layers _ _ _ HX (nth i (m_layers m) []) c); [apply nth_In; exact Hlt|exact Hi].
          - rewrite nth_overflow in Hi by exact Hge. destruct Hi. }
        assert (Hcore : core_eq (gn m c) (gn m4 c)).
        { eapply (core_eq_trans inp Hclean); [apply (Cl3 c Hclt)|]. apply s43. lia. }
        destruct Hcore as (_ & _ & _ & _ & _ & _ & k7). rewrite <- k7. exact Hdp.
      - exists (length (m_layers m)). split.
        + rewrite app_nth2 by lia. rewrite Nat.sub_diag. apply Lids. exact H3.
        + destruct (L3 c H3) as [Hclt Hcdep]. destruct (s43 c Hclt) as (_ & _ & _ & _ & _ & _ & k7).
          rewrite <- k7, Hcdep, Hlen. fold d. lia.
    Qed.

    Lemma Linv_at_step : Linv_at m5.
    Proof.
      destruct step_expand as ((D4 & X4 & Nd4 & E4) & _ & _ & Hcd4 & Hly4).
      pose proof HL as (_ & Hd1 & _ & Hlen & _).
      assert (Hp5 : peq inp m4 m5) by (apply peq_same_nodes; reflexivity).
      split; [|split; [|split; [|split; [|split; [exact step_Tinv|split; [exact step_UTinv|exact step_SrcLay]]]]]].
      - change (m_curr_depth m5) with (S (m_curr_depth m4)). rewrite Hcd4.
        split; [|split; [|split]].
        + eapply (Dg_peq inp Hclean); [exact Hp5|exact D4|apply Nat.le_refl|apply (D_le _ _ _ D4)|apply (D_next _ _ _ D4)].
        + eapply Xg_peq; [exact Hp5|reflexivity|reflexivity|reflexivity|exact X4].
        + exact Nd4.
        + eapply Einv_frame; [| | | |exact E4]; try reflexivity. apply (E_le _ E4).
      - change (m_curr_depth m5) with (S (m_curr_depth m4)). lia.
      - change (m_curr_depth m5) with (S (m_curr_depth m4)). lia.
      - change (m_curr_depth m5) with (S (m_curr_depth m4)). change (m_layers m5) with (m_layers m4).
        rewrite Hly4, app_length, Hlen, Hcd4. cbn [length]. lia.
    Qed.
  End Step.

  Lemma layer_loop_sim : forall fuel (m m' : mdd),
    Linv_at m -> Sok (m_dom m) -> layer_loop st_eqb inp fuel m = (m', LoopDone) ->
    Post m' /\ Sok (m_dom m').
  Proof.
    destruct tracked as (_ & Hfilter & _).
    induction fuel as [|fuel IH]; intros m m' HL Hst Hloop; [simpl in Hloop; inversion Hloop|].
    pose proof HL as (HC & Hd1 & Hd2 & _).
    cbn [layer_loop] in Hloop. cbv zeta in Hloop.
    set (states := map (fun id => n_state (gn m id)) (m_next m)) in *.
    fold pb in Hloop.
    destruct (next_variable pb (m_curr_depth m) states) as [var|] eqn:Eov.
    2:{ inversion Hloop; subst m'. split; [|exact Hst]. apply Post_all_assigned; [exact HL|].
        destruct (Nat.lt_ge_cases (m_curr_depth m) N) as [Hlt|Hge]; [|lia].
        destruct (nv_some _ states Hlt) as [x Hx]. rewrite Hx in Eov. discriminate. }
    rewrite Hnocut in Hloop. cbn [Nat.ltb Nat.leb andb] in Hloop.
    rewrite (not_pooled inp Hclean) in Hloop.
    assert (HdN : m_curr_depth m < N).
    { destruct (Nat.lt_ge_cases (m_curr_depth m) N) as [Hlt|Hge]; [exact Hlt|].
      rewrite (nv_none _ states Hge) in Eov. discriminate. }
    set (m2 := with_polls _ _) in Hloop.
    destruct (m_next m) as [|c0 cs] eqn:En.
    - rewrite move_clean_unfold in Hloop. change (m_next m2) with (m_next m) in Hloop. rewrite En in Hloop.
      inversion Hloop; subst m'. split; [|exact Hst]. apply Post_empty_layer; assumption.
    - assert (HC2 : Cinv (m_curr_depth m) m2).
      { eapply Cinv_ceq; [|exact HC]. eapply ceq_trans; [apply ceq_add_log|apply ceq_with_polls]. }
      assert (Hne : m_next m2 <> []) by (change (m_next m2) with (m_next m); rewrite En; discriminate).
      destruct (prefiltered_spec m2) as (_ & _ & Hcore2 & Hdom2).
      destruct (Hfilter _ m2 (prefiltered m2) HC2 ltac:(lia) Hst Hcore2 Hdom2) as [Hst3 Hkeep2].
      destruct (move_sim_keep (keep m2) m2 _ HC2 Hne Hkeep2) as (m3 & l & ids & Emv & Hmv & Dm3).
      rewrite Emv in Hloop. rewrite <- Dm3 in Hst3.
      eapply IH; [| |exact Hloop].
      + exact (Linv_at_step m m3 _ _ var states l ids HL HdN Eov Hmv).
      + cbn [m_dom with_depth]. rewrite (inert_fold_expand st_eqb inp _ (inert_dom inp)). exact Hst3.
  Qed.

  Lemma Linv_at_initialize c ds polls : Linv_at (initialize inp c ds polls).
  Proof.
    destruct (initialize_inv inp c ds polls) as (I1 & I2 & I3).
    split; [|split; [|split; [|split; [|split; [|split]]]]].
    - split; [exact I1|]. split; [exact I2|]. split; [exact I3|].
      split.
      + simpl. lia.
      + intros eid He. simpl in He. lia.
      + intros id eid Hid Hin. simpl in Hid. assert (id = 0) by lia. subst id. destruct Hin.
    - simpl. apply Nat.le_refl.
    - simpl. exact Hrd.
    - simpl. fold root. fold rd. lia.
    - intros ds0 sN w Hp Hen. exists 0, rs. split; [left; reflexivity|].
      replace (m_curr_depth (initialize inp c ds polls) - rd) with 0 by (simpl; fold root; fold rd; lia).
      simpl firstn. apply dp_nil; [simpl; lia|]. simpl. apply cov_refl.
    - intros i cc sc vc ds2 sN w Hi. exfalso. simpl in Hi. fold root in Hi. fold rd in Hi. lia.
    - intros cc (eid & He & _). simpl in He. lia.
  Qed.

  Lemma compile_post tb tb2 c ds polls m :
    Sok ds ->
    compile st_eqb inp tb tb2 c ds polls = (m, Compiled) ->
    exists ml, m = finalize st_eqb inp tb tb2 ml /\ Sinv inp ml /\ Xs inp ml /\ Post ml /\ Ninv ml /\
               Sok (m_dom ml).
  Proof.
    unfold compile. cbv zeta. intros Hds H.
    pose proof (layer_loop_Sinv st_eqb st_eqb_spec inp Hclean (S (S (nb_vars (ci_problem inp)))) c ds polls) as [HS HX].
    pose proof (layer_loop_Ninv_any (S (S (nb_vars (ci_problem inp)))) _ (Ninv_initialize c ds polls)) as HN.
    destruct (layer_loop st_eqb inp (S (S (nb_vars (ci_problem inp)))) (initialize inp c ds polls)) as [ml e] eqn:El.
    cbn [fst] in HS, HX, HN. destruct e; inversion H. exists ml.
    destruct (layer_loop_sim _ _ _ (Linv_at_initialize c ds polls) Hds El) as [HP Hst].
    split; [reflexivity|]. split; [exact HS|]. split; [exact HX|]. split; [exact HP|]. split; [exact HN|exact Hst].
  Qed.

  Lemma zmax_list_some l : l <> [] -> exists mx, zmax_list l = Some mx.
  Proof. destruct l as [|y l]; [congruence|]. intros _. simpl. destruct (zmax_list l); eexists; reflexivity. Qed.

  Lemma pick_argmax_spec tb (m : mdd) ids b :
    pick tb (argmax_candidates inp m ids) = Some b ->
    In b ids /\ forall x, In x ids -> (n_vtop (gn m x) <= n_vtop (gn m b))%Z.
  Proof.
    intros Hb. apply pick_In in Hb. unfold argmax_candidates in Hb.
    destruct (zmax_list (map (fun id => n_vtop (gn m id)) ids)) as [mx|] eqn:E; [|destruct Hb].
    apply filter_In in Hb. destruct Hb as [Hin Heq]. apply Z.eqb_eq in Heq.
    split; [exact Hin|]. intros x Hx. rewrite Heq.
    apply (proj2 (zmax_list_spec _ _ E)). apply (in_map (fun id => n_vtop (gn m id))). exact Hx.
  Qed.

  Lemma pick_argmax_some tb (m : mdd) ids :
    ids <> [] -> exists b, pick tb (argmax_candidates inp m ids) = Some b.
  Proof.
    intros Hne. unfold argmax_candidates.
    destruct (zmax_list_some (map (fun id => n_vtop (gn m id)) ids)) as [mx E].
    { destruct ids; [congruence|discriminate]. }
    rewrite E. destruct (zmax_list_spec _ _ E) as [Hin _].
    apply in_map_iff in Hin. destruct Hin as (x & Hx1 & Hx2).
    set (cands := filter (fun id => (n_vtop (gn m id) =? mx)%Z) ids).
    assert (Hc : In x cands) by (apply filter_In; split; [exact Hx2|apply Z.eqb_eq; exact Hx1]).
    unfold pick. destruct cands as [|c0 cs] eqn:Ec; [destruct Hc|].
    assert (Hlt : Nat.modulo tb (length (c0 :: cs)) < length (c0 :: cs)) by (apply Nat.mod_upper_bound; simpl; lia).
    apply nth_error_Some in Hlt. destruct (nth_error (c0 :: cs) (tb mod length (c0 :: cs))) as [b|]; [|congruence].
    exists b; reflexivity.
  Qed.

  Definition hdr (m : mdd) := (m_is_exact m, m_has_ebp m, m_best m, m_best_exact m).

  Lemma hdr_finalize_cutset (m : mdd) : hdr (finalize_cutset inp m) = hdr m.
  Proof using Hclean. apply (finalize_cutset_proj inp hdr); reflexivity. Qed.

  Lemma hdr_compute_local_bounds (m : mdd) : hdr (compute_local_bounds inp m) = hdr m.
  Proof.
    apply (compute_local_bounds_steps inp (fun a b : mdd => hdr b = hdr a)); [reflexivity|congruence|reflexivity].
  Qed.

  Lemma cache_update_nocache (m : mdd) s d v e :
    cache_update st_eqb inp m s d v e = add_log m (EvCacheUpd s d v e).
  Proof. unfold cache_update. rewrite Hnocache. reflexivity. Qed.

  Section ProjThresholds.
    Context {X : Type} (pr : mdd -> X).
    Hypothesis pr_theta : forall (a : mdd) k (t : node -> option Z), pr (upd_node a k (fun n => set_theta n (t n))) = pr a.
    Hypothesis pr_log : forall (a : mdd) e, pr (add_log a e) = pr a.

    Lemma proj_compute_thresholds (m : mdd) : pr (compute_thresholds st_eqb inp m) = pr m.
    Proof.
      apply (compute_thresholds_steps st_eqb inp (fun a b : mdd => pr b = pr a)); [reflexivity|congruence|exact pr_theta|].
      intros a s d v e. rewrite cache_update_nocache. apply pr_log.
    Qed.
  End ProjThresholds.

  Lemma hdr_compute_thresholds (m : mdd) : hdr (compute_thresholds st_eqb inp m) = hdr m.
  Proof. apply proj_compute_thresholds; intros; reflexivity. Qed.

  (* everything but theta is untouched by _compute_thresholds *)
  Lemma node_compute_thresholds {Y} (g : node -> Y) (m : mdd) x :
    (forall n t, g (set_theta n t) = g n) ->
    g (gn (compute_thresholds st_eqb inp m) x) = g (gn m x).
  Proof.
    intros Hg. apply (proj_compute_thresholds (fun a : mdd => g (gn a x))).
    - intros a k t. apply (get_node_upd_node_proj inp g). intros n. apply Hg.
    - intros; reflexivity.
  Qed.

  Lemma hdr_eq (m m' : mdd) : hdr m = hdr m' ->
    m_is_exact m = m_is_exact m' /\ m_has_ebp m = m_has_ebp m' /\ m_best m = m_best m' /\
    m_best_exact m = m_best_exact m'.
  Proof. unfold hdr. intros H. inversion H. auto. Qed.

  Lemma finalize_layers_fields (ml : mdd) :
    m_nodes (finalize_layers inp ml) = m_nodes ml /\ m_next (finalize_layers inp ml) = m_next ml /\
    m_lel (finalize_layers inp ml) = m_lel ml /\ m_edges (finalize_layers inp ml) = m_edges ml /\
    m_layers (finalize_layers inp ml) =
      match m_next ml with
      | [] => m_layers ml
      | _ => m_layers ml ++ [seq (m_layer_end ml) (length (m_nodes ml) - m_layer_end ml)]
      end.
  Proof.
    unfold finalize_layers. cbv zeta. rewrite (not_pooled inp Hclean).
    destruct (m_next ml) eqn:E; repeat split; auto.
  Qed.

  Lemma finalize_hdr tb tb2 (ml : mdd) :
    let m := finalize st_eqb inp tb tb2 ml in
    let m1 := finalize_layers inp ml in
    m_is_exact m = (match m_lel ml with None => true | Some _ => false end) /\
    (m_has_ebp m = true -> ci_type inp = Relaxed) /\
    m_best m = pick tb (argmax_candidates inp m1 (m_next ml)) /\
    m_best_exact m =
      (if m_has_ebp m then m_best m
       else pick tb2 (argmax_candidates inp m1 (filter (fun id => fl_is_exact (n_flags (gn m1 id))) (m_next ml)))).
  Proof.
    cbv zeta. unfold finalize.
    destruct (finalize_layers_fields ml) as (F1 & F2 & F3 & F4 & F5).
    set (m1 := finalize_layers inp ml) in *.
    set (m2 := find_best_node inp tb tb2 m1).
    set (m3 := finalize_exact inp m2).
    assert (Hh : hdr (compute_thresholds st_eqb inp (compute_local_bounds inp (finalize_cutset inp m3))) = hdr m3).
    { rewrite hdr_compute_thresholds, hdr_compute_local_bounds, hdr_finalize_cutset. reflexivity. }
    apply hdr_eq in Hh. destruct Hh as (H1 & H2 & H3 & H4).
    rewrite H1, H2, H3, H4. clear H1 H2 H3 H4.
    set (ebp := is_relaxed_ct (ci_type inp) && has_exact_best_path inp (S (length (m_nodes m2))) m2 (m_best m2)).
    assert (A1 : m_is_exact m3 = match m_lel m2 with None => true | Some _ => false end).
    { unfold m3, finalize_exact. cbv zeta. cbn [m_is_exact]. rewrite (not_pooled inp Hclean). reflexivity. }
    assert (A2 : m_has_ebp m3 = ebp) by reflexivity.
    assert (A3 : m_best m3 = m_best m2) by reflexivity.
    assert (A4 : m_best_exact m3 = if ebp then m_best m2 else m_best_exact m2) by reflexivity.
    assert (B1 : m_best m2 = pick tb (argmax_candidates inp m1 (m_next m1))) by reflexivity.
    assert (B2 : m_best_exact m2 = pick tb2 (argmax_candidates inp m1
                   (filter (fun id => fl_is_exact (n_flags (gn m1 id))) (m_next m1)))) by reflexivity.
    rewrite A1, A2, A3, A4, B1, B2, F2. change (m_lel m2) with (m_lel m1). rewrite F3.
    split; [reflexivity|]. split; [|split; reflexivity].
    intros Hb. unfold ebp in Hb. apply andb_true_iff in Hb. destruct Hb as [Hb _].
    destruct (ci_type inp); simpl in Hb; try discriminate. reflexivity.
  Qed.

  Lemma gn_finalize_layers (ml : mdd) x : gn (finalize_layers inp ml) x = gn ml x.
  Proof. apply gn_nodes_eq. apply finalize_layers_fields. Qed.

  (* the compiled diagram versus the diagram at the end of the loop *)
  Lemma finalize_core tb tb2 (ml : mdd) x :
    Sinv inp ml -> Xs inp ml ->
    core_eq (gn ml x) (gn (finalize st_eqb inp tb tb2 ml) x).
  Proof.
    intros HS HX. destruct (finalize_spec st_eqb inp Hclean tb tb2 ml HS HX) as ((_ & _ & _ & A4) & _). apply A4.
  Qed.

  Definition vstar : option Z := oadd rv (H pb rd rs).

  Lemma vstar_opt_enum : vstar = opt_enum_from pb rd rs rv.
  Proof. unfold vstar. symmetry. apply opt_enum_from_H. Qed.

  Lemma vstar_prom o : vstar = Some o -> (tau < o)%Z -> exists ds sN, prom ds sN o.
  Proof.
    unfold vstar. intros Hv Hlb. destruct (H pb rd rs) as [h|] eqn:Eh; [|discriminate].
    simpl in Hv. inversion Hv; subst o.
    destruct (H_attained pb nv_static nv_some nv_none (N - rd) rd rs rv h eq_refl Hrd Eh) as (ds & sN & Hr & Hl).
    exists ds, sN. split; [exact Hr|]. split; [exact Hl|exact Hlb].
  Qed.

  Lemma vstar_upper o ds s' v' :
    vstar = Some o -> frn rd rs rv ds = Some (s', v') -> rd + length ds = N -> (v' <= o)%Z.
  Proof.
    unfold vstar. intros Hv Hr Hl.
    destruct (frun_le_H pb nv_static nv_none ds rd rs rv s' v' Hl Hr) as (h & Hh & Hle).
    rewrite Hh in Hv. simpl in Hv. inversion Hv; subst o. exact Hle.
  Qed.

  Lemma Sinv_root_vtop (m : mdd) : Sinv inp m -> (rv <= n_vtop (gn m 0))%Z.
  Proof. intros HS. destruct (S_root _ _ HS) as (_ & _ & r3 & _). fold root in r3. unfold rv. lia. Qed.

  Lemma track_terminal (ml : mdd) o :
    Sinv inp ml -> Post ml -> enabled ml -> vstar = Some o -> (tau < o)%Z ->
    exists ds sN u s', prom ds sN o /\ Einv ml /\ length (m_layers ml) = N - rd /\ In u (m_next ml) /\
      m_layer_end ml <= u < length (m_nodes ml) /\
      dpath ml 0 0 rs ds u s' /\ (o <= n_vtop (gn ml u))%Z.
  Proof.
    intros HS (_ & HP & _) Hen Hv Hlb.
    destruct (vstar_prom o Hv Hlb) as (ds & sN & Hp).
    destruct (HP ds sN o Hp Hen) as (HE & Hlen & u & s' & Hu & Hr & Hpth).
    pose proof Hp as (Hrun & _ & _).
    exists ds, sN, u, s'.
    split; [exact Hp|]. split; [exact HE|]. split; [exact Hlen|]. split; [exact Hu|]. split; [exact Hr|].
    split; [exact Hpth|].
    apply (dpath_vtop ml ds u s' HE Hpth (Sinv_root_vtop ml HS) _ _ Hrun).
  Qed.

  Lemma exact_terminal_le (m : mdd) b o :
    Sinv inp m -> clean_chain inp m b -> b < length (m_nodes m) -> n_depth (gn m b) = N ->
    vstar = Some o -> (n_vtop (gn m b) <= o)%Z.
  Proof.
    intros HS Hcc Hb Hd Hv. destruct (clean_chain_frun m b HS Hcc Hb) as (ds & Hr & Hdep).
    eapply vstar_upper; eauto. lia.
  Qed.

  Lemma best_ge tb tb2 (ml : mdd) u :
    Sinv inp ml -> Xs inp ml -> In u (m_next ml) ->
    exists b, m_best (finalize st_eqb inp tb tb2 ml) = Some b /\ In b (m_next ml) /\
      (n_vtop (gn ml u) <= n_vtop (gn (finalize st_eqb inp tb tb2 ml) b))%Z.
  Proof.
    intros HS HX Hu. destruct (finalize_hdr tb tb2 ml) as (_ & _ & Hb & _). cbv zeta in Hb.
    destruct (pick_argmax_some tb (finalize_layers inp ml) (m_next ml)) as [b Eb].
    { intros E. rewrite E in Hu. destruct Hu. }
    destruct (pick_argmax_spec tb _ _ _ Eb) as [Hin Hmax].
    exists b. split; [rewrite Hb; exact Eb|]. split; [exact Hin|].
    specialize (Hmax u Hu). rewrite !gn_finalize_layers in Hmax.
    destruct (finalize_core tb tb2 ml b HS HX) as (_ & c2 & _). rewrite <- c2. exact Hmax.
  Qed.

  Lemma best_exact_ge tb tb2 (ml : mdd) u :
    Sinv inp ml -> Xs inp ml -> In u (m_next ml) -> is_ex ml u = true ->
    m_has_ebp (finalize st_eqb inp tb tb2 ml) = false ->
    exists b, m_best_exact (finalize st_eqb inp tb tb2 ml) = Some b /\ In b (m_next ml) /\
      (n_vtop (gn ml u) <= n_vtop (gn (finalize st_eqb inp tb tb2 ml) b))%Z.
  Proof.
    intros HS HX Hu Hex Hebp. destruct (finalize_hdr tb tb2 ml) as (_ & _ & _ & Hb). cbv zeta in Hb.
    rewrite Hebp in Hb.
    set (m1 := finalize_layers inp ml) in *.
    set (ids := filter (fun id => fl_is_exact (n_flags (gn m1 id))) (m_next ml)) in *.
    assert (Huf : In u ids).
    { apply filter_In. split; [exact Hu|]. unfold m1. rewrite gn_finalize_layers. exact Hex. }
    destruct (pick_argmax_some tb2 m1 ids) as [b Eb].
    { intros E. rewrite E in Huf. destruct Huf. }
    destruct (pick_argmax_spec tb2 _ _ _ Eb) as [Hin Hmax].
    exists b. split; [rewrite Hb; exact Eb|]. split; [apply filter_In in Hin; apply Hin|].
    specialize (Hmax u Huf). unfold m1 in Hmax. rewrite !gn_finalize_layers in Hmax.
    destruct (finalize_core tb tb2 ml b HS HX) as (_ & c2 & _). rewrite <- c2. exact Hmax.
  Qed.

  (* S1 (C06, bound) *)
  Theorem S1_tracked tb tb2 c ds polls m o :
    Sok ds -> compile st_eqb inp tb tb2 c ds polls = (m, Compiled) ->
    ci_type inp = Relaxed \/ ci_type inp = Exact ->
    vstar = Some o -> (o > tau)%Z ->
    exists b, dd_best_value inp m = Some b /\ (o <= b)%Z.
  Proof.
    intros Hds Hc Ht Hv Hlb. destruct (compile_post _ _ _ _ _ _ Hds Hc) as (ml & -> & HS & HX & HP & _).
    assert (Hen : enabled ml) by (intros E; destruct Ht as [E'|E']; rewrite E' in E; discriminate).
    destruct (track_terminal ml o HS HP Hen Hv) as (ds0 & sN & u & s' & _ & _ & _ & Hu & _ & _ & Hvt); [lia|].
    destruct (best_ge tb tb2 ml u HS HX Hu) as (b & Hb & _ & Hge).
    unfold dd_best_value. rewrite Hb. simpl. eexists; split; [reflexivity|lia].
  Qed.

  (* S2 (K2; C06 (b); C07) *)
  Theorem S2_tracked tb tb2 c ds polls m o :
    Sok ds -> compile st_eqb inp tb tb2 c ds polls = (m, Compiled) ->
    dd_is_exact m = true -> vstar = Some o -> (o > tau)%Z ->
    dd_best_exact_value inp m = Some o.
  Proof.
    intros Hds Hc Hex Hv Hlb. destruct (compile_post _ _ _ _ _ _ Hds Hc) as (ml & -> & HS & HX & HP & _).
    destruct (finalize_spec st_eqb inp Hclean tb tb2 ml HS HX) as (F1 & F2 & F3 & F4 & F5 & F6 & F7).
    destruct (finalize_hdr tb tb2 ml) as (H1 & H2 & H3 & H4). cbv zeta in H1, H2, H3, H4.
    set (m := finalize st_eqb inp tb tb2 ml) in *.
    unfold dd_is_exact in Hex.
    assert (Hen : enabled ml).
    { intros Et. destruct (m_has_ebp m) eqn:Eb.
      - rewrite (H2 eq_refl) in Et. discriminate.
      - rewrite orb_false_r in Hex. rewrite Hex in H1. destruct (m_lel ml); [discriminate|reflexivity]. }
    destruct (track_terminal ml o HS HP Hen Hv) as (ds0 & sN & u & s' & _ & _ & _ & Hu & Hur & _ & Hvt); [lia|].
    assert (Hbest : exists b, m_best_exact m = Some b /\ In b (m_next ml) /\ (o <= n_vtop (gn m b))%Z).
    { destruct (m_has_ebp m) eqn:Eb.
      - destruct (best_ge tb tb2 ml u HS HX Hu) as (b & Hb & Hin & Hge). fold m in Hb, Hge.
        exists b. split; [rewrite H4; exact Hb|]. split; [exact Hin|lia].
      - rewrite orb_false_r in Hex. rewrite Hex in H1.
        assert (Hlel : m_lel ml = None) by (destruct (m_lel ml); [discriminate|reflexivity]).
        assert (Hux : is_ex ml u = true) by (apply (X_lel_none _ _ _ HX Hlel); lia).
        destruct (best_exact_ge tb tb2 ml u HS HX Hu Hux Eb) as (b & Hb & Hin & Hge). fold m in Hb, Hge.
        exists b. split; [exact Hb|]. split; [exact Hin|lia]. }
    destruct Hbest as (b & Hb & Hin & Hge).
    destruct (F5 b Hb) as [Hblt Hcc].
    assert (Hdep : n_depth (gn m b) = N).
    { destruct (finalize_core tb tb2 ml b HS HX) as (_ & _ & _ & _ & _ & _ & c7). fold m in c7.
      rewrite <- c7. apply (proj1 HP). exact Hin. }
    pose proof (exact_terminal_le m b o F3 Hcc Hblt Hdep Hv) as Hle.
    unfold dd_best_exact_value. rewrite Hb. simpl. f_equal. lia.
  Qed.

  (* C07, plain clause: an Exact compilation returns the optimum whatever the width *)
  Theorem S2_mode_tracked tb tb2 c ds polls m o :
    Sok ds -> compile st_eqb inp tb tb2 c ds polls = (m, Compiled) ->
    ci_type inp = Exact -> vstar = Some o -> (o > tau)%Z ->
    dd_best_value inp m = Some o.
  Proof.
    intros Hds Hc Ht Hv Hlb. destruct (compile_post _ _ _ _ _ _ Hds Hc) as (ml & -> & HS & HX & HP & _).
    destruct (finalize_spec st_eqb inp Hclean tb tb2 ml HS HX) as (F1 & F2 & F3 & F4 & F5 & F6 & F7).
    set (m := finalize st_eqb inp tb tb2 ml) in *.
    assert (Hen : enabled ml) by (intros E; rewrite Ht in E; discriminate).
    destruct (track_terminal ml o HS HP Hen Hv) as (ds0 & sN & u & s' & _ & _ & _ & Hu & Hur & _ & Hvt); [lia|].
    destruct (best_ge tb tb2 ml u HS HX Hu) as (b & Hb & Hin & Hge). fold m in Hb, Hge.
    pose proof (F4 b Hb) as Hblt.
    assert (Hnr : ci_type inp <> Relaxed) by (rewrite Ht; discriminate).
    assert (Hcc : clean_chain inp m b).
    { apply (Sinv_exact_flag_clean_chain inp m F3 b Hblt). apply F7; auto. }
    assert (Hdep : n_depth (gn m b) = N).
    { destruct (finalize_core tb tb2 ml b HS HX) as (_ & _ & _ & _ & _ & _ & c7). fold m in c7.
      rewrite <- c7. apply (proj1 HP). exact Hin. }
    pose proof (exact_terminal_le m b o F3 Hcc Hblt Hdep Hv) as Hle.
    unfold dd_best_value. rewrite Hb. simpl. f_equal. lia.
  Qed.

  (* _compute_local_bounds, as a fold of [lb_step] over the nodes bottom-up, followed along a diagram path *)
  Definition lb_upd (using_edge : Z) (p : node) : node :=
    set_vbot (set_flags p (fl_set_marked (n_flags p) true)) (Z.max (n_vbot p) using_edge).

  Definition lb_step (a : mdd) (id : nat) : mdd :=
    let n := gn a id in
    if f_marked (n_flags n) then
      fold_left (fun m eid =>
          let e := get_edge m eid in
          upd_node m (e_from e) (lb_upd (sat_add (n_vbot n) (e_cost e))))
        (n_inb n) a
    else a.

  Definition lb_init (m : mdd) : mdd :=
    fold_left (fun m id => upd_node m id (fun n => set_vbot (set_flags n (fl_set_marked (n_flags n) true)) 0%Z))
      (last (m_layers m) []) m.

  Definition lb_go (m : mdd) : bool :=
    Nat.ltb (opt_default 0 (m_lel m)) (length (m_layers m)) && is_relaxed_ct (ci_type inp).

  Lemma compute_local_bounds_unfold (m : mdd) :
    compute_local_bounds inp m = if lb_go m then fold_left lb_step (bottom_up m) (lb_init m) else m.
  Proof.
    assert (Hl : bottom_up (lb_init m) = bottom_up m).
    { unfold bottom_up, lb_init. rewrite (fold_left_proj (fun a : mdd => m_layers a)); [reflexivity|].
      intros; reflexivity. }
    rewrite <- Hl.
    unfold compute_local_bounds, lb_go, lb_step, lb_init, lb_upd. cbv zeta.
    rewrite (not_pooled inp Hclean). reflexivity.
  Qed.

  Definition Stat (a a' : mdd) : Prop :=
    m_edges a' = m_edges a /\ m_layers a' = m_layers a /\ length (m_nodes a') = length (m_nodes a) /\
    forall x, n_inb (gn a' x) = n_inb (gn a x).
  Definition Mono (a a' : mdd) : Prop :=
    Stat a a' /\
    forall x, (f_marked (n_flags (gn a x)) = true -> f_marked (n_flags (gn a' x)) = true) /\
              (n_vbot (gn a x) <= n_vbot (gn a' x))%Z.

  Lemma Stat_refl a : Stat a a. Proof. repeat split; auto. Qed.

  Lemma Stat_trans a b c : Stat a b -> Stat b c -> Stat a c.
  Proof.
    intros (A1 & A2 & A3 & A4) (B1 & B2 & B3 & B4).
    split; [congruence|]. split; [congruence|]. split; [congruence|]. intros x. rewrite B4. apply A4.
  Qed.

  Lemma Mono_refl a : Mono a a.
  Proof. split; [apply Stat_refl|]. intros x. split; [auto|lia]. Qed.

  Lemma Mono_trans a b c : Mono a b -> Mono b c -> Mono a c.
  Proof.
    intros (S1 & M1) (S2 & M2). split; [eapply Stat_trans; eauto|]. intros x.
    destruct (M1 x) as [m1 v1]. destruct (M2 x) as [m2 v2]. split; [auto|lia].
  Qed.

  Lemma Stat_upd (a : mdd) k f : (forall n, n_inb (f n) = n_inb n) -> Stat a (upd_node a k f).
  Proof.
    intros Hf. split; [reflexivity|]. split; [reflexivity|]. split; [msimpl; apply upd_nth_length|].
    intros x. apply (get_node_upd_node_proj inp (@n_inb St)). exact Hf.
  Qed.

  Lemma Mono_lb_upd (a : mdd) k u : Mono a (upd_node a k (lb_upd u)).
  Proof.
    split; [apply Stat_upd; reflexivity|]. intros x.
    destruct (Nat.eq_dec k x) as [->|Hne].
    - destruct (Nat.lt_ge_cases x (length (m_nodes a))) as [Hlt|Hge].
      + rewrite gn_upd_same by exact Hlt. unfold lb_upd. nsimpl. split; [auto|lia].
      + rewrite gn_upd_out by exact Hge. split; [auto|lia].
    - rewrite gn_upd_other by exact Hne. split; [auto|lia].
  Qed.

  Lemma Mono_fold {X} (f : mdd -> X -> mdd) l a : (forall b x, Mono b (f b x)) -> Mono a (fold_left f l a).
  Proof. apply fold_left_rel; [apply Mono_refl|apply Mono_trans]. Qed.

  Lemma Mono_lb_step (a : mdd) id : Mono a (lb_step a id).
  Proof.
    unfold lb_step. cbv zeta. destruct (f_marked _); [|apply Mono_refl].
    apply Mono_fold. intros b x. apply Mono_lb_upd.
  Qed.

  Lemma Stat_edge a a' eid : Stat a a' -> get_edge a' eid = get_edge a eid.
  Proof. intros (E & _). apply ge_edges_eq. exact E. Qed.

  Lemma lb_step_hit (a : mdd) y eid p :
    f_marked (n_flags (gn a y)) = true -> In eid (n_inb (gn a y)) ->
    e_from (get_edge a eid) = p -> p < length (m_nodes a) ->
    f_marked (n_flags (gn (lb_step a y) p)) = true /\
    (sat_add (n_vbot (gn a y)) (e_cost (get_edge a eid)) <= n_vbot (gn (lb_step a y) p))%Z.
  Proof.
    intros Hm Hin Hf Hp. unfold lb_step. cbv zeta. rewrite Hm.
    set (vb := n_vbot (gn a y)).
    set (P := fun c : mdd => f_marked (n_flags (gn c p)) = true /\
                             (sat_add vb (e_cost (get_edge a eid)) <= n_vbot (gn c p))%Z).
    apply (fold_left_hit (fun c => Mono a c) P _ (n_inb (gn a y)) a eid Hin).
    - apply Mono_refl.
    - intros c x _ Hc. eapply Mono_trans; [exact Hc|apply Mono_lb_upd].
    - intros c Hc. destruct Hc as (Sc & _). unfold P. rewrite (Stat_edge a c eid Sc), Hf.
      destruct Sc as (_ & _ & Hl & _).
      rewrite gn_upd_same by lia. unfold lb_upd. nsimpl. split; [reflexivity|lia].
    - intros c x _ Hc [P1 P2]. unfold P.
      match goal with |- context [upd_node c ?k ?f] => destruct (Mono_lb_upd c k (sat_add vb (e_cost (get_edge c x)))) as (_ & Mx) end.
      destruct (Mx p) as [m1 v1]. split; [auto|lia].
  Qed.

  Definition proc (a : mdd) (ids : list nat) : mdd := fold_left lb_step ids a.

  Lemma Mono_proc a ids : Mono a (proc a ids).
  Proof. unfold proc. apply Mono_fold. intros; apply Mono_lb_step. Qed.

  Lemma proc_hit (a : mdd) L y eid p r :
    In y L -> f_marked (n_flags (gn a y)) = true -> (r <= n_vbot (gn a y))%Z ->
    In eid (n_inb (gn a y)) -> e_from (get_edge a eid) = p -> p < length (m_nodes a) ->
    f_marked (n_flags (gn (proc a L) p)) = true /\
    (sat_add r (e_cost (get_edge a eid)) <= n_vbot (gn (proc a L) p))%Z.
  Proof.
    intros Hy Hm Hr Hin Hf Hp. unfold proc.
    set (P := fun c : mdd => f_marked (n_flags (gn c p)) = true /\
                             (sat_add r (e_cost (get_edge a eid)) <= n_vbot (gn c p))%Z).
    apply (fold_left_hit (fun c => Mono a c) P lb_step L a y Hy).
    - apply Mono_refl.
    - intros c x _ Hc. eapply Mono_trans; [exact Hc|apply Mono_lb_step].
    - intros c (Sc & Mc). destruct (Mc y) as [my vy].
      pose proof Sc as (_ & _ & Hl & Hi).
      destruct (lb_step_hit c y eid p) as [Q1 Q2]; auto.
      + rewrite Hi. exact Hin.
      + rewrite (Stat_edge a c eid Sc). exact Hf.
      + lia.
      + unfold P. split; [exact Q1|]. rewrite (Stat_edge a c eid Sc) in Q2.
        eapply Z.le_trans; [|exact Q2]. unfold sat_add. apply clampZ_mono. lia.
    - intros c x _ Hc [P1 P2]. unfold P. destruct (Mono_lb_step c x) as (_ & Mx).
      destruct (Mx p) as [m1 v1]. split; [auto|lia].
  Qed.

  Lemma fold_left_concat {A X} (f : A -> X -> A) (ls : list (list X)) (a : A) :
    fold_left f (concat ls) a = fold_left (fun a l => fold_left f l a) ls a.
  Proof.
    revert a. induction ls as [|l ls IH]; intros a; simpl; [reflexivity|].
    rewrite fold_left_app. apply IH.
  Qed.

  Lemma skipn_nth_cons {A} k (l : list A) d : k < length l -> skipn k l = nth k l d :: skipn (S k) l.
  Proof.
    revert l. induction k as [|k IH]; intros [|x l] H; simpl in *; try lia; auto. apply IH. lia.
  Qed.

  (* the state after the layers of index >= k have been processed *)
  Definition Stg (m0 : mdd) (ls : list (list nat)) (k : nat) : mdd := fold_left proc (rev (skipn k ls)) m0.

  Lemma Stg_step m0 ls k : k < length ls -> Stg m0 ls k = proc (Stg m0 ls (S k)) (nth k ls []).
  Proof.
    intros H. unfold Stg. rewrite (skipn_nth_cons k ls [] H). cbn [rev]. rewrite fold_left_app. reflexivity.
  Qed.

  Lemma Stg_mono1 m0 ls k : Mono (Stg m0 ls (S k)) (Stg m0 ls k).
  Proof.
    destruct (Nat.lt_ge_cases k (length ls)) as [Hlt|Hge].
    - rewrite (Stg_step m0 ls k Hlt). apply Mono_proc.
    - unfold Stg. rewrite !skipn_all2 by lia. apply Mono_refl.
  Qed.

  Lemma Stg_mono m0 ls k : Mono (Stg m0 ls k) (Stg m0 ls 0).
  Proof.
    induction k as [|k IH]; [apply Mono_refl|]. eapply Mono_trans; [apply Stg_mono1|exact IH].
  Qed.

  Lemma Stg_base m0 ls k : Mono m0 (Stg m0 ls k).
  Proof.
    unfold Stg. generalize (rev (skipn k ls)). intros l. revert m0.
    induction l as [|x l IH]; intros m0; simpl; [apply Mono_refl|].
    eapply Mono_trans; [apply Mono_proc|apply IH].
  Qed.

  Lemma lb_path (m m0 : mdd) :
    Stat m m0 ->
    forall i c sc ds t s', dpath m i c sc ds t s' ->
    forall kk v wt r, frn kk sc v ds = Some (s', wt) ->
      i + length ds < length (m_layers m) ->
      In t (nth (i + length ds) (m_layers m) []) ->
      f_marked (n_flags (gn (Stg m0 (m_layers m) (S (i + length ds))) t)) = true ->
      (r <= n_vbot (gn (Stg m0 (m_layers m) (S (i + length ds))) t))%Z ->
      (forall ds1 ds2 s1 v1, ds = ds1 ++ ds2 -> frn kk sc v ds1 = Some (s1, v1) -> in_isize (r + wt - v1)) ->
      f_marked (n_flags (gn (Stg m0 (m_layers m) 0) c)) = true /\
      (r + wt - v <= n_vbot (gn (Stg m0 (m_layers m) 0) c))%Z.
  Proof.
    intros HS0 i c sc ds t s' Hp.
    induction Hp as [i u s Hu Hc|i u s ds t s' d eid t' Hp IH Hlay Ht' He Hin Hf Hd Hcost Hcov];
      intros kk v wt r Hr Hlen Hlast Hm Hvb Hiso.
    - simpl in Hr. inversion Hr; subst wt.
      destruct (Stg_mono m0 (m_layers m) (S (i + length (@nil decision)))) as (_ & Mx).
      destruct (Mx u) as [m1 v1]. split; [auto|lia].
    - rewrite frun_app in Hr. destruct (frn kk s v ds) as [[s1 w1]|] eqn:E1; [|discriminate].
      assert (s1 = s').
      { rewrite (frun_state pb _ _ _ _ _ _ E1). symmetry. apply (dpath_state _ _ _ _ _ _ _ Hp). }
      subst s1.
      cbn [frun] in Hr.
      match type of Hr with context [if ?cc then _ else _] => destruct cc end; [|discriminate].
      injection Hr as Hwt.
      set (ls := m_layers m) in *.
      rewrite app_length in Hlen, Hlast, Hm, Hvb. cbn [length] in Hlen, Hlast, Hm, Hvb.
      replace (i + (length ds + 1)) with (S (i + length ds)) in * by lia.
      set (k' := S (i + length ds)) in *.
      set (a := Stg m0 ls (S k')) in *.
      assert (Ma : Stat m a).
      { eapply Stat_trans; [exact HS0|]. apply (Stg_base m0 ls (S k')). }
      pose proof Ma as (_ & _ & Hla & Hia).
      destruct (proc_hit a (nth k' ls []) t' eid t r) as [Q1 Q2]; auto.
      + rewrite Hia. exact Hin.
      + rewrite (Stat_edge m a eid Ma). exact Hf.
      + pose proof (dpath_range _ _ _ _ _ _ _ Hp). lia.
      + rewrite (Stat_edge m a eid Ma) in Q2. unfold a in Q1, Q2.
        rewrite <- (Stg_step m0 ls k') in Q1, Q2 by exact Hlen.
        assert (Hisor : in_isize (r + wt - w1)).
        { apply (Hiso ds [d] s' w1); [reflexivity|exact E1]. }
        destruct (IH kk v w1 (r + wt - w1)%Z E1) as [R1 R2].
        * lia.
        * exact Hlay.
        * exact Q1.
        * eapply Z.le_trans; [|exact Q2]. apply sat_add_ge; [exact Hisor|].
          rewrite <- Hwt. lia.
        * intros ds1 ds2 s1 v1 E Hr1.
          replace (r + wt - w1 + w1 - v1)%Z with (r + wt - v1)%Z by lia.
          apply (Hiso ds1 (ds2 ++ [d]) s1 v1); [rewrite E, app_assoc; reflexivity|exact Hr1].
        * split; [exact R1|]. lia.
  Qed.

  Lemma last_is_nth {A} (l : list A) d : last l d = nth (length l - 1) l d.
  Proof.
    induction l as [|x l IH]; [reflexivity|]. destruct l as [|y l]; [reflexivity|].
    change (last (x :: y :: l) d) with (last (y :: l) d). rewrite IH. simpl. rewrite Nat.sub_0_r. reflexivity.
  Qed.

  Lemma Stat_fold {X} (f : mdd -> X -> mdd) l a : (forall b x, Stat b (f b x)) -> Stat a (fold_left f l a).
  Proof. apply fold_left_rel; [apply Stat_refl|apply Stat_trans]. Qed.

  Lemma lb_init_spec (m : mdd) :
    Stat m (lb_init m) /\
    forall t, In t (last (m_layers m) []) -> t < length (m_nodes m) ->
      f_marked (n_flags (gn (lb_init m) t)) = true /\ (0 <= n_vbot (gn (lb_init m) t))%Z.
  Proof.
    split.
    - unfold lb_init. apply Stat_fold. intros b x. apply Stat_upd. reflexivity.
    - intros t Ht Hlt. unfold lb_init.
      set (f := fun (m0 : mdd) (id : nat) => upd_node m0 id (fun n => set_vbot (set_flags n (fl_set_marked (n_flags n) true)) 0%Z)).
      set (P := fun c : mdd => f_marked (n_flags (gn c t)) = true /\ (0 <= n_vbot (gn c t))%Z).
      apply (fold_left_hit (fun c => Stat m c) P f (last (m_layers m) []) m t Ht).
      + apply Stat_refl.
      + intros c y _ Hc. eapply Stat_trans; [exact Hc|]. apply Stat_upd. reflexivity.
      + intros c (_ & _ & Hl & _). unfold P, f. rewrite gn_upd_same by lia. nsimpl. split; [reflexivity|lia].
      + intros c y _ _ [P1 P2]. unfold P, f. destruct (Nat.eq_dec y t) as [->|Hne].
        * destruct (Nat.lt_ge_cases t (length (m_nodes c))) as [H1|H1].
          -- rewrite gn_upd_same by exact H1. nsimpl. split; [reflexivity|lia].
          -- rewrite gn_upd_out by exact H1. auto.
        * rewrite gn_upd_other by exact Hne. auto.
  Qed.

  Lemma local_bounds_path (m : mdd) i c sc ds t s' kk v w :
    lb_go m = true -> dpath m i c sc ds t s' -> frn kk sc v ds = Some (s', w) ->
    S (i + length ds) = length (m_layers m) -> In t (last (m_layers m) []) ->
    (forall ds1 ds2 s1 v1, ds = ds1 ++ ds2 -> frn kk sc v ds1 = Some (s1, v1) -> in_isize (w - v1)) ->
    f_marked (n_flags (gn (compute_local_bounds inp m) c)) = true /\
    (w - v <= n_vbot (gn (compute_local_bounds inp m) c))%Z.
  Proof.
    intros Hgo Hp Hr Hlen Hlast Hiso.
    rewrite compute_local_bounds_unfold, Hgo.
    destruct (lb_init_spec m) as [HS0 Hinit].
    set (m0 := lb_init m) in *. set (ls := m_layers m) in *.
    assert (E0 : fold_left lb_step (bottom_up m) m0 = Stg m0 ls 0).
    { unfold bottom_up, Stg. rewrite fold_left_concat. reflexivity. }
    rewrite E0.
    assert (Etop : Stg m0 ls (S (i + length ds)) = m0).
    { unfold Stg. rewrite skipn_all2 by lia. reflexivity. }
    pose proof (dpath_range _ _ _ _ _ _ _ Hp) as Htl.
    destruct (Hinit t Hlast Htl) as [I1 I2].
    destruct (lb_path m m0 HS0 i c sc ds t s' Hp kk v w 0%Z Hr) as [R1 R2].
    - fold ls. lia.
    - fold ls. rewrite (last_is_nth ls []) in Hlast. replace (i + length ds) with (length ls - 1) by lia. exact Hlast.
    - fold ls. rewrite Etop. exact I1.
    - fold ls. rewrite Etop. exact I2.
    - intros ds1 ds2 s1 v1 E H1. replace (0 + w - v1)%Z with (w - v1)%Z by lia. eapply Hiso; eauto.
    - fold ls in R1, R2. split; [exact R1|lia].
  Qed.

  (* the frontier cut-set, as a fold of [fc_step] over the nodes bottom-up *)
  Definition fc_inner (m : mdd) (eid : nat) : mdd :=
    let e := get_edge m eid in
    let p := gn m (e_from e) in
    if fl_is_exact (n_flags p) && negb (f_cutset (n_flags p)) then
      upd_node (with_cutset m (m_cutset m ++ [e_from e])) (e_from e)
        (fun n => set_flags n (fl_set_cutset (n_flags n) true))
    else m.
  Definition fc_step (m : mdd) (id : nat) : mdd :=
    let n := gn m id in
    if fl_is_exact (n_flags n) then upd_node m id (fun n => set_flags n (fl_set_above (n_flags n) true))
    else fold_left fc_inner (n_inb n) m.

  Lemma frontier_cutset_unfold (m : mdd) : frontier_cutset inp m true = fold_left fc_step (bottom_up m) m.
  Proof. reflexivity. Qed.

  Definition FInv (m a : mdd) : Prop :=
    m_edges a = m_edges m /\ length (m_nodes a) = length (m_nodes m) /\
    (forall x, n_inb (gn a x) = n_inb (gn m x) /\ is_ex a x = is_ex m x) /\
    (forall x, x < length (m_nodes a) -> f_cutset (n_flags (gn a x)) = true -> In x (m_cutset a)).

  Lemma FInv_upd_above (m a : mdd) id :
    FInv m a -> FInv m (upd_node a id (fun n => set_flags n (fl_set_above (n_flags n) true))).
  Proof.
    intros (F1 & F2 & F3 & F4).
    set (f := fun n : node => set_flags n (fl_set_above (n_flags n) true)).
    assert (Hg : forall x, n_inb (gn (upd_node a id f) x) = n_inb (gn a x) /\
                           is_ex (upd_node a id f) x = is_ex a x /\
                           f_cutset (n_flags (gn (upd_node a id f) x)) = f_cutset (n_flags (gn a x))).
    { intros x. unfold is_ex. destruct (Nat.eq_dec id x) as [->|Hne].
      - destruct (Nat.lt_ge_cases x (length (m_nodes a))) as [Hlt|Hge].
        + rewrite gn_upd_same by exact Hlt. repeat split.
        + rewrite gn_upd_out by exact Hge. repeat split.
      - rewrite gn_upd_other by exact Hne. repeat split. }
    split; [exact F1|]. split; [msimpl; rewrite upd_nth_length; exact F2|]. split.
    - intros x. destruct (Hg x) as (g1 & g2 & _). destruct (F3 x) as [f1 f2]. split; congruence.
    - intros x Hx Hc. destruct (Hg x) as (_ & _ & g3). rewrite g3 in Hc.
      change (m_cutset (upd_node a id f)) with (m_cutset a). apply F4; [|exact Hc].
      revert Hx. msimpl. rewrite upd_nth_length. auto.
  Qed.

  Lemma FInv_fc_inner (m a : mdd) eid :
    FInv m a -> FInv m (fc_inner a eid) /\ incl (m_cutset a) (m_cutset (fc_inner a eid)).
  Proof.
    intros HF. pose proof HF as (F1 & F2 & F3 & F4). unfold fc_inner. cbv zeta.
    set (p := e_from (get_edge a eid)).
    destruct (fl_is_exact (n_flags (gn a p)) && negb (f_cutset (n_flags (gn a p)))); [|split; [exact HF|apply incl_refl]].
    set (a1 := with_cutset a (m_cutset a ++ [p])).
    set (f := fun n : node => set_flags n (fl_set_cutset (n_flags n) true)).
    assert (Hg : forall x, n_inb (gn (upd_node a1 p f) x) = n_inb (gn a x) /\
                           is_ex (upd_node a1 p f) x = is_ex a x /\
                           (x <> p -> f_cutset (n_flags (gn (upd_node a1 p f) x)) = f_cutset (n_flags (gn a x)))).
    { intros x. unfold is_ex. destruct (Nat.eq_dec p x) as [<-|Hne].
      - destruct (Nat.lt_ge_cases p (length (m_nodes a1))) as [Hlt|Hge].
        + rewrite gn_upd_same by exact Hlt. change (gn a1 p) with (gn a p). repeat split. congruence.
        + rewrite gn_upd_out by exact Hge. repeat split.
      - rewrite gn_upd_other by exact Hne. repeat split. }
    split.
    - split; [exact F1|]. split; [msimpl; rewrite upd_nth_length; exact F2|]. split.
      + intros x. destruct (Hg x) as (g1 & g2 & _). destruct (F3 x) as [f1 f2]. split; congruence.
      + intros x Hx Hc. change (m_cutset (upd_node a1 p f)) with (m_cutset a ++ [p]).
        destruct (Nat.eq_dec x p) as [->|Hne]; [apply in_or_app; right; left; reflexivity|].
        destruct (Hg x) as (_ & _ & g3). rewrite (g3 Hne) in Hc. apply in_or_app. left. apply F4; [|exact Hc].
        revert Hx. msimpl. rewrite upd_nth_length. auto.
    - change (m_cutset (upd_node a1 p f)) with (m_cutset a ++ [p]). apply incl_appl, incl_refl.
  Qed.

  Lemma FInv_fc_step (m a : mdd) id :
    FInv m a -> FInv m (fc_step a id) /\ incl (m_cutset a) (m_cutset (fc_step a id)).
  Proof.
    intros HF. unfold fc_step. cbv zeta. destruct (fl_is_exact _).
    - split; [apply FInv_upd_above; exact HF|apply incl_refl].
    - apply (fold_left_inv (fun b => FInv m b /\ incl (m_cutset a) (m_cutset b))).
      + split; [exact HF|apply incl_refl].
      + intros b x _ [Hb Hi]. destruct (FInv_fc_inner m b x Hb) as [H1 H2].
        split; [exact H1|eapply incl_tran; eauto].
  Qed.

  Lemma frontier_cutset_hit (m : mdd) c c' eid :
    (forall x, x < length (m_nodes m) -> f_cutset (n_flags (gn m x)) = true -> In x (m_cutset m)) ->
    In c' (bottom_up m) -> is_ex m c' = false -> In eid (n_inb (gn m c')) ->
    e_from (get_edge m eid) = c -> is_ex m c = true -> c < length (m_nodes m) ->
    In c (m_cutset (frontier_cutset inp m true)).
  Proof.
    intros H0 Hc' Hnx Hin Hf Hx Hlt. rewrite frontier_cutset_unfold.
    assert (HF0 : FInv m m) by (repeat split; auto).
    apply (fold_left_hit (fun a => FInv m a) (fun a => In c (m_cutset a)) fc_step (bottom_up m) m c' Hc' HF0).
    - intros a y _ Ha. apply (FInv_fc_step m a y Ha).
    - intros a Ha. pose proof Ha as (F1 & F2 & F3 & F4). unfold fc_step. cbv zeta.
      destruct (F3 c') as [i1 x1]. unfold is_ex in x1. rewrite x1. unfold is_ex in Hnx. rewrite Hnx. rewrite i1.
      apply (fold_left_hit (fun b => FInv m b) (fun b => In c (m_cutset b)) fc_inner (n_inb (gn m c')) a eid Hin Ha).
      + intros b y _ Hb. apply (FInv_fc_inner m b y Hb).
      + intros b Hb. pose proof Hb as (G1 & G2 & G3 & G4). unfold fc_inner. cbv zeta.
        rewrite (ge_edges_eq m b eid G1), Hf.
        destruct (G3 c) as [_ x2]. unfold is_ex in x2, Hx. rewrite x2, Hx. simpl andb.
        destruct (f_cutset (n_flags (gn b c))) eqn:Ec; simpl negb; cbv iota.
        * apply G4; [lia|exact Ec].
        * msimpl. apply in_or_app. right; left; reflexivity.
      + intros b y _ Hb Hc. apply (FInv_fc_inner m b y Hb). exact Hc.
    - intros a y _ Ha Hc. apply (FInv_fc_step m a y Ha). exact Hc.
  Qed.

  Lemma lel_finalize_cutset (m : mdd) k : m_lel m = Some k -> m_lel (finalize_cutset inp m) = Some k.
  Proof.
    intros Hk. unfold finalize_cutset. cbv zeta. rewrite Hk.
    assert (L1 : forall (a : mdd) j, m_lel (lel_cutset a j) = m_lel a).
    { intros a j. unfold lel_cutset. rewrite (fold_left_proj (fun b : mdd => m_lel b)) by (intros; reflexivity).
      destruct (nth_error _ _); [|reflexivity]. msimpl.
      apply (fold_left_proj (fun b : mdd => m_lel b)). intros; reflexivity. }
    assert (L2 : forall (a : mdd) push, m_lel (frontier_cutset inp a push) = m_lel a).
    { intros a push. unfold frontier_cutset. apply (fold_left_proj (fun b : mdd => m_lel b)). intros b id.
      destruct (fl_is_exact _); [reflexivity|].
      apply (fold_left_proj (fun c : mdd => m_lel c)). intros c eid.
      destruct (_ && _); [|reflexivity]. destruct push; reflexivity. }
    destruct (ci_flavour inp); destruct (_ || _); rewrite ?L1, ?L2; exact Hk.
  Qed.

  Lemma dpath_start_layer m i c sc ds t s' :
    dpath m i c sc ds t s' -> ds <> [] -> In c (nth i (m_layers m) []).
  Proof.
    intros Hp. induction Hp as [i u s Hu Hc|i u s ds t s' d eid t' Hp IH Hlay Ht' He Hin Hf Hd Hcost Hcov]; intros Hne.
    - congruence.
    - destruct ds as [|d0 ds0].
      + inversion Hp; subst; [|match goal with H : _ ++ [_] = [] |- _ => destruct (app_cons_not_nil _ _ _ (eq_sym H)) end].
        simpl in Hlay. rewrite Nat.add_0_r in Hlay. exact Hlay.
      + apply IH. discriminate.
  Qed.

  Lemma dpath_last_exact m i u s ds t s' :
    dpath m i u s ds t s' -> is_ex m u = true -> is_ex m t = false ->
    exists ds1 ds2 c sc c' eid, ds = ds1 ++ ds2 /\ ds2 <> [] /\
      dpath m i u s ds1 c sc /\ dpath m (i + length ds1) c sc ds2 t s' /\ is_ex m c = true /\
      c' < length (m_nodes m) /\ In eid (n_inb (gn m c')) /\ e_from (get_edge m eid) = c /\
      is_ex m c' = false /\ (c' = t \/ exists k, In c' (nth k (m_layers m) [])).
  Proof.
    intros Hp. induction Hp as [i u s Hu Hc|i u s ds t s' d eid t' Hp IH Hlay Ht' He Hin Hf Hd Hcost Hcov];
      intros Hxu Hxt.
    - congruence.
    - destruct (is_ex m t) eqn:Ext.
      + exists ds, [d], t, s', t', eid.
        split; [reflexivity|]. split; [discriminate|]. split; [exact Hp|]. split.
        * apply (dp_snoc m (i + length ds) t s' [] t s' d eid t'); auto.
          -- apply dp_nil; [eapply dpath_range; eauto|eapply dpath_cov; eauto].
          -- simpl. rewrite Nat.add_0_r. exact Hlay.
        * split; [exact Ext|]. split; [exact Ht'|]. split; [exact Hin|]. split; [exact Hf|]. split; [exact Hxt|].
          left; reflexivity.
      + destruct (IH Hxu eq_refl) as (ds1 & ds2 & c & sc & c' & eid' & E & Hne & P1 & P2 & Xc & Lc' & Ic' & Fc' & Xc' & Oc').
        exists ds1, (ds2 ++ [d]), c, sc, c', eid'.
        split; [rewrite E, app_assoc; reflexivity|]. split; [intros E0; apply app_eq_nil in E0; destruct E0; discriminate|].
        split; [exact P1|]. split.
        * apply (dp_snoc m (i + length ds1) c sc ds2 t s' d eid t'); auto.
          rewrite <- Nat.add_assoc, <- app_length, <- E. exact Hlay.
        * split; [exact Xc|]. split; [exact Lc'|]. split; [exact Ic'|]. split; [exact Fc'|]. split; [exact Xc'|].
          right. destruct Oc' as [->|Hk]; [eexists; exact Hlay|exact Hk].
  Qed.

  Lemma node_finalize_cutset {Y} (g : node -> Y) (m : mdd) x :
    (forall n f, g (set_flags n f) = g n) ->
    g (gn (finalize_cutset inp m) x) = g (gn m x).
  Proof using Hclean.
    intros Hg.
    apply (finalize_cutset_steps inp (fun a b : mdd => g (gn b x) = g (gn a x)));
      [reflexivity|congruence| |reflexivity|reflexivity].
    intros a k f _. apply (get_node_upd_node_proj inp g). intros n. apply Hg.
  Qed.

  Lemma node_compute_local_bounds {Y} (g : node -> Y) (m : mdd) x :
    (forall n f, g (set_flags n f) = g n) -> (forall n v, g (set_vbot n v) = g n) ->
    g (gn (compute_local_bounds inp m) x) = g (gn m x).
  Proof.
    intros Hg1 Hg2.
    apply (compute_local_bounds_steps inp (fun a b : mdd => g (gn b x) = g (gn a x))); [reflexivity|congruence|].
    intros a k v. apply (get_node_upd_node_proj inp g). intros n. rewrite Hg2. apply Hg1.
  Qed.

  Lemma pipe3 tb tb2 (ml : mdd) :
    Sinv inp ml -> Xs inp ml ->
    let m3 := finalize_exact inp (find_best_node inp tb tb2 (finalize_layers inp ml)) in
    m_nodes m3 = m_nodes ml /\ m_edges m3 = m_edges ml /\
    m_layers m3 = m_layers (finalize_layers inp ml) /\ m_lel m3 = m_lel ml /\ m_cutset m3 = m_cutset ml /\
    Sinv inp m3 /\ Xs inp m3 /\ peq inp ml m3.
  Proof.
    intros HS HX. cbv zeta.
    destruct (finalize_layers_spec inp Hclean ml HS HX) as (S1 & X1 & P1 & N1).
    destruct (finalize_layers_fields ml) as (F1 & F2 & F3 & F4 & F5).
    set (m1 := finalize_layers inp ml) in *.
    set (m3 := finalize_exact inp (find_best_node inp tb tb2 m1)).
    assert (P3 : peq inp m1 m3) by (apply peq_same_nodes; reflexivity).
    split; [exact F1|]. split; [exact F4|]. split; [reflexivity|]. split; [exact F3|].
    split.
    { change (m_cutset (finalize_layers inp ml) = m_cutset ml). unfold finalize_layers. cbv zeta.
      rewrite (not_pooled inp Hclean). destruct (m_next ml); reflexivity. }
    split; [|split].
    - eapply (Sinv_peq inp Hclean); [exact P3| |exact S1]. intros id Hid. apply (S_next _ _ S1). exact Hid.
    - eapply Xg_peq; [exact P3|reflexivity|reflexivity|reflexivity|exact X1].
    - eapply peq_trans; eauto.
  Qed.

  Lemma in_bottom_up (m : mdd) k x : In x (nth k (m_layers m) []) -> In x (bottom_up m).
  Proof.
    intros H. unfold bottom_up. apply in_concat. exists (nth k (m_layers m) []). split; [|exact H].
    apply in_rev. rewrite rev_involutive.
    destruct (Nat.lt_ge_cases k (length (m_layers m))) as [Hlt|Hge]; [apply nth_In; exact Hlt|].
    rewrite nth_overflow in H by exact Hge. destruct H.
  Qed.

  Lemma cut_node tb tb2 (ml : mdd) k ds u s' :
    ci_type inp = Relaxed -> Sinv inp ml -> Xs inp ml -> Ninv ml -> Einv ml -> m_lel ml = Some k ->
    length (m_layers ml) = length ds -> In u (m_next ml) -> m_layer_end ml <= u < length (m_nodes ml) ->
    dpath ml 0 0 rs ds u s' -> is_ex ml u = false ->
    let m4 := finalize_cutset inp (finalize_exact inp (find_best_node inp tb tb2 (finalize_layers inp ml))) in
    exists ds1 ds2 c sc, ds = ds1 ++ ds2 /\ ds2 <> [] /\ dpath ml 0 0 rs ds1 c sc /\
      dpath ml (length ds1) c sc ds2 u s' /\ is_ex ml c = true /\ In c (m_cutset m4).
  Proof.
    intros Ht HS HX HN HE Hlel Hlen Hu Hur Hp Hxu. cbv zeta.
    destruct (pipe3 tb tb2 ml HS HX) as (G1 & G2 & G3 & G4 & G5 & S3 & X3 & Pl3). cbv zeta in G1, G2, G3, G4, G5, S3, X3, Pl3.
    set (m3 := finalize_exact inp (find_best_node inp tb tb2 (finalize_layers inp ml))) in *.
    destruct (finalize_layers_fields ml) as (_ & _ & _ & _ & F5).
    assert (Hly3 : m_layers m3 = m_layers ml ++ [seq (m_layer_end ml) (length (m_nodes ml) - m_layer_end ml)]).
    { rewrite G3, F5. destruct (m_next ml); [destruct Hu|reflexivity]. }
    assert (Hgn3 : forall x, gn m3 x = gn ml x) by (intros x; apply gn_nodes_eq; exact G1).
    assert (Hge3 : forall x, get_edge m3 x = get_edge ml x) by (intros x; apply ge_edges_eq; exact G2).
    pose proof (X_lel_lt _ _ _ HX Ht k Hlel) as Hk.
    assert (Hfl : length (firstn k ds) = k) by (rewrite firstn_length; lia).
    destruct (dpath_split _ _ _ _ _ _ _ Hp (firstn k ds) (skipn k ds)) as (ck & sck & Pa & Pb).
    { symmetry. apply firstn_skipn. }
    rewrite Hfl in Pb. simpl in Pb.
    assert (Hsk : skipn k ds <> []).
    { intros E. pose proof (skipn_length k ds) as Hs. rewrite E in Hs. simpl in Hs. lia. }
    pose proof (dpath_start_layer _ _ _ _ _ _ _ Pb Hsk) as Hck.
    assert (Hnk : nth_error (m_layers ml) k = Some (nth k (m_layers ml) [])) by (apply nth_error_nth'; exact Hk).
    assert (Hxck : is_ex ml ck = true) by (apply (X_lel_some _ _ _ HX k _ ck Hlel Hnk Hck)).
    assert (Hrs : n_state (gn ml 0) = rs) by (destruct (S_root _ _ HS) as (_ & r2 & _); exact r2).
    destruct (dpath_exact _ _ _ _ _ _ _ HE Pa Hrs Hxck) as (_ & _ & Hx0).
    destruct Hclean as [Hf|Hf].
    - (* last exact layer *)
      exists (firstn k ds), (skipn k ds), ck, sck.
      split; [symmetry; apply firstn_skipn|]. split; [exact Hsk|]. split; [exact Pa|].
      split; [rewrite Hfl; exact Pb|]. split; [exact Hxck|].
      unfold finalize_cutset. cbv zeta. rewrite Hf, G4, Hlel, Ht. cbn [is_relaxed_ct orb opt_default].
      rewrite G4, Hlel. cbn [opt_default].
      destruct (lel_cutset_spec inp m3 k) as [_ Hcs]. rewrite Hcs.
      apply in_or_app. right. rewrite Hly3. rewrite nth_error_app1 by exact Hk. rewrite Hnk. exact Hck.
    - (* frontier *)
      destruct (dpath_last_exact _ _ _ _ _ _ _ Hp Hx0 Hxu)
        as (ds1 & ds2 & c & sc & c' & eid & E & Hne & P1 & P2 & Xc & Lc' & Ic' & Fc' & Xc' & Oc').
      exists ds1, ds2, c, sc. split; [exact E|]. split; [exact Hne|]. split; [exact P1|].
      split; [exact P2|]. split; [exact Xc|].
      unfold finalize_cutset. cbv zeta. rewrite Hf, G4, Hlel, Ht. cbn [is_relaxed_ct orb].
      apply (frontier_cutset_hit m3 c c' eid).
      + intros x Hx Hc. exfalso. rewrite Hgn3 in Hc. rewrite G1 in Hx.
        destruct (Ninv_node ml x HN Hx) as [Q _]. congruence.
      + destruct Oc' as [->|[k' Hk']].
        * apply (in_bottom_up m3 (length (m_layers ml))). rewrite Hly3. rewrite app_nth2 by lia.
          rewrite Nat.sub_diag. simpl. apply in_seq. lia.
        * apply (in_bottom_up m3 k'). rewrite Hly3. apply nth_layers_app. exact Hk'.
      + unfold is_ex. rewrite Hgn3. exact Xc'.
      + rewrite Hgn3. exact Ic'.
      + rewrite Hge3. exact Fc'.
      + unfold is_ex. rewrite Hgn3. exact Xc.
      + rewrite G1. eapply dpath_range; eauto.
  Qed.

  Lemma locb_from_path tb tb2 (ml : mdd) k i c sc vc ds2 u s' o :
    ci_type inp = Relaxed -> Sinv inp ml -> Xs inp ml -> m_lel ml = Some k ->
    length (m_layers ml) = i + length ds2 -> In u (m_next ml) ->
    m_layer_end ml <= u < length (m_nodes ml) ->
    dpath ml i c sc ds2 u s' -> frn (rd + i) sc vc ds2 = Some (s', o) ->
    (forall da db s1 v1, ds2 = da ++ db -> frn (rd + i) sc vc da = Some (s1, v1) -> in_isize (o - v1)) ->
    f_marked (n_flags (gn (finalize st_eqb inp tb tb2 ml) c)) = true /\
    (o - vc <= n_vbot (gn (finalize st_eqb inp tb tb2 ml) c))%Z.
  Proof.
    intros Ht HS HX Hlel Hlen Hu Hur P2 Hrun Hiso.
    destruct (pipe3 tb tb2 ml HS HX) as (G1 & G2 & G3 & G4 & G5 & S3 & X3 & Pl3). cbv zeta in G1, G2, G3, G4, G5, S3, X3, Pl3.
    set (m := finalize st_eqb inp tb tb2 ml).
    set (m3 := finalize_exact inp (find_best_node inp tb tb2 (finalize_layers inp ml))) in *.
    set (m4 := finalize_cutset inp m3) in *.
    set (m5 := compute_local_bounds inp m4).
    assert (Em : m = compute_thresholds st_eqb inp m5) by reflexivity.
    destruct (finalize_cutset_spec inp Hclean m3 S3 X3) as [B34 _]. fold m4 in B34.
    destruct B34 as (P34 & _).
    assert (Pl4 : peq inp ml m4) by (eapply peq_trans; eauto).
    destruct (finalize_layers_fields ml) as (_ & _ & _ & _ & F5).
    assert (Hly4 : m_layers m4 = m_layers ml ++ [seq (m_layer_end ml) (length (m_nodes ml) - m_layer_end ml)]).
    { unfold m4. rewrite finalize_cutset_layers, G3, F5. destruct (m_next ml); [destruct Hu|reflexivity]. }
    assert (P2' : dpath m4 i c sc ds2 u s').
    { eapply dpath_peq; [exact Pl4| |exact P2]. intros j x. rewrite Hly4. apply nth_layers_app. }
    assert (Hgo4 : lb_go m4 = true).
    { unfold lb_go. rewrite Ht. unfold m4. rewrite (lel_finalize_cutset m3 k) by (rewrite G4; exact Hlel).
      fold m4. rewrite Hly4, app_length. cbn [opt_default length is_relaxed_ct].
      pose proof (X_lel_lt _ _ _ HX Ht k Hlel). rewrite andb_true_r. apply Nat.ltb_lt. lia. }
    destruct (local_bounds_path m4 i c sc ds2 u s' (rd + i) vc o Hgo4 P2' Hrun) as [M1 M2].
    { rewrite Hly4, app_length. simpl. lia. }
    { rewrite Hly4, last_last. apply in_seq. lia. }
    { exact Hiso. }
    fold m5 in M1, M2. split.
    - rewrite Em. rewrite (node_compute_thresholds (fun n => f_marked (n_flags n))) by reflexivity. exact M1.
    - rewrite Em. rewrite (node_compute_thresholds (@n_vbot St)) by reflexivity. exact M2.
  Qed.


  Lemma finalize_rub tb tb2 (ml : mdd) x :
    n_rub (gn (finalize st_eqb inp tb tb2 ml) x) = n_rub (gn ml x).
  Proof.
    unfold finalize.
    rewrite (node_compute_thresholds (@n_rub St)) by reflexivity.
    rewrite (node_compute_local_bounds (@n_rub St)) by reflexivity.
    rewrite (node_finalize_cutset (@n_rub St)) by reflexivity.
    apply f_equal. apply gn_nodes_eq. apply (finalize_layers_fields ml).
  Qed.


  (* the cut-set is settled by _finalize_cutset: the bounds and thresholds computed after it leave it alone *)
  Lemma finalize_cutset_stage tb tb2 (ml : mdd) :
    m_cutset (finalize st_eqb inp tb tb2 ml) =
    m_cutset (finalize_cutset inp (finalize_exact inp (find_best_node inp tb tb2 (finalize_layers inp ml)))).
  Proof.
    unfold finalize.
    destruct (compute_thresholds_keq st_eqb inp (compute_local_bounds inp (finalize_cutset inp (finalize_exact inp
                (find_best_node inp tb tb2 (finalize_layers inp ml)))))) as (_ & _ & _ & _ & ->).
    apply (compute_local_bounds_keq inp Hclean).
  Qed.

  Lemma S4_core tb tb2 (ml : mdd) o :
    ci_type inp = Relaxed -> Sinv inp ml -> Xs inp ml -> Ninv ml -> Post ml ->
    vstar = Some o -> (tau < o)%Z ->
    let m := finalize st_eqb inp tb tb2 ml in
    dd_is_exact m = false -> (forall e, dd_best_exact_value inp m = Some e -> (e < o)%Z) ->
    exists c, In c (m_cutset m) /\ f_marked (n_flags (gn m c)) = true /\
      oadd (n_vtop (gn m c)) (H pb (n_depth (gn m c)) (n_state (gn m c))) = Some o /\
      (o <= sat_add (n_vtop (gn m c)) (n_vbot (gn m c)))%Z /\
      (o <= sat_add (n_vtop (gn m c)) (n_rub (gn m c)))%Z.
  Proof.
    intros Ht HS HX HN HP Hv Hlb m Hnex Hbe.
    assert (Hen : enabled ml) by (intros E; rewrite Ht in E; discriminate).
    destruct (track_terminal ml o HS HP Hen Hv Hlb) as (ds & sN & u & s' & Hprom & HE & Hlen & Hu & Hur & Hp & Hvt).
    destruct (finalize_hdr tb tb2 ml) as (H1 & H2 & H3 & H4). cbv zeta in H1, H2, H3, H4. fold m in H1, H2, H3, H4.
    unfold dd_is_exact in Hnex. apply orb_false_iff in Hnex. destruct Hnex as [Hnx Hebp].
    rewrite Hnx in H1. destruct (m_lel ml) as [k|] eqn:Hlel; [|discriminate].
    pose proof Hprom as (Hrun & Hdsl & _).
    (* the terminal node of the path is not exact *)
    assert (Hxu : is_ex ml u = false).
    { destruct (is_ex ml u) eqn:Ex; [|reflexivity]. exfalso.
      destruct (best_exact_ge tb tb2 ml u HS HX Hu Ex Hebp) as (b & Hb & _ & Hge). fold m in Hb, Hge.
      specialize (Hbe (n_vtop (gn m b))). unfold dd_best_exact_value in Hbe. rewrite Hb in Hbe.
      specialize (Hbe eq_refl). lia. }
    destruct (cut_node tb tb2 ml k ds u s' Ht HS HX HN HE Hlel) as (ds1 & ds2 & c & sc & E & Hne & P1 & P2 & Xc & Hcut); auto.
    { lia. }
    cbv zeta in Hcut.
    (* semantic facts about c *)
    assert (Hrs : n_state (gn ml 0) = rs) by (destruct (S_root _ _ HS) as (_ & r2 & _); exact r2).
    assert (Hrdp : n_depth (gn ml 0) = rd) by (destruct (S_root _ _ HS) as (_ & _ & _ & r4 & _); exact r4).
    destruct (dpath_exact _ _ _ _ _ _ _ HE P1 Hrs Xc) as (Hsc & Hdc & _). rewrite Hrdp in Hdc.
    rewrite E, frun_app in Hrun.
    destruct (frn rd rs rv ds1) as [[sc' vc]|] eqn:Er1; [|discriminate].
    assert (sc' = sc).
    { rewrite (frun_state pb _ _ _ _ _ _ Er1). symmetry. apply (dpath_state _ _ _ _ _ _ _ P1). }
    subst sc'.
    assert (HsN : sN = s').
    { rewrite (frun_state pb _ _ _ _ _ _ Hrun). symmetry. apply (dpath_state _ _ _ _ _ _ _ P2). }
    subst sN.
    pose proof (dpath_vtop ml ds1 c sc HE P1 (Sinv_root_vtop ml HS) _ _ Er1) as Hvc.
    rewrite E, app_length in Hdsl.
    destruct (frun_le_H pb nv_static nv_none ds2 (rd + length ds1) sc vc s' o) as (h & Hh & Hle); [lia|exact Hrun|].
    assert (Hclen : c < length (m_nodes ml)) by (eapply dpath_range; eauto).
    assert (Hup : (n_vtop (gn ml c) + h <= o)%Z).
    { pose proof (Sinv_exact_flag_clean_chain inp ml HS c Hclen Xc) as Hcc.
      destruct (clean_chain_frun ml c HS Hcc Hclen) as (dsc & Hrc & Hdepc).
      assert (Hl : length dsc = length ds1) by lia.
      destruct (H_attained pb nv_static nv_some nv_none (N - (rd + length ds1)) (rd + length ds1) sc
                  (n_vtop (gn ml c)) h eq_refl ltac:(lia) Hh) as (dsx & sx & Hrx & Hlx).
      apply (vstar_upper o (dsc ++ dsx) sx _ Hv).
      - rewrite frun_app, Hrc, Hl, Hsc. exact Hrx.
      - rewrite app_length. lia. }
    assert (Hvceq : n_vtop (gn ml c) = vc) by lia.
    assert (Hoeq : (vc + h = o)%Z) by lia.
    destruct (Hguard _ _ _ Er1) as [Hg1 Hg2].
    assert (Hgo : (- B <= o <= B)%Z).
    { apply (Hguard (ds1 ++ ds2) s'). rewrite frun_app, Er1. exact Hrun. }
    assert (Hiso_o : in_isize o) by (unfold in_isize, IMIN, IMAX in *; lia).
    (* transfer to the finalized diagram *)
    destruct (locb_from_path tb tb2 ml k (length ds1) c sc vc ds2 u s' o Ht HS HX Hlel) as [Hmk Hvb]; auto.
    { lia. }
    { intros da db s1 v1 Ed Hr1.
      destruct (Hguard (ds1 ++ da) s1 v1) as [Q1 Q2]; [rewrite frun_app, Er1; exact Hr1|].
      unfold in_isize, IMIN, IMAX in *. lia. }
    fold m in Hmk, Hvb.
    destruct (finalize_core tb tb2 ml c HS HX) as (c1 & c2 & _ & _ & _ & _ & c7). fold m in c1, c2, c7.
    exists c. split; [unfold m; rewrite finalize_cutset_stage; exact Hcut|]. split; [exact Hmk|].
    rewrite <- c1, <- c2, <- c7, Hsc, Hdc, Hh, Hvceq. split; [simpl; f_equal; exact Hoeq|]. split.
    - apply sat_add_ge; [exact Hiso_o|]. lia.
    - unfold m. rewrite finalize_rub. apply sat_add_ge; [exact Hiso_o|].
      assert (Hhr : (h <= n_rub (gn ml c))%Z)
        by (apply (Ninv_rub_adm ml c (rd + length ds1) h HN Hclen); [rewrite Hsc; exact Hh|lia]).
      lia.
  Qed.

  Theorem S4_tracked tb tb2 c ds polls m o :
    Sok ds -> compile st_eqb inp tb tb2 c ds polls = (m, Compiled) ->
    ci_type inp = Relaxed -> dd_is_exact m = false -> vstar = Some o -> (o > tau)%Z ->
    (forall e, dd_best_exact_value inp m = Some e -> (e < o)%Z) ->
    exists sp, In sp (drain_cutset inp m) /\
      oadd (sp_value sp) (H pb (sp_depth sp) (sp_state sp)) = Some o /\ (o <= sp_ub sp)%Z.
  Proof.
    intros Hds Hc Ht Hnex Hv Hlb Hbe.
    destruct (S1_tracked _ _ _ _ _ _ _ Hds Hc (or_introl Ht) Hv Hlb) as (bv & Hbv & Hbvo).
    destruct (compile_post _ _ _ _ _ _ Hds Hc) as (ml & -> & HS & HX & HP & HN & _).
    destruct (S4_core tb tb2 ml o Ht HS HX HN HP Hv ltac:(lia) Hnex Hbe) as (cn & Hin & Hmk & Hbest & Hlocb & Hrub).
    set (m := finalize st_eqb inp tb tb2 ml) in *.
    set (n := gn m cn) in *.
    exists {| sp_state := n_state n; sp_value := n_vtop n; sp_path := best_path inp m cn;
              sp_ub := Z.min (Z.min (sat_add (n_vtop n) (n_rub n)) (sat_add (n_vtop n) (n_vbot n))) bv;
              sp_depth := n_depth n |}.
    split; [|split].
    - unfold drain_cutset. rewrite Hbv. apply in_flat_map. exists cn. split; [exact Hin|].
      cbv zeta. fold n. rewrite Hmk. left; reflexivity.
    - exact Hbest.
    - cbn [sp_ub]. lia.
  Qed.

  (* S3 (K3_ub, C08 iii), first two components: for every cut-set node the rough-bound component and
     the best-value component of its upper bound are valid (the local-bound component is added in
     S3_tracked below, which needs the tracking from every expanded node). *)
  Theorem S3c_tracked tb tb2 c ds polls m sp o :
    Sok ds -> compile st_eqb inp tb tb2 c ds polls = (m, Compiled) ->
    ci_type inp = Relaxed ->
    In sp (drain_cutset inp m) ->
    oadd (sp_value sp) (H pb (sp_depth sp) (sp_state sp)) = Some o -> (o > tau)%Z ->
    exists id bv, In id (m_cutset m) /\ dd_best_value inp m = Some bv /\
      sp_ub sp = Z.min (Z.min (sat_add (n_vtop (gn m id)) (n_rub (gn m id)))
                              (sat_add (n_vtop (gn m id)) (n_vbot (gn m id)))) bv /\
      (o <= sat_add (n_vtop (gn m id)) (n_rub (gn m id)))%Z /\ (o <= bv)%Z /\
      f_marked (n_flags (gn m id)) = true /\ sp_state sp = n_state (gn m id) /\
      sp_value sp = n_vtop (gn m id) /\ sp_depth sp = n_depth (gn m id).
  Proof.
    intros Hds Hc Ht Hsp Ho Hlb.
    destruct (compile_post _ _ _ _ _ _ Hds Hc) as (ml & Em & HS & HX & HP & HN & _).
    destruct (finalize_spec st_eqb inp Hclean tb tb2 ml HS HX) as ((_ & _ & L & A4) & _ & HSm & _ & _ & F6 & _).
    rewrite <- Em in L, A4, HSm, F6.
    unfold drain_cutset in Hsp. destruct (dd_best_value inp m) as [bv|] eqn:Ebv; [|destruct Hsp].
    apply in_flat_map in Hsp. destruct Hsp as (id & Hid & Hsp). cbv zeta in Hsp.
    destruct (f_marked (n_flags (gn m id))) eqn:Emk; [|destruct Hsp].
    destruct Hsp as [<-|[]]. cbn [sp_ub sp_state sp_value sp_depth] in *.
    destruct (F6 id Hid) as [Hidlt Hex].
    pose proof (Sinv_exact_flag_clean_chain inp m HSm id Hidlt Hex) as Hcc.
    destruct (clean_chain_frun m id HSm Hcc Hidlt) as (dsc & Hrc & Hdepc).
    destruct (H pb (n_depth (gn m id)) (n_state (gn m id))) as [h|] eqn:Eh; [|discriminate].
    simpl in Ho. inversion Ho; subst o. clear Ho.
    assert (Hdle : rd + length dsc <= N).
    { destruct (Nat.le_gt_cases (rd + length dsc) N) as [Hl|Hg]; [exact Hl|]. exfalso.
      destruct (rev dsc) as [|dl r] eqn:Er.
      - assert (dsc = []) by (rewrite <- (rev_involutive dsc), Er; reflexivity). subst dsc. simpl in Hg. lia.
      - assert (Ed : dsc = rev r ++ [dl]) by (rewrite <- (rev_involutive dsc), Er; reflexivity).
        rewrite Ed in Hrc. rewrite frun_app in Hrc.
        destruct (frn rd rs rv (rev r)) as [[s1 v1]|]; [|discriminate].
        cbn [frun] in Hrc. rewrite Ed, app_length in Hg. simpl in Hg.
        assert (Hv0 : var_ok pb (rd + length (rev r)) dl = false).
        { unfold var_ok. rewrite nv_none by lia. reflexivity. }
        rewrite Hv0 in Hrc. discriminate. }
    rewrite Hdepc in Eh.
    pose proof (prefix_isize _ _ _ _ Hrc Hdle Eh) as Hiso.
    destruct (H_attained pb nv_static nv_some nv_none (N - (rd + length dsc)) (rd + length dsc) _
                (n_vtop (gn m id)) h eq_refl Hdle Eh) as (dsx & sx & Hrx & Hlx).
    assert (Hfull : frn rd rs rv (dsc ++ dsx) = Some (sx, (n_vtop (gn m id) + h)%Z)).
    { rewrite frun_app, Hrc. exact Hrx. }
    destruct (frun_le_H pb nv_static nv_none (dsc ++ dsx) rd rs rv sx _ ltac:(rewrite app_length; lia) Hfull)
      as (h0 & Hh0 & Hle0).
    assert (Hvs : vstar = Some (rv + h0)%Z) by (unfold vstar; rewrite Hh0; reflexivity).
    destruct (S1_tracked _ _ _ _ _ _ _ Hds Hc (or_introl Ht) Hvs ltac:(lia)) as (bv' & Hbv' & Hbvo).
    rewrite Ebv in Hbv'. inversion Hbv'; subst bv'.
    exists id, bv. split; [exact Hid|]. split; [reflexivity|]. split; [reflexivity|].
    split; [|split; [lia|repeat split; auto]].
    apply sat_add_ge; [exact Hiso|].
    assert (Hr : (h <= n_rub (gn m id))%Z).
    { rewrite Em, finalize_rub. rewrite Em in Hidlt. rewrite <- Em in Hidlt. rewrite L in Hidlt.
      destruct (A4 id) as (a1 & _).
      apply (Ninv_rub_adm ml id (rd + length dsc) h HN Hidlt); [rewrite a1; exact Eh|].
      destruct (Hguard _ _ _ Hrc) as [Q1 Q2]. destruct (Hguard _ _ _ Hfull) as [Q3 Q4]. lia. }
    lia.
  Qed.

  (* the local bound of EVERY cut-set node, not only of the one an optimal path meets *)
  Lemma marked_upd (a : mdd) p u x :
    f_marked (n_flags (gn (upd_node a p (lb_upd u)) x)) = true ->
    (x = p /\ p < length (m_nodes a)) \/ f_marked (n_flags (gn a x)) = true.
  Proof.
    intros H. destruct (Nat.eq_dec p x) as [->|Hne].
    - destruct (Nat.lt_ge_cases x (length (m_nodes a))) as [Hlt|Hge]; [left; auto|].
      rewrite gn_upd_out in H by exact Hge. right; exact H.
    - rewrite gn_upd_other in H by exact Hne. right; exact H.
  Qed.

  Lemma marked_src (m : mdd) :
    Sinv inp m -> (forall x, f_marked (n_flags (gn m x)) = false) ->
    forall x, f_marked (n_flags (gn (compute_local_bounds inp m) x)) = true ->
    In x (last (m_layers m) []) \/ Src m x.
  Proof.
    intros HS H0 x Hx. rewrite compute_local_bounds_unfold in Hx.
    destruct (lb_go m); [|rewrite H0 in Hx; discriminate].
    set (Q := fun a : mdd => Stat m a /\
              forall y, f_marked (n_flags (gn a y)) = true -> In y (last (m_layers m) []) \/ Src m y).
    assert (Q0 : Q (lb_init m)).
    { unfold lb_init.
      apply (fold_left_inv Q).
      - split; [apply Stat_refl|]. intros y Hy. rewrite H0 in Hy. discriminate.
      - intros a id Hid (Sa & Ma). split.
        + eapply Stat_trans; [exact Sa|]. apply Stat_upd. reflexivity.
        + intros y Hy. destruct (Nat.eq_dec id y) as [->|Hne].
          * left. exact Hid.
          * rewrite gn_upd_other in Hy by exact Hne. apply Ma. exact Hy. }
    assert (Qstep : forall a id, Q a -> Q (lb_step a id)).
    { intros a id (Sa & Ma). unfold lb_step. cbv zeta.
      destruct (f_marked (n_flags (gn a id))); [|split; assumption].
      pose proof Sa as (Se & _ & Sl & Si).
      assert (Hin : forall eid, In eid (n_inb (gn a id)) -> eid < length (m_edges m)).
      { intros eid He. rewrite Si in He.
        destruct (Nat.lt_ge_cases id (length (m_nodes m))) as [Hlt|Hge].
        - apply (S_nodes _ _ HS id Hlt). exact He.
        - rewrite (gn_out_of_range inp m id Hge) in He. destruct He. }
      apply (fold_left_inv Q).
      - split; assumption.
      - intros b eid He (Sb & Mb). split.
        + eapply Stat_trans; [exact Sb|]. apply Stat_upd. reflexivity.
        + intros y Hy. apply marked_upd in Hy. destruct Hy as [[-> _]|Hy]; [|apply Mb; exact Hy].
          right. exists eid. split; [apply Hin; exact He|]. rewrite (Stat_edge m b eid Sb). reflexivity. }
    assert (Qall : Q (fold_left lb_step (bottom_up m) (lb_init m))).
    { apply fold_left_inv2; [exact Q0|]. intros a y Ha. apply Qstep. exact Ha. }
    apply Qall. exact Hx.
  Qed.

  Lemma flag_finalize_cutset (h : flags -> bool) (m : mdd) x :
    (forall f b, h (fl_set_above f b) = h f) -> (forall f b, h (fl_set_cutset f b) = h f) ->
    h (n_flags (gn (finalize_cutset inp m) x)) = h (n_flags (gn m x)).
  Proof using Hclean.
    intros Ha Hc.
    apply (finalize_cutset_steps inp (fun a b : mdd => h (n_flags (gn b x)) = h (n_flags (gn a x))));
      [reflexivity|congruence| |reflexivity|reflexivity].
    intros a k f Hf. apply (get_node_upd_node_proj inp (fun n => h (n_flags n))). intros n. nsimpl.
    destruct Hf as [E|[E|E]]; rewrite E, ?Ha, ?Hc; reflexivity.
  Qed.

  Lemma frontier_cutset_src (m : mdd) :
    Sinv inp m ->
    (forall x, x < length (m_nodes m) -> f_cutset (n_flags (gn m x)) = true -> In x (m_cutset m)) ->
    forall c, In c (m_cutset (frontier_cutset inp m true)) -> In c (m_cutset m) \/ Src m c.
  Proof.
    intros HS H0. rewrite frontier_cutset_unfold.
    set (Q := fun a : mdd => FInv m a /\ forall c, In c (m_cutset a) -> In c (m_cutset m) \/ Src m c).
    assert (HF0 : FInv m m) by (repeat split; auto).
    assert (G : Q (fold_left fc_step (bottom_up m) m)).
    { apply fold_left_inv2; [split; [exact HF0|intros c Hc; left; exact Hc]|].
      intros a id (Fa & Ca). unfold fc_step. cbv zeta. destruct (fl_is_exact _).
      - split; [apply FInv_upd_above; exact Fa|exact Ca].
      - pose proof Fa as (_ & _ & F3 & _). destruct (F3 id) as [Hi _].
        assert (Hin : forall eid, In eid (n_inb (gn a id)) -> eid < length (m_edges m)).
        { intros eid He. rewrite Hi in He.
          destruct (Nat.lt_ge_cases id (length (m_nodes m))) as [Hlt|Hge].
          - apply (S_nodes _ _ HS id Hlt). exact He.
          - rewrite (gn_out_of_range inp m id Hge) in He. destruct He. }
        apply (fold_left_inv Q).
        + split; assumption.
        + intros b eid He (Fb & Cb). split; [apply (FInv_fc_inner m b eid Fb)|].
          pose proof Fb as (G1 & _).
          intros c Hc. unfold fc_inner in Hc. cbv zeta in Hc.
          destruct (_ && _); [|apply Cb; exact Hc].
          msimpl_in Hc. apply in_app_or in Hc. destruct Hc as [Hc|[<-|[]]]; [apply Cb; exact Hc|].
          right. exists eid. split; [apply Hin; exact He|]. rewrite (ge_edges_eq m b eid G1). reflexivity. }
    apply G.
  Qed.

  (* S3 (K3_ub, C08 iii) in full *)
  Theorem S3_tracked tb tb2 c ds polls m sp o :
    Sok ds -> compile st_eqb inp tb tb2 c ds polls = (m, Compiled) ->
    ci_type inp = Relaxed -> dd_is_exact m = false ->
    In sp (drain_cutset inp m) ->
    oadd (sp_value sp) (H pb (sp_depth sp) (sp_state sp)) = Some o -> (o > tau)%Z ->
    (o <= sp_ub sp)%Z.
  Proof.
    intros Hds Hc Ht Hnex Hsp Ho Hlb.
    destruct (S3c_tracked tb tb2 c ds polls m sp o Hds Hc Ht Hsp Ho Hlb)
      as (id & bv & Hid & Hbv & Hub & Hrubp & Hbvp & Hmk & Est & Evl & Edp).
    rewrite Hub. rewrite Est, Evl, Edp in Ho.
    destruct (compile_post _ _ _ _ _ _ Hds Hc) as (ml & Em & HS & HX & HP & HN & _).
    destruct HP as (HPa & HPb & HUP & HSL & HXn).
    destruct (finalize_spec st_eqb inp Hclean tb tb2 ml HS HX) as ((_ & _ & L & A4) & _ & HSm & _ & _ & F6 & _).
    rewrite <- Em in L, A4, HSm, F6.
    destruct (finalize_hdr tb tb2 ml) as (H1 & H2 & H3 & H4). cbv zeta in H1, H2, H3, H4. rewrite <- Em in H1, H2, H3, H4.
    unfold dd_is_exact in Hnex. apply orb_false_iff in Hnex. destruct Hnex as [Hnx Hebp].
    rewrite Hnx in H1. destruct (m_lel ml) as [k|] eqn:Hlel; [|discriminate].
    assert (Hen : enabled ml) by (intros E; rewrite Ht in E; discriminate).
    (* the next layer of the loop was not empty *)
    assert (Hnn : m_next ml <> []).
    { unfold dd_best_value in Hbv. rewrite H3 in Hbv.
      destruct (pick tb (argmax_candidates inp (finalize_layers inp ml) (m_next ml))) as [b|] eqn:Eb; [|discriminate].
      apply pick_In in Eb. apply (argmax_candidates_In inp Hclean) in Eb.
      intros E. rewrite E in Eb. destruct Eb. }
    pose proof (HXn Hnn) as HXi.
    destruct (F6 id Hid) as [Hidlt Hex].
    pose proof (Sinv_exact_flag_clean_chain inp m HSm id Hidlt Hex) as Hcc.
    destruct (clean_chain_frun m id HSm Hcc Hidlt) as (dsc & Hrc & Hdepc).
    destruct (A4 id) as (a1 & a2 & _ & _ & _ & _ & a7).
    (* the pipeline *)
    destruct (pipe3 tb tb2 ml HS HX) as (G1 & G2 & G3 & G4 & G5 & S3 & X3 & Pl3). cbv zeta in G1, G2, G3, G4, G5, S3, X3, Pl3.
    set (m3 := finalize_exact inp (find_best_node inp tb tb2 (finalize_layers inp ml))) in *.
    set (m4 := finalize_cutset inp m3) in *.
    set (m5 := compute_local_bounds inp m4).
    assert (Emm : m = compute_thresholds st_eqb inp m5) by (rewrite Em; reflexivity).
    assert (Hgn3 : forall x, gn m3 x = gn ml x) by (intros x; apply gn_nodes_eq; exact G1).
    destruct (finalize_layers_fields ml) as (_ & _ & _ & _ & F5).
    assert (Hly3 : m_layers m3 = m_layers ml ++ [seq (m_layer_end ml) (length (m_nodes ml) - m_layer_end ml)]).
    { rewrite G3, F5. destruct (m_next ml); [congruence|reflexivity]. }
    (* the cut-set node is the source of an arc *)
    assert (HSrc : Src ml id).
    { rewrite Em, finalize_cutset_stage in Hid. fold m3 m4 in Hid.
      assert (Hsrc3 : forall x, Src m3 x -> Src ml x).
      { intros x (eid & E1 & E2). exists eid. rewrite G2 in E1. rewrite (ge_edges_eq ml m3 eid G2) in E2. auto. }
      destruct Hclean as [Hf|Hf].
      - (* last exact layer: the node lies in layer k, hence not in the last layer *)
        unfold m4, finalize_cutset in Hid. cbv zeta in Hid. rewrite Hf, G4, Hlel, Ht in Hid.
        cbn [is_relaxed_ct orb opt_default] in Hid. rewrite G4, Hlel in Hid. cbn [opt_default] in Hid.
        destruct (lel_cutset_spec inp m3 k) as [_ Hcs3]. rewrite Hcs3, G5 in Hid.
        rewrite (X_cutset _ _ _ HX) in Hid. simpl in Hid.
        pose proof (X_lel_lt _ _ _ HX Ht k Hlel) as Hk.
        rewrite <- G3, Hly3, nth_error_app1 in Hid by exact Hk.
        destruct (nth_error (m_layers ml) k) as [ids|] eqn:Enk; [|destruct Hid].
        assert (Hidl : id < m_layer_end ml).
        { apply (X_layers _ _ _ HXi ids id); [eapply nth_error_In; eauto|exact Hid]. }
        assert (Hm5 : f_marked (n_flags (gn m5 id)) = true).
        { rewrite Emm in Hmk. rewrite (node_compute_thresholds (fun n => f_marked (n_flags n))) in Hmk by reflexivity. exact Hmk. }
        assert (S4' : Sinv inp m4).
        { destruct (finalize_cutset_spec inp Hclean m3 S3 X3) as [(P34 & N34 & _) _]. fold m4 in P34, N34.
          eapply (Sinv_peq inp Hclean); [exact P34| |exact S3].
          intros y Hy. rewrite N34 in Hy. destruct P34 as (_ & _ & L34 & _). rewrite L34. apply (S_next _ _ S3). exact Hy. }
        destruct (marked_src m4 S4') with (x := id) as [Hl|Hs].
        + intros x. unfold m4. rewrite (flag_finalize_cutset f_marked) by (intros; reflexivity).
          rewrite Hgn3.
          destruct (Nat.lt_ge_cases x (length (m_nodes ml))) as [Hlt|Hge].
          * apply (Ninv_node ml x HN Hlt).
          * rewrite (gn_out_of_range inp ml x Hge). reflexivity.
        + exact Hm5.
        + exfalso. unfold m4 in Hl. rewrite finalize_cutset_layers, Hly3, last_last in Hl. apply in_seq in Hl. lia.
        + apply Hsrc3. destruct Hs as (eid & E1 & E2).
          destruct (finalize_cutset_spec inp Hclean m3 S3 X3) as [((Pe & _) & _) _]. fold m4 in Pe.
          exists eid. rewrite Pe in E1. rewrite (ge_edges_eq m3 m4 eid Pe) in E2. auto.
      - unfold m4, finalize_cutset in Hid. cbv zeta in Hid. rewrite Hf, G4, Hlel, Ht in Hid.
        cbn [is_relaxed_ct orb] in Hid.
        destruct (frontier_cutset_src m3 S3) with (c := id) as [Hc0|Hs]; [|exact Hid| |apply Hsrc3; exact Hs].
        + intros x Hx Hcx. exfalso. rewrite Hgn3 in Hcx. rewrite G1 in Hx.
          destruct (Ninv_node ml x HN Hx) as [Q _]. congruence.
        + rewrite G5, (X_cutset _ _ _ HX) in Hc0. destruct Hc0. }
    destruct (HSL id HSrc) as (i & Hil & Hdi).
    assert (Hli : length dsc = i) by lia.
    assert (HSt : Start i (n_state (gn m id)) (n_vtop (gn m id))) by (exists dsc; auto).
    destruct (H pb (n_depth (gn m id)) (n_state (gn m id))) as [h|] eqn:Eh; [|discriminate].
    simpl in Ho. inversion Ho; subst o. clear Ho.
    assert (Hdle : rd + i <= N).
    { rewrite <- Hli. apply (frun_len_le dsc rd rs rv _ Hrc Hrd). }
    rewrite Hdepc, Hli in Eh.
    destruct (H_attained pb nv_static nv_some nv_none (N - (rd + i)) (rd + i) _ (n_vtop (gn m id)) h eq_refl Hdle Eh)
      as (ds2 & sN & Hr2 & Hl2).
    assert (Hpc : promC i (n_state (gn m id)) (n_vtop (gn m id)) ds2 sN (n_vtop (gn m id) + h)%Z).
    { split; [exact Hr2|]. split; [lia|lia]. }
    assert (Hcv : cov (n_state (gn ml id)) (n_state (gn m id))) by (rewrite a1; apply cov_refl).
    assert (Hvv : (n_vtop (gn m id) <= n_vtop (gn ml id))%Z) by (rewrite a2; lia).
    destruct (HUP i id (n_state (gn m id)) (n_vtop (gn m id)) ds2 sN _ Hil HSrc Hcv Hvv HSt Hpc Hen)
      as (HE & _ & Hlen & _ & u & s' & Hu & Hur & Hpth).
    assert (HsN : sN = s').
    { rewrite (frun_state pb _ _ _ _ _ _ Hr2). symmetry. apply (dpath_state _ _ _ _ _ _ _ Hpth). }
    subst sN.
    destruct (Hguard (dsc ++ ds2) s' _ ltac:(rewrite frun_app, Hrc, Hli; exact Hr2)) as [Go1 Go2].
    destruct (locb_from_path tb tb2 ml k i id (n_state (gn m id)) (n_vtop (gn m id)) ds2 u s'
                (n_vtop (gn m id) + h)%Z Ht HS HX Hlel) as [_ Mv]; auto.
    { lia. }
    { intros da db s1 v1 Ed Hr1.
      destruct (Hguard (dsc ++ da) s1 v1) as [Q1 Q2]; [rewrite frun_app, Hrc, Hli; exact Hr1|].
      unfold in_isize, IMIN, IMAX in *. lia. }
    rewrite <- Em in Mv.
    assert (Hloc : (n_vtop (gn m id) + h <= sat_add (n_vtop (gn m id)) (n_vbot (gn m id)))%Z).
    { apply sat_add_ge; [unfold in_isize, IMIN, IMAX in *; lia|lia]. }
    lia.
  Qed.
  End Tracked.

  (* without a dominance rule: lb is the threshold, the filter drops nothing *)
  Definition Linv : mdd -> Prop := Linv_at lb.

  Lemma Linv_initialize c ds polls : Linv (initialize inp c ds polls).
  Proof using Hnocut Hwidth Hrd cov_refl. apply Linv_at_initialize. Qed.

  Lemma no_rule : tracking lb (fun _ => True) (fun _ _ => True).
  Proof.
    split; [lia|]. split; [|intros; exact I].
    intros d m mb _ _ _ _ _. split; [exact I|]. intros u Hu _. apply filter_with_dominance_nodom. exact Hu.
  Qed.

  Theorem S1_relaxed_upper_bound tb tb2 c ds polls m o :
    compile st_eqb inp tb tb2 c ds polls = (m, Compiled) ->
    ci_type inp = Relaxed \/ ci_type inp = Exact ->
    vstar = Some o -> (o > lb)%Z ->
    exists b, dd_best_value inp m = Some b /\ (o <= b)%Z.
  Proof. exact (S1_tracked _ _ _ no_rule tb tb2 c ds polls m o I). Qed.

  Theorem S2_exact_truthful tb tb2 c ds polls m o :
    compile st_eqb inp tb tb2 c ds polls = (m, Compiled) ->
    dd_is_exact m = true -> vstar = Some o -> (o > lb)%Z ->
    dd_best_exact_value inp m = Some o.
  Proof. exact (S2_tracked _ _ _ no_rule tb tb2 c ds polls m o I). Qed.

  Theorem S2_exact_mode tb tb2 c ds polls m o :
    compile st_eqb inp tb tb2 c ds polls = (m, Compiled) ->
    ci_type inp = Exact -> vstar = Some o -> (o > lb)%Z ->
    dd_best_value inp m = Some o.
  Proof. exact (S2_mode_tracked _ _ _ no_rule tb tb2 c ds polls m o I). Qed.

  Theorem S4_cutset_covers tb tb2 c ds polls m o :
    compile st_eqb inp tb tb2 c ds polls = (m, Compiled) ->
    ci_type inp = Relaxed -> dd_is_exact m = false -> vstar = Some o -> (o > lb)%Z ->
    (forall e, dd_best_exact_value inp m = Some e -> (e < o)%Z) ->
    exists sp, In sp (drain_cutset inp m) /\
      oadd (sp_value sp) (H pb (sp_depth sp) (sp_state sp)) = Some o /\ (o <= sp_ub sp)%Z.
  Proof. exact (S4_tracked _ _ _ no_rule tb tb2 c ds polls m o I). Qed.

  Theorem S3_cutset_ub_components tb tb2 c ds polls m sp o :
    compile st_eqb inp tb tb2 c ds polls = (m, Compiled) ->
    ci_type inp = Relaxed ->
    In sp (drain_cutset inp m) ->
    oadd (sp_value sp) (H pb (sp_depth sp) (sp_state sp)) = Some o -> (o > lb)%Z ->
    exists id bv, In id (m_cutset m) /\ dd_best_value inp m = Some bv /\
      sp_ub sp = Z.min (Z.min (sat_add (n_vtop (gn m id)) (n_rub (gn m id)))
                              (sat_add (n_vtop (gn m id)) (n_vbot (gn m id)))) bv /\
      (o <= sat_add (n_vtop (gn m id)) (n_rub (gn m id)))%Z /\ (o <= bv)%Z /\
      f_marked (n_flags (gn m id)) = true /\ sp_state sp = n_state (gn m id) /\
      sp_value sp = n_vtop (gn m id) /\ sp_depth sp = n_depth (gn m id).
  Proof. exact (S3c_tracked _ _ _ no_rule tb tb2 c ds polls m sp o I). Qed.

  Theorem S3_cutset_ub tb tb2 c ds polls m sp o :
    compile st_eqb inp tb tb2 c ds polls = (m, Compiled) ->
    ci_type inp = Relaxed -> dd_is_exact m = false ->
    In sp (drain_cutset inp m) ->
    oadd (sp_value sp) (H pb (sp_depth sp) (sp_state sp)) = Some o -> (o > lb)%Z ->
    (o <= sp_ub sp)%Z.
  Proof. exact (S3_tracked _ _ _ no_rule tb tb2 c ds polls m sp o I). Qed.
End Sim.

(* the contracts of SolverProofs.v, for every compilation the solver requests *)
Require Import DDO.Solver DDO.SolverProofs.
Local Open Scope nat_scope.

Section KHolds.
  Context {St : Type}.
  Variable st_eqb : St -> St -> bool.
  Hypothesis st_eqb_spec : forall a b, st_eqb a b = true <-> a = b.
  Variable cfg : @sconfig St.
  Let pb := sc_problem cfg.
  Let rlx := sc_relax cfg.
  Let N := nb_vars pb.
  Hypothesis cfg_clean : sc_flavour cfg = CleanLEL \/ sc_flavour cfg = CleanFC.
  Hypothesis cfg_nocache : sc_use_cache cfg = false.
  Hypothesis cfg_nodom : sc_domrule cfg = None.
  Hypothesis cfg_nocut : sc_cutoff cfg = 0.
  Hypothesis cfg_width : 1 <= sc_width cfg.
  Hypothesis nv_static : forall k l1 l2, next_variable pb k l1 = next_variable pb k l2.
  Hypothesis nv_some : forall k l, k < N -> exists x, next_variable pb k l = Some x.
  Hypothesis nv_none : forall k l, N <= k -> next_variable pb k l = None.
  Variable cov : St -> St -> Prop.
  Hypothesis cov_refl : forall s, cov s s.
  Hypothesis cov_sim : forall s s' x v, cov s s' -> In v (domain pb x s') ->
    let d := {| d_var := x; d_val := v |} in
    In v (domain pb x s) /\ cov (transition pb s d) (transition pb s' d) /\
    (transition_cost pb s' (transition pb s' d) d <= transition_cost pb s (transition pb s d) d)%Z.
  Hypothesis merge_cov : forall L s s', In s L -> cov s s' -> cov (merge rlx L) s'.
  Hypothesis relax_ge : forall src dst mg d c, (c <= relax rlx src dst mg d c)%Z.
  Hypothesis rub_adm : forall k s s' h, cov s s' -> H pb k s' = Some h -> (h <= fast_upper_bound rlx s)%Z.
  (* sub-problems the solver hands to the compiler *)
  Variable good : @subproblem St -> Prop.
  Variable B : Z.
  Hypothesis HB : (2 * B <= IMAX)%Z.
  Hypothesis good_guard : forall n, good n -> forall ds s' v',
    frun pb (sp_depth n) (sp_state n) (sp_value n) ds = Some (s', v') -> (- B <= v' <= B)%Z.

  Definition best (n : @subproblem St) : option Z := oadd (sp_value n) (H pb (sp_depth n) (sp_state n)).

  Theorem K2_holds : forall ct n lb c ds polls m out,
    dd_ct ct -> good n -> sp_depth n <= N ->
    compile st_eqb (mk_input cfg ct n lb) 0 0 c ds polls = (m, out) -> out = Compiled ->
    dd_is_exact m = true ->
    forall o, best n = Some o -> (o > lb)%Z -> dd_best_exact_value (mk_input cfg ct n lb) m = Some o.
  Proof.
    intros ct n lb c ds polls m out _ Hg Hd Hc -> Hex o Hb Hlb.
    apply (S2_exact_truthful st_eqb st_eqb_spec (mk_input cfg ct n lb) cfg_clean cfg_nocache cfg_nodom cfg_nocut
             cfg_width Hd nv_static nv_some nv_none cov cov_refl cov_sim merge_cov relax_ge rub_adm B HB
             (good_guard n Hg) 0 0 c ds polls m o Hc Hex Hb Hlb).
  Qed.

  (* K4 together with the instance of K3_ub that the solver proof uses (the upper bound of the covering node) *)
  Theorem K4_ub_holds : forall n lb c ds polls m out,
    good n -> sp_depth n <= N ->
    compile st_eqb (mk_input cfg Relaxed n lb) 0 0 c ds polls = (m, out) -> out = Compiled ->
    dd_is_exact m = false ->
    forall o, best n = Some o -> (o > lb)%Z ->
    (forall e, dd_best_exact_value (mk_input cfg Relaxed n lb) m = Some e -> (e < o)%Z) ->
    exists x, In x (drain_cutset (mk_input cfg Relaxed n lb) m) /\ best x = Some o /\ (o <= sp_ub x)%Z.
  Proof.
    intros n lb c ds polls m out Hg Hd Hc -> Hex o Hb Hlb Hbe.
    apply (S4_cutset_covers st_eqb st_eqb_spec (mk_input cfg Relaxed n lb) cfg_clean cfg_nocache cfg_nodom cfg_nocut
             cfg_width Hd nv_static nv_some nv_none cov cov_refl cov_sim merge_cov relax_ge rub_adm B HB
             (good_guard n Hg) 0 0 c ds polls m o Hc eq_refl Hex Hb Hlb Hbe).
  Qed.

  Theorem K4_holds : forall n lb c ds polls m out,
    good n -> sp_depth n <= N ->
    compile st_eqb (mk_input cfg Relaxed n lb) 0 0 c ds polls = (m, out) -> out = Compiled ->
    dd_is_exact m = false ->
    forall o, best n = Some o -> (o > lb)%Z ->
    (forall e, dd_best_exact_value (mk_input cfg Relaxed n lb) m = Some e -> (e < o)%Z) ->
    exists x, In x (drain_cutset (mk_input cfg Relaxed n lb) m) /\ best x = Some o.
  Proof.
    intros n lb c ds polls m out Hg Hd Hc Ho Hex o Hb Hlb Hbe.
    destruct (K4_ub_holds n lb c ds polls m out Hg Hd Hc Ho Hex o Hb Hlb Hbe) as (x & H1 & H2 & _).
    exists x; auto.
  Qed.

  Theorem K3_ub_holds : forall n lb c ds polls m out,
    good n -> sp_depth n <= N ->
    compile st_eqb (mk_input cfg Relaxed n lb) 0 0 c ds polls = (m, out) -> out = Compiled ->
    dd_is_exact m = false ->
    forall x, In x (drain_cutset (mk_input cfg Relaxed n lb) m) ->
    forall o, best x = Some o -> (o > lb)%Z -> (o <= sp_ub x)%Z.
  Proof.
    intros n lb c ds polls m out Hg Hd Hc -> Hex x Hx o Hb Hlb.
    apply (S3_cutset_ub st_eqb st_eqb_spec (mk_input cfg Relaxed n lb) cfg_clean cfg_nocache cfg_nodom cfg_nocut
             cfg_width Hd nv_static nv_some nv_none cov cov_refl cov_sim merge_cov relax_ge rub_adm B HB
             (good_guard n Hg) 0 0 c ds polls m x o Hc eq_refl Hex Hx Hb Hlb).
  Qed.

  Theorem K3_ub_components : forall n lb c ds polls m out,
    good n -> sp_depth n <= N ->
    compile st_eqb (mk_input cfg Relaxed n lb) 0 0 c ds polls = (m, out) -> out = Compiled ->
    forall x, In x (drain_cutset (mk_input cfg Relaxed n lb) m) ->
    forall o, best x = Some o -> (o > lb)%Z ->
    exists id bv, In id (m_cutset m) /\ dd_best_value (mk_input cfg Relaxed n lb) m = Some bv /\
      sp_ub x = Z.min (Z.min (sat_add (n_vtop (get_node (mk_input cfg Relaxed n lb) m id))
                                      (n_rub (get_node (mk_input cfg Relaxed n lb) m id)))
                             (sat_add (n_vtop (get_node (mk_input cfg Relaxed n lb) m id))
                                      (n_vbot (get_node (mk_input cfg Relaxed n lb) m id)))) bv /\
      (o <= sat_add (n_vtop (get_node (mk_input cfg Relaxed n lb) m id))
                    (n_rub (get_node (mk_input cfg Relaxed n lb) m id)))%Z /\ (o <= bv)%Z.
  Proof.
    intros n lb c ds polls m out Hg Hd Hc -> x Hx o Hb Hlb.
    destruct (S3_cutset_ub_components st_eqb st_eqb_spec (mk_input cfg Relaxed n lb) cfg_clean cfg_nocache cfg_nodom cfg_nocut
             cfg_width Hd nv_static nv_some nv_none cov cov_refl cov_sim merge_cov relax_ge rub_adm B HB
             (good_guard n Hg) 0 0 c ds polls m x o Hc eq_refl Hx Hb Hlb) as (id & bv & H1 & H2 & H3 & H4 & H5 & _).
    exists id, bv. auto.
  Qed.
End KHolds.

Print Assumptions S1_relaxed_upper_bound.
Print Assumptions S2_exact_truthful.
Print Assumptions S2_exact_mode.
Print Assumptions S4_cutset_covers.
Print Assumptions S3_cutset_ub_components.
Print Assumptions S3_cutset_ub.
Print Assumptions K2_holds.
Print Assumptions K4_ub_holds.
Print Assumptions K4_holds.
Print Assumptions K3_ub_components.
Print Assumptions K3_ub_holds.
Print Assumptions vstar_opt_enum.
