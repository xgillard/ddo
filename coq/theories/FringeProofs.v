(* FringeProofs.v — property C11: the duplicate-free fringe (NoDupFringe) is a faithful
   priority queue.  All statements are about the executable model of Fringe.v.

   Part A : representation invariant, no panic, preservation by push / pop / clear.
   Part B : abstraction to a list of sub-problems, refinement of the abstract coalescing queue.
   Part C : with the MaxUB ranking, successive pops are non-increasing in (ub, value).
   Part D : the de-duplication clause: what survives a coalescing push; entries are merged exactly when
            their keys [St] are equal, so with St = the state alone (NoDupFringe before the fix of D4)
            depth is ignored, and with St = (state, depth) (the code in /repo, Fringe2.v) it is not. *)
Require Import DDO.Base DDO.Fringe.
Require Import List Lia Arith ZArith Permutation Bool.
Import ListNotations.
Local Open Scope nat_scope.

Lemma set_nth_length {A} n (x : A) l : length (set_nth n x l) = length l.
Proof. unfold set_nth. apply upd_nth_length. Qed.

Lemma nth_error_set_nth_same {A} n (x : A) l :
  n < length l -> nth_error (set_nth n x l) n = Some x.
Proof.
  intros Hn. unfold set_nth.
  destruct (nth_error l n) as [y|] eqn:E.
  - apply (nth_error_upd_nth_same n (fun _ => x) l y E).
  - apply nth_error_None in E. lia.
Qed.

Lemma nth_error_set_nth_other {A} n m (x : A) l :
  n <> m -> nth_error (set_nth n x l) m = nth_error l m.
Proof. intros Hnm. unfold set_nth. apply nth_error_upd_nth_other. exact Hnm. Qed.

Lemma nth_error_set_nth {A} n m (x : A) l :
  n < length l -> nth_error (set_nth n x l) m = if m =? n then Some x else nth_error l m.
Proof.
  intros Hn. destruct (Nat.eqb_spec m n) as [->|Hm].
  - apply nth_error_set_nth_same. exact Hn.
  - apply nth_error_set_nth_other. auto.
Qed.

Lemma nth_error_snoc_other {A} (l : list A) (x : A) j :
  j <> length l -> nth_error (l ++ [x]) j = nth_error l j.
Proof.
  intros Hj. destruct (Nat.lt_ge_cases j (length l)) as [Hlt|Hge].
  - apply nth_error_app1. exact Hlt.
  - transitivity (@None A).
    + apply nth_error_None. rewrite app_length. cbn [length]. lia.
    + symmetry. apply nth_error_None. lia.
Qed.

Lemma nth_error_snoc_same {A} (l : list A) (x : A) : nth_error (l ++ [x]) (length l) = Some x.
Proof. rewrite nth_error_app2 by lia. rewrite Nat.sub_diag. reflexivity. Qed.

Lemma rev_eq_cons {A} (l : list A) x r : rev l = x :: r -> l = rev r ++ [x].
Proof. intros H. rewrite <- (rev_involutive l), H. reflexivity. Qed.

Lemma rev_eq_nil {A} (l : list A) : rev l = [] -> l = [].
Proof. intros H. rewrite <- (rev_involutive l), H. reflexivity. Qed.

Lemma parent_root : parent 0 = 0.
Proof. reflexivity. Qed.

(* the only fact about [parent] that needs its definition: every position but the root is
   the left or the right child of its parent *)
Lemma parent_spec q : q > 0 -> q = left_child (parent q) \/ q = right_child (parent q).
Proof.
  intros Hq. unfold parent, left_child, right_child, is_root, is_left.
  destruct (Nat.eqb_spec q 0) as [E|_]; [lia|].
  pose proof (Nat.div_mod q 2 ltac:(lia)). pose proof (Nat.mod_upper_bound q 2 ltac:(lia)).
  destruct (Nat.eqb_spec (q mod 2) 1); lia.
Qed.

Local Opaque parent.

Lemma parent_lt p : p > 0 -> parent p < p.
Proof. intros Hp. destruct (parent_spec p Hp); unfold left_child, right_child in *; lia. Qed.

Lemma parent_left_child p : parent (left_child p) = p.
Proof.
  destruct (parent_spec (left_child p)); unfold left_child, right_child in *; lia.
Qed.

Lemma parent_right_child p : parent (right_child p) = p.
Proof.
  destruct (parent_spec (right_child p)); unfold left_child, right_child in *; lia.
Qed.

Lemma parent_child_iff q p :
  q > 0 -> (parent q = p <-> q = left_child p \/ q = right_child p).
Proof.
  intros Hq. split.
  - intros <-. apply parent_spec. exact Hq.
  - intros [-> | ->]; [apply parent_left_child | apply parent_right_child].
Qed.

Lemma child_ge_left_child q p : q > 0 -> parent q = p -> left_child p <= q.
Proof.
  intros Hq <-. destruct (parent_spec q Hq); unfold left_child, right_child in *; lia.
Qed.

(* index transposition *)
Definition sw (a b q : nat) : nat := if q =? a then b else if q =? b then a else q.

Lemma sw_l a b : sw a b a = b.
Proof. unfold sw. rewrite Nat.eqb_refl. reflexivity. Qed.

Lemma sw_r a b : sw a b b = a.
Proof. unfold sw. rewrite Nat.eqb_refl. destruct (Nat.eqb_spec b a); congruence. Qed.

Lemma sw_other a b q : q <> a -> q <> b -> sw a b q = q.
Proof. intros Ha Hb. unfold sw. destruct (Nat.eqb_spec q a), (Nat.eqb_spec q b); congruence. Qed.

Lemma sw_invol a b q : sw a b (sw a b q) = q.
Proof.
  destruct (Nat.eq_dec q a) as [->|Ha]; [rewrite sw_l; apply sw_r|].
  destruct (Nat.eq_dec q b) as [->|Hb]; [rewrite sw_r; apply sw_l|].
  rewrite !(sw_other a b q) by assumption. reflexivity.
Qed.

Section FringeProofs.
  Context {St : Type}.
  Variable st_eqb : St -> St -> bool.
  Hypothesis st_eqb_spec : forall a b, st_eqb a b = true <-> a = b.
  Variable cmp : @subproblem St -> @subproblem St -> comparison.

  Notation sub := (@subproblem St).
  Notation fringe := (@Fringe.nodup St).

  Lemma st_eqb_refl s : st_eqb s s = true.
  Proof. apply st_eqb_spec. reflexivity. Qed.

  Lemma st_eqb_false a b : a <> b -> st_eqb a b = false.
  Proof.
    intros Hab. destruct (st_eqb a b) eqn:E; [|reflexivity].
    apply st_eqb_spec in E. contradiction.
  Qed.

  (* PART A : structure *)

  (* the sub-problem stored at heap position [p] *)
  Definition node_at (f : fringe) (p : nat) : option sub :=
    match nth_error (nd_heap f) p with
    | Some id => nth_error (nd_nodes f) id
    | None => None
    end.

  (* [pos] inverts [heap] and every heap entry designates an allocated node *)
  Definition hp_ok (f : fringe) : Prop :=
    forall p id, nth_error (nd_heap f) p = Some id ->
                 nth_error (nd_pos f) id = Some p /\ id < length (nd_nodes f).

  Lemma hp_ok_NoDup f : hp_ok f -> NoDup (nd_heap f).
  Proof.
    intros Hok. apply NoDup_nth_error. intros i j Hi Hij.
    destruct (nth_error_lt_Some _ _ Hi) as [x Hx].
    assert (Hj : nth_error (nd_heap f) j = Some x) by congruence.
    destruct (Hok _ _ Hx) as [H1 _]. destruct (Hok _ _ Hj) as [H2 _]. congruence.
  Qed.

  Lemma hp_ok_node f p id :
    hp_ok f -> nth_error (nd_heap f) p = Some id -> exists x, nth_error (nd_nodes f) id = Some x.
  Proof. intros Hok Hp. apply nth_error_lt_Some. apply (Hok _ _ Hp). Qed.

  Lemma node_at_some f p :
    hp_ok f -> p < length (nd_heap f) -> exists x, node_at f p = Some x.
  Proof.
    intros Hok Hp. destruct (nth_error_lt_Some _ _ Hp) as [id Hid].
    destruct (hp_ok_node _ _ _ Hok Hid) as [x Hx]. exists x. unfold node_at. rewrite Hid. exact Hx.
  Qed.

  Lemma node_at_lt f p x : node_at f p = Some x -> p < length (nd_heap f).
  Proof.
    unfold node_at. intros H. destruct (nth_error (nd_heap f) p) as [id|] eqn:E; [|discriminate].
    eapply nth_error_Some_lt; eauto.
  Qed.

  Lemma compare_at_pos_some f x y nx ny :
    node_at f x = Some nx -> node_at f y = Some ny -> compare_at_pos cmp f x y = Some (cmp nx ny).
  Proof.
    unfold node_at, compare_at_pos. intros Hx Hy.
    destruct (nth_error (nd_heap f) x) as [ix|]; [|discriminate].
    destruct (nth_error (nd_heap f) y) as [iy|]; [|discriminate].
    rewrite Hx, Hy. reflexivity.
  Qed.

  Lemma compare_at_pos_inv f x y c :
    compare_at_pos cmp f x y = Some c ->
    exists nx ny, node_at f x = Some nx /\ node_at f y = Some ny /\ c = cmp nx ny.
  Proof.
    unfold node_at, compare_at_pos. intros H.
    destruct (nth_error (nd_heap f) x) as [ix|]; [|discriminate].
    destruct (nth_error (nd_heap f) y) as [iy|]; [|discriminate].
    destruct (nth_error (nd_nodes f) ix) as [nx|]; [|discriminate].
    destruct (nth_error (nd_nodes f) iy) as [ny|]; [|discriminate].
    exists nx, ny. inversion H. auto.
  Qed.

  Record swapped (f f' : fringe) (a b : nat) : Prop := {
    sw_states : nd_states f' = nd_states f;
    sw_nodes : nd_nodes f' = nd_nodes f;
    sw_bin : nd_bin f' = nd_bin f;
    sw_lpos : length (nd_pos f') = length (nd_pos f);
    sw_lheap : length (nd_heap f') = length (nd_heap f);
    sw_heap : forall q, nth_error (nd_heap f') q = nth_error (nd_heap f) (sw a b q);
    sw_ok : hp_ok f' }.

  Lemma swap_slots_ok f id a b idb :
    hp_ok f -> nth_error (nd_heap f) a = Some id -> nth_error (nd_heap f) b = Some idb -> a <> b ->
    exists f', swap_slots f id a b = Some f' /\ swapped f f' a b.
  Proof.
    intros Hok Ha Hb Hab.
    destruct (Hok _ _ Ha) as [Hpa Hia]. destruct (Hok _ _ Hb) as [Hpb Hib].
    assert (La := nth_error_Some_lt _ _ _ Ha). assert (Lb := nth_error_Some_lt _ _ _ Hb).
    assert (Lpa := nth_error_Some_lt _ _ _ Hpa). assert (Lpb := nth_error_Some_lt _ _ _ Hpb).
    unfold swap_slots. rewrite Hb.
    destruct (Nat.ltb_spec idb (length (nd_pos f))) as [_|Hc]; [|lia].
    destruct (Nat.ltb_spec id (length (nd_pos f))) as [_|Hc]; [|lia].
    destruct (Nat.ltb_spec a (length (nd_heap f))) as [_|Hc]; [|lia].
    cbn [andb]. eexists. split; [reflexivity|].
    assert (Hheap : forall q,
      nth_error (set_nth b id (set_nth a idb (nd_heap f))) q = nth_error (nd_heap f) (sw a b q)).
    { intros q. rewrite !nth_error_set_nth by (rewrite ?set_nth_length; assumption). unfold sw.
      destruct (Nat.eqb_spec q b), (Nat.eqb_spec q a); congruence. }
    constructor; cbn [nd_states nd_nodes nd_bin nd_pos nd_heap]; rewrite ?set_nth_length; auto.
    (* [i] sits at [sw a b p] in the old heap; [pos] is updated exactly at the two ids that moved *)
    intros p i Hp. cbn [nd_states nd_nodes nd_bin nd_pos nd_heap] in *.
    rewrite Hheap in Hp. destruct (Hok _ _ Hp) as [Hpi Hli]. split; [|exact Hli].
    rewrite !nth_error_set_nth by (rewrite ?set_nth_length; assumption).
    destruct (Nat.eqb_spec i id) as [->|Hi]; [|destruct (Nat.eqb_spec i idb) as [->|Hi']].
    - assert (E : sw a b p = a) by congruence. rewrite <- (sw_invol a b p), E, sw_l. reflexivity.
    - assert (E : sw a b p = b) by congruence. rewrite <- (sw_invol a b p), E, sw_r. reflexivity.
    - rewrite Hpi. f_equal. apply sw_other; intros ->; [rewrite sw_l in Hp | rewrite sw_r in Hp]; congruence.
  Qed.

  Lemma node_at_swapped f f' a b q : swapped f f' a b -> node_at f' q = node_at f (sw a b q).
  Proof. intros Hs. unfold node_at. rewrite (sw_heap _ _ _ _ Hs), (sw_nodes _ _ _ _ Hs). reflexivity. Qed.

  (* what bubble_up / bubble_down leave untouched *)
  Record same_content (f f' : fringe) : Prop := {
    sc_states : nd_states f' = nd_states f;
    sc_nodes : nd_nodes f' = nd_nodes f;
    sc_bin : nd_bin f' = nd_bin f;
    sc_lpos : length (nd_pos f') = length (nd_pos f);
    sc_perm : Permutation (nd_heap f') (nd_heap f) }.

  Lemma same_content_refl f : same_content f f.
  Proof. constructor; auto. Qed.

  Lemma same_content_trans f g h : same_content f g -> same_content g h -> same_content f h.
  Proof.
    intros [A1 A2 A3 A4 A5] [B1 B2 B3 B4 B5]. constructor; try congruence.
    eapply Permutation_trans; eauto.
  Qed.

  Lemma swapped_same_content f f' a b : hp_ok f -> swapped f f' a b -> same_content f f'.
  Proof.
    intros Hok Hs. constructor; try apply Hs.
    apply NoDup_Permutation.
    - apply hp_ok_NoDup. apply Hs.
    - apply hp_ok_NoDup. exact Hok.
    - intros x. split; intros Hin.
      + apply In_nth_error in Hin. destruct Hin as [q Hq].
        rewrite (sw_heap _ _ _ _ Hs) in Hq. eapply nth_error_In; eauto.
      + apply In_nth_error in Hin. destruct Hin as [q Hq].
        apply (nth_error_In _ (sw a b q)). rewrite (sw_heap _ _ _ _ Hs), sw_invol. exact Hq.
  Qed.

  (* "the node at position p is not greater than the node at position q" (vacuous out of range) *)
  Definition ale (f : fringe) (p q : nat) : Prop :=
    forall x y, node_at f p = Some x -> node_at f q = Some y -> cmp x y <> Gt.

  Lemma ale_at f p q x y : node_at f p = Some x -> node_at f q = Some y -> cmp x y <> Gt -> ale f p q.
  Proof. intros Hx Hy Hle a b Ha Hb. congruence. Qed.

  (* after swapping [me] with [b], the moving node [id] sits at [b] *)
  Lemma swapped_me f f' me b id :
    swapped f f' me b -> b <> me -> nth_error (nd_heap f) me = Some id -> nth_error (nd_heap f') b = Some id.
  Proof. intros Hs Hb Hme. rewrite (sw_heap _ _ _ _ Hs), sw_r. exact Hme. Qed.

  Lemma bubble_up_eq f id p :
    hp_ok f -> nth_error (nd_heap f) p = Some id ->
    bubble_up cmp f id = bubble_up_loop cmp (S (nd_len f)) f id p /\ p < S (nd_len f).
  Proof.
    intros Hok Hp. unfold bubble_up. destruct (Hok _ _ Hp) as [-> _].
    apply nth_error_Some_lt in Hp. unfold nd_len. split; [reflexivity|lia].
  Qed.

  (* One analysis of the sift-up loop serves no-panic and heap order: the loop swaps [me] with its
     parent as long as it is greater, and exits at a position that is the root or not above its
     parent.  [I] is any invariant of the swaps, [Q] what [I] gives at the exit. *)
  Lemma bubble_up_loop_rule (I : fringe -> nat -> Prop) (Q : fringe -> Prop) :
    (forall f me, I f me -> (me > 0 -> ale f me (parent me)) -> Q f) ->
    (forall f f1 me x y, I f me -> me > 0 -> node_at f me = Some x -> node_at f (parent me) = Some y ->
                         cmp x y = Gt -> swapped f f1 me (parent me) -> I f1 (parent me)) ->
    forall fuel f id me,
      hp_ok f -> nth_error (nd_heap f) me = Some id -> me < fuel -> I f me ->
      exists f', bubble_up_loop cmp fuel f id me = Some f' /\ hp_ok f' /\ same_content f f' /\ Q f'.
  Proof.
    intros Hexit Hstep.
    induction fuel as [|fuel IH]; intros f id me Hok Hme Hfuel Hinv; [lia|].
    assert (Hstop : (me > 0 -> ale f me (parent me)) ->
                    exists f', Some f = Some f' /\ hp_ok f' /\ same_content f f' /\ Q f').
    { intros Hle. exists f. eauto using same_content_refl. }
    cbn [bubble_up_loop]. unfold is_root.
    destruct (Nat.eqb_spec me 0) as [E|E]; [apply Hstop; lia|].
    assert (Hpl : parent me < me) by (apply parent_lt; lia).
    assert (Lme : me < length (nd_heap f)) by (eapply nth_error_Some_lt; eauto).
    destruct (node_at_some f me Hok Lme) as [x Hx].
    destruct (node_at_some f (parent me) Hok ltac:(lia)) as [y Hy].
    rewrite (compare_at_pos_some _ _ _ _ _ Hx Hy).
    destruct (cmp x y) eqn:Ec;
      [apply Hstop; intros _; apply (ale_at _ _ _ _ _ Hx Hy); congruence ..|].
    destruct (nth_error_lt_Some (nd_heap f) (parent me) ltac:(lia)) as [idp Hidp].
    destruct (swap_slots_ok f id me (parent me) idp Hok Hme Hidp ltac:(lia)) as [f1 [-> Hs]].
    destruct (IH f1 id (parent me)) as [f' [Hrun [Hok' [Hsc HQ]]]].
    - apply Hs.
    - apply (swapped_me f f1 me); auto. lia.
    - lia.
    - apply (Hstep f f1 me x y); auto. lia.
    - exists f'. split; [exact Hrun|]. split; [exact Hok'|]. split; [|exact HQ].
      eapply same_content_trans; [|exact Hsc]. eapply swapped_same_content; eauto.
  Qed.

  Lemma bubble_up_struct f id p :
    hp_ok f -> nth_error (nd_heap f) p = Some id ->
    exists f', bubble_up cmp f id = Some f' /\ hp_ok f' /\ same_content f f'.
  Proof.
    intros Hok Hp. destruct (bubble_up_eq f id p Hok Hp) as [-> Hfuel].
    destruct (bubble_up_loop_rule (fun _ _ => True) (fun _ => True)) with (4 := Hp) (fuel := S (nd_len f))
      as [f' [H1 [H2 [H3 _]]]]; eauto.
  Qed.

  Lemma max_child_struct f me :
    hp_ok f ->
    exists kid, max_child_of cmp f me = Some kid /\
                (kid = 0 \/ (me < kid < length (nd_heap f))).
  Proof.
    intros Hok. unfold max_child_of, nd_len.
    destruct (Nat.leb_spec (length (nd_heap f)) (left_child me)) as [H1|H1].
    - exists 0. auto.
    - destruct (Nat.leb_spec (length (nd_heap f)) (right_child me)) as [H2|H2].
      + exists (left_child me). split; [reflexivity|]. right. unfold left_child in *. lia.
      + destruct (node_at_some f (left_child me) Hok H1) as [nl Hnl].
        destruct (node_at_some f (right_child me) Hok H2) as [nr Hnr].
        rewrite (compare_at_pos_some _ _ _ _ _ Hnl Hnr).
        unfold left_child, right_child in *.
        destruct (cmp nl nr); eexists; (split; [reflexivity|]); right; lia.
  Qed.

  Lemma bubble_down_eq f id p :
    hp_ok f -> nth_error (nd_heap f) p = Some id ->
    bubble_down cmp f id = bubble_down_loop cmp (S (nd_len f)) f id p.
  Proof. intros Hok Hp. unfold bubble_down. destruct (Hok _ _ Hp) as [-> _]. reflexivity. Qed.

  (* The same for the sift-down loop: it swaps [me] with its greatest child [kid] as long as it is
     smaller, and exits when there is no child in range ([kid] = 0) or [me] is not below [kid]. *)
  Lemma bubble_down_loop_rule (I : fringe -> nat -> Prop) (Q : fringe -> Prop) :
    (forall f me kid, I f me -> max_child_of cmp f me = Some kid ->
       (kid > 0 -> exists x y, node_at f me = Some x /\ node_at f kid = Some y /\ cmp x y <> Lt) -> Q f) ->
    (forall f f1 me kid x y, I f me -> max_child_of cmp f me = Some kid -> kid > 0 ->
       node_at f me = Some x -> node_at f kid = Some y -> cmp x y = Lt -> swapped f f1 me kid -> I f1 kid) ->
    forall fuel f id me,
      hp_ok f -> nth_error (nd_heap f) me = Some id -> length (nd_heap f) < me + fuel -> I f me ->
      exists f', bubble_down_loop cmp fuel f id me = Some f' /\ hp_ok f' /\ same_content f f' /\ Q f'.
  Proof.
    intros Hexit Hstep.
    induction fuel as [|fuel IH]; intros f id me Hok Hme Hfuel Hinv.
    { apply nth_error_Some_lt in Hme. lia. }
    cbn [bubble_down_loop].
    destruct (max_child_struct f me Hok) as [kid [Hkid Hrange]]. rewrite Hkid.
    assert (Hstop : (kid > 0 -> exists x y, node_at f me = Some x /\ node_at f kid = Some y /\ cmp x y <> Lt) ->
                    exists f', Some f = Some f' /\ hp_ok f' /\ same_content f f' /\ Q f').
    { intros Hge. exists f. eauto using same_content_refl. }
    destruct (Nat.ltb_spec 0 kid) as [Hk|Hk]; [|apply Hstop; lia].
    destruct Hrange as [Hz|[Hk1 Hk2]]; [lia|].
    assert (Lme : me < length (nd_heap f)) by (eapply nth_error_Some_lt; eauto).
    destruct (node_at_some f me Hok Lme) as [x Hx].
    destruct (node_at_some f kid Hok Hk2) as [y Hy].
    rewrite (compare_at_pos_some _ _ _ _ _ Hx Hy).
    assert (Hnlt : cmp x y <> Lt -> exists x y, node_at f me = Some x /\ node_at f kid = Some y /\ cmp x y <> Lt)
      by eauto.
    destruct (cmp x y) eqn:Ec; [apply Hstop; intros _; apply Hnlt; discriminate | |
                                apply Hstop; intros _; apply Hnlt; discriminate].
    destruct (nth_error_lt_Some (nd_heap f) kid Hk2) as [idk Hidk].
    destruct (swap_slots_ok f id me kid idk Hok Hme Hidk ltac:(lia)) as [f1 [-> Hs]].
    destruct (IH f1 id kid) as [f' [Hrun [Hok' [Hsc HQ]]]].
    - apply Hs.
    - apply (swapped_me f f1 me); auto. lia.
    - rewrite (sw_lheap _ _ _ _ Hs). lia.
    - apply (Hstep f f1 me kid x y); auto.
    - exists f'. split; [exact Hrun|]. split; [exact Hok'|]. split; [|exact HQ].
      eapply same_content_trans; [|exact Hsc]. eapply swapped_same_content; eauto.
  Qed.

  Lemma bubble_down_struct f id p :
    hp_ok f -> nth_error (nd_heap f) p = Some id ->
    exists f', bubble_down cmp f id = Some f' /\ hp_ok f' /\ same_content f f'.
  Proof.
    intros Hok Hp. rewrite (bubble_down_eq f id p Hok Hp).
    destruct (bubble_down_loop_rule (fun _ _ => True) (fun _ => True)) with (4 := Hp) (fuel := S (nd_len f))
      as [f' [H1 [H2 [H3 _]]]]; eauto.
    unfold nd_len. lia.
  Qed.

  Lemma states_get_none m s : states_get st_eqb m s = None <-> ~ In s (map fst m).
  Proof.
    induction m as [|[k v] m IH]; cbn [states_get map fst In].
    - tauto.
    - destruct (st_eqb k s) eqn:E.
      + apply st_eqb_spec in E. split; [discriminate|]. intros H. exfalso. apply H. auto.
      + rewrite IH. split.
        * intros H [H1|H1]; [|auto]. subst k. rewrite st_eqb_refl in E. discriminate.
        * intros H H1. apply H. auto.
  Qed.

  Lemma states_remove_incl m s k : In k (map fst (states_remove st_eqb m s)) -> In k (map fst m).
  Proof.
    induction m as [|[k' v] m IH]; cbn [states_remove map fst In]; [tauto|].
    destruct (st_eqb k' s); cbn [map fst In]; intuition.
  Qed.

  Lemma states_remove_keys m s : NoDup (map fst m) -> NoDup (map fst (states_remove st_eqb m s)).
  Proof.
    induction m as [|[k v] m IH]; cbn [states_remove map fst]; intros Hnd; [constructor|].
    inversion Hnd as [|k0 l0 Hnotin Hnd']; subst.
    destruct (st_eqb k s); [exact Hnd'|].
    cbn [map fst]. constructor; [|auto].
    intros Hin. apply Hnotin. eapply states_remove_incl; eauto.
  Qed.

  Lemma states_get_remove m s s' :
    NoDup (map fst m) ->
    states_get st_eqb (states_remove st_eqb m s) s' =
    if st_eqb s s' then None else states_get st_eqb m s'.
  Proof.
    induction m as [|[k v] m IH]; cbn [states_remove states_get map fst]; intros Hnd.
    - destruct (st_eqb s s'); reflexivity.
    - inversion Hnd as [|k0 l0 Hnotin Hnd']; subst.
      destruct (st_eqb k s) eqn:E.
      + apply st_eqb_spec in E. subst k.
        destruct (st_eqb s s') eqn:E'; [|reflexivity].
        apply st_eqb_spec in E'. subst s'. apply states_get_none. exact Hnotin.
      + cbn [states_get]. destruct (st_eqb k s') eqn:E1.
        * apply st_eqb_spec in E1. subst s'.
          destruct (st_eqb s k) eqn:E2; [|reflexivity].
          apply st_eqb_spec in E2. subst s. rewrite st_eqb_refl in E. discriminate.
        * apply IH. exact Hnd'.
  Qed.

  Record nd_core (f : fringe) : Prop := {
    c_len : length (nd_pos f) = length (nd_nodes f);
    c_hp : hp_ok f;
    c_bin_nodup : NoDup (nd_bin f);
    c_bin_lt : forall id, In id (nd_bin f) -> id < length (nd_nodes f);
    c_disj : forall id, In id (nd_bin f) -> ~ In id (nd_heap f);
    c_cover : forall id, id < length (nd_nodes f) -> In id (nd_heap f) \/ In id (nd_bin f);
    c_keys : NoDup (map fst (nd_states f));
    c_states : forall s id,
      states_get st_eqb (nd_states f) s = Some id <->
      (In id (nd_heap f) /\ exists n, nth_error (nd_nodes f) id = Some n /\ sp_state n = s) }.

  Lemma nd_core_empty : nd_core nd_empty.
  Proof.
    constructor; cbn [nd_empty nd_states nd_nodes nd_pos nd_heap nd_bin map length In states_get].
    - reflexivity.
    - intros p id H. destruct p; discriminate.
    - constructor.
    - tauto.
    - tauto.
    - intros id H. lia.
    - constructor.
    - intros s id. split; [discriminate|]. intros [[] _].
  Qed.

  Lemma core_same_content f f' : nd_core f -> same_content f f' -> hp_ok f' -> nd_core f'.
  Proof.
    intros Hc [E1 E2 E3 E4 E5] Hok.
    assert (Hin : forall x, In x (nd_heap f') <-> In x (nd_heap f)).
    { intros x. split; apply Permutation_in; [exact E5 | apply Permutation_sym; exact E5]. }
    constructor.
    - rewrite E4, E2. apply Hc.
    - exact Hok.
    - rewrite E3. apply Hc.
    - rewrite E3, E2. apply Hc.
    - rewrite E3. intros id Hb Hh. apply Hin in Hh. eapply (c_disj _ Hc); eauto.
    - rewrite E3, E2. intros id Hl. rewrite Hin. apply (c_cover _ Hc). exact Hl.
    - rewrite E1. apply Hc.
    - rewrite E1, E2. intros s id. rewrite Hin. apply (c_states _ Hc).
  Qed.

  Lemma push_fresh_core f id node nodes' pos' bin' :
    nd_core f ->
    states_get st_eqb (nd_states f) (sp_state node) = None ->
    ~ In id (nd_heap f) ->
    length pos' = length nodes' ->
    (forall x, x < length nodes' <-> x < length (nd_nodes f) \/ x = id) ->
    nth_error nodes' id = Some node ->
    (forall j, j <> id -> nth_error nodes' j = nth_error (nd_nodes f) j) ->
    (forall j, j <> id -> nth_error pos' j = nth_error (nd_pos f) j) ->
    NoDup bin' -> (forall x, In x bin' <-> In x (nd_bin f) /\ x <> id) ->
    nd_core {| nd_states := (sp_state node, id) :: nd_states f; nd_nodes := nodes';
               nd_pos := set_nth id (length (nd_heap f)) pos';
               nd_heap := nd_heap f ++ [id]; nd_bin := bin' |}.
  Proof.
    intros Hc Hnone Hnotin Hlen Hrange Hnode Hnodes Hpos Hnd Hbin.
    assert (Hid : id < length nodes') by (apply Hrange; auto).
    constructor; cbn [nd_states nd_nodes nd_pos nd_heap nd_bin].
    - rewrite set_nth_length. exact Hlen.
    - intros p i Hp. cbn [nd_states nd_nodes nd_pos nd_heap nd_bin] in *.
      destruct (Nat.eq_dec p (length (nd_heap f))) as [E|E].
      + subst p. rewrite nth_error_snoc_same in Hp. inversion Hp; subst i.
        split; [apply nth_error_set_nth_same; lia | exact Hid].
      + rewrite nth_error_snoc_other in Hp by exact E.
        destruct (c_hp _ Hc _ _ Hp) as [H1 H2].
        assert (Hne : i <> id).
        { intros Heq; subst i; apply Hnotin; eapply nth_error_In; eauto. }
        split.
        * rewrite nth_error_set_nth_other by auto. rewrite Hpos by auto. exact H1.
        * apply Hrange. auto.
    - exact Hnd.
    - intros x Hx. apply Hbin in Hx. destruct Hx as [Hx _]. apply Hrange. left.
      apply (c_bin_lt _ Hc); auto.
    - intros x Hx Hin. apply Hbin in Hx. destruct Hx as [Hx Hne].
      apply in_app_or in Hin. destruct Hin as [Hin|[Hin|[]]].
      + apply (c_disj _ Hc x); auto.
      + congruence.
    - intros x Hx. apply Hrange in Hx. destruct (Nat.eq_dec x id) as [Heq|Hne].
      + subst x. left. apply in_or_app. right. left; auto.
      + destruct Hx as [Hx|Hx]; [|contradiction]. destruct (c_cover _ Hc x Hx) as [H|H].
        * left. apply in_or_app; auto.
        * right. apply Hbin. auto.
    - cbn [map fst]. constructor; [|apply (c_keys _ Hc)]. apply states_get_none; auto.
    - intros s i. cbn [states_get]. destruct (st_eqb (sp_state node) s) eqn:E.
      + apply st_eqb_spec in E. split.
        * intros Hi. inversion Hi; subst i. split.
          -- apply in_or_app; right; left; auto.
          -- exists node; auto.
        * intros [Hin [x [Hx Hs]]]. f_equal.
          destruct (Nat.eq_dec i id) as [|Hne]; [auto|]. exfalso.
          apply in_app_or in Hin. destruct Hin as [Hin|[Hin|[]]]; [|congruence].
          rewrite Hnodes in Hx by auto.
          assert (Hg : states_get st_eqb (nd_states f) s = Some i) by (apply (c_states _ Hc); eauto).
          congruence.
      + split.
        * intros Hg. apply (c_states _ Hc) in Hg. destruct Hg as [Hin [x [Hx Hs]]].
          assert (Hne : i <> id) by (intros Heq; subst i; auto).
          split; [apply in_or_app; auto|]. exists x. rewrite Hnodes by auto. auto.
        * intros [Hin [x [Hx Hs]]]. apply in_app_or in Hin. destruct Hin as [Hin|[Hin|[]]].
          -- assert (Hne : i <> id) by (intros Heq; subst i; auto).
             rewrite Hnodes in Hx by auto. apply (c_states _ Hc). eauto.
          -- subst i. rewrite Hnode in Hx. inversion Hx; subst x.
             rewrite Hs, st_eqb_refl in E. discriminate.
  Qed.

  Record fresh_ins (f f1 : fringe) (id : nat) (n : sub) : Prop := {
    fi_none : states_get st_eqb (nd_states f) (sp_state n) = None;
    fi_core : nd_core f1;
    fi_heap : nd_heap f1 = nd_heap f ++ [id];
    fi_notin : ~ In id (nd_heap f);
    fi_node : nth_error (nd_nodes f1) id = Some n;
    fi_nodes : forall j, j <> id -> nth_error (nd_nodes f1) j = nth_error (nd_nodes f) j }.

  (* the slot that the Vacant branch takes: the id on top of the recycle bin, else a new one *)
  Definition push_alloc (f : fringe) (node : sub) : nat * list sub * list nat * list nat :=
    match rev (nd_bin f) with
    | [] => (length (nd_nodes f), nd_nodes f ++ [node], nd_pos f ++ [O], nd_bin f)
    | id :: rbin' => (id, set_nth id node (nd_nodes f), nd_pos f, rev rbin')
    end.

  Definition pushed_fresh (f : fringe) (node : sub) : nat * fringe :=
    let '(id, nodes, pos, bin) := push_alloc f node in
    (id, {| nd_states := (sp_state node, id) :: nd_states f; nd_nodes := nodes;
            nd_pos := set_nth id (length (nd_heap f)) pos; nd_heap := nd_heap f ++ [id]; nd_bin := bin |}).

  Lemma nd_push_vacant_eq f node :
    states_get st_eqb (nd_states f) (sp_state node) = None ->
    nd_push st_eqb cmp f node =
    let '(id, f1) := pushed_fresh f node in
    if Nat.ltb id (length (nd_pos f1)) && Nat.ltb id (length (nd_nodes f1)) then bubble_up cmp f1 id else None.
  Proof.
    intros H. unfold nd_push, pushed_fresh, push_alloc. rewrite H.
    destruct (rev (nd_bin f)); cbv beta iota zeta; cbn [nd_pos nd_nodes];
      rewrite ?set_nth_length, !app_length; cbn [length]; rewrite Nat.add_sub; reflexivity.
  Qed.

  Lemma pushed_fresh_ins f n id f1 :
    nd_core f -> states_get st_eqb (nd_states f) (sp_state n) = None ->
    pushed_fresh f n = (id, f1) -> fresh_ins f f1 id n.
  Proof.
    intros Hc Hnone. unfold pushed_fresh, push_alloc.
    destruct (rev (nd_bin f)) as [|i rbin'] eqn:Erev; intros H; inversion H; subst id f1; clear H.
    - apply rev_eq_nil in Erev.
      assert (Hnotin : ~ In (length (nd_nodes f)) (nd_heap f)).
      { intros Hin. apply In_nth_error in Hin. destruct Hin as [p Hp]. apply (c_hp _ Hc) in Hp. lia. }
      constructor; cbn [nd_heap nd_nodes]; auto using nth_error_snoc_same, nth_error_snoc_other.
      apply push_fresh_core; auto using nth_error_snoc_same, nth_error_snoc_other.
      + rewrite !app_length. cbn [length]. rewrite (c_len _ Hc). reflexivity.
      + intros x. rewrite app_length. cbn [length]. lia.
      + intros j Hj. apply nth_error_snoc_other. rewrite (c_len _ Hc). exact Hj.
      + apply Hc.
      + intros x. rewrite Erev. cbn [In]. tauto.
    - apply rev_eq_cons in Erev.
      assert (Hndb : NoDup (rev rbin' ++ [i])) by (rewrite <- Erev; apply Hc).
      assert (Hinb : In i (nd_bin f)) by (rewrite Erev; apply in_or_app; right; left; auto).
      assert (Hlt : i < length (nd_nodes f)) by (apply (c_bin_lt _ Hc); auto).
      assert (Hnotin : ~ In i (nd_heap f)) by (apply (c_disj _ Hc); auto).
      constructor; cbn [nd_heap nd_nodes]; auto using nth_error_set_nth_same, nth_error_set_nth_other.
      apply push_fresh_core; auto using nth_error_set_nth_same, nth_error_set_nth_other.
      + rewrite set_nth_length. apply Hc.
      + intros x. rewrite set_nth_length. lia.
      + apply NoDup_remove_1 in Hndb. rewrite app_nil_r in Hndb. exact Hndb.
      + intros x. rewrite Erev. rewrite in_app_iff. cbn [In].
        apply NoDup_remove_2 in Hndb. rewrite app_nil_r in Hndb.
        split.
        * intros Hx. split; [auto|]. intros Heq; subst x. auto.
        * intros [[Hx|[Hx|[]]] Hne]; [auto|congruence].
  Qed.

  Lemma nd_push_vacant f n :
    nd_core f -> states_get st_eqb (nd_states f) (sp_state n) = None ->
    exists id f1 f',
      fresh_ins f f1 id n /\ nd_push st_eqb cmp f n = Some f' /\
      bubble_up cmp f1 id = Some f' /\ hp_ok f' /\ same_content f1 f'.
  Proof.
    intros Hc Hnone. rewrite (nd_push_vacant_eq f n Hnone).
    destruct (pushed_fresh f n) as [id f1] eqn:E.
    assert (Hfi := pushed_fresh_ins f n id f1 Hc Hnone E).
    assert (Hid := nth_error_Some_lt _ _ _ (fi_node _ _ _ _ Hfi)).
    destruct (Nat.ltb_spec id (length (nd_pos f1))) as [_|Hx];
      [|rewrite (c_len _ (fi_core _ _ _ _ Hfi)) in Hx; lia].
    destruct (Nat.ltb_spec id (length (nd_nodes f1))) as [_|Hx]; [|lia].
    destruct (bubble_up_struct f1 id (length (nd_heap f)) (c_hp _ (fi_core _ _ _ _ Hfi)))
      as [f' [Hb [Hok' Hsc]]].
    { rewrite (fi_heap _ _ _ _ Hfi). apply nth_error_snoc_same. }
    exists id, f1, f'. cbn [andb]. auto.
  Qed.

  Definition with_ub (n : sub) (u : Z) : sub :=
    {| sp_state := sp_state n; sp_value := sp_value n; sp_path := sp_path n;
       sp_ub := u; sp_depth := sp_depth n |}.

  (* the [nodes] vector after the two conditional assignments of the Occupied branch *)
  Definition push_nodes (nodes : list sub) (id : nat) (old node : sub) : list sub :=
    let node' := with_ub node (Z.max (sp_ub node) (sp_ub old)) in
    let nodes1 := if (sp_value node >? sp_value old)%Z then set_nth id node' nodes else nodes in
    if (sp_ub node >? sp_ub old)%Z
    then upd_nth id (fun n => with_ub n (sp_ub node)) nodes1 else nodes1.

  Lemma nd_push_occupied_eq f node id old :
    states_get st_eqb (nd_states f) (sp_state node) = Some id ->
    nth_error (nd_nodes f) id = Some old ->
    nd_push st_eqb cmp f node =
    let f1 := {| nd_states := nd_states f; nd_nodes := push_nodes (nd_nodes f) id old node;
                 nd_pos := nd_pos f; nd_heap := nd_heap f; nd_bin := nd_bin f |} in
    if is_gt (cmp (with_ub node (Z.max (sp_ub node) (sp_ub old))) old)
    then bubble_up cmp f1 id else Some f1.
  Proof. intros H1 H2. unfold nd_push. rewrite H1, H2. reflexivity. Qed.

  Lemma with_ub_id (n : sub) : with_ub n (sp_ub n) = n.
  Proof. destruct n; reflexivity. Qed.

  (* the Occupied branch stores exactly [coalesce old node] *)
  Lemma push_nodes_spec nodes id old node :
    nth_error nodes id = Some old ->
    length (push_nodes nodes id old node) = length nodes /\
    nth_error (push_nodes nodes id old node) id = Some (coalesce old node) /\
    forall j, j <> id -> nth_error (push_nodes nodes id old node) j = nth_error nodes j.
  Proof.
    intros Hold. assert (Hlt : id < length nodes) by (eapply nth_error_Some_lt; eauto).
    unfold push_nodes, coalesce.
    destruct (sp_value node >? sp_value old)%Z eqn:Ev;
      destruct (sp_ub node >? sp_ub old)%Z eqn:Eu;
      rewrite ?Z.gtb_ltb in Eu; [apply Z.ltb_lt in Eu | apply Z.ltb_ge in Eu
                                 | apply Z.ltb_lt in Eu | apply Z.ltb_ge in Eu].
    - split; [rewrite upd_nth_length; apply set_nth_length|]. split.
      + rewrite (nth_error_upd_nth_same id _ _ _ (nth_error_set_nth_same id _ nodes Hlt)).
        unfold with_ub. cbn [sp_state sp_value sp_path sp_ub sp_depth].
        rewrite Z.max_l by lia. reflexivity.
      + intros j Hj. rewrite nth_error_upd_nth_other by auto. apply nth_error_set_nth_other; auto.
    - split; [apply set_nth_length|]. split.
      + rewrite nth_error_set_nth_same by exact Hlt. reflexivity.
      + intros j Hj. apply nth_error_set_nth_other; auto.
    - split; [apply upd_nth_length|]. split.
      + rewrite (nth_error_upd_nth_same id _ _ _ Hold). unfold with_ub.
        rewrite Z.max_l by lia. reflexivity.
      + intros j Hj. apply nth_error_upd_nth_other; auto.
    - split; [reflexivity|]. split; [|reflexivity].
      rewrite Hold. rewrite Z.max_r by lia. destruct old; reflexivity.
  Qed.

  Lemma coalesce_state (old n : sub) : sp_state old = sp_state n -> sp_state (coalesce old n) = sp_state n.
  Proof. intros H. unfold coalesce. destruct (sp_value n >? sp_value old)%Z; cbn [sp_state]; auto. Qed.

  Lemma core_update_node f id old x nodes' :
    nd_core f -> nth_error (nd_nodes f) id = Some old -> sp_state x = sp_state old ->
    length nodes' = length (nd_nodes f) ->
    nth_error nodes' id = Some x ->
    (forall j, j <> id -> nth_error nodes' j = nth_error (nd_nodes f) j) ->
    nd_core {| nd_states := nd_states f; nd_nodes := nodes'; nd_pos := nd_pos f;
               nd_heap := nd_heap f; nd_bin := nd_bin f |}.
  Proof.
    intros Hc Hold Hst Hlen Hx Hoth.
    constructor; cbn [nd_states nd_nodes nd_pos nd_heap nd_bin]; try rewrite Hlen; try apply Hc.
    - intros p i Hp. cbn [nd_states nd_nodes nd_pos nd_heap nd_bin] in *. rewrite Hlen.
      apply (c_hp _ Hc). exact Hp.
    - intros s i. rewrite (c_states _ Hc).
      destruct (Nat.eq_dec i id) as [E|E].
      + subst i. rewrite Hx, Hold. split; intros [Hin [y [Hy Hs]]]; (split; [exact Hin|]);
          inversion Hy; subst y; eexists; split; try reflexivity; congruence.
      + rewrite Hoth by exact E. tauto.
  Qed.

  Record coal_upd (f f1 : fringe) (id : nat) (old n : sub) : Prop := {
    cu_get : states_get st_eqb (nd_states f) (sp_state n) = Some id;
    cu_in : In id (nd_heap f);
    cu_old : nth_error (nd_nodes f) id = Some old;
    cu_state : sp_state old = sp_state n;
    cu_core : nd_core f1;
    cu_heap : nd_heap f1 = nd_heap f;
    cu_node : nth_error (nd_nodes f1) id = Some (coalesce old n);
    cu_nodes : forall j, j <> id -> nth_error (nd_nodes f1) j = nth_error (nd_nodes f) j }.

  Lemma nd_push_occupied f n id :
    nd_core f -> states_get st_eqb (nd_states f) (sp_state n) = Some id ->
    exists old f1 f',
      coal_upd f f1 id old n /\ nd_push st_eqb cmp f n = Some f' /\
      ((cmp (with_ub n (Z.max (sp_ub n) (sp_ub old))) old = Gt /\
        bubble_up cmp f1 id = Some f' /\ hp_ok f' /\ same_content f1 f')
       \/ (cmp (with_ub n (Z.max (sp_ub n) (sp_ub old))) old <> Gt /\ f' = f1)).
  Proof.
    intros Hc Hget.
    destruct (proj1 (c_states _ Hc _ _) Hget) as [Hin [old [Hold Hst]]].
    rewrite (nd_push_occupied_eq f n id old Hget Hold). cbv zeta.
    destruct (push_nodes_spec (nd_nodes f) id old n Hold) as [Hlen [Hnew Hoth]].
    set (f1 := {| nd_states := nd_states f; nd_nodes := push_nodes (nd_nodes f) id old n;
                  nd_pos := nd_pos f; nd_heap := nd_heap f; nd_bin := nd_bin f |}).
    assert (Hc1 : nd_core f1).
    { unfold f1. apply (core_update_node f id old (coalesce old n)); auto.
      rewrite coalesce_state; auto. }
    assert (Hcu : coal_upd f f1 id old n) by (constructor; auto).
    remember (cmp (with_ub n (Z.max (sp_ub n) (sp_ub old))) old) as c eqn:Hc0.
    destruct (is_gt c) eqn:Eg.
    - assert (Ec : c = Gt) by (destruct c; (discriminate || reflexivity)). subst c.
      apply In_nth_error in Hin. destruct Hin as [p Hp].
      destruct (bubble_up_struct f1 id p (c_hp _ Hc1) Hp) as [f' [Hb [Hok' Hsc]]].
      exists old, f1, f'. split; [exact Hcu|]. split; [exact Hb|]. left. auto.
    - subst c. exists old, f1, f1. split; [exact Hcu|]. split; [reflexivity|]. right. split; [|reflexivity].
      intros Ec. rewrite Ec in Eg. discriminate.
  Qed.

  Theorem nd_push_core f n : nd_core f -> exists f', nd_push st_eqb cmp f n = Some f' /\ nd_core f'.
  Proof.
    intros Hc. destruct (states_get st_eqb (nd_states f) (sp_state n)) as [id|] eqn:Hget.
    - destruct (nd_push_occupied f n id Hc Hget) as [old [f1 [f' [Hcu [Hp Hcase]]]]].
      exists f'. split; [exact Hp|].
      destruct Hcase as [[_ [_ [Hok Hsc]]]|[_ Heq]].
      + apply (core_same_content f1 f'); auto. apply Hcu.
      + subst f'. apply Hcu.
    - destruct (nd_push_vacant f n Hc Hget) as [id [f1 [f' [Hfi [Hp [_ [Hok Hsc]]]]]]].
      exists f'. split; [exact Hp|]. apply (core_same_content f1 f'); auto. apply Hfi.
  Qed.

  Lemma swap_remove0_spec x t :
    exists h', swap_remove0 (x :: t) = Some (x, h') /\
      length h' = length t /\ Permutation (x :: t) (x :: h') /\
      (forall q, 0 < q -> q < length h' -> nth_error h' q = nth_error (x :: t) q) /\
      (forall h0, nth_error h' 0 = Some h0 -> nth_error (x :: t) (length t) = Some h0).
  Proof.
    unfold swap_remove0. destruct (rev t) as [|lst rt'] eqn:Erev.
    - apply rev_eq_nil in Erev. subst t. exists []. split; [reflexivity|]. split; [reflexivity|].
      split; [apply Permutation_refl|]. split.
      + intros q H1 H2. cbn [length] in H2. lia.
      + intros h0 H. discriminate.
    - apply rev_eq_cons in Erev. subst t. exists (lst :: rev rt'). split; [reflexivity|]. split.
      { rewrite app_length. cbn [length]. lia. }
      split.
      { apply perm_skip. apply Permutation_sym. apply Permutation_cons_append. }
      split.
      + intros q H1 H2. destruct q as [|q']; [lia|]. cbn [length] in H2. cbn [nth_error].
        symmetry. apply nth_error_app1. lia.
      + intros h0 H. cbn [nth_error] in H. inversion H; subst h0.
        rewrite app_length. cbn [length]. rewrite Nat.add_1_r. cbn [nth_error].
        apply nth_error_snoc_same.
  Qed.

  Lemma nd_pop_empty f : nd_heap f = [] -> nd_pop st_eqb cmp f = Some (f, None).
  Proof. intros H. unfold nd_pop. rewrite H. reflexivity. Qed.

  Definition popped_state (f f1 : fringe) (id : nat) (x : sub) : fringe :=
    {| nd_states := states_remove st_eqb (nd_states f) (sp_state x); nd_nodes := nd_nodes f;
       nd_pos := nd_pos f1; nd_heap := nd_heap f1; nd_bin := nd_bin f ++ [id] |}.

  Lemma nd_pop_nonempty f id t :
    nd_core f -> nd_heap f = id :: t ->
    exists x f0 f1,
      nth_error (nd_nodes f) id = Some x /\
      nd_pop st_eqb cmp f = Some (popped_state f f1 id x, Some x) /\
      hp_ok f0 /\ nd_nodes f0 = nd_nodes f /\
      Permutation (nd_heap f) (id :: nd_heap f0) /\
      (forall q y, q > 0 -> node_at f0 q = Some y -> node_at f q = Some y) /\
      hp_ok f1 /\ same_content f0 f1 /\ length (nd_pos f1) = length (nd_pos f) /\
      ((nd_heap f0 = [] /\ f1 = f0) \/
       (exists h0, nth_error (nd_heap f0) 0 = Some h0 /\ bubble_down cmp f0 h0 = Some f1)).
  Proof.
    intros Hc Hheap.
    assert (Hid0 : nth_error (nd_heap f) 0 = Some id) by (rewrite Hheap; reflexivity).
    destruct (hp_ok_node f 0 id (c_hp _ Hc) Hid0) as [x Hx].
    destruct (swap_remove0_spec id t) as [h' [Hsr [Hlen [Hperm [Hmid Hlast]]]]].
    unfold nd_pop. rewrite Hheap, Hsr. cbv beta iota.
    destruct h' as [|h0 h''].
    - cbn [nd_nodes]. rewrite Hx.
      set (f0 := {| nd_states := nd_states f; nd_nodes := nd_nodes f; nd_pos := nd_pos f;
                    nd_heap := []; nd_bin := nd_bin f |}).
      exists x, f0, f0. split; [reflexivity|]. split; [reflexivity|].
      assert (Hok0 : hp_ok f0) by (intros p i Hp; destruct p; discriminate).
      split; [exact Hok0|]. split; [reflexivity|].
      split; [exact Hperm|].
      split.
      { intros q y _ Hq. unfold node_at, f0 in Hq. cbn [nd_heap] in Hq. destruct q; discriminate. }
      split; [exact Hok0|]. split; [apply same_content_refl|]. split; [reflexivity|].
      left. auto.
    - assert (Hh0 : nth_error (nd_heap f) (length t) = Some h0).
      { rewrite Hheap. apply Hlast. reflexivity. }
      destruct (c_hp _ Hc _ _ Hh0) as [Hpos0 Hlt0].
      assert (Hltp : h0 < length (nd_pos f)) by (eapply nth_error_Some_lt; eauto).
      destruct (Nat.ltb_spec h0 (length (nd_pos f))) as [_|Hcontra]; [|lia].
      set (f0 := {| nd_states := nd_states f; nd_nodes := nd_nodes f;
                    nd_pos := set_nth h0 0 (nd_pos f); nd_heap := h0 :: h''; nd_bin := nd_bin f |}).
      assert (Hheap0 : forall q i, q > 0 -> nth_error (nd_heap f0) q = Some i ->
                                   nth_error (nd_heap f) q = Some i).
      { intros q i Hq Hqi. unfold f0 in Hqi. cbn [nd_heap] in Hqi.
        rewrite Hheap. rewrite <- Hmid; [exact Hqi | lia | eapply nth_error_Some_lt; eauto]. }
      assert (Hok0 : hp_ok f0).
      { intros p i Hp. destruct (Nat.eq_dec p 0) as [E|E].
        - subst p. unfold f0 in Hp |- *. cbn [nd_heap nd_pos nd_nodes] in *.
          inversion Hp; subst i. split; [apply nth_error_set_nth_same; exact Hltp | exact Hlt0].
        - assert (Hp' := Hheap0 p i ltac:(lia) Hp).
          destruct (c_hp _ Hc _ _ Hp') as [H1 H2].
          assert (Hpl : p < length (h0 :: h'')) by (eapply nth_error_Some_lt; exact Hp).
          assert (Hne : i <> h0).
          { intros Heq. subst i. rewrite Hpos0 in H1. inversion H1. lia. }
          unfold f0. cbn [nd_heap nd_pos nd_nodes].
          split; [|exact H2]. rewrite nth_error_set_nth_other by auto. exact H1. }
      destruct (bubble_down_struct f0 h0 0 Hok0 eq_refl) as [f1 [Hbd [Hok1 Hsc]]].
      fold f0. rewrite Hbd.
      rewrite (sc_nodes _ _ Hsc), (sc_states _ _ Hsc), (sc_bin _ _ Hsc).
      unfold f0 at 1 2 3 4. cbn [nd_nodes nd_states nd_bin]. rewrite Hx.
      exists x, f0, f1. split; [reflexivity|]. split; [reflexivity|].
      split; [exact Hok0|]. split; [reflexivity|].
      split; [exact Hperm|].
      split.
      { intros q y Hq Hqy. unfold node_at in *.
        destruct (nth_error (nd_heap f0) q) as [i|] eqn:Ei; [|discriminate].
        rewrite (Hheap0 q i Hq Ei). exact Hqy. }
      split; [exact Hok1|]. split; [exact Hsc|]. split.
      { rewrite (sc_lpos _ _ Hsc). unfold f0. cbn [nd_pos]. apply set_nth_length. }
      right. exists h0. split; [reflexivity|exact Hbd].
  Qed.

  Lemma pop_core f id x f0 f1 :
    nd_core f -> In id (nd_heap f) -> nth_error (nd_nodes f) id = Some x ->
    Permutation (nd_heap f) (id :: nd_heap f0) -> same_content f0 f1 -> hp_ok f1 ->
    length (nd_pos f1) = length (nd_pos f) ->
    nd_core (popped_state f f1 id x).
  Proof.
    intros Hc Hin Hx Hperm0 Hsc Hok1 Hlen. unfold popped_state.
    assert (Hperm : Permutation (nd_heap f) (id :: (nd_heap f1))).
    { eapply Permutation_trans; [exact Hperm0|]. apply perm_skip, Permutation_sym, Hsc. }
    assert (Hnd : NoDup (id :: (nd_heap f1))).
    { eapply Permutation_NoDup; [exact Hperm|]. apply hp_ok_NoDup. apply Hc. }
    inversion Hnd as [|a l Hnotin1 Hnd1]; subst.
    assert (Hsub : forall y, In y (nd_heap f1) -> In y (nd_heap f)).
    { intros y Hy. eapply Permutation_in; [apply Permutation_sym; exact Hperm|]. right. exact Hy. }
    assert (Hsplit : forall y, In y (nd_heap f) -> y = id \/ In y (nd_heap f1)).
    { intros y Hy. apply (Permutation_in _ Hperm) in Hy. destruct Hy as [Hy|Hy]; auto. }
    assert (Hidlt : id < length (nd_nodes f)) by (eapply nth_error_Some_lt; eauto).
    assert (Hnb : ~ In id (nd_bin f)) by (intros Hb; apply (c_disj _ Hc id Hb Hin)).
    constructor; cbn [nd_states nd_nodes nd_pos nd_heap nd_bin].
    - rewrite Hlen. apply Hc.
    - intros p i Hp. cbn [nd_states nd_nodes nd_pos nd_heap nd_bin] in *. split; [apply (Hok1 _ _ Hp)|].
      assert (Hi : In i (nd_heap f)) by (apply Hsub; eapply nth_error_In; eauto).
      apply In_nth_error in Hi. destruct Hi as [p' Hp']. apply (c_hp _ Hc _ _ Hp').
    - eapply Permutation_NoDup; [apply Permutation_cons_append|].
      constructor; [exact Hnb | apply Hc].
    - intros y Hy. apply in_app_or in Hy. destruct Hy as [Hy|[Hy|[]]].
      + apply (c_bin_lt _ Hc); auto.
      + subst y. exact Hidlt.
    - intros y Hy Hh. apply in_app_or in Hy. destruct Hy as [Hy|[Hy|[]]].
      + apply (c_disj _ Hc y Hy). auto.
      + subst y. auto.
    - intros y Hy. rewrite in_app_iff. cbn [In].
      destruct (c_cover _ Hc y Hy) as [H|H]; [|auto].
      destruct (Hsplit y H); auto.
    - apply states_remove_keys. apply Hc.
    - intros s i. rewrite states_get_remove by apply Hc.
      destruct (st_eqb (sp_state x) s) eqn:E.
      + apply st_eqb_spec in E. split; [discriminate|].
        intros [Hi [n [Hn Hs]]]. exfalso.
        assert (G1 : states_get st_eqb (nd_states f) s = Some i) by (apply (c_states _ Hc); eauto).
        assert (G2 : states_get st_eqb (nd_states f) s = Some id) by (apply (c_states _ Hc); eauto).
        assert (i = id) by congruence. subst i. auto.
      + rewrite (c_states _ Hc). split.
        * intros [Hi [n [Hn Hs]]]. split; [|eauto].
          destruct (Hsplit i Hi) as [Heq|Hi1]; [|exact Hi1].
          subst i. rewrite Hx in Hn. inversion Hn; subst n. rewrite Hs, st_eqb_refl in E. discriminate.
        * intros [Hi [n [Hn Hs]]]. split; eauto.
  Qed.

  Theorem nd_pop_core f :
    nd_core f -> exists f' r, nd_pop st_eqb cmp f = Some (f', r) /\ nd_core f'.
  Proof.
    intros Hc. destruct (nd_heap f) as [|id t] eqn:Hheap.
    - exists f, None. split; [apply nd_pop_empty; exact Hheap | exact Hc].
    - destruct (nd_pop_nonempty f id t Hc Hheap)
        as [x [f0 [f1 [Hx [Hpop [_ [_ [Hperm [_ [Hok1 [Hsc [Hl1 _]]]]]]]]]]]].
      exists (popped_state f f1 id x), (Some x). split; [exact Hpop|].
      apply (pop_core f id x f0 f1); auto. rewrite Hheap. left. reflexivity.
  Qed.

  (* an invariant that holds of the empty fringe and that push and pop maintain without
     panicking is maintained, without panic, by every operation sequence *)
  Lemma nd_run_preserves (P : fringe -> Prop) :
    P nd_empty ->
    (forall f n, P f -> exists f', nd_push st_eqb cmp f n = Some f' /\ P f') ->
    (forall f, P f -> exists f' r, nd_pop st_eqb cmp f = Some (f', r) /\ P f') ->
    forall ops f, P f -> exists f' obs, nd_run st_eqb cmp f ops = Some (f', obs) /\ P f'.
  Proof.
    intros Hempty Hpush Hpop. induction ops as [|o ops IH]; intros f HP; cbn [nd_run]; [eauto|].
    assert (Hstep : exists f1 ob, nd_step st_eqb cmp f o = Some (f1, ob) /\ P f1).
    { destruct o as [n| |]; cbn [nd_step].
      - destruct (Hpush f n HP) as [f' [-> HP']]. eauto.
      - destruct (Hpop f HP) as [f' [r [-> HP']]]. eauto.
      - eauto. }
    destruct Hstep as [f1 [ob [-> HP1]]]. destruct (IH f1 HP1) as [f' [obs [-> HP']]]. eauto.
  Qed.

  (* no operation sequence can make the fringe panic, whatever the comparator *)
  Theorem nd_run_core : forall ops f,
    nd_core f -> exists f' obs, nd_run st_eqb cmp f ops = Some (f', obs) /\ nd_core f'.
  Proof. exact (nd_run_preserves nd_core nd_core_empty nd_push_core nd_pop_core). Qed.

  (* PART A : heap order *)
  Hypothesis cmp_antisym : forall x y, cmp x y = CompOpp (cmp y x).
  Hypothesis cmp_trans_le : forall x y z, cmp x y <> Gt -> cmp y z <> Gt -> cmp x z <> Gt.

  Lemma cmp_refl x : cmp x x = Eq.
  Proof. pose proof (cmp_antisym x x) as H. destruct (cmp x x); cbn in H; congruence. Qed.

  Lemma cmp_gt_flip x y : cmp x y = Gt -> cmp y x <> Gt.
  Proof. intros H. rewrite cmp_antisym, H. discriminate. Qed.

  Lemma cmp_not_lt_flip x y : cmp x y <> Lt -> cmp y x <> Gt.
  Proof. intros H. rewrite cmp_antisym. destruct (cmp x y); cbn; congruence. Qed.

  Definition heap_ord (f : fringe) : Prop := forall p, p > 0 -> ale f p (parent p).

  Lemma ale_trans f p q r y :
    node_at f q = Some y -> ale f p q -> ale f q r -> ale f p r.
  Proof. intros Hq H1 H2 x z Hx Hz. eapply cmp_trans_le; [apply (H1 x y) | apply (H2 y z)]; auto. Qed.

  Lemma ale_refl f p : ale f p p.
  Proof. intros x y Hx Hy. assert (x = y) by congruence. subst y. rewrite cmp_refl. discriminate. Qed.

  Lemma ale_none f p q : node_at f p = None -> ale f p q.
  Proof. intros H x y Hx. congruence. Qed.

  Lemma node_at_ge f p : length (nd_heap f) <= p -> node_at f p = None.
  Proof. intros H. unfold node_at. rewrite (proj2 (nth_error_None _ _) H). reflexivity. Qed.

  Lemma ale_swapped f f' a b p q : swapped f f' a b -> ale f (sw a b p) (sw a b q) -> ale f' p q.
  Proof. intros Hs H x y. rewrite !(node_at_swapped _ _ _ _ _ Hs). apply H. Qed.

  (* sift-up invariant: order everywhere except on the edge me -> parent me, and the
     children of me are below the parent of me *)
  Definition up_inv (f : fringe) (me : nat) : Prop :=
    (forall p, p > 0 -> p <> me -> ale f p (parent p)) /\
    (me > 0 -> forall c, c > 0 -> parent c = me -> ale f c (parent me)).

  Lemma up_inv_done f me : up_inv f me -> (me > 0 -> ale f me (parent me)) -> heap_ord f.
  Proof. intros [H1 _] H2 p Hp. destruct (Nat.eq_dec p me) as [->|E]; auto. Qed.

  Lemma up_inv_step f f1 me x y :
    up_inv f me -> me > 0 -> node_at f me = Some x -> node_at f (parent me) = Some y -> cmp x y = Gt ->
    swapped f f1 me (parent me) -> up_inv f1 (parent me).
  Proof.
    intros [H1 H2] Hme Hx Hy Hgt Hs.
    assert (Hpl := parent_lt me Hme).
    assert (Hyx : ale f (parent me) me) by (apply (ale_at _ _ _ _ _ Hy Hx), cmp_gt_flip, Hgt).
    split.
    - intros q Hq Hqp. assert (Hql := parent_lt q Hq).
      apply (ale_swapped _ _ _ _ _ _ Hs).
      destruct (Nat.eq_dec q me) as [->|E].
      + rewrite sw_l, sw_r. exact Hyx.
      + rewrite (sw_other _ _ q) by assumption.
        destruct (Nat.eq_dec (parent q) me) as [E1|E1].
        * rewrite E1, sw_l. apply (H2 Hme q Hq E1).
        * destruct (Nat.eq_dec (parent q) (parent me)) as [E2|E2].
          -- rewrite E2, sw_r. apply (ale_trans f q (parent me) me y Hy); [|exact Hyx].
             rewrite <- E2. apply H1; auto.
          -- rewrite sw_other by assumption. apply H1; auto.
    - intros Hp c Hc0 Hc.
      assert (Hcl := parent_lt c Hc0). assert (Hppl := parent_lt (parent me) Hp).
      apply (ale_swapped _ _ _ _ _ _ Hs).
      rewrite (sw_other _ _ (parent (parent me))) by lia.
      destruct (Nat.eq_dec c me) as [->|E].
      + rewrite sw_l. apply H1; lia.
      + rewrite sw_other by lia.
        apply (ale_trans f c (parent me) (parent (parent me)) y Hy).
        * rewrite <- Hc. apply H1; auto.
        * apply H1; lia.
  Qed.

  Lemma bubble_up_ord f id p f' :
    hp_ok f -> nth_error (nd_heap f) p = Some id -> up_inv f p ->
    bubble_up cmp f id = Some f' -> heap_ord f'.
  Proof.
    intros Hok Hp Hinv. destruct (bubble_up_eq f id p Hok Hp) as [-> Hfuel].
    destruct (bubble_up_loop_rule up_inv heap_ord up_inv_done up_inv_step _ f id p Hok Hp Hfuel Hinv)
      as [f2 [-> [_ [_ Ho]]]].
    intros H. inversion H; subst f'. exact Ho.
  Qed.

  (* sift-down invariant: order everywhere except on the edges me -> children of me, and
     the children of me are below the parent of me *)
  Definition down_inv (f : fringe) (me : nat) : Prop :=
    (forall q, q > 0 -> parent q <> me -> ale f q (parent q)) /\
    (me > 0 -> forall c, c > 0 -> parent c = me -> ale f c (parent me)).

  Lemma max_child_zero f me :
    max_child_of cmp f me = Some 0 -> forall c, c > 0 -> parent c = me -> node_at f c = None.
  Proof.
    unfold max_child_of, nd_len. intros H c Hc Hpc.
    assert (Hge := child_ge_left_child c me Hc Hpc).
    destruct (Nat.leb_spec (length (nd_heap f)) (left_child me)) as [H1|H1].
    - apply node_at_ge. lia.
    - exfalso. destruct (Nat.leb_spec (length (nd_heap f)) (right_child me)) as [H2|H2].
      + inversion H. unfold left_child in *. lia.
      + destruct (compare_at_pos cmp f (left_child me) (right_child me)) as [c0|]; [|discriminate].
        unfold left_child, right_child in *. destruct c0; inversion H; lia.
  Qed.

  Lemma max_child_ord f me kid :
    max_child_of cmp f me = Some kid -> kid > 0 ->
    parent kid = me /\ forall c, c > 0 -> parent c = me -> ale f c kid.
  Proof.
    unfold max_child_of, nd_len. intros H Hk.
    enough (Hkid : (kid = left_child me \/ kid = right_child me) /\
                   ale f (left_child me) kid /\ ale f (right_child me) kid).
    { destruct Hkid as [Hkid [Hl Hr]]. split.
      - destruct Hkid; subst kid; [apply parent_left_child | apply parent_right_child].
      - intros c Hc Hpc. apply parent_child_iff in Hpc; [|exact Hc]. destruct Hpc; subst c; assumption. }
    destruct (Nat.leb_spec (length (nd_heap f)) (left_child me)) as [H1|H1]; [inversion H; lia|].
    destruct (Nat.leb_spec (length (nd_heap f)) (right_child me)) as [H2|H2].
    - inversion H; subst kid. split; [auto|]. split; [apply ale_refl | apply ale_none, node_at_ge, H2].
    - destruct (compare_at_pos cmp f (left_child me) (right_child me)) as [c0|] eqn:Ec; [|discriminate].
      apply compare_at_pos_inv in Ec. destruct Ec as [nl [nr [Hl [Hr ->]]]].
      destruct (cmp nl nr) eqn:E; inversion H; subst kid; (split; [auto|]); split; try apply ale_refl.
      + apply (ale_at _ _ _ _ _ Hl Hr). congruence.
      + apply (ale_at _ _ _ _ _ Hl Hr). congruence.
      + apply (ale_at _ _ _ _ _ Hr Hl), cmp_gt_flip, E.
  Qed.

  Lemma down_inv_exit f me kid :
    down_inv f me -> max_child_of cmp f me = Some kid ->
    (kid > 0 -> exists x y, node_at f me = Some x /\ node_at f kid = Some y /\ cmp x y <> Lt) ->
    heap_ord f.
  Proof.
    intros [H1 _] Hmc Hge c Hc.
    destruct (Nat.eq_dec (parent c) me) as [Hpc|E]; [rewrite Hpc|apply H1; auto].
    destruct (Nat.eq_dec kid 0) as [->|Hk].
    - apply ale_none. eapply max_child_zero; eauto.
    - destruct (Hge ltac:(lia)) as [x [y [Hx [Hy Hnl]]]].
      destruct (max_child_ord f me kid Hmc ltac:(lia)) as [_ Hmax].
      apply (ale_trans f c kid me y Hy); [apply Hmax; auto|].
      apply (ale_at _ _ _ _ _ Hy Hx), cmp_not_lt_flip, Hnl.
  Qed.

  Lemma down_inv_step f f1 me kid x y :
    down_inv f me -> max_child_of cmp f me = Some kid -> kid > 0 ->
    node_at f me = Some x -> node_at f kid = Some y -> cmp x y = Lt -> swapped f f1 me kid ->
    down_inv f1 kid.
  Proof.
    intros [H1 H2] Hmc Hk Hx Hy Hlt Hs.
    destruct (max_child_ord f me kid Hmc Hk) as [Hpk Hmax].
    assert (Hkl := parent_lt kid Hk). rewrite Hpk in Hkl.
    assert (Hxy : ale f me kid) by (apply (ale_at _ _ _ _ _ Hx Hy); congruence).
    split.
    - intros q Hq Hqp. assert (Hql := parent_lt q Hq).
      apply (ale_swapped _ _ _ _ _ _ Hs).
      destruct (Nat.eq_dec q kid) as [->|E].
      + rewrite Hpk, sw_r, sw_l. exact Hxy.
      + destruct (Nat.eq_dec (parent q) me) as [E1|E1].
        * rewrite E1, sw_l, sw_other by lia. apply Hmax; auto.
        * rewrite (sw_other _ _ (parent q)) by assumption.
          destruct (Nat.eq_dec q me) as [->|E2].
          -- rewrite sw_l. apply H2; auto.
          -- rewrite sw_other by assumption. apply H1; auto.
    - intros _ c Hc Hpc. assert (Hcl := parent_lt c Hc). rewrite Hpk.
      apply (ale_swapped _ _ _ _ _ _ Hs).
      rewrite sw_l, sw_other by lia.
      rewrite <- Hpc. apply H1; auto. lia.
  Qed.

  Lemma bubble_down_ord f id p f' :
    hp_ok f -> nth_error (nd_heap f) p = Some id -> down_inv f p ->
    bubble_down cmp f id = Some f' -> heap_ord f'.
  Proof.
    intros Hok Hp Hinv. rewrite (bubble_down_eq f id p Hok Hp).
    destruct (bubble_down_loop_rule down_inv heap_ord down_inv_exit down_inv_step (S (nd_len f)) f id p Hok Hp)
      as [f2 [-> [_ [_ Ho]]]]; [unfold nd_len; lia | exact Hinv |].
    intros H. inversion H; subst f'. exact Ho.
  Qed.

  Lemma heap_ord_ext f f' : (forall q, node_at f' q = node_at f q) -> heap_ord f -> heap_ord f'.
  Proof. intros He Ho p Hp x y Hx Hy. rewrite He in Hx. rewrite He in Hy. apply (Ho p Hp x y); auto. Qed.

  (* Both kinds of push change the node at a single position [p], for a greater one or from none at
     the first free position: the order can then fail on the edge p -> parent p only. *)
  Lemma raised_up_inv f f1 p :
    heap_ord f -> (forall q, q <> p -> node_at f1 q = node_at f q) ->
    (forall c x, c > 0 -> parent c = p -> node_at f c = Some x ->
       exists old, node_at f p = Some old /\ forall y, node_at f1 p = Some y -> cmp old y <> Gt) ->
    up_inv f1 p.
  Proof.
    intros Ho Hsame Hup. split.
    - intros q Hq Hne x y Hx Hy. assert (Hql := parent_lt q Hq). rewrite (Hsame q Hne) in Hx.
      destruct (Nat.eq_dec (parent q) p) as [E|E].
      + destruct (Hup q x Hq E Hx) as [old [Hold Hle]]. rewrite E in Hy.
        apply (cmp_trans_le x old y); [|apply Hle; exact Hy].
        apply (Ho q Hq x old); [exact Hx | rewrite E; exact Hold].
      + rewrite (Hsame _ E) in Hy. apply (Ho q Hq x y); auto.
    - intros Hp0 c Hc0 Hc x y Hx Hy.
      assert (Hcl := parent_lt c Hc0). assert (Hpl := parent_lt p Hp0).
      rewrite Hsame in Hx by lia. rewrite Hsame in Hy by lia.
      destruct (Hup c x Hc0 Hc Hx) as [old [Hold _]].
      apply (cmp_trans_le x old y).
      + apply (Ho c Hc0 x old); [exact Hx | rewrite Hc; exact Hold].
      + apply (Ho p Hp0 old y); auto.
  Qed.

  Lemma fresh_node_at f f1 id n q :
    fresh_ins f f1 id n -> q <> length (nd_heap f) -> node_at f1 q = node_at f q.
  Proof.
    intros Hfi Hq. destruct (Nat.lt_ge_cases q (length (nd_heap f))) as [Hlt|Hge].
    - unfold node_at. rewrite (fi_heap _ _ _ _ Hfi).
      rewrite nth_error_app1 by exact Hlt.
      destruct (nth_error (nd_heap f) q) as [i|] eqn:Ei; [|reflexivity].
      apply (fi_nodes _ _ _ _ Hfi). intros Heq. subst i.
      apply (fi_notin _ _ _ _ Hfi). eapply nth_error_In; eauto.
    - rewrite !node_at_ge; [reflexivity | lia |].
      rewrite (fi_heap _ _ _ _ Hfi), app_length. cbn [length]. lia.
  Qed.

  Lemma fresh_up_inv f f1 id n :
    fresh_ins f f1 id n -> heap_ord f -> up_inv f1 (length (nd_heap f)).
  Proof.
    intros Hfi Ho. apply (raised_up_inv f); [exact Ho | intros q; apply (fresh_node_at _ _ _ _ _ Hfi) |].
    intros c x Hc Hpc Hx. assert (Hcl := parent_lt c Hc). rewrite node_at_ge in Hx by lia. discriminate.
  Qed.

  (* what the comparator must satisfy w.r.t. the coalescing update of an Occupied entry:
     the update never lowers the priority, and when the code decides not to bubble up
     (it compares the *pushed* node, with ub = max, against the old one) the stored node
     did not get a higher priority.  Both hold for MaxUB (see maxub_coalesce_ge/up below);
     they FAIL for other total preorders (see minub_breaks_heap_order at the end): the theorems
     that depend on them carry the suffix _partial. *)
  Hypothesis cmp_coalesce_ge : forall old n : sub,
    sp_state old = sp_state n -> cmp old (coalesce old n) <> Gt.
  Hypothesis cmp_coalesce_up : forall old n : sub,
    sp_state old = sp_state n ->
    cmp (with_ub n (Z.max (sp_ub n) (sp_ub old))) old <> Gt -> cmp (coalesce old n) old <> Gt.

  Lemma coal_node_at f f1 id old n p q :
    coal_upd f f1 id old n -> hp_ok f -> nth_error (nd_heap f) p = Some id ->
    q <> p -> node_at f1 q = node_at f q.
  Proof.
    intros Hcu Hok Hp Hq. unfold node_at. rewrite (cu_heap _ _ _ _ _ Hcu).
    destruct (nth_error (nd_heap f) q) as [i|] eqn:Ei; [|reflexivity].
    apply (cu_nodes _ _ _ _ _ Hcu). intros Heq. subst i.
    destruct (Hok _ _ Hp) as [H1 _]. destruct (Hok _ _ Ei) as [H2 _]. congruence.
  Qed.

  Lemma coal_node_at_p f f1 id old n p :
    coal_upd f f1 id old n -> nth_error (nd_heap f) p = Some id ->
    node_at f1 p = Some (coalesce old n) /\ node_at f p = Some old.
  Proof.
    intros Hcu Hp. unfold node_at. rewrite (cu_heap _ _ _ _ _ Hcu), Hp.
    split; [apply Hcu | apply Hcu].
  Qed.

  Lemma coal_up_inv f f1 id old n p :
    coal_upd f f1 id old n -> hp_ok f -> nth_error (nd_heap f) p = Some id ->
    heap_ord f -> up_inv f1 p.
  Proof.
    intros Hcu Hok Hp Ho. destruct (coal_node_at_p _ _ _ _ _ _ Hcu Hp) as [Hnew Hold].
    apply (raised_up_inv f); [exact Ho | intros q; apply (coal_node_at _ _ _ _ _ _ _ Hcu Hok Hp) |].
    intros c x _ _ _. exists old. split; [exact Hold|]. intros y Hy.
    replace y with (coalesce old n) by congruence. apply cmp_coalesce_ge, Hcu.
  Qed.

  Lemma coal_heap_ord_noup f f1 id old n p :
    coal_upd f f1 id old n -> hp_ok f -> nth_error (nd_heap f) p = Some id ->
    heap_ord f -> cmp (coalesce old n) old <> Gt -> heap_ord f1.
  Proof.
    intros Hcu Hok Hp Ho Hle.
    destruct (coal_node_at_p _ _ _ _ _ _ Hcu Hp) as [Hnew Hold].
    apply (up_inv_done f1 p); [eapply coal_up_inv; eauto|].
    intros Hp0 x y Hx Hy. assert (Hpl := parent_lt p Hp0).
    assert (x = coalesce old n) by congruence. subst x.
    rewrite (coal_node_at _ _ _ _ _ _ (parent p) Hcu Hok Hp) in Hy by lia.
    apply (cmp_trans_le _ old y); [exact Hle|]. apply (Ho p Hp0 old y); auto.
  Qed.

  Record nd_inv (f : fringe) : Prop := {
    inv_len : length (nd_pos f) = length (nd_nodes f);
    inv_heap_lt : forall id, In id (nd_heap f) -> id < length (nd_nodes f);
    inv_heap_nodup : NoDup (nd_heap f);
    inv_pos : forall p id, nth_error (nd_heap f) p = Some id -> nth_error (nd_pos f) id = Some p;
    inv_bin_nodup : NoDup (nd_bin f);
    inv_bin_lt : forall id, In id (nd_bin f) -> id < length (nd_nodes f);
    inv_disj : forall id, In id (nd_bin f) -> ~ In id (nd_heap f);
    inv_cover : forall id, id < length (nd_nodes f) -> In id (nd_heap f) \/ In id (nd_bin f);
    inv_keys : NoDup (map fst (nd_states f));
    inv_states : forall s id,
      states_get st_eqb (nd_states f) s = Some id <->
      (In id (nd_heap f) /\ exists n, nth_error (nd_nodes f) id = Some n /\ sp_state n = s);
    inv_live : forall p, p < length (nd_heap f) -> exists x, node_at f p = Some x;
    inv_order : forall p x y,
      p > 0 -> node_at f p = Some x -> node_at f (parent p) = Some y -> cmp x y <> Gt }.

  Lemma nd_inv_iff f : nd_inv f <-> nd_core f /\ heap_ord f.
  Proof.
    split.
    - intros H. split.
      + constructor; try apply H.
        intros p id Hp. split; [apply (inv_pos _ H); exact Hp|].
        apply (inv_heap_lt _ H). eapply nth_error_In; eauto.
      + intros p Hp x y Hx Hy. apply (inv_order _ H p x y); auto.
    - intros [Hc Ho]. constructor; try apply Hc.
      + intros id Hin. apply In_nth_error in Hin. destruct Hin as [p Hp]. apply (c_hp _ Hc _ _ Hp).
      + apply hp_ok_NoDup. apply Hc.
      + intros p Hp. apply node_at_some; [apply Hc | exact Hp].
      + intros p x y Hp Hx Hy. apply (Ho p Hp x y); auto.
  Qed.

  Lemma nd_inv_core f : nd_inv f -> nd_core f.
  Proof. intros H. apply nd_inv_iff in H. apply H. Qed.
  Lemma nd_inv_ord f : nd_inv f -> heap_ord f.
  Proof. intros H. apply nd_inv_iff in H. apply H. Qed.

  (* distinct live nodes have distinct states *)
  Lemma nd_inv_states_inj f i j x y :
    nd_inv f -> In i (nd_heap f) -> In j (nd_heap f) ->
    nth_error (nd_nodes f) i = Some x -> nth_error (nd_nodes f) j = Some y ->
    sp_state x = sp_state y -> i = j.
  Proof.
    intros H Hi Hj Hx Hy Hs.
    assert (G1 : states_get st_eqb (nd_states f) (sp_state x) = Some i) by (apply (inv_states _ H); eauto).
    assert (G2 : states_get st_eqb (nd_states f) (sp_state x) = Some j) by (apply (inv_states _ H); eauto).
    congruence.
  Qed.

  Theorem nd_inv_empty : nd_inv nd_empty.
  Proof.
    apply nd_inv_iff. split; [apply nd_core_empty|].
    intros p Hp x y Hx. unfold node_at in Hx. cbn [nd_empty nd_heap] in Hx. destruct p; discriminate.
  Qed.

  Theorem nd_push_inv_partial f n :
    nd_inv f -> exists f', nd_push st_eqb cmp f n = Some f' /\ nd_inv f'.
  Proof.
    intros Hinv. apply nd_inv_iff in Hinv. destruct Hinv as [Hc Ho].
    destruct (states_get st_eqb (nd_states f) (sp_state n)) as [id|] eqn:Hget.
    - destruct (nd_push_occupied f n id Hc Hget) as [old [f1 [f' [Hcu [Hp Hcase]]]]].
      exists f'. split; [exact Hp|]. apply nd_inv_iff.
      destruct (In_nth_error _ _ (cu_in _ _ _ _ _ Hcu)) as [p Hpos].
      destruct Hcase as [[_ [Hb [Hok Hsc]]]|[Hng Heq]].
      + split; [apply (core_same_content f1 f'); auto; apply Hcu|].
        apply (bubble_up_ord f1 id p f'); auto.
        * apply (c_hp _ (cu_core _ _ _ _ _ Hcu)).
        * rewrite (cu_heap _ _ _ _ _ Hcu). exact Hpos.
        * eapply coal_up_inv; eauto. apply Hc.
      + subst f'. split; [apply Hcu|].
        eapply coal_heap_ord_noup; eauto; [apply Hc|].
        apply cmp_coalesce_up; [apply Hcu | exact Hng].
    - destruct (nd_push_vacant f n Hc Hget) as [id [f1 [f' [Hfi [Hp [Hb [Hok Hsc]]]]]]].
      exists f'. split; [exact Hp|]. apply nd_inv_iff.
      split; [apply (core_same_content f1 f'); auto; apply Hfi|].
      apply (bubble_up_ord f1 id (length (nd_heap f)) f'); auto.
      + apply (c_hp _ (fi_core _ _ _ _ Hfi)).
      + rewrite (fi_heap _ _ _ _ Hfi). apply nth_error_snoc_same.
      + eapply fresh_up_inv; eauto.
  Qed.

  Lemma pop_heap_ord f id t x f0 f1 :
    heap_ord f -> nd_heap f = id :: t ->
    hp_ok f0 -> nd_nodes f0 = nd_nodes f ->
    (forall q y, q > 0 -> node_at f0 q = Some y -> node_at f q = Some y) ->
    same_content f0 f1 ->
    ((nd_heap f0 = [] /\ f1 = f0) \/
     (exists h0, nth_error (nd_heap f0) 0 = Some h0 /\ bubble_down cmp f0 h0 = Some f1)) ->
    heap_ord (popped_state f f1 id x).
  Proof.
    intros Ho Hheap Hok0 Hn0 Hmono Hsc Hcase.
    apply (heap_ord_ext f1).
    { intros q. unfold node_at, popped_state. cbn [nd_heap nd_nodes].
      rewrite (sc_nodes _ _ Hsc), Hn0. reflexivity. }
    destruct Hcase as [[Hnil Heq]|[h0 [Hh0 Hbd]]].
    - subst f1. intros p Hp a b Ha. unfold node_at in Ha. rewrite Hnil in Ha. destruct p; discriminate.
    - apply (bubble_down_ord f0 h0 0 f1 Hok0 Hh0); [|exact Hbd].
      split; [|lia].
      intros q Hq Hpq a b Ha Hb.
      apply (Ho q Hq a b); apply Hmono; auto. lia.
  Qed.

  Theorem nd_pop_inv f :
    nd_inv f -> exists f' r, nd_pop st_eqb cmp f = Some (f', r) /\ nd_inv f'.
  Proof.
    intros Hinv. assert (Hinv' := Hinv). apply nd_inv_iff in Hinv'. destruct Hinv' as [Hc Ho].
    destruct (nd_heap f) as [|id t] eqn:Hheap.
    - exists f, None. split; [apply nd_pop_empty; exact Hheap | exact Hinv].
    - destruct (nd_pop_nonempty f id t Hc Hheap)
        as [x [f0 [f1 [Hx [Hpop [Hok0 [Hn0 [Hperm [Hmono [Hok1 [Hsc [Hl1 Hcase]]]]]]]]]]]].
      exists (popped_state f f1 id x), (Some x). split; [exact Hpop|].
      apply nd_inv_iff. split.
      + apply (pop_core f id x f0 f1); auto. rewrite Hheap. left. reflexivity.
      + apply (pop_heap_ord f id t x f0 f1); auto.
  Qed.

  Theorem nd_clear_inv f : nd_inv (nd_clear f).
  Proof. apply nd_inv_empty. Qed.

  Theorem nd_run_inv_partial : forall ops f,
    nd_inv f -> exists f' obs, nd_run st_eqb cmp f ops = Some (f', obs) /\ nd_inv f'.
  Proof. exact (nd_run_preserves nd_inv nd_inv_empty nd_push_inv_partial nd_pop_inv). Qed.

  (* every operation list, run from the empty fringe: never panics, invariant at the end *)
  Corollary nd_run_from_empty_partial ops :
    exists f obs, nd_run st_eqb cmp nd_empty ops = Some (f, obs) /\ nd_inv f.
  Proof. apply nd_run_inv_partial. apply nd_inv_empty. Qed.

  (* PART B : abstraction *)
  Fixpoint collect (nodes : list sub) (h : list nat) : list sub :=
    match h with
    | [] => []
    | i :: h' => match nth_error nodes i with
                 | Some n => n :: collect nodes h'
                 | None => collect nodes h'
                 end
    end.

  (* the content of the fringe: the live nodes, in heap-array order (used up to Permutation) *)
  Definition abs (f : fringe) : list sub := collect (nd_nodes f) (nd_heap f).

  Lemma collect_app nodes h1 h2 : collect nodes (h1 ++ h2) = collect nodes h1 ++ collect nodes h2.
  Proof.
    induction h1 as [|i h1 IH]; cbn [collect app]; [reflexivity|].
    destruct (nth_error nodes i); rewrite IH; reflexivity.
  Qed.

  Lemma collect_perm nodes h h' : Permutation h h' -> Permutation (collect nodes h) (collect nodes h').
  Proof.
    intros HP. induction HP as [|i h h' HP IH|i j h|h1 h2 h3 HP1 IH1 HP2 IH2]; cbn [collect].
    - constructor.
    - destruct (nth_error nodes i); [constructor|]; exact IH.
    - destruct (nth_error nodes i), (nth_error nodes j); try apply Permutation_refl. apply perm_swap.
    - eapply Permutation_trans; eauto.
  Qed.

  (* changing the node of one id does not affect the ids collected elsewhere *)
  Lemma collect_ext nodes nodes' id h :
    (forall j, j <> id -> nth_error nodes' j = nth_error nodes j) -> ~ In id h ->
    collect nodes' h = collect nodes h.
  Proof.
    intros He. induction h as [|i h IH]; intros Hid; cbn [collect]; [reflexivity|].
    rewrite He by (intros ->; apply Hid; left; reflexivity).
    rewrite IH by (intros Hin; apply Hid; right; exact Hin). reflexivity.
  Qed.

  Lemma collect_In nodes h y :
    In y (collect nodes h) <-> exists i, In i h /\ nth_error nodes i = Some y.
  Proof.
    induction h as [|i h IH]; cbn [collect In].
    - split; [tauto|]. intros [i [[] _]].
    - destruct (nth_error nodes i) as [n|] eqn:E.
      + cbn [In]. rewrite IH. split.
        * intros [H|[j [Hj Hy]]]; [subst; eauto|eauto].
        * intros [j [[Hj|Hj] Hy]]; [subst j; left; congruence | right; eauto].
      + rewrite IH. split.
        * intros [j [Hj Hy]]. eauto.
        * intros [j [[Hj|Hj] Hy]]; [subst j; congruence | eauto].
  Qed.

  Lemma collect_nth nodes h :
    (forall i, In i h -> i < length nodes) ->
    forall p, nth_error (collect nodes h) p =
              match nth_error h p with Some i => nth_error nodes i | None => None end.
  Proof.
    induction h as [|i h IH]; intros Hlt p; cbn [collect].
    - destruct p; reflexivity.
    - destruct (nth_error_lt_Some nodes i (Hlt i (or_introl eq_refl))) as [n Hn]. rewrite Hn.
      destruct p as [|p]; cbn [nth_error]; [auto|].
      apply IH. intros j Hj. apply Hlt. right. exact Hj.
  Qed.

  Lemma collect_length nodes h :
    (forall i, In i h -> i < length nodes) -> length (collect nodes h) = length h.
  Proof.
    induction h as [|i h IH]; intros Hlt; cbn [collect length]; [reflexivity|].
    destruct (nth_error_lt_Some nodes i (Hlt i (or_introl eq_refl))) as [n Hn]. rewrite Hn.
    cbn [length]. rewrite IH; [reflexivity|]. intros j Hj. apply Hlt. right. exact Hj.
  Qed.

  Lemma hp_ok_lt f : hp_ok f -> forall i, In i (nd_heap f) -> i < length (nd_nodes f).
  Proof. intros Hok i Hi. apply In_nth_error in Hi. destruct Hi as [p Hp]. apply (Hok _ _ Hp). Qed.

  Lemma abs_nth f p : hp_ok f -> nth_error (abs f) p = node_at f p.
  Proof. intros Hok. unfold abs, node_at. apply collect_nth. apply hp_ok_lt. exact Hok. Qed.

  Theorem abs_len f : nd_core f -> nd_len f = length (abs f).
  Proof.
    intros Hc. unfold nd_len, abs. symmetry. apply collect_length. apply hp_ok_lt. apply Hc.
  Qed.

  Lemma abs_In f y : In y (abs f) <-> exists p, node_at f p = Some y.
  Proof.
    unfold abs, node_at. rewrite collect_In. split.
    - intros [i [Hi Hy]]. apply In_nth_error in Hi. destruct Hi as [p Hp]. exists p. rewrite Hp. exact Hy.
    - intros [p Hp]. destruct (nth_error (nd_heap f) p) as [i|] eqn:Ei; [|discriminate].
      exists i. split; [eapply nth_error_In; eauto | exact Hp].
  Qed.

  Lemma abs_same_content f f' : same_content f f' -> Permutation (abs f') (abs f).
  Proof. intros Hsc. unfold abs. rewrite (sc_nodes _ _ Hsc). apply collect_perm. apply Hsc. Qed.

  Lemma abs_empty : abs nd_empty = [].
  Proof. reflexivity. Qed.

  Theorem abs_clear f : abs (nd_clear f) = [].
  Proof. reflexivity. Qed.

  Theorem abs_push_vacant f n f' :
    nd_core f -> states_get st_eqb (nd_states f) (sp_state n) = None ->
    nd_push st_eqb cmp f n = Some f' ->
    Permutation (abs f') (n :: abs f) /\ (forall y, In y (abs f) -> sp_state y <> sp_state n).
  Proof.
    intros Hc Hget Hpush.
    destruct (nd_push_vacant f n Hc Hget) as [id [f1 [f2 [Hfi [Hp [_ [_ Hsc]]]]]]].
    rewrite Hp in Hpush. inversion Hpush; subst f2. split.
    - eapply Permutation_trans; [apply abs_same_content; exact Hsc|].
      unfold abs. rewrite (fi_heap _ _ _ _ Hfi), collect_app. cbn [collect].
      rewrite (fi_node _ _ _ _ Hfi).
      rewrite (collect_ext _ _ id _ (fi_nodes _ _ _ _ Hfi) (fi_notin _ _ _ _ Hfi)).
      apply Permutation_sym. apply Permutation_cons_append.
    - intros y Hy Hs. unfold abs in Hy. apply collect_In in Hy. destruct Hy as [i [Hi Hy]].
      assert (G : states_get st_eqb (nd_states f) (sp_state n) = Some i) by (apply (c_states _ Hc); eauto).
      congruence.
  Qed.

  Theorem abs_push_occupied_split f n id f' :
    nd_core f -> states_get st_eqb (nd_states f) (sp_state n) = Some id ->
    nd_push st_eqb cmp f n = Some f' ->
    exists old l1 l2,
      abs f = l1 ++ old :: l2 /\ Permutation (abs f') (l1 ++ coalesce old n :: l2) /\
      sp_state old = sp_state n /\ (forall y, In y (l1 ++ l2) -> sp_state y <> sp_state n).
  Proof.
    intros Hc Hget Hpush.
    destruct (nd_push_occupied f n id Hc Hget) as [old [f1 [f2 [Hcu [Hp Hcase]]]]].
    rewrite Hp in Hpush. inversion Hpush; subst f2.
    destruct (in_split _ _ (cu_in _ _ _ _ _ Hcu)) as [h1 [h2 Hsplit]].
    assert (Hnd : NoDup (h1 ++ id :: h2)) by (rewrite <- Hsplit; apply hp_ok_NoDup; apply Hc).
    assert (Hnotin : ~ In id (h1 ++ h2)) by (apply NoDup_remove_2; exact Hnd).
    exists old, (collect (nd_nodes f) h1), (collect (nd_nodes f) h2).
    split; [|split; [|split]].
    - unfold abs. rewrite Hsplit, collect_app. cbn [collect]. rewrite (cu_old _ _ _ _ _ Hcu). reflexivity.
    - assert (Habs1 : abs f1 = collect (nd_nodes f) h1 ++ coalesce old n :: collect (nd_nodes f) h2).
      { unfold abs. rewrite (cu_heap _ _ _ _ _ Hcu), Hsplit, collect_app. cbn [collect].
        rewrite (cu_node _ _ _ _ _ Hcu).
        rewrite !(collect_ext _ _ id _ (cu_nodes _ _ _ _ _ Hcu)); [reflexivity| |];
          intros Hin; apply Hnotin, in_or_app; auto. }
      rewrite <- Habs1. destruct Hcase as [[_ [_ [_ Hsc]]]|[_ Heq]].
      + apply abs_same_content. exact Hsc.
      + subst f'. apply Permutation_refl.
    - apply Hcu.
    - intros y Hy Hs. rewrite <- collect_app in Hy. apply collect_In in Hy. destruct Hy as [i [Hi Hy]].
      assert (Hih : In i (nd_heap f)).
      { rewrite Hsplit. apply in_app_or in Hi. apply in_or_app. destruct Hi; [left|right; right]; auto. }
      assert (G : states_get st_eqb (nd_states f) (sp_state n) = Some i) by (apply (c_states _ Hc); eauto).
      assert (i = id) by congruence. subst i. auto.
  Qed.

  Corollary abs_push_occupied f n id f' :
    nd_core f -> states_get st_eqb (nd_states f) (sp_state n) = Some id ->
    nd_push st_eqb cmp f n = Some f' ->
    exists old rest,
      sp_state old = sp_state n /\ Permutation (abs f) (old :: rest) /\
      Permutation (abs f') (coalesce old n :: rest) /\
      (forall y, In y rest -> sp_state y <> sp_state n).
  Proof.
    intros Hc Hget Hpush.
    destruct (abs_push_occupied_split f n id f' Hc Hget Hpush) as [old [l1 [l2 [H1 [H2 [H3 H4]]]]]].
    exists old, (l1 ++ l2). split; [exact H3|]. split; [|split; [|exact H4]].
    - rewrite H1. apply Permutation_sym. apply Permutation_middle.
    - eapply Permutation_trans; [exact H2|]. apply Permutation_sym. apply Permutation_middle.
  Qed.

  (* the functional abstract queue of Fringe.v *)
  Lemma pq_push_nodup_fresh (q : list sub) n :
    (forall y, In y q -> sp_state y <> sp_state n) -> pq_push_nodup st_eqb q n = q ++ [n].
  Proof.
    induction q as [|x q IH]; intros H; cbn [pq_push_nodup app]; [reflexivity|].
    rewrite st_eqb_false by (apply H; left; reflexivity).
    rewrite IH; [reflexivity|]. intros y Hy. apply H. right. exact Hy.
  Qed.

  Lemma pq_push_nodup_split (l1 l2 : list sub) old n :
    (forall y, In y l1 -> sp_state y <> sp_state n) -> sp_state old = sp_state n ->
    pq_push_nodup st_eqb (l1 ++ old :: l2) n = l1 ++ coalesce old n :: l2.
  Proof.
    induction l1 as [|x l1 IH]; intros H Hs; cbn [pq_push_nodup app].
    - rewrite Hs, st_eqb_refl. reflexivity.
    - rewrite st_eqb_false by (apply H; left; reflexivity).
      rewrite IH; [reflexivity| |exact Hs]. intros y Hy. apply H. right. exact Hy.
  Qed.

  Theorem abs_push f n f' :
    nd_core f -> nd_push st_eqb cmp f n = Some f' ->
    Permutation (abs f') (pq_push_nodup st_eqb (abs f) n).
  Proof.
    intros Hc Hpush. destruct (states_get st_eqb (nd_states f) (sp_state n)) as [id|] eqn:Hget.
    - destruct (abs_push_occupied_split f n id f' Hc Hget Hpush) as [old [l1 [l2 [H1 [H2 [H3 H4]]]]]].
      rewrite H1, pq_push_nodup_split; auto.
      intros y Hy. apply H4. apply in_or_app; auto.
    - destruct (abs_push_vacant f n f' Hc Hget Hpush) as [H1 H2].
      rewrite pq_push_nodup_fresh by exact H2.
      eapply Permutation_trans; [exact H1|]. apply Permutation_cons_append.
  Qed.

  Lemma root_max f :
    hp_ok f -> heap_ord f ->
    forall p x y, node_at f p = Some x -> node_at f 0 = Some y -> cmp x y <> Gt.
  Proof.
    intros Hok Ho p. induction p as [p IH] using lt_wf_ind. intros x y Hx Hy.
    destruct (Nat.eq_dec p 0) as [E|E].
    - subst p. assert (x = y) by congruence. subst y. rewrite cmp_refl. discriminate.
    - assert (Hpl : parent p < p) by (apply parent_lt; lia).
      assert (Hlt := node_at_lt _ _ _ Hx).
      destruct (node_at_some f (parent p) Hok ltac:(lia)) as [z Hz].
      apply (cmp_trans_le x z y).
      + apply (Ho p ltac:(lia) x z); auto.
      + apply (IH (parent p) Hpl z y); auto.
  Qed.

  (* the content after a pop, in the terms of [nd_pop_nonempty] *)
  Lemma abs_popped f id x f0 f1 :
    nth_error (nd_nodes f) id = Some x -> Permutation (nd_heap f) (id :: nd_heap f0) ->
    same_content f0 f1 -> Permutation (abs f) (x :: abs (popped_state f f1 id x)).
  Proof.
    intros Hx Hperm Hsc. unfold abs at 1. eapply Permutation_trans.
    - apply collect_perm. eapply Permutation_trans; [exact Hperm|].
      apply perm_skip, Permutation_sym, (sc_perm _ _ Hsc).
    - cbn [collect]. rewrite Hx. apply Permutation_refl.
  Qed.

  (* pop, completely: no panic, the invariant is kept, the result is a maximum of the content and
     leaves it; None exactly on the empty fringe *)
  Theorem nd_pop_spec f :
    nd_inv f ->
    exists f' r, nd_pop st_eqb cmp f = Some (f', r) /\ nd_inv f' /\
      match r with
      | Some x => is_max_of cmp (abs f) x /\ Permutation (abs f) (x :: abs f')
      | None => abs f = [] /\ f' = f
      end.
  Proof.
    intros Hinv. destruct (nd_pop_inv f Hinv) as [f' [r [Hpop Hinv']]].
    exists f', r. split; [exact Hpop|]. split; [exact Hinv'|].
    apply nd_inv_iff in Hinv. destruct Hinv as [Hc Ho].
    destruct (nd_heap f) as [|id t] eqn:Hheap.
    - rewrite (nd_pop_empty f Hheap) in Hpop. inversion Hpop; subst f' r.
      unfold abs. rewrite Hheap. auto.
    - destruct (nd_pop_nonempty f id t Hc Hheap) as [x [f0 [f1 [Hx [Hpop' [_ [_ [Hperm [_ [_ [Hsc _]]]]]]]]]]].
      rewrite Hpop' in Hpop. inversion Hpop; subst f' r.
      assert (Hroot : node_at f 0 = Some x) by (unfold node_at; rewrite Hheap; exact Hx).
      split; [split|].
      + apply abs_In. exists 0. exact Hroot.
      + intros y Hy. apply abs_In in Hy. destruct Hy as [p Hp].
        apply (root_max f (c_hp _ Hc) Ho p y x Hp Hroot).
      + apply (abs_popped f id x f0 f1); auto.
  Qed.

  Theorem nd_pop_some_spec f f' x :
    nd_inv f -> nd_pop st_eqb cmp f = Some (f', Some x) ->
    nd_inv f' /\ is_max_of cmp (abs f) x /\ Permutation (abs f) (x :: abs f').
  Proof.
    intros Hinv Hpop. destruct (nd_pop_spec f Hinv) as [f2 [r [Hp H]]].
    rewrite Hpop in Hp. inversion Hp; subst f2 r. exact H.
  Qed.

  Theorem nd_pop_none_spec f f' :
    nd_inv f -> nd_pop st_eqb cmp f = Some (f', None) -> abs f = [] /\ f' = f.
  Proof.
    intros Hinv Hpop. destruct (nd_pop_spec f Hinv) as [f2 [r [Hp [_ H]]]].
    rewrite Hpop in Hp. inversion Hp; subst f2 r. exact H.
  Qed.

  Theorem abs_pop_nonempty f :
    nd_inv f -> abs f <> [] ->
    exists x f', nd_pop st_eqb cmp f = Some (f', Some x) /\ nd_inv f' /\
                 is_max_of cmp (abs f) x /\ Permutation (abs f) (x :: abs f').
  Proof.
    intros Hinv Hne. destruct (nd_pop_spec f Hinv) as [f' [[x|] [Hp [Hi H]]]].
    - exists x, f'. tauto.
    - destruct H as [H _]. contradiction.
  Qed.

  (* relational specification, insensitive to the order of the list:
     push = coalescing insert, pop = remove SOME maximal element, clear = [] *)
  Inductive pq_step : @pq St -> @fop St -> @pq St -> @fobs St -> Prop :=
  | ps_push_new q n q' :
      (forall y, In y q -> sp_state y <> sp_state n) -> Permutation q' (n :: q) ->
      pq_step q (FPush n) q' (length q', None)
  | ps_push_coal q n q' old rest :
      sp_state old = sp_state n -> (forall y, In y rest -> sp_state y <> sp_state n) ->
      Permutation q (old :: rest) -> Permutation q' (coalesce old n :: rest) ->
      pq_step q (FPush n) q' (length q', None)
  | ps_pop_empty : pq_step [] FPop [] (0, Some None)
  | ps_pop q x q' :
      is_max_of cmp q x -> Permutation q (x :: q') ->
      pq_step q FPop q' (length q', Some (Some x))
  | ps_clear q : pq_step q FClear [] (0, None).

  Inductive pq_run : @pq St -> list (@fop St) -> @pq St -> list (@fobs St) -> Prop :=
  | pr_nil q : pq_run q [] q []
  | pr_cons q o q1 ob ops q2 obs :
      pq_step q o q1 ob -> pq_run q1 ops q2 obs -> pq_run q (o :: ops) q2 (ob :: obs).

  Lemma pq_step_perm q q0 o q' ob : pq_step q o q' ob -> Permutation q q0 -> pq_step q0 o q' ob.
  Proof.
    intros Hs HP. destruct Hs as [q n q' Hfresh Hq'|q n q' old rest Hst Hrest Hq Hq'| |q x q' Hmax Hq|q].
    - apply ps_push_new.
      + intros y Hy. apply Hfresh. eapply Permutation_in; [apply Permutation_sym; exact HP | exact Hy].
      + eapply Permutation_trans; [exact Hq'|]. apply perm_skip. exact HP.
    - apply (ps_push_coal q0 n q' old rest); auto.
      eapply Permutation_trans; [apply Permutation_sym; exact HP | exact Hq].
    - apply Permutation_nil in HP. subst q0. apply ps_pop_empty.
    - apply ps_pop.
      + destruct Hmax as [Hin Hle]. split.
        * eapply Permutation_in; eauto.
        * intros y Hy. apply Hle. eapply Permutation_in; [apply Permutation_sym; exact HP | exact Hy].
      + eapply Permutation_trans; [apply Permutation_sym; exact HP | exact Hq].
    - apply ps_clear.
  Qed.

  (* the functional queue of Fringe.v is one implementation of the push clause *)
  Lemma pq_push_nodup_step (q : list sub) n :
    pq_step q (FPush n) (pq_push_nodup st_eqb q n) (length (pq_push_nodup st_eqb q n), None) \/
    (exists x, In x q /\ sp_state x = sp_state n).
  Proof.
    induction q as [|x q IH].
    - left. apply ps_push_new; [intros y []|]. apply Permutation_refl.
    - destruct (st_eqb (sp_state x) (sp_state n)) eqn:E.
      + right. exists x. split; [left; reflexivity|]. apply st_eqb_spec. exact E.
      + destruct IH as [IH|[y [Hy Hs]]]; [|right; exists y; split; [right|]; auto].
        inversion IH as [q0 n0 q' Hfresh Hq'|q0 n0 q' old rest Hst Hrest Hq Hq'| | |]; subst.
        * left. cbn [pq_push_nodup]. rewrite E. apply ps_push_new.
          -- intros y [Hy|Hy]; [subst y|auto]. intros Hs. rewrite Hs, st_eqb_refl in E. discriminate.
          -- eapply Permutation_trans; [apply perm_skip; exact Hq'|]. apply perm_swap.
        * right. exists old. split; [|exact Hst]. right.
          eapply Permutation_in; [apply Permutation_sym; exact Hq|]. left. reflexivity.
  Qed.

  Lemma nd_step_sim_partial f o f' ob :
    nd_inv f -> nd_step st_eqb cmp f o = Some (f', ob) -> pq_step (abs f) o (abs f') ob /\ nd_inv f'.
  Proof.
    intros Hinv Hstep. assert (Hc := nd_inv_core f Hinv).
    destruct o as [n| |]; cbn [nd_step] in Hstep.
    - destruct (nd_push_inv_partial f n Hinv) as [f2 [Hp Hi2]]. rewrite Hp in Hstep.
      inversion Hstep; subst f' ob. split; [|exact Hi2].
      rewrite (abs_len f2 (nd_inv_core f2 Hi2)).
      destruct (states_get st_eqb (nd_states f) (sp_state n)) as [id|] eqn:Hget.
      + destruct (abs_push_occupied f n id f2 Hc Hget Hp) as [old [rest [H1 [H2 [H3 H4]]]]].
        apply (ps_push_coal (abs f) n (abs f2) old rest); auto.
      + destruct (abs_push_vacant f n f2 Hc Hget Hp) as [H1 H2].
        apply ps_push_new; auto.
    - destruct (nd_pop_spec f Hinv) as [f2 [r [Hp [Hi2 H]]]].
      rewrite Hp in Hstep. inversion Hstep; subst f' ob. split; [|exact Hi2].
      rewrite (abs_len f2 (nd_inv_core f2 Hi2)).
      destruct r as [x|]; destruct H as [H1 H2].
      + apply ps_pop; auto.
      + subst f2. rewrite H1. apply ps_pop_empty.
    - inversion Hstep; subst f' ob. split; [|apply nd_clear_inv].
      rewrite abs_clear. apply ps_clear.
  Qed.

  (* the concrete fringe is simulated by the abstract queue, observations included *)
  Theorem nodup_simulation_partial : forall ops f q f' obs,
    nd_inv f -> Permutation (abs f) q ->
    nd_run st_eqb cmp f ops = Some (f', obs) ->
    exists q', pq_run q ops q' obs /\ Permutation (abs f') q' /\ nd_inv f'.
  Proof.
    induction ops as [|o ops IH]; intros f q f' obs Hinv HP Hrun; cbn [nd_run] in Hrun.
    - inversion Hrun; subst f' obs. exists q. split; [constructor|auto].
    - destruct (nd_step st_eqb cmp f o) as [[f1 ob]|] eqn:Hstep; [|discriminate].
      destruct (nd_run st_eqb cmp f1 ops) as [[f2 obs']|] eqn:Hrun'; [|discriminate].
      inversion Hrun; subst f' obs.
      destruct (nd_step_sim_partial f o f1 ob Hinv Hstep) as [Hps Hi1].
      destruct (IH f1 (abs f1) f2 obs' Hi1 (Permutation_refl _) Hrun') as [q' [Hpr [HP' Hi2]]].
      exists q'. split; [|auto].
      apply (pr_cons q o (abs f1) ob ops q' obs'); [|exact Hpr].
      eapply pq_step_perm; eauto.
  Qed.

  (* nothing is lost, nothing is invented: whatever the operation list, the concrete run
     exists (no panic) and its observations and final content are those of the abstract queue *)
  Corollary nodup_never_loses_or_invents_partial ops :
    exists f obs q,
      nd_run st_eqb cmp nd_empty ops = Some (f, obs) /\ nd_inv f /\
      pq_run [] ops q obs /\ Permutation (abs f) q.
  Proof.
    destruct (nd_run_from_empty_partial ops) as [f [obs [Hrun Hinv]]].
    destruct (nodup_simulation_partial ops nd_empty [] f obs nd_inv_empty (Permutation_refl _) Hrun)
      as [q [Hpr [HP _]]].
    exists f, obs, q. auto.
  Qed.

  (* PART D (generic part) *)
  Lemma coalesce_keeps_best (old n : sub) :
    sp_value (coalesce old n) = Z.max (sp_value old) (sp_value n) /\
    sp_ub (coalesce old n) = Z.max (sp_ub old) (sp_ub n) /\
    ((sp_value n > sp_value old)%Z ->
       sp_state (coalesce old n) = sp_state n /\ sp_path (coalesce old n) = sp_path n /\
       sp_depth (coalesce old n) = sp_depth n) /\
    ((sp_value n <= sp_value old)%Z ->
       sp_state (coalesce old n) = sp_state old /\ sp_path (coalesce old n) = sp_path old /\
       sp_depth (coalesce old n) = sp_depth old).
  Proof.
    unfold coalesce. destruct (sp_value n >? sp_value old)%Z eqn:E;
      rewrite Z.gtb_ltb in E; [apply Z.ltb_lt in E | apply Z.ltb_ge in E];
      cbn [sp_state sp_value sp_path sp_ub sp_depth];
      (split; [lia|]); (split; [lia|]); (split; [intros H; try lia; auto | intros H; try lia; auto]).
  Qed.

  (* depth is a function of the state for the sub-problem x *)
  Definition dep_ok (dep : St -> nat) (x : sub) : Prop := sp_depth x = dep (sp_state x).

  Lemma coalesce_dep_ok dep old n : dep_ok dep old -> dep_ok dep n -> dep_ok dep (coalesce old n).
  Proof.
    unfold dep_ok, coalesce. intros H1 H2.
    destruct (sp_value n >? sp_value old)%Z; cbn [sp_state sp_depth]; auto.
  Qed.

  Lemma pq_step_dep_ok dep q o q' ob :
    pq_step q o q' ob -> (forall x, In x q -> dep_ok dep x) -> (forall n, o = FPush n -> dep_ok dep n) ->
    (forall x, In x q' -> dep_ok dep x) /\ (forall k x, ob = (k, Some (Some x)) -> dep_ok dep x).
  Proof.
    intros Hs Hq Ho. destruct Hs as [q n q' Hfresh Hq'|q n q' old rest Hst Hrest HP Hq'| |q x q' Hmax HP|q].
    - split; [|intros k x H; discriminate].
      intros x Hx. apply (Permutation_in _ Hq') in Hx. destruct Hx as [Hx|Hx]; [subst x; auto|auto].
    - split; [|intros k x H; discriminate].
      intros x Hx. apply (Permutation_in _ Hq') in Hx.
      assert (Hold : dep_ok dep old).
      { apply Hq. eapply Permutation_in; [apply Permutation_sym; exact HP|]. left; reflexivity. }
      destruct Hx as [Hx|Hx].
      + subst x. apply coalesce_dep_ok; auto.
      + apply Hq. eapply Permutation_in; [apply Permutation_sym; exact HP|]. right; exact Hx.
    - split; [intros x []|intros k x H; discriminate].
    - split.
      + intros y Hy. apply Hq. eapply Permutation_in; [apply Permutation_sym; exact HP|]. right; exact Hy.
      + intros k y H. inversion H; subst. apply Hq. apply Hmax.
    - split; [intros x []|intros k x H; discriminate].
  Qed.

  Lemma pq_run_dep_ok dep q ops q' obs :
    pq_run q ops q' obs -> (forall x, In x q -> dep_ok dep x) ->
    (forall n, In (FPush n) ops -> dep_ok dep n) ->
    (forall x, In x q' -> dep_ok dep x) /\ (forall k x, In (k, Some (Some x)) obs -> dep_ok dep x).
  Proof.
    intros Hr. induction Hr as [q|q o q1 ob ops q2 obs Hs Hr IH]; intros Hq Hops.
    - split; [exact Hq|intros k x []].
    - destruct (pq_step_dep_ok dep q o q1 ob Hs Hq) as [H1 H2].
      { intros n Hn. apply Hops. left. exact Hn. }
      destruct (IH H1) as [H3 H4].
      { intros n Hn. apply Hops. right. exact Hn. }
      split; [exact H3|]. intros k x [Hx|Hx]; [eapply H2; eauto | eapply H4; eauto].
  Qed.

  (* If, among the pushed nodes, equal states imply equal depths (depth = dep state), then
     every entry ever held or returned by the fringe obeys the same law, and therefore a
     push only ever coalesces two entries with the same (state, depth). *)
  Theorem dedup_only_same_subproblem_partial dep ops f obs :
    (forall n, In (FPush n) ops -> dep_ok dep n) ->
    nd_run st_eqb cmp nd_empty ops = Some (f, obs) ->
    (forall x, In x (abs f) -> dep_ok dep x) /\
    (forall k x, In (k, Some (Some x)) obs -> dep_ok dep x).
  Proof.
    intros Hops Hrun.
    destruct (nodup_simulation_partial ops nd_empty [] f obs nd_inv_empty (Permutation_refl _) Hrun)
      as [q [Hpr [HP _]]].
    destruct (pq_run_dep_ok dep [] ops q obs Hpr) as [H1 H2]; [intros x []|exact Hops|].
    split; [|exact H2]. intros x Hx. apply H1. eapply Permutation_in; eauto.
  Qed.

  Theorem coalesced_pair_same_state_depth dep f n id old :
    nd_core f -> (forall x, In x (abs f) -> dep_ok dep x) -> dep_ok dep n ->
    states_get st_eqb (nd_states f) (sp_state n) = Some id ->
    nth_error (nd_nodes f) id = Some old ->
    sp_state old = sp_state n /\ sp_depth old = sp_depth n.
  Proof.
    intros Hc Hall Hn Hget Hold.
    destruct (proj1 (c_states _ Hc _ _) Hget) as [Hin [old' [Hold' Hst]]].
    assert (old' = old) by congruence. subst old'. split; [exact Hst|].
    assert (Hd : dep_ok dep old).
    { apply Hall. unfold abs. apply collect_In. eauto. }
    unfold dep_ok in *. congruence.
  Qed.

  Theorem pop_pop_le f x f' y f'' :
    nd_inv f -> nd_pop st_eqb cmp f = Some (f', Some x) -> nd_pop st_eqb cmp f' = Some (f'', Some y) ->
    cmp y x <> Gt.
  Proof.
    intros Hinv H1 H2.
    destruct (nd_pop_some_spec f f' x Hinv H1) as [Hi' [[_ Hmax] HP]].
    destruct (nd_pop_some_spec f' f'' y Hi' H2) as [_ [[Hin _] _]].
    apply Hmax. eapply Permutation_in; [apply Permutation_sym; exact HP|]. right. exact Hin.
  Qed.

End FringeProofs.

(* PART C : the MaxUB ranking *)
Section MaxUB.
  Context {St : Type}.
  Variable st_eqb : St -> St -> bool.
  Hypothesis st_eqb_spec : forall a b, st_eqb a b = true <-> a = b.
  Variable st_cmp : St -> St -> comparison.
  Hypothesis st_cmp_antisym : forall a b, st_cmp a b = CompOpp (st_cmp b a).
  Hypothesis st_cmp_trans_le : forall a b c, st_cmp a b <> Gt -> st_cmp b c <> Gt -> st_cmp a c <> Gt.

  Notation sub := (@subproblem St).
  Notation mcmp := (maxub_cmp st_cmp).

  Lemma st_cmp_refl a : st_cmp a a = Eq.
  Proof. pose proof (st_cmp_antisym a a) as H. destruct (st_cmp a a); cbn in H; congruence. Qed.

  Lemma maxub_le_iff (x y : sub) :
    mcmp x y <> Gt <->
    (sp_ub x < sp_ub y \/
     (sp_ub x = sp_ub y /\
      (sp_value x < sp_value y \/
       (sp_value x = sp_value y /\ st_cmp (sp_state x) (sp_state y) <> Gt))))%Z.
  Proof.
    unfold maxub_cmp, Zcmp.
    destruct (Z.compare_spec (sp_ub x) (sp_ub y)) as [E1|E1|E1]; cbn [cmp_then].
    - destruct (Z.compare_spec (sp_value x) (sp_value y)) as [E2|E2|E2]; cbn [cmp_then].
      + split; [intros H; right; split; [exact E1|]; right; split; [exact E2|exact H]|].
        intros [H|[_ [H|[_ H]]]]; [lia|lia|exact H].
      + split; [intros _; right; split; [exact E1|]; left; exact E2 | intros _; discriminate].
      + split; [intros H; congruence|]. intros [H|[_ [H|[H _]]]]; lia.
    - split; [intros _; left; exact E1 | intros _; discriminate].
    - split; [intros H; congruence|]. intros [H|[H _]]; lia.
  Qed.

  Lemma maxub_antisym (x y : sub) : mcmp x y = CompOpp (mcmp y x).
  Proof.
    unfold maxub_cmp, Zcmp.
    rewrite (Z.compare_antisym (sp_ub y) (sp_ub x)), (Z.compare_antisym (sp_value y) (sp_value x)),
      (st_cmp_antisym (sp_state x) (sp_state y)).
    destruct (sp_ub y ?= sp_ub x)%Z; cbn [CompOpp cmp_then]; try reflexivity.
    destruct (sp_value y ?= sp_value x)%Z; cbn [CompOpp cmp_then]; reflexivity.
  Qed.

  Lemma maxub_trans_le (x y z : sub) : mcmp x y <> Gt -> mcmp y z <> Gt -> mcmp x z <> Gt.
  Proof.
    rewrite !maxub_le_iff. intros H1 H2.
    destruct H1 as [H1|[H1 [H1'|[H1' H1'']]]]; destruct H2 as [H2|[H2 [H2'|[H2' H2'']]]];
      try (left; lia); try (right; split; [lia|]; left; lia).
    right. split; [lia|]. right. split; [lia|]. eapply st_cmp_trans_le; eauto.
  Qed.

  (* the (ub, value) projection of the order *)
  Lemma maxub_le_lex (x y : sub) :
    mcmp x y <> Gt -> (sp_ub x < sp_ub y \/ (sp_ub x = sp_ub y /\ sp_value x <= sp_value y))%Z.
  Proof. rewrite maxub_le_iff. intros [H|[H [H'|[H' _]]]]; [left|right|right]; lia. Qed.

  Lemma maxub_coalesce_ge (old n : sub) :
    sp_state old = sp_state n -> mcmp old (coalesce old n) <> Gt.
  Proof.
    intros Hs. apply maxub_le_iff. unfold coalesce.
    destruct (sp_value n >? sp_value old)%Z eqn:E; rewrite Z.gtb_ltb in E;
      [apply Z.ltb_lt in E | apply Z.ltb_ge in E]; cbn [sp_state sp_value sp_ub].
    - destruct (Z.max_spec (sp_ub n) (sp_ub old)) as [[Hm Hm']|[Hm Hm']]; rewrite Hm'.
      + right. split; [reflexivity|]. left. exact E.
      + destruct (Z.eq_dec (sp_ub n) (sp_ub old)) as [He|He].
        * right. split; [lia|]. left. exact E.
        * left. lia.
    - destruct (Z.max_spec (sp_ub n) (sp_ub old)) as [[Hm Hm']|[Hm Hm']]; rewrite Hm'.
      + right. split; [reflexivity|]. right. split; [reflexivity|]. rewrite st_cmp_refl. discriminate.
      + destruct (Z.eq_dec (sp_ub n) (sp_ub old)) as [He|He].
        * right. split; [lia|]. right. split; [reflexivity|]. rewrite st_cmp_refl. discriminate.
        * left. lia.
  Qed.

  Lemma maxub_coalesce_up (old n : sub) :
    sp_state old = sp_state n ->
    mcmp (with_ub n (Z.max (sp_ub n) (sp_ub old))) old <> Gt -> mcmp (coalesce old n) old <> Gt.
  Proof.
    intros Hs H. apply maxub_le_iff in H. unfold with_ub in H. cbn [sp_state sp_value sp_ub] in H.
    apply maxub_le_iff. unfold coalesce.
    assert (Hv : (sp_value n <= sp_value old)%Z) by lia.
    assert (Hu : Z.max (sp_ub n) (sp_ub old) = sp_ub old) by lia.
    destruct (sp_value n >? sp_value old)%Z eqn:E; rewrite Z.gtb_ltb in E;
      [apply Z.ltb_lt in E; lia | ]. cbn [sp_state sp_value sp_ub].
    right. split; [exact Hu|]. right. split; [reflexivity|]. rewrite st_cmp_refl. discriminate.
  Qed.

  (* closes one hypothesis of a generic theorem of section FringeProofs by its MaxUB instance *)
  Ltac mx := first [exact st_eqb_spec | exact maxub_antisym | exact maxub_trans_le
                    | exact maxub_coalesce_ge | exact maxub_coalesce_up].

  (* --- Part A for MaxUB : no panic, invariant preserved, for every operation list *)
  Theorem maxub_nd_push_inv f n :
    nd_inv st_eqb mcmp f -> exists f', nd_push st_eqb mcmp f n = Some f' /\ nd_inv st_eqb mcmp f'.
  Proof.
    apply nd_push_inv_partial; mx.
  Qed.

  Theorem maxub_nd_pop_inv f :
    nd_inv st_eqb mcmp f ->
    exists f' r, nd_pop st_eqb mcmp f = Some (f', r) /\ nd_inv st_eqb mcmp f'.
  Proof. apply nd_pop_inv; mx. Qed.

  Theorem maxub_nd_run_inv ops f :
    nd_inv st_eqb mcmp f ->
    exists f' obs, nd_run st_eqb mcmp f ops = Some (f', obs) /\ nd_inv st_eqb mcmp f'.
  Proof.
    apply nd_run_inv_partial; mx.
  Qed.

  Theorem maxub_nd_run_from_empty ops :
    exists f obs, nd_run st_eqb mcmp nd_empty ops = Some (f, obs) /\ nd_inv st_eqb mcmp f.
  Proof.
    apply nd_run_from_empty_partial; mx.
  Qed.

  (* --- Part B for MaxUB *)
  Theorem maxub_nodup_simulation ops f q f' obs :
    nd_inv st_eqb mcmp f -> Permutation (abs f) q ->
    nd_run st_eqb mcmp f ops = Some (f', obs) ->
    exists q', pq_run mcmp q ops q' obs /\ Permutation (abs f') q' /\ nd_inv st_eqb mcmp f'.
  Proof.
    apply nodup_simulation_partial; mx.
  Qed.

  Theorem maxub_nodup_never_loses_or_invents ops :
    exists f obs q,
      nd_run st_eqb mcmp nd_empty ops = Some (f, obs) /\ nd_inv st_eqb mcmp f /\
      pq_run mcmp [] ops q obs /\ Permutation (abs f) q.
  Proof.
    apply nodup_never_loses_or_invents_partial; mx.
  Qed.

  Theorem maxub_pop_is_max f f' x :
    nd_inv st_eqb mcmp f -> nd_pop st_eqb mcmp f = Some (f', Some x) ->
    nd_inv st_eqb mcmp f' /\ is_max_of mcmp (abs f) x /\ Permutation (abs f) (x :: abs f').
  Proof. apply nd_pop_some_spec; mx. Qed.

  (* --- Part C : successive pops are non-increasing in (ub, value) *)
  Theorem maxub_successive_pops f x f' y f'' :
    nd_inv st_eqb mcmp f ->
    nd_pop st_eqb mcmp f = Some (f', Some x) -> nd_pop st_eqb mcmp f' = Some (f'', Some y) ->
    (sp_ub y < sp_ub x \/ (sp_ub y = sp_ub x /\ sp_value y <= sp_value x))%Z.
  Proof.
    intros Hinv H1 H2. apply maxub_le_lex.
    apply (pop_pop_le st_eqb st_eqb_spec mcmp maxub_antisym maxub_trans_le f x f' y f''); auto.
  Qed.

  (* --- Part D for MaxUB *)
  Theorem maxub_dedup_only_same_subproblem dep ops f obs :
    (forall n, In (FPush n) ops -> dep_ok dep n) ->
    nd_run st_eqb mcmp nd_empty ops = Some (f, obs) ->
    (forall x, In x (abs f) -> dep_ok dep x) /\
    (forall k x, In (k, Some (Some x)) obs -> dep_ok dep x).
  Proof.
    apply dedup_only_same_subproblem_partial; mx.
  Qed.
End MaxUB.

Section Witnesses.
  Local Open Scope Z_scope.
  Let sp (s : nat) (d : nat) (v ub : Z) : @subproblem nat :=
    {| sp_state := s; sp_value := v; sp_path := []; sp_ub := ub; sp_depth := d |}.
  Let mx := maxub_cmp Nat.compare.

  (* PART D, regression witness for the code before the fix of D4, whose map was keyed by the state
     alone (the key type is instantiated at the bare state here; no_duplicate.rs keys the map by
     (state, depth), which is Fringe2.v): two pushes with equal states and different depths are
     coalesced into one entry; the survivor has the depth/value of the better one and the max of the
     two upper bounds. *)
  Example dedup_ignores_depth_run :
    exists f,
      nd_run Nat.eqb mx nd_empty [FPush (sp 7 1%nat 3 10); FPush (sp 7 2%nat 5 8); FPop] =
      Some (f, [(1%nat, None); (1%nat, None); (0%nat, Some (Some (sp 7 2%nat 5 10)))]).
  Proof. eexists. vm_compute. reflexivity. Qed.

  Theorem dedup_ignores_depth :
    exists (a b : @subproblem nat) f obs,
      sp_state a = sp_state b /\ sp_depth a <> sp_depth b /\
      nd_run Nat.eqb mx nd_empty [FPush a; FPush b] = Some (f, obs) /\ nd_len f = 1%nat.
  Proof.
    exists (sp 7 1%nat 3 10), (sp 7 2%nat 5 8). eexists. eexists.
    split; [reflexivity|]. split; [cbn; discriminate|]. split; [vm_compute; reflexivity|reflexivity].
  Qed.

  (* the three update shapes of the Occupied branch, on the executable model *)
  Example push_same_state_ub_only :   (* value not better, ub better: only ub changes *)
    exists f, nd_run Nat.eqb mx nd_empty [FPush (sp 7 1%nat 5 8); FPush (sp 7 2%nat 3 10); FPop] =
              Some (f, [(1%nat, None); (1%nat, None); (0%nat, Some (Some (sp 7 1%nat 5 10)))]).
  Proof. eexists. vm_compute. reflexivity. Qed.

  Example push_same_state_tie_keeps_old :   (* equal value: the old node is kept *)
    exists f, nd_run Nat.eqb mx nd_empty [FPush (sp 7 1%nat 5 8); FPush (sp 7 2%nat 5 8); FPop] =
              Some (f, [(1%nat, None); (1%nat, None); (0%nat, Some (Some (sp 7 1%nat 5 8)))]).
  Proof. eexists. vm_compute. reflexivity. Qed.

  (* WHY the generic theorems carry the suffix _partial.
     The unrestricted statement, "for every total preorder cmp, push preserves nd_inv (heap order
     included) and pop returns a cmp-maximum", is FALSE of the model (and of the Rust
     code): on an Occupied entry the code decides whether to bubble up by comparing the pushed
     node (with ub := max) against the old one and never bubbles down, which is only adequate
     when raising ub / value never lowers the priority, i.e. for rankings like MaxUB.
     Counterexample: the total preorder "smaller ub first". *)
  Definition minub_cmp (x y : @subproblem nat) : comparison := Zcmp (sp_ub y) (sp_ub x).

  Lemma minub_antisym x y : minub_cmp x y = CompOpp (minub_cmp y x).
  Proof. unfold minub_cmp, Zcmp. apply Z.compare_antisym. Qed.

  Lemma minub_trans_le x y z : minub_cmp x y <> Gt -> minub_cmp y z <> Gt -> minub_cmp x z <> Gt.
  Proof.
    unfold minub_cmp, Zcmp. intros H1 H2.
    destruct (Z.compare_spec (sp_ub y) (sp_ub x)); try congruence;
    destruct (Z.compare_spec (sp_ub z) (sp_ub y)); try congruence;
    destruct (Z.compare_spec (sp_ub z) (sp_ub x)); try discriminate; lia.
  Qed.

  Example minub_breaks_heap_order :
    exists f x y,
      nd_run Nat.eqb minub_cmp nd_empty
        [FPush (sp 1 0%nat 0 1); FPush (sp 2 0%nat 0 2); FPush (sp 1 0%nat 0 5); FPop] =
      Some (f, [(1%nat, None); (2%nat, None); (2%nat, None); (1%nat, Some (Some x))]) /\
      In y (abs f) /\ minub_cmp y x = Gt.
  Proof.
    eexists. exists (sp 1 0%nat 0 5), (sp 2 0%nat 0 2).
    split; [vm_compute; reflexivity|]. split; [vm_compute; left; reflexivity | reflexivity].
  Qed.

  Example minub_violates_coalesce_ge :
    sp_state (sp 1 0%nat 0 1) = sp_state (sp 1 0%nat 0 5) /\
    minub_cmp (sp 1 0%nat 0 1) (coalesce (sp 1 0%nat 0 1) (sp 1 0%nat 0 5)) = Gt.
  Proof. split; reflexivity. Qed.
End Witnesses.

Print Assumptions nd_run_core.
Print Assumptions nd_pop_inv.
Print Assumptions nd_run_from_empty_partial.
Print Assumptions abs_len.
Print Assumptions abs_push.
Print Assumptions abs_push_occupied.
Print Assumptions abs_pop_nonempty.
Print Assumptions nodup_never_loses_or_invents_partial.
Print Assumptions maxub_nd_run_from_empty.
Print Assumptions maxub_nodup_simulation.
Print Assumptions maxub_nodup_never_loses_or_invents.
Print Assumptions maxub_successive_pops.
Print Assumptions coalesce_keeps_best.
Print Assumptions maxub_dedup_only_same_subproblem.
Print Assumptions coalesced_pair_same_state_depth.
Print Assumptions dedup_ignores_depth.
Print Assumptions minub_breaks_heap_order.
