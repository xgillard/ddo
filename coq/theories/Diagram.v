(* Diagram.v — the DIAGRAM-level theorems about Mdd.compile, in the form a user's model can actually meet.

   1. Machine-integer variants of the simulation theorems S1..S4 of MddSim.v.
      MddSim.v assumes   relax_ge : forall src dst mg d c, c <= relax rlx src dst mg d c   for EVERY integer c, which no
      relaxation returning a machine integer (isize) can satisfy (take c = IMAX + 1).  Here that premise is replaced by
          cost_isize     : forall s d, in_isize (transition_cost pb s (transition pb s d) d)
          relax_isize    : forall src dst mg d c, in_isize c -> in_isize (relax rlx src dst mg d c)
          relax_ge_isize : forall src dst mg d c, in_isize c -> c <= relax rlx src dst mg d c
      for an ARBITRARY compilation input [inp] and arbitrary tie-break oracles tb tb2 (the generality of S1..S4):
          S1_relaxed_upper_bound_isize, S2_exact_truthful_isize, S2_exact_mode_isize, S3_cutset_ub_isize,
          S4_cutset_covers_isize.
      Method (that of Assembly.SimContractsSat, one level down): Assembly.clip_compile says that compiling with the relaxation
      clipped to isize costs (clip_relaxation) yields the very same diagram; the clipped relaxation meets relax_ge for every
      integer (clip_relax_ge_all); the conclusions do not mention the relaxation (vstar, dd_best_value, dd_best_exact_value,
      drain_cutset, H, ci_best_lb of [set_relax inp r] are those of inp, by conversion: section SetRelax).

   2. C07, "restricted diagrams are feasible lower bounds", at the cinput level (any inp, tb, tb2, ANY cutoff):
          C07_restricted_value_is_feasible   the best value of a completed Restricted / Exact compilation is the value of a
                                             COMPLETE feasible run (exact integer arithmetic) from the root sub-problem, and
                                             the best solution is the root path followed by the decisions of that run
          C07_restricted_lower_bound         hence it is at most the optimum vstar inp (= opt_enum_from .., vstar_opt_enum)
          C07_best_exact_value_is_feasible / C07_best_exact_lower_bound
                                             the same for dd_best_exact_value / dd_best_exact_solution of ANY compilation
                                             type (Relaxed included): the exact best node is a genuine solution
          C07_restricted_lower_bound_any_outcome   cutoff 0: whatever the outcome component says (it is Compiled)
      No relaxation premise is involved (no cov, merge, relax, rough bound); premises: st_eqb_spec, clean flavour, no cache,
      no dominance rule, 1 <= width, static variable order (nv_static, nv_some, nv_none), root depth <= nb_vars, guard B.
      ORDER OF THE DECISIONS: the model lists a solution as  sp_path root ++ chain  where chain walks the best edges from
      the terminal node UP to the root, i.e. last decision first; the feasible run takes them root first.  So the statement
      reads  dd_best_solution inp m = Some (sp_path root ++ rev ds)  for the run  frun .. ds  — an equality, not merely a
      permutation.

   3. Non-vacuity: the table-driven family of Table.v / TableWf.v (instances with t_wf ti C) meets every premise of the
      theorems above (section TableDiagram: table_S1 .. table_C07), and on the concrete instance ex_ti (optimum 12):
          ex_S1   Relaxed, width 1: the diagram is not exact (ex_relaxed1_inexact) and its best value is >= 12
          ex_S3   every cut-set node whose exact best completion is o has an upper bound >= o
          ex_S4   some cut-set node has an exact best completion of exactly 12, and its bound is >= 12
          ex_S2_truthful   Relaxed, width 2: the diagram says it is exact and its best exact value is 12
          ex_S2_mode       Exact mode, width 1: the best value is 12
          ex_C07  Restricted, width 1, cutoff 5 (does not fire): the best value is the value of a complete feasible run
                  whose reversed decisions are the best solution, and it is <= 12
      On ex_ti the bounds happen to be tight (both 12); a second instance ex2_ti (optimum 7) shows strict gaps: the relaxed
      diagram of width 1 says 8, the restricted one 3 (ex2_shape), with ex2_S1 : 7 <= 8, ex2_S4, ex2_C07 : 3 <= 7 by the
      theorems.  The compilations themselves are evaluated by vm_compute (always in the GOAL, so that the kernel replays
      them with the VM); the inequalities / equalities come from the theorems.

   Stdlib only, no axioms (Print Assumptions at the end). *)
Require Import DDO.Base DDO.Fringe DDO.DP DDO.Cache DDO.Dom DDO.Mdd DDO.MddStruct DDO.MddExact DDO.Solver DDO.SolverProofs.
Require Import DDO.MddProgress DDO.MddSim DDO.SolverCutoff DDO.Assembly DDO.Table DDO.Run DDO.TableWf.
From Coq Require Import Lia List Arith ZArith Bool Permutation.
Import ListNotations.
Local Open Scope Z_scope.

(* 0. what does not depend on the relaxation *)
Section SetRelax.
  Context {St : Type}.
  Variable inp : @cinput St.
  Variable r : relaxation St.

  Lemma set_relax_vstar : vstar (set_relax inp r) = vstar inp.
  Proof. reflexivity. Qed.
  Lemma set_relax_best_lb : ci_best_lb (set_relax inp r) = ci_best_lb inp.
  Proof. reflexivity. Qed.
  Lemma set_relax_type : ci_type (set_relax inp r) = ci_type inp.
  Proof. reflexivity. Qed.
  Lemma set_relax_problem : ci_problem (set_relax inp r) = ci_problem inp.
  Proof. reflexivity. Qed.
  Lemma set_relax_root : ci_root (set_relax inp r) = ci_root inp.
  Proof. reflexivity. Qed.
  Lemma set_relax_best_value m : dd_best_value (set_relax inp r) m = dd_best_value inp m.
  Proof. reflexivity. Qed.
  Lemma set_relax_best_exact_value m : dd_best_exact_value (set_relax inp r) m = dd_best_exact_value inp m.
  Proof. reflexivity. Qed.
  Lemma set_relax_best_solution m : dd_best_solution (set_relax inp r) m = dd_best_solution inp m.
  Proof. reflexivity. Qed.
  Lemma set_relax_drain_cutset m : drain_cutset (set_relax inp r) m = drain_cutset inp m.
  Proof. reflexivity. Qed.
End SetRelax.

(* the clipped relaxation does not decrease ANY integer cost (it is the identity outside isize) *)
Lemma clip_relax_ge_all {St : Type} (r : relaxation St) :
  (forall src dst mg d c, in_isize c -> c <= relax r src dst mg d c) ->
  forall src dst mg d c, c <= relax (clip_relaxation r) src dst mg d c.
Proof.
  intros Hge src dst mg d c. cbn [clip_relaxation relax].
  destruct (in_isize_b c) eqn:E; [|lia].
  apply Hge. unfold in_isize_b in E. apply andb_true_iff in E. destruct E as [E1 E2].
  apply Z.leb_le in E1. apply Z.leb_le in E2. split; assumption.
Qed.

(* 1. S1 .. S4 for relaxations returning machine integers *)
Section SimIsize.
  Context {St : Type}.
  Variable st_eqb : St -> St -> bool.
  Hypothesis st_eqb_spec : forall a b, st_eqb a b = true <-> a = b.
  Variable inp : @cinput St.
  Local Notation pb := (ci_problem inp).
  Local Notation rlx := (ci_relax inp).
  Local Notation root := (ci_root inp).
  Local Notation N := (nb_vars (ci_problem inp)).
  Hypothesis Hclean : ci_flavour inp = CleanLEL \/ ci_flavour inp = CleanFC.
  Hypothesis Hnocache : ci_use_cache inp = false.
  Hypothesis Hnodom : ci_domrule inp = None.
  Hypothesis Hnocut : ci_cutoff inp = 0%nat.
  Hypothesis Hwidth : (1 <= ci_width inp)%nat.
  Hypothesis Hrd : (sp_depth root <= N)%nat.
  Hypothesis nv_static : forall k l1 l2, next_variable pb k l1 = next_variable pb k l2.
  Hypothesis nv_some : forall k l, (k < N)%nat -> exists x, next_variable pb k l = Some x.
  Hypothesis nv_none : forall k l, (N <= k)%nat -> next_variable pb k l = None.
  Variable cov : St -> St -> Prop.
  Hypothesis cov_refl : forall s, cov s s.
  Hypothesis cov_sim : forall s s' x v, cov s s' -> In v (domain pb x s') ->
    let d := {| d_var := x; d_val := v |} in
    In v (domain pb x s) /\ cov (transition pb s d) (transition pb s' d) /\
    (transition_cost pb s' (transition pb s' d) d <= transition_cost pb s (transition pb s d) d)%Z.
  Hypothesis merge_cov : forall L s s', In s L -> cov s s' -> cov (merge rlx L) s'.
  Hypothesis rub_adm : forall k s s' h, cov s s' -> H pb k s' = Some h -> (h <= fast_upper_bound rlx s)%Z.
  (* machine-integer costs, instead of relax_ge for every integer *)
  Hypothesis cost_isize : forall s d, in_isize (transition_cost pb s (transition pb s d) d).
  Hypothesis relax_isize : forall src dst mg d c, in_isize c -> in_isize (relax rlx src dst mg d c).
  Hypothesis relax_ge_isize : forall src dst mg d c, in_isize c -> (c <= relax rlx src dst mg d c)%Z.
  Variable B : Z.
  Hypothesis HB : 2 * B <= IMAX.
  Hypothesis Hguard : forall ds s' v',
    frun pb (sp_depth root) (sp_state root) (sp_value root) ds = Some (s', v') -> - B <= v' <= B.

  (* the input whose relaxation is clipped: it compiles to the same diagram and meets MddSim's relax_ge *)
  Local Notation inp' := (set_relax inp (clip_relaxation (ci_relax inp))).

  Lemma to_clipped tb tb2 c ds polls m out :
    compile st_eqb inp tb tb2 c ds polls = (m, out) -> compile st_eqb inp' tb tb2 c ds polls = (m, out).
  Proof. intros Hc. rewrite (clip_compile st_eqb inp Hclean cost_isize relax_isize). exact Hc. Qed.

  Lemma clipped_relax_ge : forall src dst mg d c, (c <= relax (ci_relax inp') src dst mg d c)%Z.
  Proof. exact (clip_relax_ge_all (ci_relax inp) relax_ge_isize). Qed.

  (* S1 (C06, bound): a Relaxed / Exact diagram over-approximates the optimum of its root sub-problem *)
  Theorem S1_relaxed_upper_bound_isize tb tb2 c ds polls m o :
    compile st_eqb inp tb tb2 c ds polls = (m, Compiled) ->
    ci_type inp = Relaxed \/ ci_type inp = Exact ->
    vstar inp = Some o -> o > ci_best_lb inp ->
    exists b, dd_best_value inp m = Some b /\ o <= b.
  Proof.
    intros Hc Ht Hv Hlb. apply to_clipped in Hc.
    exact (S1_relaxed_upper_bound st_eqb st_eqb_spec inp' Hclean Hnocache Hnodom Hnocut Hwidth Hrd
             nv_static nv_some nv_none cov cov_refl cov_sim merge_cov clipped_relax_ge rub_adm B HB Hguard
             tb tb2 c ds polls m o Hc Ht Hv Hlb).
  Qed.

  (* S2 (K2; C06 b): a diagram that says it is exact returns the optimum as its best exact value *)
  Theorem S2_exact_truthful_isize tb tb2 c ds polls m o :
    compile st_eqb inp tb tb2 c ds polls = (m, Compiled) ->
    dd_is_exact m = true -> vstar inp = Some o -> o > ci_best_lb inp ->
    dd_best_exact_value inp m = Some o.
  Proof.
    intros Hc Hex Hv Hlb. apply to_clipped in Hc.
    exact (S2_exact_truthful st_eqb st_eqb_spec inp' Hclean Hnocache Hnodom Hnocut Hwidth Hrd
             nv_static nv_some nv_none cov cov_refl cov_sim merge_cov clipped_relax_ge rub_adm B HB Hguard
             tb tb2 c ds polls m o Hc Hex Hv Hlb).
  Qed.

  (* C07, exact mode: an Exact compilation returns the optimum whatever the width *)
  Theorem S2_exact_mode_isize tb tb2 c ds polls m o :
    compile st_eqb inp tb tb2 c ds polls = (m, Compiled) ->
    ci_type inp = Exact -> vstar inp = Some o -> o > ci_best_lb inp ->
    dd_best_value inp m = Some o.
  Proof.
    intros Hc Ht Hv Hlb. apply to_clipped in Hc.
    exact (S2_exact_mode st_eqb st_eqb_spec inp' Hclean Hnocache Hnodom Hnocut Hwidth Hrd
             nv_static nv_some nv_none cov cov_refl cov_sim merge_cov clipped_relax_ge rub_adm B HB Hguard
             tb tb2 c ds polls m o Hc Ht Hv Hlb).
  Qed.

  (* S3 (K3_ub, C08 iii): the upper bound of every cut-set node is valid *)
  Theorem S3_cutset_ub_isize tb tb2 c ds polls m sp o :
    compile st_eqb inp tb tb2 c ds polls = (m, Compiled) ->
    ci_type inp = Relaxed -> dd_is_exact m = false ->
    In sp (drain_cutset inp m) ->
    oadd (sp_value sp) (H pb (sp_depth sp) (sp_state sp)) = Some o -> o > ci_best_lb inp ->
    o <= sp_ub sp.
  Proof.
    intros Hc Ht Hnex Hsp Ho Hlb. apply to_clipped in Hc.
    exact (S3_cutset_ub st_eqb st_eqb_spec inp' Hclean Hnocache Hnodom Hnocut Hwidth Hrd
             nv_static nv_some nv_none cov cov_refl cov_sim merge_cov clipped_relax_ge rub_adm B HB Hguard
             tb tb2 c ds polls m sp o Hc Ht Hnex Hsp Ho Hlb).
  Qed.

  (* S4 (K4, C08 iv): when the diagram is not exact and its exact best value is below the optimum, some
     cut-set node has the optimum as its exact best completion (and carries a valid upper bound) *)
  Theorem S4_cutset_covers_isize tb tb2 c ds polls m o :
    compile st_eqb inp tb tb2 c ds polls = (m, Compiled) ->
    ci_type inp = Relaxed -> dd_is_exact m = false -> vstar inp = Some o -> o > ci_best_lb inp ->
    (forall e, dd_best_exact_value inp m = Some e -> e < o) ->
    exists sp, In sp (drain_cutset inp m) /\
      oadd (sp_value sp) (H pb (sp_depth sp) (sp_state sp)) = Some o /\ o <= sp_ub sp.
  Proof.
    intros Hc Ht Hnex Hv Hlb Hbe. apply to_clipped in Hc.
    exact (S4_cutset_covers st_eqb st_eqb_spec inp' Hclean Hnocache Hnodom Hnocut Hwidth Hrd
             nv_static nv_some nv_none cov cov_refl cov_sim merge_cov clipped_relax_ge rub_adm B HB Hguard
             tb tb2 c ds polls m o Hc Ht Hnex Hv Hlb Hbe).
  Qed.
End SimIsize.

(* 2. C07: restricted diagrams are feasible lower bounds *)
Section Restricted.
  Context {St : Type}.
  Variable st_eqb : St -> St -> bool.
  Hypothesis st_eqb_spec : forall a b, st_eqb a b = true <-> a = b.
  Variable inp : @cinput St.
  Local Notation pb := (ci_problem inp).
  Local Notation root := (ci_root inp).
  Local Notation N := (nb_vars (ci_problem inp)).
  Hypothesis Hclean : ci_flavour inp = CleanLEL \/ ci_flavour inp = CleanFC.
  Hypothesis Hnocache : ci_use_cache inp = false.
  Hypothesis Hnodom : ci_domrule inp = None.
  (* NO hypothesis on ci_cutoff inp: a compilation that completes under a cutoff is the compilation without cutoff *)
  Hypothesis Hwidth : (1 <= ci_width inp)%nat.
  Hypothesis Hrd : (sp_depth root <= N)%nat.
  Hypothesis nv_static : forall k l1 l2, next_variable pb k l1 = next_variable pb k l2.
  Hypothesis nv_some : forall k l, (k < N)%nat -> exists x, next_variable pb k l = Some x.
  Hypothesis nv_none : forall k l, (N <= k)%nat -> next_variable pb k l = None.
  Variable B : Z.
  Hypothesis HB : 2 * B <= IMAX.
  Hypothesis Hguard : forall ds s' v',
    frun pb (sp_depth root) (sp_state root) (sp_value root) ds = Some (s', v') -> - B <= v' <= B.

  Lemma compile_cutoff_zero tb tb2 c ds polls m :
    compile st_eqb inp tb tb2 c ds polls = (m, Compiled) ->
    compile st_eqb (set_cutoff inp 0) tb tb2 c ds polls = (m, Compiled).
  Proof.
    intros Hc.
    assert (E : inp = set_cutoff inp (ci_cutoff inp)) by (destruct inp; reflexivity).
    rewrite E in Hc.
    destruct (compile_agree st_eqb inp (ci_cutoff inp) tb tb2 c ds polls m Compiled Hc) as (B0 & _ & HB2); [discriminate|].
    exact (HB2 0%nat (or_introl eq_refl)).
  Qed.

  (* the best nodes of a completed compilation are terminal: their depth is the number of variables *)
  Lemma best_depth tb tb2 c ds polls m b :
    compile st_eqb inp tb tb2 c ds polls = (m, Compiled) ->
    m_best m = Some b \/ m_best_exact m = Some b -> n_depth (get_node inp m b) = N.
  Proof.
    intros Hc Hb. apply compile_cutoff_zero in Hc.
    exact (compile_best_depth st_eqb st_eqb_spec (set_cutoff inp 0) Hclean Hnocache Hnodom eq_refl Hwidth
             nv_some nv_none Hrd tb tb2 c ds polls m Compiled b Hc Hb).
  Qed.

  (* a complete feasible run from the root is bounded by the optimum of the root sub-problem *)
  Lemma complete_run_le_vstar dl s' v :
    frun pb (sp_depth root) (sp_state root) (sp_value root) dl = Some (s', v) ->
    length dl = (N - sp_depth root)%nat ->
    exists o, vstar inp = Some o /\ v <= o.
  Proof.
    intros Hr Hl.
    destruct (frun_le_H pb nv_static nv_none dl (sp_depth root) (sp_state root) (sp_value root) s' v ltac:(lia) Hr)
      as (h & Hh & Hle).
    exists (sp_value root + h). split; [|exact Hle].
    unfold vstar. rewrite Hh. reflexivity.
  Qed.

  (* the core: a terminal node with a clean chain is reached by a complete feasible run that ends on its value *)
  Lemma clean_terminal_run tb tb2 c ds polls m b :
    compile st_eqb inp tb tb2 c ds polls = (m, Compiled) ->
    (b < length (m_nodes m))%nat -> clean_chain inp m b -> n_depth (get_node inp m b) = N ->
    best_path inp m b = sp_path root ++ chain inp m b ->
    length (chain inp m b) = (n_depth (get_node inp m b) - sp_depth root)%nat ->
    exists dl s', frun pb (sp_depth root) (sp_state root) (sp_value root) dl = Some (s', n_vtop (get_node inp m b)) /\
                  length dl = (N - sp_depth root)%nat /\
                  best_path inp m b = sp_path root ++ rev dl.
  Proof.
    intros Hc Hlt Hcc Hdep Hpath Hlen.
    pose proof (Assembly.clean_chain_frun st_eqb st_eqb_spec inp Hclean nv_static B HB Hguard
                  tb tb2 c ds polls m b Hc Hcc Hlt) as Hr.
    exists (rev (chain inp m b)), (n_state (get_node inp m b)).
    split; [exact Hr|]. split.
    - rewrite rev_length, Hlen, Hdep. reflexivity.
    - rewrite rev_involutive. exact Hpath.
  Qed.

  (* C07: the best value of a Restricted (or Exact) diagram is the value of a complete feasible run from the root, in
     exact integer arithmetic, and the best solution lists the root path followed by the decisions of that run
     (last decision first, see the header) *)
  Theorem C07_restricted_value_is_feasible tb tb2 c ds polls m v :
    compile st_eqb inp tb tb2 c ds polls = (m, Compiled) ->
    ci_type inp = Restricted \/ ci_type inp = Exact ->
    dd_best_value inp m = Some v ->
    exists dl s', frun pb (sp_depth root) (sp_state root) (sp_value root) dl = Some (s', v) /\
                  length dl = (N - sp_depth root)%nat /\
                  dd_best_solution inp m = Some (sp_path root ++ rev dl).
  Proof.
    intros Hc Ht Hv. unfold dd_best_value in Hv. unfold dd_best_solution.
    destruct (m_best m) as [b|] eqn:Eb; [|discriminate]. cbn [option_map] in *. inversion Hv; subst v. clear Hv.
    destruct (restricted_solution_feasible st_eqb st_eqb_spec inp Hclean tb tb2 c ds polls m b Ht Hc (or_introl Eb))
      as (G1 & G2 & _ & G4 & G5).
    pose proof (best_depth tb tb2 c ds polls m b Hc (or_introl Eb)) as Hdep.
    destruct (clean_terminal_run tb tb2 c ds polls m b Hc G1 G2 Hdep G4 G5) as (dl & s' & R1 & R2 & R3).
    exists dl, s'. split; [exact R1|]. split; [exact R2|]. rewrite R3. reflexivity.
  Qed.

  Theorem C07_restricted_lower_bound tb tb2 c ds polls m v :
    compile st_eqb inp tb tb2 c ds polls = (m, Compiled) ->
    ci_type inp = Restricted \/ ci_type inp = Exact ->
    dd_best_value inp m = Some v ->
    exists o, vstar inp = Some o /\ v <= o.
  Proof.
    intros Hc Ht Hv.
    destruct (C07_restricted_value_is_feasible tb tb2 c ds polls m v Hc Ht Hv) as (dl & s' & R1 & R2 & _).
    exact (complete_run_le_vstar dl s' v R1 R2).
  Qed.

  (* the same for the best EXACT node of any compilation type: a Relaxed diagram's best exact value is feasible too *)
  Theorem C07_best_exact_value_is_feasible tb tb2 c ds polls m v :
    compile st_eqb inp tb tb2 c ds polls = (m, Compiled) ->
    dd_best_exact_value inp m = Some v ->
    exists dl s', frun pb (sp_depth root) (sp_state root) (sp_value root) dl = Some (s', v) /\
                  length dl = (N - sp_depth root)%nat /\
                  dd_best_exact_solution inp m = Some (sp_path root ++ rev dl).
  Proof.
    intros Hc Hv. unfold dd_best_exact_value in Hv. unfold dd_best_exact_solution.
    destruct (m_best_exact m) as [b|] eqn:Eb; [|discriminate]. cbn [option_map] in *. inversion Hv; subst v. clear Hv.
    destruct (best_exact_solution_genuine st_eqb st_eqb_spec inp Hclean tb tb2 c ds polls m b Hc Eb)
      as (G1 & G2 & _ & G4 & G5).
    pose proof (best_depth tb tb2 c ds polls m b Hc (or_intror Eb)) as Hdep.
    destruct (clean_terminal_run tb tb2 c ds polls m b Hc G1 G2 Hdep G4 G5) as (dl & s' & R1 & R2 & R3).
    exists dl, s'. split; [exact R1|]. split; [exact R2|]. rewrite R3. reflexivity.
  Qed.

  Theorem C07_best_exact_lower_bound tb tb2 c ds polls m v :
    compile st_eqb inp tb tb2 c ds polls = (m, Compiled) ->
    dd_best_exact_value inp m = Some v ->
    exists o, vstar inp = Some o /\ v <= o.
  Proof.
    intros Hc Hv.
    destruct (C07_best_exact_value_is_feasible tb tb2 c ds polls m v Hc Hv) as (dl & s' & R1 & R2 & _).
    exact (complete_run_le_vstar dl s' v R1 R2).
  Qed.

  (* without cutoff the outcome component is Compiled anyway (MddProgress.compile_completes) *)
  Theorem C07_restricted_lower_bound_any_outcome tb tb2 c ds polls m out v :
    ci_cutoff inp = 0%nat ->
    compile st_eqb inp tb tb2 c ds polls = (m, out) ->
    ci_type inp = Restricted \/ ci_type inp = Exact ->
    dd_best_value inp m = Some v ->
    out = Compiled /\ exists o, vstar inp = Some o /\ v <= o.
  Proof.
    intros Hnocut Hc Ht Hv.
    destruct (compile_completes st_eqb st_eqb_spec inp Hclean Hnocache Hnodom Hnocut Hwidth nv_some nv_none Hrd
                tb tb2 c ds polls m out Hc) as [-> _].
    split; [reflexivity|]. exact (C07_restricted_lower_bound tb tb2 c ds polls m v Hc Ht Hv).
  Qed.
End Restricted.

(* 3. non-vacuity: the table-driven family meets every premise *)
Definition t_root (ti : tinst) : @subproblem tstate :=
  {| sp_state := init_state (t_problem ti); sp_value := init_value (t_problem ti); sp_path := [];
     sp_ub := IMAX; sp_depth := 0 |}.

Section TableDiagram.
  Variable ti : tinst.
  Variable C : Z.
  Hypothesis Hwf : t_wf ti C.
  Variable flv : flavour.
  Hypothesis Hflv : flv = CleanLEL \/ flv = CleanFC.
  Variable ct : comptype.
  Variable width : nat.
  Hypothesis Hwidth : (1 <= width)%nat.
  Variable lb : Z.
  Variable cutoff : nat.
  (* no cache, no dominance rule; the root sub-problem of the instance *)
  Local Notation inpk k := (tb_input ti flv ct width lb false false k (t_root ti)).
  Local Notation inp := (inpk 0%nat).
  Local Notation pb := (t_problem ti).

  Lemma table_cost_isize s d : in_isize (transition_cost pb s (transition pb s d) d).
  Proof.
    pose proof (t_cost_bound ti (Horder ti C Hwf) C (proj1 (HC ti C Hwf)) (Hcosts ti C Hwf) s d) as Hb.
    pose proof (HC ti C Hwf) as HC'. unfold in_isize, IMIN, IMAX in *. lia.
  Qed.

  Lemma table_rub k s s' h : cov s s' -> H pb k s' = Some h -> h <= fast_upper_bound (t_relaxation ti) s.
  Proof. exact (table_rub_adm ti C Hwf flv width Hwidth 0%nat k s s' h). Qed.

  Lemma table_guard ds s' v' :
    frun pb (sp_depth (t_root ti)) (sp_state (t_root ti)) (sp_value (t_root ti)) ds = Some (s', v') ->
    - tB ti C <= v' <= tB ti C.
  Proof. exact (guard0 ti (Horder ti C Hwf) C (proj1 (HC ti C Hwf)) (Hcosts ti C Hwf) ds s' v'). Qed.

  (* every premise of section SimIsize, in order *)
  Local Ltac sim_premises thm :=
    exact (thm tstate tstate_eqb tstate_eqb_spec inp Hflv eq_refl eq_refl eq_refl Hwidth (Nat.le_0_l _)
             (nv_static ti) (nv_some ti (Horder ti C Hwf)) (nv_none ti (Horder ti C Hwf))
             cov cov_refl (cov_sim ti) (merge_cov ti (Hmerge ti C Hwf)) table_rub
             table_cost_isize (fun src dst mg d c _ => relax_isize ti src dst mg d c)
             (relax_ge_isize ti (Hslack ti C Hwf)) (tB ti C) (TableWf.HB ti C Hwf) table_guard).

  Theorem table_S1 tb tb2 c ds polls m o :
    compile tstate_eqb inp tb tb2 c ds polls = (m, Compiled) ->
    ct = Relaxed \/ ct = Exact -> vstar inp = Some o -> o > lb ->
    exists b, dd_best_value inp m = Some b /\ o <= b.
  Proof. revert tb tb2 c ds polls m o. sim_premises @S1_relaxed_upper_bound_isize. Qed.

  Theorem table_S2_truthful tb tb2 c ds polls m o :
    compile tstate_eqb inp tb tb2 c ds polls = (m, Compiled) ->
    dd_is_exact m = true -> vstar inp = Some o -> o > lb ->
    dd_best_exact_value inp m = Some o.
  Proof. revert tb tb2 c ds polls m o. sim_premises @S2_exact_truthful_isize. Qed.

  Theorem table_S2_mode tb tb2 c ds polls m o :
    compile tstate_eqb inp tb tb2 c ds polls = (m, Compiled) ->
    ct = Exact -> vstar inp = Some o -> o > lb ->
    dd_best_value inp m = Some o.
  Proof. revert tb tb2 c ds polls m o. sim_premises @S2_exact_mode_isize. Qed.

  Theorem table_S3 tb tb2 c ds polls m sp o :
    compile tstate_eqb inp tb tb2 c ds polls = (m, Compiled) ->
    ct = Relaxed -> dd_is_exact m = false ->
    In sp (drain_cutset inp m) ->
    oadd (sp_value sp) (H pb (sp_depth sp) (sp_state sp)) = Some o -> o > lb ->
    o <= sp_ub sp.
  Proof. revert tb tb2 c ds polls m sp o. sim_premises @S3_cutset_ub_isize. Qed.

  Theorem table_S4 tb tb2 c ds polls m o :
    compile tstate_eqb inp tb tb2 c ds polls = (m, Compiled) ->
    ct = Relaxed -> dd_is_exact m = false -> vstar inp = Some o -> o > lb ->
    (forall e, dd_best_exact_value inp m = Some e -> e < o) ->
    exists sp, In sp (drain_cutset inp m) /\
      oadd (sp_value sp) (H pb (sp_depth sp) (sp_state sp)) = Some o /\ o <= sp_ub sp.
  Proof. revert tb tb2 c ds polls m o. sim_premises @S4_cutset_covers_isize. Qed.

  (* C07, under ANY cutoff *)
  Local Ltac c07_premises thm :=
    exact (thm tstate tstate_eqb tstate_eqb_spec (inpk cutoff) Hflv eq_refl eq_refl Hwidth (Nat.le_0_l _)
             (nv_static ti) (nv_some ti (Horder ti C Hwf)) (nv_none ti (Horder ti C Hwf))
             (tB ti C) (TableWf.HB ti C Hwf) table_guard).

  Theorem table_C07_feasible tb tb2 c ds polls m v :
    compile tstate_eqb (inpk cutoff) tb tb2 c ds polls = (m, Compiled) ->
    ct = Restricted \/ ct = Exact ->
    dd_best_value (inpk cutoff) m = Some v ->
    exists dl s', frun pb 0 (init_state pb) (init_value pb) dl = Some (s', v) /\
                  length dl = (nb_vars pb - 0)%nat /\
                  dd_best_solution (inpk cutoff) m = Some ([] ++ rev dl).
  Proof. revert tb tb2 c ds polls m v. c07_premises @C07_restricted_value_is_feasible. Qed.

  Theorem table_C07 tb tb2 c ds polls m v :
    compile tstate_eqb (inpk cutoff) tb tb2 c ds polls = (m, Compiled) ->
    ct = Restricted \/ ct = Exact ->
    dd_best_value (inpk cutoff) m = Some v ->
    exists o, vstar (inpk cutoff) = Some o /\ v <= o.
  Proof. revert tb tb2 c ds polls m v. c07_premises @C07_restricted_lower_bound. Qed.

  Theorem table_C07_exact tb tb2 c ds polls m v :
    compile tstate_eqb (inpk cutoff) tb tb2 c ds polls = (m, Compiled) ->
    dd_best_exact_value (inpk cutoff) m = Some v ->
    exists o, vstar (inpk cutoff) = Some o /\ v <= o.
  Proof. revert tb tb2 c ds polls m v. c07_premises @C07_best_exact_lower_bound. Qed.
End TableDiagram.

(* 4. concrete compilations
   ex_ti (TableWf.v): 3 variables, optimum 12.  Compilations from the root sub-problem, CleanLEL, lower bound IMIN, no
   cache, no dominance rule, tie-breaks 0 0; the diagrams are computed by vm_compute, the facts come from the theorems. *)
(* notations, not definitions: the statements below are then syntactically instances of the theorems *)
Notation ex_inp ti ct w cutoff := (tb_input ti CleanLEL ct w IMIN false false cutoff (t_root ti)) (only parsing).
Notation ex_compile ti ct w cutoff :=
  (compile tstate_eqb (ex_inp ti ct w cutoff) 0 0 (tb_cache_init ti) (tb_dom_init ti) 0) (only parsing).
Definition ex_m (ti : tinst) (ct : comptype) (w cutoff : nat) : @mdd tstate := fst (ex_compile ti ct w cutoff).

Lemma ex_vstar ct w k : vstar (ex_inp ex_ti ct w k) = Some 12.
Proof. vm_compute. reflexivity. Qed.

(* Relaxed, width 1: layers beyond the first are merged into one node; the diagram is NOT exact *)
Lemma ex_relaxed1 : ex_compile ex_ti Relaxed 1 0 = (ex_m ex_ti Relaxed 1 0, Compiled).
Proof. vm_compute. reflexivity. Qed.

Lemma ex_relaxed1_inexact : dd_is_exact (ex_m ex_ti Relaxed 1 0) = false.
Proof. vm_compute. reflexivity. Qed.

(* what the compilation produced: 9 nodes, best value 12, no exact best node, a cut-set of two nodes
   (state, value, depth, upper bound) *)
Example ex_relaxed1_shape :
  length (m_nodes (ex_m ex_ti Relaxed 1 0)) = 9%nat /\
  dd_best_value (ex_inp ex_ti Relaxed 1 0) (ex_m ex_ti Relaxed 1 0) = Some 12 /\
  dd_best_exact_value (ex_inp ex_ti Relaxed 1 0) (ex_m ex_ti Relaxed 1 0) = None /\
  map (fun sp => (sp_state sp, sp_value sp, sp_depth sp, sp_ub sp))
      (drain_cutset (ex_inp ex_ti Relaxed 1 0) (ex_m ex_ti Relaxed 1 0)) = [([0], 0, 1%nat, 11); ([1], 5, 1%nat, 12)].
Proof. vm_compute. repeat split; reflexivity. Qed.

(* S1: the relaxed best value is at least the optimum 12 *)
Example ex_S1 :
  exists b, dd_best_value (ex_inp ex_ti Relaxed 1 0) (ex_m ex_ti Relaxed 1 0) = Some b /\ 12 <= b.
Proof.
  apply (table_S1 ex_ti 7 ex_wf CleanLEL (or_introl eq_refl) Relaxed 1 (le_n 1) IMIN 0 0 (tb_cache_init ex_ti) (tb_dom_init ex_ti) 0 (ex_m ex_ti Relaxed 1 0) 12 ex_relaxed1
           (or_introl eq_refl) (ex_vstar Relaxed 1 0)).
  vm_compute. reflexivity.
Qed.

(* S3: every cut-set node carries an upper bound on the best completion through it *)
Example ex_S3 : forall sp o,
  In sp (drain_cutset (ex_inp ex_ti Relaxed 1 0) (ex_m ex_ti Relaxed 1 0)) ->
  oadd (sp_value sp) (H (t_problem ex_ti) (sp_depth sp) (sp_state sp)) = Some o -> o <= sp_ub sp.
Proof.
  intros sp o Hin Ho.
  apply (table_S3 ex_ti 7 ex_wf CleanLEL (or_introl eq_refl) Relaxed 1 (le_n 1) IMIN 0 0 (tb_cache_init ex_ti) (tb_dom_init ex_ti) 0
           (ex_m ex_ti Relaxed 1 0) sp o ex_relaxed1 eq_refl ex_relaxed1_inexact Hin Ho).
  (* o > IMIN, by an executable check over the (two) cut-set nodes.  NB: no [vm_compute in H] anywhere in this file:
     conversions in hypotheses are re-checked by the kernel's lazy machine, which is hopeless on a compilation *)
  assert (Hchk : forallb (fun sp => match oadd (sp_value sp) (H (t_problem ex_ti) (sp_depth sp) (sp_state sp)) with
                                    | Some o => o >? IMIN | None => true end)
                         (drain_cutset (ex_inp ex_ti Relaxed 1 0) (ex_m ex_ti Relaxed 1 0)) = true)
    by (vm_compute; reflexivity).
  rewrite forallb_forall in Hchk. specialize (Hchk sp Hin). cbv beta in Hchk. rewrite Ho in Hchk.
  apply Z.gtb_lt in Hchk. lia.
Qed.

(* S4: some cut-set node attains the optimum 12 *)
Example ex_S4 :
  exists sp, In sp (drain_cutset (ex_inp ex_ti Relaxed 1 0) (ex_m ex_ti Relaxed 1 0)) /\
    oadd (sp_value sp) (H (t_problem ex_ti) (sp_depth sp) (sp_state sp)) = Some 12 /\ 12 <= sp_ub sp.
Proof.
  apply (table_S4 ex_ti 7 ex_wf CleanLEL (or_introl eq_refl) Relaxed 1 (le_n 1) IMIN 0 0 (tb_cache_init ex_ti) (tb_dom_init ex_ti) 0 (ex_m ex_ti Relaxed 1 0) 12 ex_relaxed1
           eq_refl ex_relaxed1_inexact (ex_vstar Relaxed 1 0)).
  - vm_compute. reflexivity.
  - intros e He. rewrite (proj1 (proj2 (proj2 ex_relaxed1_shape))) in He. discriminate.
Qed.

(* Relaxed, width 2: the diagram says it is exact (an exact best path), so S2 applies *)
Lemma ex_relaxed2 : ex_compile ex_ti Relaxed 2 0 = (ex_m ex_ti Relaxed 2 0, Compiled).
Proof. vm_compute. reflexivity. Qed.

Example ex_S2_truthful :
  dd_is_exact (ex_m ex_ti Relaxed 2 0) = true /\
  dd_best_exact_value (ex_inp ex_ti Relaxed 2 0) (ex_m ex_ti Relaxed 2 0) = Some 12.
Proof.
  assert (Hex : dd_is_exact (ex_m ex_ti Relaxed 2 0) = true) by (vm_compute; reflexivity).
  split; [exact Hex|].
  apply (table_S2_truthful ex_ti 7 ex_wf CleanLEL (or_introl eq_refl) Relaxed 2 (le_S 1 1 (le_n 1)) IMIN 0 0 (tb_cache_init ex_ti) (tb_dom_init ex_ti) 0
           (ex_m ex_ti Relaxed 2 0) 12 ex_relaxed2 Hex (ex_vstar Relaxed 2 0)).
  vm_compute. reflexivity.
Qed.

(* Exact mode, width 1 (the width is ignored) *)
Lemma ex_exact1 : ex_compile ex_ti Exact 1 0 = (ex_m ex_ti Exact 1 0, Compiled).
Proof. vm_compute. reflexivity. Qed.

Example ex_S2_mode : dd_best_value (ex_inp ex_ti Exact 1 0) (ex_m ex_ti Exact 1 0) = Some 12.
Proof.
  apply (table_S2_mode ex_ti 7 ex_wf CleanLEL (or_introl eq_refl) Exact 1 (le_n 1) IMIN 0 0 (tb_cache_init ex_ti) (tb_dom_init ex_ti) 0
           (ex_m ex_ti Exact 1 0) 12 ex_exact1 eq_refl (ex_vstar Exact 1 0)).
  vm_compute. reflexivity.
Qed.

(* Restricted, width 1, under a cutoff (5 polls) that does not fire: C07 *)
Lemma ex_restricted1 : ex_compile ex_ti Restricted 1 5 = (ex_m ex_ti Restricted 1 5, Compiled).
Proof. vm_compute. reflexivity. Qed.

Example ex_C07 : forall v,
  dd_best_value (ex_inp ex_ti Restricted 1 5) (ex_m ex_ti Restricted 1 5) = Some v ->
  v <= 12 /\
  exists dl s', frun (t_problem ex_ti) 0 (init_state (t_problem ex_ti)) (init_value (t_problem ex_ti)) dl = Some (s', v) /\
                length dl = 3%nat /\
                dd_best_solution (ex_inp ex_ti Restricted 1 5) (ex_m ex_ti Restricted 1 5) = Some (rev dl).
Proof.
  intros v Hv. split.
  - destruct (table_C07 ex_ti 7 ex_wf CleanLEL (or_introl eq_refl) Restricted 1 (le_n 1) IMIN 5 0 0 (tb_cache_init ex_ti) (tb_dom_init ex_ti) 0
                (ex_m ex_ti Restricted 1 5) v ex_restricted1 (or_introl eq_refl) Hv) as (o & Ho & Hle).
    rewrite (ex_vstar Restricted 1 5) in Ho. inversion Ho; subst o. exact Hle.
  - exact (table_C07_feasible ex_ti 7 ex_wf CleanLEL (or_introl eq_refl) Restricted 1 (le_n 1) IMIN 5 0 0 (tb_cache_init ex_ti) (tb_dom_init ex_ti) 0
             (ex_m ex_ti Restricted 1 5) v ex_restricted1 (or_introl eq_refl) Hv).
Qed.

(* a second instance on which neither bound is tight: x0 = 0 pays 3 now, x0 = 1 pays 2 now and 5 at the end.
     optimum 7; the relaxed diagram of width 1 says 8, the restricted diagram of width 1 says 3 *)
Definition ex2_ti : tinst := {|
  t_nvars := 3; t_nbase := 2; t_init := 0; t_initval := 0; t_slack := 0; t_rubkind := 0; t_domkind := 0;
  t_usevalue := false; t_ncoord := 0; t_order := [0; 1; 2]%nat;
  t_trans := [ (0%nat, 0, 0, 0, 3); (0%nat, 0, 1, 1, 2);
               (1%nat, 0, 0, 0, 0); (1%nat, 1, 0, 1, 0);
               (2%nat, 0, 0, 0, 0); (2%nat, 1, 0, 1, 5) ];
  t_notimp := []; t_rub := []; t_key := []; t_coords := []; t_mergekind := 0; t_pos := []; t_up := [] |}.

Example ex2_wf : t_wf ex2_ti 5.
Proof. apply t_wfb_spec. vm_compute. reflexivity. Qed.

Lemma ex2_vstar ct w k : vstar (ex_inp ex2_ti ct w k) = Some 7.
Proof. vm_compute. reflexivity. Qed.

Lemma ex2_relaxed1 : ex_compile ex2_ti Relaxed 1 0 = (ex_m ex2_ti Relaxed 1 0, Compiled).
Proof. vm_compute. reflexivity. Qed.
Lemma ex2_restricted1 : ex_compile ex2_ti Restricted 1 0 = (ex_m ex2_ti Restricted 1 0, Compiled).
Proof. vm_compute. reflexivity. Qed.

Example ex2_shape :
  dd_is_exact (ex_m ex2_ti Relaxed 1 0) = false /\
  dd_best_value (ex_inp ex2_ti Relaxed 1 0) (ex_m ex2_ti Relaxed 1 0) = Some 8 /\
  dd_best_exact_value (ex_inp ex2_ti Relaxed 1 0) (ex_m ex2_ti Relaxed 1 0) = None /\
  dd_best_value (ex_inp ex2_ti Restricted 1 0) (ex_m ex2_ti Restricted 1 0) = Some 3 /\
  map (fun sp => (sp_state sp, sp_value sp, sp_depth sp, sp_ub sp))
      (drain_cutset (ex_inp ex2_ti Relaxed 1 0) (ex_m ex2_ti Relaxed 1 0)) = [([0], 3, 1%nat, 8); ([1], 2, 1%nat, 7)].
Proof. vm_compute. repeat split; reflexivity. Qed.

Example ex2_S1 : exists b, dd_best_value (ex_inp ex2_ti Relaxed 1 0) (ex_m ex2_ti Relaxed 1 0) = Some b /\ 7 <= b.
Proof.
  apply (table_S1 ex2_ti 5 ex2_wf CleanLEL (or_introl eq_refl) Relaxed 1 (le_n 1) IMIN 0 0 (tb_cache_init ex2_ti) (tb_dom_init ex2_ti) 0 (ex_m ex2_ti Relaxed 1 0) 7 ex2_relaxed1
           (or_introl eq_refl) (ex2_vstar Relaxed 1 0)).
  vm_compute. reflexivity.
Qed.

Example ex2_S4 :
  exists sp, In sp (drain_cutset (ex_inp ex2_ti Relaxed 1 0) (ex_m ex2_ti Relaxed 1 0)) /\
    oadd (sp_value sp) (H (t_problem ex2_ti) (sp_depth sp) (sp_state sp)) = Some 7 /\ 7 <= sp_ub sp.
Proof.
  apply (table_S4 ex2_ti 5 ex2_wf CleanLEL (or_introl eq_refl) Relaxed 1 (le_n 1) IMIN 0 0 (tb_cache_init ex2_ti) (tb_dom_init ex2_ti) 0 (ex_m ex2_ti Relaxed 1 0) 7 ex2_relaxed1
           eq_refl (proj1 ex2_shape) (ex2_vstar Relaxed 1 0)).
  - vm_compute. reflexivity.
  - intros e He. rewrite (proj1 (proj2 (proj2 ex2_shape))) in He. discriminate.
Qed.

Example ex2_C07 : forall v,
  dd_best_value (ex_inp ex2_ti Restricted 1 0) (ex_m ex2_ti Restricted 1 0) = Some v -> v <= 7.
Proof.
  intros v Hv.
  destruct (table_C07 ex2_ti 5 ex2_wf CleanLEL (or_introl eq_refl) Restricted 1 (le_n 1) IMIN 0 0 0 (tb_cache_init ex2_ti) (tb_dom_init ex2_ti) 0
              (ex_m ex2_ti Restricted 1 0) v ex2_restricted1 (or_introl eq_refl) Hv) as (o & Ho & Hle).
  rewrite (ex2_vstar Restricted 1 0) in Ho. inversion Ho; subst o. exact Hle.
Qed.

Print Assumptions S1_relaxed_upper_bound_isize.
Print Assumptions S2_exact_truthful_isize.
Print Assumptions S2_exact_mode_isize.
Print Assumptions S3_cutset_ub_isize.
Print Assumptions S4_cutset_covers_isize.
Print Assumptions C07_restricted_value_is_feasible.
Print Assumptions C07_restricted_lower_bound.
Print Assumptions C07_best_exact_value_is_feasible.
Print Assumptions C07_best_exact_lower_bound.
Print Assumptions C07_restricted_lower_bound_any_outcome.
Print Assumptions table_S1.
Print Assumptions table_S2_truthful.
Print Assumptions table_S2_mode.
Print Assumptions table_S3.
Print Assumptions table_S4.
Print Assumptions table_C07_feasible.
Print Assumptions table_C07.
Print Assumptions table_C07_exact.
Print Assumptions ex_S1.
Print Assumptions ex_S3.
Print Assumptions ex_S4.
Print Assumptions ex_S2_truthful.
Print Assumptions ex_S2_mode.
Print Assumptions ex_C07.
Print Assumptions ex2_S1.
Print Assumptions ex2_S4.
Print Assumptions ex2_C07.
