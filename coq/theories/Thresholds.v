(* Thresholds.v — C09, the per-compilation lemma: every dominance threshold that one compilation
   (Mdd.compile, Relaxed, clean flavours, cache enabled or not, started from a cache holding no threshold) computes for a
   node at or above the cut-set, and every threshold it writes to the cache, is SOUND:

     bk_of inp m       :=  max (ci_best_lb inp) (best exact value of m, if any)          (best_known of _compute_thresholds)
     Safe inp m k s v  :=  every complete feasible run from (depth k, state s) entered with value v ends with a value
                           <= bk_of inp m,  or has a prefix leading to a sub-problem x handed out by [drain_cutset inp m]
                           (same depth, same state) with an arrival value <= sp_value x.

     threshold_sound      u at or above the cut-set (f_above), not deleted, n_theta u = Some t, IMIN + 2B < t
                          ->  forall v <= t,  Safe inp m (n_depth u) (n_state u) v
     cache_writes_sound   (s, {t, explored}) in layer d of m_cache m after the compilation, IMIN + 2B < t
                          ->  forall v <= t,  Safe inp m d s v
     cache_writes_sound_guarded   if 3B <= IMAX:  every arrival value v with -B <= v <= t, whatever t
     thresholds_sound     the common source (arrival values v with IMIN + 2B < v <= t);  Safe_down: Safe is downward closed in v
     thresholds_sound_isize   the same with the machine-integer variant of relax_ge, through Assembly.clip_compile
     table_thresholds     the table family of TableWf.v (t_wf instances);  ex_safe, ex_safe2: concrete facts on ex_ti

   Premises: those of MddSim.v (clean flavour, no dominance rule, cutoff 0, width >= 1, static variable order, covering
   relation cov with cov_refl / cov_sim / merge_cov, relax_ge, rub_adm, the guard B on feasible runs from the root, 2B <= IMAX),
   Relaxed, and [blank N c]: the initial cache has a (still empty) layer for every depth 0..N (Cache.init_cache N is blank,
   blank_init; with c = [] the Rust code would index out of bounds and the model sets m_crash).
   ci_use_cache is NOT constrained: the statement about the node thresholds holds with and without the cache.

   What differs from "for every v <= t, whatever t":  thresholds t <= IMIN + 2B are left out.
   sat_sub clamps at IMIN, so a threshold in that range may stand for a mathematically smaller one (clamp-down in the
   propagation  theta(parent) := min (..) (theta(child) - cost));  the argument needs every arrival value met along the run
   to stay above IMIN, which the guard gives for v > IMIN + 2B.  No such threshold occurs in the examples, and it could only
   protect arrival values that no feasible run carries (feasible values are in [-B, B]).  It is NOT shown that the statement
   fails there.  Ties (v = t) and the explored flag need no special case: the bound is inclusive whatever the flag (a cut-set
   node whose threshold is its own value is captured by itself: x := that node, empty prefix).
   Nodes pruned by their rough bound at compile time (ub <= ci_best_lb, not expanded) get theta = bk - rub in
   _compute_thresholds since tot_rub <= ci_best_lb <= bk: case (b), covered (not_rub_branched).

   The blank cache is the special case of a compilation started from ANY cache that has a layer per depth (what the solver
   of CacheSearch.v runs): there a node may be dropped by an entry of the initial cache (flag f_cache, threshold copied from
   the entry) and a run through it is "lost to the cache" (LostAt / LostC) instead of being bounded or captured.  Sections 2 and 4-7
   prove that general statement (bridgeC, C_root_run, C_ub_run, C_cache_run); with a blank cache nothing is ever read from
   the cache, so no node is dropped and no run is lost (blank_sound), which gives thresholds_sound.

   Structure
     1. bu_order                 the bottom-up order of _compute_thresholds visits children before parents
     2. ThetaFold                _compute_thresholds as a fold (th_step = th_own ; th_prop) over any layered diagram that
                                 satisfies successor completeness (H_SC) & co; live paths, real runs and the guard (Start);
                                 invariants GA (completions that stay in the diagram, from an exact node above the cut-set:
                                 bounded by the local bound at the cut-set node, captured, or lost to the cache) and GB
                                 (completions that leave the diagram at a node pruned by its rough bound or dropped by the
                                 cache); theta_fold_soundC; run_cases, ub_cases: the same case analysis for the root and the
                                 cut-set nodes
     3. nc, CacheFrame, Twin     only cache_update writes m_cache; the input without the cache; blank, bk_of, Safe
     4. Loop                     frames of the layer loop (del, same_below, outside, tr, OI, expand_layer_succ), the flags of
                                 _finalize (lel_cutset_flags, frontier_flags); the invariant of the layer loop (TIc):
                                 successor completeness of every expanded live node that the cache did not drop (MddSim only
                                 tracks PROMISING runs; thresholds above the node's own value need all of them), deleted
                                 flags, layer order, what a dropped node carries; Step = what one iteration does to the diagram
                                 (iter_step), from which the fields of TIc follow by groups; FSc = what the loop leaves behind
     5. TechC                    what _compute_thresholds leaves alone
     6. CompileLevel             LostC, CaptC: lost / captured, in terms of the compiled diagram
     7. BridgeC                  compute_thresholds is the fold of section 2 (th_preset); UseC: the fields of the diagram
                                 handed to _compute_thresholds, the PC_ lemmas (= the hypotheses of section 2 for that
                                 diagram), root_runC / ub_runC / cache_runC and blank_sound; bridgeC; thresholds_sound
     8. Statements / instances   threshold_sound, cache_writes_sound, thresholds_sound_isize, table_thresholds, examples
   Stdlib only, no axiom, every proof closed (Print Assumptions at the end). *)
Require Import DDO.Base DDO.Fringe DDO.DP DDO.Cache DDO.Dom DDO.Mdd DDO.Viz DDO.MddStruct DDO.MddExact.
Require DDO.MddProgress.
Require Import DDO.Assembly DDO.Table DDO.Run DDO.TableWf.
Require Import DDO.MddSim.
From Coq Require Import Lia List Arith ZArith Bool.
Import ListNotations.

Ltac msimpl :=
  cbn [m_nodes m_edges m_layers m_layer_end m_next m_curr_depth m_path m_lel m_cutset m_best
       m_best_exact m_is_exact m_has_ebp m_cache m_dom m_log m_polls m_crash
       with_nodes upd_node add_log set_crash with_next with_cache with_dom with_lel_exact
       push_layer with_depth with_polls with_best with_cutset append_edge].
Ltac msimpl_in H :=
  cbn [m_nodes m_edges m_layers m_layer_end m_next m_curr_depth m_path m_lel m_cutset m_best
       m_best_exact m_is_exact m_has_ebp m_cache m_dom m_log m_polls m_crash
       with_nodes upd_node add_log set_crash with_next with_cache with_dom with_lel_exact
       push_layer with_depth with_polls with_best with_cutset append_edge] in H.
Ltac nsimpl :=
  cbn [n_state n_vtop n_vbot n_best n_inb n_rub n_theta n_flags n_depth
       set_flags set_theta set_vbot set_rub set_depth
       f_exact f_relaxed f_marked f_cutset f_deleted f_cache f_above
       fl_set_exact fl_set_relaxed fl_set_marked fl_set_cutset fl_set_deleted fl_set_cache fl_set_above
       fl_new_exact fl_new_relaxed e_from e_to e_dec e_cost].
Ltac nsimpl_in H :=
  cbn [n_state n_vtop n_vbot n_best n_inb n_rub n_theta n_flags n_depth
       set_flags set_theta set_vbot set_rub set_depth
       f_exact f_relaxed f_marked f_cutset f_deleted f_cache f_above
       fl_set_exact fl_set_relaxed fl_set_marked fl_set_cutset fl_set_deleted fl_set_cache fl_set_above
       fl_new_exact fl_new_relaxed e_from e_to e_dec e_cost] in H.

(* ================================================================== 1. lists: the bottom-up order *)
Local Open Scope nat_scope.

Lemma concat_split {A} (P : list (list A)) : forall done x rest, concat P = done ++ x :: rest ->
  exists i pre post, i < length P /\ nth i P [] = pre ++ x :: post /\ done = concat (firstn i P) ++ pre.
Proof.
  induction P as [|q P IH]; intros done x rest H; simpl in H.
  - destruct done; discriminate.
  - apply app_eq_app in H. destruct H as (l & [[H1 H2]|[H1 H2]]).
    + destruct l as [|y l].
      * simpl in H2. rewrite app_nil_r in H1. subst q.
        destruct (IH [] x rest (eq_sym H2)) as (i & pre & post & Hi & Hn & Hd).
        exists (S i), pre, post. split; [simpl; lia|]. split; [exact Hn|]. simpl. rewrite <- app_assoc, <- Hd, app_nil_r. reflexivity.
      * simpl in H2. inversion H2; subst y rest. exists 0, done, l. split; [simpl; lia|]. split; [exact H1|reflexivity].
    + destruct (IH l x rest H2) as (i & pre & post & Hi & Hn & Hd).
      exists (S i), pre, post. split; [simpl; lia|]. split; [exact Hn|]. simpl. rewrite H1, Hd, app_assoc. reflexivity.
Qed.

Lemma nth_in_len {A} (l : list (list A)) j y : In y (nth j l []) -> j < length l.
Proof. intros H. destruct (Nat.lt_ge_cases j (length l)) as [Hlt|Hge]; [exact Hlt|]. rewrite nth_overflow in H by exact Hge. destruct H. Qed.

Lemma in_concat_firstn {A} (P : list (list A)) i y :
  In y (concat (firstn i P)) <-> exists i', i' < i /\ In y (nth i' P []).
Proof.
  revert i. induction P as [|q P IH]; intros i.
  - rewrite firstn_nil. split; [intros []|intros (i' & _ & H); destruct i'; destruct H].
  - destruct i as [|i]; simpl; [split; [intros []|intros (i' & H & _); lia]|].
    rewrite in_app_iff, IH. split.
    + intros [H|(i' & H1 & H2)]; [exists 0; split; [lia|exact H]|exists (S i'); split; [lia|exact H2]].
    + intros ([|i'] & H1 & H2); [left; exact H2|right; exists i'; split; [lia|exact H2]].
Qed.

Lemma in_concat_rev {A} (P : list (list A)) y : In y (concat (rev P)) <-> In y (concat P).
Proof. rewrite !in_concat. split; intros (l & Hl & Hy); exists l; (split; [|exact Hy]); [apply in_rev|apply -> in_rev]; exact Hl. Qed.

(* layers whose indices increase strictly from one layer to the next are disjoint *)
Lemma layers_uniq (lay : nat -> list nat) :
  (forall j j' x y, j < j' -> In x (lay j) -> In y (lay j') -> x < y) ->
  forall j j' x, In x (lay j) -> In x (lay j') -> j = j'.
Proof.
  intros O1 j j' x H1 H2. destruct (Nat.lt_trichotomy j j') as [Hlt|[E|Hgt]]; [|exact E|].
  - pose proof (O1 j j' x x Hlt H1 H2). lia.
  - pose proof (O1 j' j x x Hgt H2 H1). lia.
Qed.

Lemma bu_order (LFl : list (list nat)) (par : nat -> nat -> Prop) :
  (forall j j' x y, j < j' -> In x (nth j LFl []) -> In y (nth j' LFl []) -> x < y) ->
  (forall j, NoDup (nth j LFl [])) ->
  (forall j x p y, In x (nth j LFl []) -> par x p -> In y (nth j LFl []) -> p < y) ->
  forall done x rest, concat (rev LFl) = done ++ x :: rest ->
    ~ In x done /\
    (forall p, par x p -> ~ In p (done ++ [x])) /\
    (forall j c, In x (nth j LFl []) -> In c (nth (S j) LFl []) -> In c done).
Proof.
  intros O1 O2 O3 done x rest H.
  destruct (concat_split _ _ _ _ H) as (i & pre & post & Hi & Hn & Hd).
  rewrite rev_length in Hi. set (K := length LFl) in *.
  rewrite rev_nth in Hn by exact Hi. fold K in Hn.
  set (j0 := K - S i) in *.
  assert (Hx0 : In x (nth j0 LFl [])) by (rewrite Hn; apply in_or_app; right; left; reflexivity).
  assert (Hpre : forall y, In y pre -> In y (nth j0 LFl [])) by (intros y Hy; rewrite Hn; apply in_or_app; left; exact Hy).
  assert (Hearlier : forall y, In y (concat (firstn i (rev LFl))) -> exists j', j0 < j' /\ In y (nth j' LFl [])).
  { intros y Hy. apply in_concat_firstn in Hy. destruct Hy as (i' & H1 & H3).
    pose proof (nth_in_len _ _ _ H3) as H2. rewrite rev_length in H2. rewrite rev_nth in H3 by exact H2. fold K in H3.
    exists (K - S i'). split; [unfold j0; lia|exact H3]. }
  assert (Huniq : forall j, In x (nth j LFl []) -> j = j0).
  { intros j Hj. exact (layers_uniq (fun k => nth k LFl []) O1 j j0 x Hj Hx0). }
  split; [|split].
  - intros Hin. rewrite Hd in Hin. apply in_app_or in Hin. destruct Hin as [Hin|Hin].
    + destruct (Hearlier x Hin) as (j' & Hj' & Hxj'). pose proof (Huniq j' Hxj'). lia.
    + pose proof (O2 j0) as Hnd. rewrite Hn in Hnd. apply NoDup_remove_2 in Hnd. apply Hnd.
      apply in_or_app. left. exact Hin.
  - intros p Hp Hin. apply in_app_or in Hin. destruct Hin as [Hin|[<-|[]]].
    + rewrite Hd in Hin. apply in_app_or in Hin. destruct Hin as [Hin|Hin].
      * destruct (Hearlier p Hin) as (j' & Hj' & Hpj').
        pose proof (O3 j0 x p x Hx0 Hp Hx0). pose proof (O1 j0 j' x p Hj' Hx0 Hpj'). lia.
      * pose proof (O3 j0 x p p Hx0 Hp (Hpre p Hin)). lia.
    + pose proof (O3 j0 x x x Hx0 Hp Hx0). lia.
  - intros j c Hj Hc. pose proof (Huniq j Hj). subst j.
    assert (HSj : S j0 < K).
    { destruct (Nat.lt_ge_cases (S j0) K) as [Hlt|Hge]; [exact Hlt|]. rewrite nth_overflow in Hc by exact Hge. destruct Hc. }
    rewrite Hd. apply in_or_app. left.
    apply in_concat_firstn. exists (K - S (S j0)). split; [unfold j0 in *; lia|].
    rewrite rev_nth by (fold K; lia). fold K.
    replace (K - S (K - S (S j0))) with (S j0) by (unfold j0 in *; lia). exact Hc.
Qed.

(* ================================================================== 2. the fold of _compute_thresholds *)
Local Open Scope Z_scope.

(* ------------------------------------------------------------------ arithmetic *)
Lemma sat_sub_sound a b w : IMIN < w -> w <= sat_sub a b -> w + b <= a.
Proof.
  unfold sat_sub, clampZ. intros Hw H.
  destruct (a - b >? IMAX) eqn:E1.
  - rewrite Z.gtb_ltb in E1. apply Z.ltb_lt in E1. lia.
  - destruct (a - b <? IMIN) eqn:E2; [lia|]. lia.
Qed.

Lemma sat_add_comm a b : sat_add a b = sat_add b a.
Proof. unfold sat_add. rewrite Z.add_comm. reflexivity. Qed.

Lemma set_theta_id {St} (n : @node St) : set_theta n (n_theta n) = n.
Proof. destruct n; reflexivity. Qed.

(* upd_nth only looks at f on the element it replaces (on nothing when the index is out of range) *)
Lemma upd_nth_ext_at {A} n (f g : A -> A) (l : list A) d : f (nth n l d) = g (nth n l d) -> upd_nth n f l = upd_nth n g l.
Proof. revert n. induction l as [|y l IH]; intros [|n] E; simpl in *; [reflexivity|reflexivity|rewrite E; reflexivity|rewrite (IH n E); reflexivity]. Qed.
Lemma upd_nth_fix {A} n (f : A -> A) (l : list A) d : f (nth n l d) = nth n l d -> upd_nth n f l = l.
Proof. revert n. induction l as [|y l IH]; intros [|n] E; simpl in *; [reflexivity|reflexivity|rewrite E; reflexivity|rewrite (IH n E); reflexivity]. Qed.

(* "a is at most b" on thresholds, None = +infinity *)
Definition tle (a b : option Z) : Prop :=
  match b with None => True | Some tb => exists ta, a = Some ta /\ ta <= tb end.
Lemma tle_refl a : tle a a.
Proof. destruct a as [t|]; simpl; [exists t; split; [reflexivity|lia]|exact I]. Qed.
Lemma tle_trans a b c : tle a b -> tle b c -> tle a c.
Proof.
  unfold tle. destruct c as [tc|]; [|auto]. intros H1 (tb & -> & Hb). destruct H1 as (ta & -> & Ha).
  exists ta. split; [reflexivity|lia].
Qed.
  Lemma nth_error_upd_nth_cases {A} n (f : A -> A) (l : list A) d y :
    nth_error (upd_nth n f l) d = Some y ->
    (d <> n /\ nth_error l d = Some y) \/ (d = n /\ exists y0, nth_error l d = Some y0 /\ y = f y0).
  Proof.
    revert n d. induction l as [|a l IH]; intros [|n] [|d]; simpl; intros H; try discriminate.
    - inversion H; subst. right. split; [reflexivity|]. exists a. auto.
    - left. split; [discriminate|exact H].
    - left. split; [discriminate|exact H].
    - destruct (IH n d H) as [[H1 H2]|[H1 H2]]; [left; split; [lia|exact H2]|right; split; [lia|exact H2]].
  Qed.

(* a run from a covered state is matched, value for value, by a run from the covering state *)
Section RunCov.
  Context {St : Type}.
  Variable pb : problem St.
  Let N := nb_vars pb.
  Hypothesis nv_static : forall k l1 l2, next_variable pb k l1 = next_variable pb k l2.
  Hypothesis nv_some : forall k l, (k < N)%nat -> exists x, next_variable pb k l = Some x.
  Hypothesis nv_none : forall k l, (N <= k)%nat -> next_variable pb k l = None.
  Variable cov : St -> St -> Prop.
  Hypothesis cov_sim : forall s s' x v, cov s s' -> In v (domain pb x s') ->
    let d := {| d_var := x; d_val := v |} in
    In v (domain pb x s) /\ cov (transition pb s d) (transition pb s' d) /\
    transition_cost pb s' (transition pb s' d) d <= transition_cost pb s (transition pb s d) d.

  Lemma frun_cov ds : forall k s s' v v' s1' v1', cov s s' -> v' <= v ->
    frun pb k s' v' ds = Some (s1', v1') ->
    exists s1 v1, frun pb k s v ds = Some (s1, v1) /\ cov s1 s1' /\ v1' <= v1.
  Proof.
    induction ds as [|d ds IH]; intros k s s' v v' s1' v1' Hc Hv Hr; simpl in *.
    - inversion Hr; subst. exists s, v. auto.
    - destruct (var_ok pb k d) eqn:Ev; simpl in Hr; [|discriminate].
      destruct (in_domain pb s' d) eqn:Ed; [|discriminate].
      apply in_domain_In in Ed.
      destruct (cov_sim s s' (d_var d) (d_val d) Hc Ed) as (D1 & D2 & D3). cbv zeta in D2, D3.
      assert (Ed' : {| d_var := d_var d; d_val := d_val d |} = d) by (destruct d; reflexivity).
      rewrite Ed' in D2, D3. simpl. rewrite (In_in_domain pb s d D1). simpl.
      apply (IH (S k) _ _ (v + transition_cost pb s (transition pb s d) d) (v' + transition_cost pb s' (transition pb s' d) d) s1' v1' D2); [lia|exact Hr].
  Qed.

  Lemma H_cov k s s' h' : (k <= N)%nat -> cov s s' -> H pb k s' = Some h' -> exists h, H pb k s = Some h /\ h' <= h.
  Proof.
    intros Hk Hc Hh.
    destruct (H_attained pb nv_static nv_some nv_none (N - k) k s' 0 h' eq_refl Hk Hh) as (ds & s1' & Hr & Hl).
    destruct (frun_cov ds k s s' 0 0 s1' (0 + h') Hc (Z.le_refl _) Hr) as (s1 & v1 & Hr1 & _ & Hv).
    destruct (frun_le_H pb nv_static nv_none ds k s 0 s1 v1 Hl Hr1) as (h & Hh1 & Hle).
    exists h. split; [exact Hh1|lia].
  Qed.
End RunCov.

(* a projection of the diagram that the writes of _compute_thresholds leave alone is kept by _compute_thresholds *)
Section Proj.
  Context {St : Type}.
  Variable st_eqb : St -> St -> bool.
  Variable inp : @cinput St.
  Notation mdd := (@mdd St).
  Notation node := (@node St).
  Context {X : Type} (pr : mdd -> X).
  Hypothesis pr_theta : forall (a : mdd) k (t : node -> option Z), pr (upd_node a k (fun n => set_theta n (t n))) = pr a.
  Hypothesis pr_log : forall (a : mdd) e, pr (add_log a e) = pr a.
  Hypothesis pr_cache : forall (a : mdd) c, pr (with_cache a c) = pr a.
  Hypothesis pr_crash : forall (a : mdd), pr (set_crash a) = pr a.

  Lemma proj_cache_updateC (m : mdd) s d v e : pr (cache_update st_eqb inp m s d v e) = pr m.
  Proof.
    unfold cache_update. destruct (ci_use_cache inp); [|apply pr_log].
    destruct (update_threshold _ _ _ _ _ _); [rewrite pr_cache|rewrite pr_crash]; apply pr_log.
  Qed.

  Lemma proj_maybe_update_cache (m : mdd) id : pr (maybe_update_cache st_eqb inp m id) = pr m.
  Proof.
    apply (maybe_update_cache_steps st_eqb inp (fun a b : mdd => pr b = pr a)); [reflexivity|].
    intros a s d v e. apply proj_cache_updateC.
  Qed.

  Lemma proj_compute_thresholdsC (m : mdd) : pr (compute_thresholds st_eqb inp m) = pr m.
  Proof.
    apply (compute_thresholds_steps st_eqb inp (fun a b : mdd => pr b = pr a)); [reflexivity|congruence| |].
    - intros a k t. apply pr_theta.
    - intros a s d v e. apply proj_cache_updateC.
  Qed.
End Proj.

Section ThetaFold.
  Context {St : Type}.
  Variable st_eqb : St -> St -> bool.
  Hypothesis st_eqb_spec : forall a b, st_eqb a b = true <-> a = b.
  Variable inp : @cinput St.
  Let pb := ci_problem inp.
  Let rlx := ci_relax inp.
  Let lb := ci_best_lb inp.
  Let N := nb_vars pb.
  Let rd := sp_depth (ci_root inp).
  Let rs := sp_state (ci_root inp).
  Let rv := sp_value (ci_root inp).
  Hypothesis nv_static : forall k l1 l2, next_variable pb k l1 = next_variable pb k l2.
  Hypothesis nv_none : forall k l, (N <= k)%nat -> next_variable pb k l = None.
  Variable cov : St -> St -> Prop.
  Hypothesis cov_refl : forall s, cov s s.
  Hypothesis rub_adm : forall k s s' h, cov s s' -> H pb k s' = Some h -> h <= fast_upper_bound rlx s.
  Variable B : Z.
  Hypothesis HB : 2 * B <= IMAX.
  Hypothesis Hguard : forall ds s' v', frun pb rd rs rv ds = Some (s', v') -> - B <= v' <= B.

  Notation mdd := (@mdd St).
  Notation node := (@node St).
  Notation gn := (get_node inp).

  (* ---------------------------------------------------------------- the fold of _compute_thresholds *)
  Definition own_theta (bk : Z) (n : node) : option Z :=
    if negb (f_cache (n_flags n)) then
      if sat_add (n_vtop n) (n_rub n) <=? bk then Some (sat_sub bk (n_rub n))
      else if f_cutset (n_flags n) then
        if sat_add (n_vtop n) (n_vbot n) <=? bk
        then Some (Z.min (opt_default IMAX (n_theta n)) (sat_sub bk (n_vbot n)))
        else Some (n_vtop n)
      else if fl_is_exact (n_flags n) && match n_theta n with None => true | Some _ => false end
        then Some IMAX else n_theta n
    else n_theta n.

  Definition th_own (bk : Z) (a : mdd) (id : nat) : mdd :=
    let n := gn a id in
    if negb (f_cache (n_flags n)) then
      let tot_rub := sat_add (n_vtop n) (n_rub n) in
      let m0 :=
        if tot_rub <=? bk then upd_node a id (fun n0 => set_theta n0 (Some (sat_sub bk (n_rub n0))))
        else if f_cutset (n_flags n) then
          let tot_locb := sat_add (n_vtop n) (n_vbot n) in
          if tot_locb <=? bk then
            upd_node a id (fun n0 => set_theta n0 (Some (Z.min (opt_default IMAX (n_theta n0)) (sat_sub bk (n_vbot n0)))))
          else upd_node a id (fun n0 => set_theta n0 (Some (n_vtop n0)))
        else if fl_is_exact (n_flags n) && match n_theta n with None => true | Some _ => false end then
          upd_node a id (fun n0 => set_theta n0 (Some IMAX))
        else a in
      maybe_update_cache st_eqb inp m0 id
    else a.

  Definition prop_step (my : Z) (m1 : mdd) (eid : nat) : mdd :=
    let e := get_edge m1 eid in
    upd_node m1 (e_from e) (fun p => set_theta p (Some (Z.min (opt_default IMAX (n_theta p)) (sat_sub my (e_cost e))))).

  Definition th_prop (a : mdd) (id : nat) : mdd :=
    match n_theta (gn a id) with
    | Some my => fold_left (prop_step my) (n_inb (gn a id)) a
    | None => a
    end.

  Definition th_step (bk : Z) (a : mdd) (id : nat) : mdd :=
    if f_deleted (n_flags (gn a id)) then a else th_prop (th_own bk a id) id.

  Definition th_preset (bk : Z) (m : mdd) : mdd :=
    fold_left (fun m id =>
       let cond := match ci_flavour inp with
                   | CleanLEL => m_is_exact m
                   | _ => fl_is_exact (n_flags (gn m id)) end in
       if cond then upd_node m id (fun n => set_theta n (Some bk)) else m) (m_next m) m.

  Lemma compute_thresholds_unfold (m : mdd) :
    compute_thresholds st_eqb inp m =
    if is_relaxed_ct (ci_type inp) || m_is_exact m then
      match m_best_exact m with
      | Some be =>
          let bk := Z.max (ci_best_lb inp) (n_vtop (gn m be)) in
          let m' := th_preset bk m in
          fold_left (th_step bk) (bottom_up m') m'
      | None => fold_left (th_step (ci_best_lb inp)) (bottom_up m) m
      end
    else m.
  Proof.
    unfold compute_thresholds. destruct (_ || _); [|reflexivity].
    destruct (m_best_exact m); reflexivity.
  Qed.

  (* ---------------------------------------------------------------- node-level description of one step *)
  Definition sk (n : node) : node := set_theta n None.
  Lemma sk_set_theta (n : node) t : sk (set_theta n t) = sk n.
  Proof. destruct n; reflexivity. Qed.
  Lemma node_of_sk (n : node) : n = set_theta (sk n) (n_theta n).
  Proof. destruct n; reflexivity. Qed.
  Lemma set_theta_sk (n : node) t : set_theta (sk n) t = set_theta n t.
  Proof. destruct n; reflexivity. Qed.
  Lemma sk_fields (n n' : node) : sk n = sk n' ->
    n_state n = n_state n' /\ n_vtop n = n_vtop n' /\ n_vbot n = n_vbot n' /\ n_rub n = n_rub n' /\
    n_flags n = n_flags n' /\ n_inb n = n_inb n' /\ n_depth n = n_depth n'.
  Proof. destruct n, n'; unfold sk; simpl; intros H; inversion H; subst; repeat split. Qed.

  Definition theta_of (a : mdd) (x : nat) : option Z := n_theta (gn a x).

  Lemma muc_nodes (a : mdd) id : m_nodes (maybe_update_cache st_eqb inp a id) = m_nodes a.
  Proof. apply (proj_maybe_update_cache st_eqb inp (fun b : mdd => m_nodes b)); reflexivity. Qed.
  Lemma muc_edges (a : mdd) id : m_edges (maybe_update_cache st_eqb inp a id) = m_edges a.
  Proof. apply (proj_maybe_update_cache st_eqb inp (fun b : mdd => m_edges b)); reflexivity. Qed.

  (* the node update of th_own, without the cache write *)
  Definition own_upd (bk : Z) (a : mdd) (id : nat) : mdd :=
    upd_node a id (fun n => set_theta n (own_theta bk n)).

  Lemma th_own_nodes bk (a : mdd) id :
    m_nodes (th_own bk a id) = m_nodes (own_upd bk a id).
  Proof.
    unfold th_own, own_upd. cbv zeta. set (n := gn a id).
    assert (Hat : forall f g : node -> node, f n = g n -> m_nodes (upd_node a id f) = m_nodes (upd_node a id g)).
    { intros f g E. apply (upd_nth_ext_at id f g (m_nodes a) _ E). }
    assert (Hsame : forall g : node -> node, g n = n -> m_nodes a = m_nodes (upd_node a id g)).
    { intros g E. symmetry. apply (upd_nth_fix id g (m_nodes a) _ E). }
    unfold own_theta.
    destruct (negb (f_cache (n_flags n))) eqn:Ec; [rewrite muc_nodes|apply Hsame; rewrite Ec; apply set_theta_id].
    destruct (sat_add (n_vtop n) (n_rub n) <=? bk) eqn:E1; [apply Hat; rewrite Ec, E1; reflexivity|].
    destruct (f_cutset (n_flags n)) eqn:E2.
    - destruct (sat_add (n_vtop n) (n_vbot n) <=? bk) eqn:E3; apply Hat; rewrite Ec, E1, E2, E3; reflexivity.
    - destruct (fl_is_exact (n_flags n) && _) eqn:E4; [apply Hat|apply Hsame]; rewrite Ec, E1, E2, E4;
        [reflexivity|apply set_theta_id].
  Qed.

  Lemma th_own_gn bk (a : mdd) id x : (id < length (m_nodes a))%nat ->
    gn (th_own bk a id) x =
    if Nat.eqb x id then set_theta (gn a id) (own_theta bk (gn a id)) else gn a x.
  Proof.
    intros Hlt. rewrite (gn_nodes_eq inp (own_upd bk a id) (th_own bk a id) x (th_own_nodes bk a id)).
    unfold own_upd. destruct (Nat.eqb x id) eqn:E.
    - apply Nat.eqb_eq in E. subst x. rewrite gn_upd_same by exact Hlt. reflexivity.
    - apply Nat.eqb_neq in E. rewrite gn_upd_other by congruence. reflexivity.
  Qed.

  Lemma th_own_edges bk (a : mdd) id : m_edges (th_own bk a id) = m_edges a.
  Proof.
    unfold th_own. cbv zeta. destruct (negb _); [|reflexivity]. rewrite muc_edges.
    repeat match goal with |- context [if ?c then _ else _] => destruct c end; reflexivity.
  Qed.

  Lemma muc_cache (a : mdd) id :
    m_cache (maybe_update_cache st_eqb inp a id) = m_cache a \/
    exists t c', n_theta (gn a id) = Some t /\ f_above (n_flags (gn a id)) = true /\
      update_threshold st_eqb (m_cache a) (n_state (gn a id)) (n_depth (gn a id)) t
        (negb (f_cutset (n_flags (gn a id)))) = Some c' /\
      m_cache (maybe_update_cache st_eqb inp a id) = c'.
  Proof.
    unfold maybe_update_cache. destruct (n_theta (gn a id)) as [t|]; [|left; reflexivity].
    destruct (f_above (n_flags (gn a id))); [|left; reflexivity].
    unfold cache_update. destruct (ci_use_cache inp); [|left; reflexivity]. cbn [m_cache add_log].
    destruct (update_threshold st_eqb (m_cache a) _ _ t _) as [c'|] eqn:Eu; [|left; reflexivity].
    right. exists t, c'. repeat split; auto.
  Qed.

  Lemma th_own_cache bk (a : mdd) id :
    m_cache (th_own bk a id) = m_cache a \/
    exists t c', n_theta (gn (own_upd bk a id) id) = Some t /\
      f_above (n_flags (gn (own_upd bk a id) id)) = true /\
      update_threshold st_eqb (m_cache a) (n_state (gn (own_upd bk a id) id)) (n_depth (gn (own_upd bk a id) id)) t
        (negb (f_cutset (n_flags (gn (own_upd bk a id) id)))) = Some c' /\
      m_cache (th_own bk a id) = c'.
  Proof.
    pose proof (th_own_nodes bk a id) as Hno. unfold th_own in *. cbv zeta in *.
    destruct (negb (f_cache (n_flags (gn a id)))); [|left; reflexivity].
    match goal with |- context [maybe_update_cache st_eqb inp ?mm id] => set (a0 := mm) in * end.
    rewrite muc_nodes in Hno.
    assert (Hc : m_cache a0 = m_cache a).
    { unfold a0. repeat match goal with |- context [if ?c then _ else _] => destruct c end; reflexivity. }
    rewrite <- (gn_nodes_eq inp (own_upd bk a id) a0 id Hno), <- Hc. apply muc_cache.
  Qed.

  Lemma prop_step_spec my (a : mdd) eid :
    let a' := prop_step my a eid in
    let p := e_from (get_edge a eid) in
    m_edges a' = m_edges a /\ length (m_nodes a') = length (m_nodes a) /\ m_cache a' = m_cache a /\
    (forall x, sk (gn a' x) = sk (gn a x)) /\
    (forall x, tle (theta_of a' x) (theta_of a x)) /\
    (forall x, x <> p -> gn a' x = gn a x) /\
    ((p < length (m_nodes a))%nat -> exists t', theta_of a' p = Some t' /\ t' <= sat_sub my (e_cost (get_edge a eid))).
  Proof.
    cbv zeta. unfold prop_step. cbv zeta. set (p := e_from (get_edge a eid)). set (ec := e_cost (get_edge a eid)).
    set (f := fun p0 : node => set_theta p0 (Some (Z.min (opt_default IMAX (n_theta p0)) (sat_sub my ec)))).
    split; [reflexivity|]. split; [simpl; apply upd_nth_length|]. split; [reflexivity|].
    assert (Hx : forall x, gn (upd_node a p f) x = gn a x \/ (x = p /\ (p < length (m_nodes a))%nat /\ gn (upd_node a p f) x = f (gn a p))).
    { intros x. destruct (Nat.eq_dec p x) as [<-|Hne].
      - destruct (Nat.lt_ge_cases p (length (m_nodes a))) as [Hlt|Hge].
        + right. split; [reflexivity|]. split; [exact Hlt|]. apply gn_upd_same. exact Hlt.
        + left. apply gn_upd_out. exact Hge.
      - left. apply gn_upd_other. exact Hne. }
    split; [|split; [|split]].
    - intros x. destruct (Hx x) as [->|(-> & _ & ->)]; [reflexivity|]. unfold f. apply sk_set_theta.
    - intros x. unfold theta_of. destruct (Hx x) as [->|(-> & _ & ->)]; [apply tle_refl|].
      unfold f. simpl. destruct (n_theta (gn a p)) as [t|]; simpl; [|exact I].
      eexists. split; [reflexivity|]. lia.
    - intros x Hne. destruct (Hx x) as [H|(H & _)]; [exact H|congruence].
    - intros Hlt. unfold theta_of. rewrite gn_upd_same by exact Hlt. unfold f. simpl.
      eexists. split; [reflexivity|]. lia.
  Qed.

  Lemma prop_fold_spec my L : forall (a : mdd),
    let a' := fold_left (prop_step my) L a in
    m_edges a' = m_edges a /\ length (m_nodes a') = length (m_nodes a) /\ m_cache a' = m_cache a /\
    (forall x, sk (gn a' x) = sk (gn a x)) /\
    (forall x, tle (theta_of a' x) (theta_of a x)) /\
    (forall x, (forall eid, In eid L -> e_from (get_edge a eid) <> x) -> gn a' x = gn a x) /\
    (forall eid, In eid L -> (e_from (get_edge a eid) < length (m_nodes a))%nat ->
       exists t', theta_of a' (e_from (get_edge a eid)) = Some t' /\ t' <= sat_sub my (e_cost (get_edge a eid))).
  Proof.
    induction L as [|e0 L IH]; intros a; cbv zeta; simpl.
    - repeat split; auto. + intros x; apply tle_refl. + intros eid [].
    - destruct (prop_step_spec my a e0) as (S1 & S2 & S2c & S3 & S4 & S5 & S6). cbv zeta in S1, S2, S2c, S3, S4, S5, S6.
      set (a1 := prop_step my a e0) in *.
      destruct (IH a1) as (I1 & I2 & I2c & I3 & I4 & I5 & I6). cbv zeta in I1, I2, I2c, I3, I4, I5, I6.
      assert (Hge : forall k, get_edge a1 k = get_edge a k) by (intros k; apply ge_edges_eq; exact S1).
      split; [congruence|]. split; [congruence|]. split; [congruence|]. split; [|split; [|split]].
      + intros x. rewrite I3. apply S3.
      + intros x. eapply tle_trans; [apply I4|apply S4].
      + intros x Hx. rewrite I5.
        * apply S5. intros E. apply (Hx e0); [left; reflexivity|symmetry; exact E].
        * intros eid Hin. rewrite Hge. apply Hx. right; exact Hin.
      + intros eid [<-|Hin] Hlt.
        * destruct (S6 Hlt) as (t1 & E1 & Hle1).
          pose proof (I4 (e_from (get_edge a e0))) as Ht. rewrite E1 in Ht. simpl in Ht.
          destruct Ht as (t2 & E2 & Hle2). exists t2. split; [exact E2|lia].
        * rewrite <- (Hge eid). apply I6; [exact Hin|]. rewrite Hge, S2. exact Hlt.
  Qed.

  (* ---------------------------------------------------------------- the static diagram *)
  Variable m0 : mdd.          (* the diagram on which the fold starts (after the pre-setting of the terminal thetas) *)
  Variable bk : Z.
  Hypothesis Hbk : lb <= bk.

  Definition lay (j x : nat) : Prop := In x (nth j (m_layers m0) []).
  Definition live (x : nat) : Prop := f_deleted (n_flags (gn m0 x)) = false.
  Definition isex (x : nat) : Prop := fl_is_exact (n_flags (gn m0 x)) = true.
  Definition above (x : nat) : Prop := f_above (n_flags (gn m0 x)) = true.
  Definition cuts (x : nat) : Prop := f_cutset (n_flags (gn m0 x)) = true.
  Definition st (x : nat) : St := n_state (gn m0 x).
  Definition vt (x : nat) : Z := n_vtop (gn m0 x).
  Definition vb (x : nat) : Z := n_vbot (gn m0 x).
  Definition rb (x : nat) : Z := n_rub (gn m0 x).
  Definition branched (x : nat) : Prop := lb < sat_add (rb x) (vt x).
  Definition Adm (x : nat) (s : St) : Prop := cov (st x) s /\ (isex x -> s = st x).
  Definition rcost (s : St) (d : decision) : Z := transition_cost pb s (transition pb s d) d.
  Definition Start (j : nat) (s : St) (r : Z) : Prop :=
    exists pre, frun pb rd rs rv pre = Some (s, r) /\ length pre = j.
  Definition complete (j : nat) (ds : list decision) : Prop := (rd + j + length ds = N)%nat.

  Inductive lpath : nat -> nat -> St -> list decision -> nat -> St -> Prop :=
  | lp_nil : forall j x s, lay j x -> live x -> Adm x s -> lpath j x s [] x s
  | lp_cons : forall j x s d ds c eid t s', lay j x -> live x -> Adm x s ->
      In eid (n_inb (gn m0 c)) -> e_from (get_edge m0 eid) = x -> e_dec (get_edge m0 eid) = d ->
      rcost s d <= e_cost (get_edge m0 eid) ->
      lpath (S j) c (transition pb s d) ds t s' -> lpath j x s (d :: ds) t s'.

  Hypothesis H_rub : forall j x, lay j x -> rb x = IMAX \/ rb x = fast_upper_bound rlx (st x).

  (* ---------------------------------------------------------------- live paths *)
  Lemma lpath_start j x s ds t s' : lpath j x s ds t s' -> lay j x /\ live x /\ Adm x s.
  Proof. intros H; destruct H; auto. Qed.

  Lemma lpath_end j x s ds t s' : lpath j x s ds t s' ->
    lay (j + length ds) t /\ live t /\ Adm t s' /\ s' = fold_left (transition pb) ds s.
  Proof.
    intros H. induction H as [j x s H1 H2 H3|j x s d ds c eid t s' H1 H2 H3 H4 H5 H6 H7 Hp IH].
    - simpl. rewrite Nat.add_0_r. auto.
    - destruct IH as (I1 & I2 & I3 & I4). simpl. replace (j + S (length ds))%nat with (S j + length ds)%nat by lia. auto.
  Qed.

  Lemma lpath_cons_inv j x s d ds t s' : lpath j x s (d :: ds) t s' ->
    exists c eid, In eid (n_inb (gn m0 c)) /\ e_from (get_edge m0 eid) = x /\ e_dec (get_edge m0 eid) = d /\
      rcost s d <= e_cost (get_edge m0 eid) /\ lpath (S j) c (transition pb s d) ds t s'.
  Proof. intros H; inversion H; subst. exists c, eid. auto. Qed.
  Lemma lpath_nil_inv j x s t s' : lpath j x s [] t s' -> t = x /\ s' = s.
  Proof. intros H; inversion H; subst; auto. Qed.

  Lemma mkdec_eta (d : decision) : {| d_var := d_var d; d_val := d_val d |} = d.
  Proof. destruct d; reflexivity. Qed.

  Lemma frun_cons k s v d ds :
    frun pb k s v (d :: ds) =
    if var_ok pb k d && in_domain pb s d then frun pb (S k) (transition pb s d) (v + rcost s d) ds else None.
  Proof. reflexivity. Qed.

  Lemma branched_dec x : {branched x} + {~ branched x}.
  Proof. unfold branched. destruct (Z_lt_dec lb (sat_add (rb x) (vt x))); [left|right]; assumption. Qed.

  (* ---------------------------------------------------------------- real runs *)
  Lemma Start_guard j s r : Start j s r -> - B <= r <= B.
  Proof. intros (pre & Hp & _). eapply Hguard; eauto. Qed.

  Lemma Start_ext j s r ds s' r' : Start j s r -> frun pb (rd + j) s r ds = Some (s', r') ->
    Start (j + length ds) s' r'.
  Proof.
    intros (pre & Hp & Hl) Hr. exists (pre ++ ds). split; [|rewrite app_length; lia].
    rewrite frun_app, Hp, Hl. exact Hr.
  Qed.

  Lemma cost_le_rub jy y s1 r1 ds2 s' r' : lay jy y -> cov (st y) s1 -> Start jy s1 r1 ->
    frun pb (rd + jy) s1 r1 ds2 = Some (s', r') -> complete jy ds2 -> r' - r1 <= rb y.
  Proof.
    intros Hl Hc HS Hr Hcomp.
    destruct (H_rub jy y Hl) as [E|E]; rewrite E.
    - pose proof (Start_guard _ _ _ HS). pose proof (Start_guard _ _ _ (Start_ext _ _ _ _ _ _ HS Hr)). unfold IMAX in *. lia.
    - destruct (frun_le_H pb nv_static nv_none ds2 (rd + jy) s1 r1 s' r' Hcomp Hr) as (h & Hh & Hle).
      pose proof (rub_adm _ _ _ _ Hc Hh). lia.
  Qed.

  Lemma rub_case_sound j x s r ds s' r' : lay j x -> cov (st x) s -> Start j s r ->
    frun pb (rd + j) s r ds = Some (s', r') -> complete j ds ->
    forall dl, IMIN + B < dl -> r + dl <= sat_sub bk (rb x) -> r' + dl <= bk.
  Proof.
    intros Hl Hc HS Hr Hcomp dl Hdl Hle.
    pose proof (Start_guard _ _ _ HS) as Hg.
    pose proof (cost_le_rub j x s r ds s' r' Hl Hc HS Hr Hcomp) as Hcr.
    pose proof (sat_sub_sound bk (rb x) (r + dl) ltac:(lia) Hle). lia.
  Qed.

  Lemma via_child (Q : Z -> Prop) r k ec tp tc :
    k <= ec -> - B <= r -> tp <= sat_sub tc ec ->
    (forall dl, IMIN + B < dl -> r + k + dl <= tc -> Q dl) ->
    forall dl, IMIN + B < dl -> r + dl <= tp -> Q dl.
  Proof.
    intros Hk Hr Htp Hq dl Hdl Hle. apply Hq; [exact Hdl|].
    pose proof (sat_sub_sound tc ec (r + dl) ltac:(lia) ltac:(lia)). lia.
  Qed.

  (* the node [x] with its static data and the threshold accumulated so far *)
  Definition nd (x : nat) (pre : option Z) : node := set_theta (gn m0 x) pre.

  Lemma frun_cons_inv k s v d ds s' v' : frun pb k s v (d :: ds) = Some (s', v') ->
    var_ok pb k d = true /\ in_domain pb s d = true /\
    frun pb (S k) (transition pb s d) (v + rcost s d) ds = Some (s', v').
  Proof.
    rewrite frun_cons. destruct (var_ok pb k d); [|discriminate]. destruct (in_domain pb s d); [|discriminate].
    simpl. auto.
  Qed.

  Lemma Start_step j s r d : Start j s r -> var_ok pb (rd + j) d = true -> in_domain pb s d = true ->
    Start (S j) (transition pb s d) (r + rcost s d).
  Proof.
    intros HS V1 V2. replace (S j) with (j + length [d])%nat by (simpl; lia).
    apply (Start_ext j s r [d]); [exact HS|]. rewrite frun_cons, V1, V2. reflexivity.
  Qed.

  Lemma isize_diff a b : - B <= a <= B -> - B <= b <= B -> in_isize (a - b).
  Proof. unfold in_isize, IMIN, IMAX in *. lia. Qed.

  Lemma not_rub_branched x : (sat_add (vt x) (rb x) <=? bk) = false -> branched x.
  Proof.
    intros E. apply Z.leb_gt in E. unfold branched. rewrite sat_add_comm.
    destruct (Z_lt_dec lb (sat_add (vt x) (rb x))); [assumption|lia].
  Qed.

  Lemma lupdate_In (l : @layer St) s t k th :
    In (k, th) (lupdate st_eqb l s t) -> In (k, th) l \/ (k = s /\ (th = t \/ exists t0, In (k, t0) l /\ th = t0)).
  Proof.
    induction l as [|[k0 t0] l IH]; simpl.
    - intros [H|[]]. inversion H; subst. right. auto.
    - destruct (st_eqb k0 s) eqn:E.
      + apply st_eqb_spec in E. subst k0. intros [H|H].
        * inversion H; subst. unfold th_max. destruct (is_gt _); [right; auto|left; left; reflexivity].
        * left. right. exact H.
      + intros [H|H]; [left; left; exact H|].
        destruct (IH H) as [H1|(H1 & [H2|(t1 & H2 & H3)])]; [left; right; exact H1|right; auto|].
        right. split; [exact H1|]. right. exists t1. split; [right; exact H2|exact H3].
  Qed.

  (* ---------------------------------------------------------------- the invariant of the fold *)
  Definition Fr (a : mdd) : Prop :=
    length (m_nodes a) = length (m_nodes m0) /\ (forall x, sk (gn a x) = sk (gn m0 x)) /\ m_edges a = m_edges m0.

  Lemma bu_lay x : In x (bottom_up m0) -> exists j, lay j x.
  Proof.
    unfold bottom_up. intros H. apply in_concat in H. destruct H as (l & Hl & Hx).
    apply in_rev in Hl. apply (In_nth _ _ []) in Hl. destruct Hl as (j & _ & Ej).
    exists j. unfold lay. rewrite Ej. exact Hx.
  Qed.

  Lemma lay_bu j x : lay j x -> In x (bottom_up m0).
  Proof.
    unfold lay, bottom_up. intros H. apply in_concat. exists (nth j (m_layers m0) []). split; [|exact H].
    apply in_rev. rewrite rev_involutive.
    destruct (Nat.lt_ge_cases j (length (m_layers m0))) as [Hlt|Hge]; [apply nth_In; exact Hlt|].
    rewrite nth_overflow in H by exact Hge. destruct H.
  Qed.

  Lemma Fr_node (a : mdd) x : Fr a -> gn a x = nd x (theta_of a x).
  Proof.
    intros (_ & F2 & _). unfold nd, theta_of. rewrite (node_of_sk (gn a x)) at 1. rewrite F2. apply set_theta_sk.
  Qed.

  (* the propagation of the threshold of x to its parents: thresholds only go down, only parents of x are touched,
     and each parent ends up at most at (threshold of x) - (cost of the arc) *)
  Lemma th_prop_spec (a1 : mdd) x :
    Fr a1 -> (forall eid, In eid (n_inb (gn m0 x)) -> (e_from (get_edge m0 eid) < length (m_nodes m0))%nat) ->
    let a2 := th_prop a1 x in
    Fr a2 /\ m_cache a2 = m_cache a1 /\
    (forall y, tle (theta_of a2 y) (theta_of a1 y)) /\
    (forall y, (forall eid, In eid (n_inb (gn m0 x)) -> e_from (get_edge m0 eid) <> y) -> gn a2 y = gn a1 y) /\
    (forall my, theta_of a1 x = Some my -> forall eid, In eid (n_inb (gn m0 x)) ->
       exists t', theta_of a2 (e_from (get_edge m0 eid)) = Some t' /\ t' <= sat_sub my (e_cost (get_edge m0 eid))).
  Proof.
    intros (L1 & S1 & E1) Hfrom. cbv zeta. unfold th_prop. fold (theta_of a1 x).
    destruct (sk_fields _ _ (S1 x)) as (_ & _ & _ & _ & _ & Hinb & _). rewrite Hinb.
    assert (Hge : forall k, get_edge a1 k = get_edge m0 k) by (intros k; apply ge_edges_eq; exact E1).
    destruct (theta_of a1 x) as [my|].
    - destruct (prop_fold_spec my (n_inb (gn m0 x)) a1) as (Q1 & Q2 & Q2c & Q3 & Q4 & Q5 & Q6).
      cbv zeta in Q1, Q2, Q2c, Q3, Q4, Q5, Q6.
      split; [split; [congruence|split; [intros y; rewrite Q3; apply S1|congruence]]|]. split; [exact Q2c|].
      split; [exact Q4|]. split.
      + intros y Hy. apply Q5. intros eid Hin. rewrite Hge. apply Hy. exact Hin.
      + intros my' Emy eid Hin. inversion Emy; subst my'. rewrite <- (Hge eid). apply Q6; [exact Hin|].
        rewrite Hge, L1. apply Hfrom. exact Hin.
    - split; [repeat split; assumption|]. split; [reflexivity|]. split; [intros y; apply tle_refl|].
      split; [reflexivity|]. intros my Emy. discriminate.
  Qed.

  (* ---------------------------------------------------------------- the hypotheses on the static diagram; nodes dropped by the cache *)
  Hypothesis Hrd : (rd <= N)%nat.
  Hypothesis nv_some : forall k l, (k < N)%nat -> exists x, next_variable pb k l = Some x.
  Hypothesis cov_sim : forall s s' x v, cov s s' -> In v (domain pb x s') ->
    let d := {| d_var := x; d_val := v |} in
    In v (domain pb x s) /\ cov (transition pb s d) (transition pb s' d) /\
    transition_cost pb s' (transition pb s' d) d <= transition_cost pb s (transition pb s d) d.
  Variable Drained : nat -> Prop.
  Variable Old : nat -> St -> Z -> Prop.      (* (depth, state, threshold) recorded in the cache the compilation started from *)
  Variable c0 : @cache St.

  Definition cached (x : nat) : Prop := f_cache (n_flags (gn m0 x)) = true.
  Definition thc0 (x : nat) : option Z := n_theta (gn m0 x).

  Hypothesis H_range : forall j x, lay j x -> (x < length (m_nodes m0))%nat.
  Hypothesis H_uniq : forall j j' x, lay j x -> lay j' x -> j = j'.
  Hypothesis H_ord : forall done x rest, bottom_up m0 = done ++ x :: rest ->
    ~ In x done /\
    (forall eid, In eid (n_inb (gn m0 x)) -> ~ In (e_from (get_edge m0 eid)) (done ++ [x])) /\
    (forall j c, lay j x -> lay (S j) c -> In c done).
  Hypothesis H_efrom : forall j x eid, lay j x -> In eid (n_inb (gn m0 x)) ->
    (e_from (get_edge m0 eid) < length (m_nodes m0))%nat.
  Hypothesis H_depth : forall j x, lay j x -> live x -> n_depth (gn m0 x) = (rd + j)%nat.
  Hypothesis H_SC : forall j x s var val, lay j x -> live x -> ~ cached x -> Adm x s -> (rd + j < N)%nat -> branched x ->
    next_variable pb (rd + j) [] = Some var -> In val (domain pb var s) ->
    let d := {| d_var := var; d_val := val |} in
    exists c eid, lay (S j) c /\ live c /\ Adm c (transition pb s d) /\
      In eid (n_inb (gn m0 c)) /\ e_from (get_edge m0 eid) = x /\ e_dec (get_edge m0 eid) = d /\
      rcost s d <= e_cost (get_edge m0 eid).
  Hypothesis H_cached : forall j x, lay j x -> live x -> cached x ->
    exists tc, thc0 x = Some tc /\ vt x <= tc /\ Old (rd + j) (st x) tc.
  Hypothesis H_cut_ex : forall j x, lay j x -> cuts x -> isex x.
  Hypothesis H_kid : forall j x c eid, lay j x -> live x -> isex x -> above x -> ~ cuts x ->
    lay (S j) c -> live c -> In eid (n_inb (gn m0 c)) -> e_from (get_edge m0 eid) = x -> isex c /\ above c.
  Hypothesis H_real : forall j x, lay j x -> live x -> isex x -> Start j (st x) (vt x).
  Hypothesis H_vtop : forall j x ds1 y s1 v1, lay j x -> live x -> isex x ->
    lpath j x (st x) ds1 y s1 -> frun pb (rd + j) (st x) (vt x) ds1 = Some (s1, v1) -> v1 <= vt y.
  Hypothesis H_locb : forall j x ds T s' w0 w1, lay j x -> live x -> cuts x ->
    lpath j x (st x) ds T s' -> complete j ds -> frun pb (rd + j) (st x) w0 ds = Some (s', w1) ->
    (forall ds1 ds2 s1 v1, ds = ds1 ++ ds2 -> frun pb (rd + j) (st x) w0 ds1 = Some (s1, v1) -> in_isize (w1 - v1)) ->
    w1 - w0 <= vb x.
  Hypothesis H_drain : forall j x ds T s' w0 w1, lay j x -> live x -> cuts x ->
    lpath j x (st x) ds T s' -> complete j ds -> frun pb (rd + j) (st x) w0 ds = Some (s', w1) ->
    (forall ds1 ds2 s1 v1, ds = ds1 ++ ds2 -> frun pb (rd + j) (st x) w0 ds1 = Some (s1, v1) -> in_isize (w1 - v1)) ->
    Drained x.
  Hypothesis H_above_ex : forall j x, lay j x -> live x -> above x -> isex x.

  (* ---------------------------------------------------------------- a run is lost to the cache at layer >= jm *)
  Definition LostAt (jm : nat) (val : Z) : Prop :=
    exists j' y tc h, (jm <= j')%nat /\ lay j' y /\ live y /\ cached y /\ Old (rd + j') (st y) tc /\
      H pb (rd + j') (st y) = Some h /\ val <= tc + h.

  Lemma LostAt_mono jm jm' val val' : (jm' <= jm)%nat -> val' <= val -> LostAt jm val -> LostAt jm' val'.
  Proof.
    intros Hj Hv (j' & y & tc & h & L1 & L2 & L3 & L4 & L5 & L6 & L7).
    exists j', y, tc, h. repeat split; auto; lia.
  Qed.

  Lemma complete_eq j ds : complete j ds <-> (rd + j + length ds = N)%nat.
  Proof. reflexivity. Qed.

  Lemma cached_dec x : {cached x} + {~ cached x}.
  Proof. unfold cached. destruct (f_cache (n_flags (gn m0 x))); [left; reflexivity|right; discriminate]. Qed.

  Definition cj (x j : nat) : nat := if f_cache (n_flags (gn m0 x)) then j else S j.

  (* a run that reaches a node dropped by the cache with an arrival value below the recorded threshold is lost there *)
  Lemma cached_lost j x s r ds s' r' tc : lay j x -> live x -> cached x -> Old (rd + j) (st x) tc ->
    cov (st x) s -> frun pb (rd + j) s r ds = Some (s', r') -> complete j ds ->
    forall val, val <= tc + (r' - r) -> LostAt j val.
  Proof.
    intros Hl Hv Hc Ho Hcov Hr Hcomp val Hval.
    destruct (frun_le_H pb nv_static nv_none ds (rd + j) s r s' r' Hcomp Hr) as (hs & Hhs & Hle).
    assert (HjN : (rd + j <= N)%nat).
    { pose proof (proj1 (complete_eq j ds) Hcomp) as Hcq. lia. }
    destruct (H_cov pb nv_static nv_some nv_none cov cov_sim (rd + j) (st x) s hs HjN Hcov Hhs) as (h & Hh & Hhh).
    exists j, x, tc, h. repeat split; auto; lia.
  Qed.

  (* ---------------------------------------------------------------- live paths and where a run leaves the diagram *)
  Definition Fall (j x : nat) (s : St) (ds : list decision) : Prop :=
    exists ds1 ds2 y s1, ds = ds1 ++ ds2 /\ lpath j x s ds1 y s1 /\ (rd + j + length ds1 < N)%nat /\
      (~ branched y \/ cached y).

  Lemma path_dich ds : forall j x s r s' r', lay j x -> live x -> Adm x s ->
    frun pb (rd + j) s r ds = Some (s', r') -> complete j ds ->
    (exists T, lpath j x s ds T s') \/ Fall j x s ds.
  Proof.
    induction ds as [|d ds IH]; intros j x s r s' r' Hl Hv Ha Hr Hc.
    - simpl in Hr. inversion Hr; subst. left. exists x. apply lp_nil; assumption.
    - rewrite frun_cons in Hr. fold pb in Hr.
      destruct (var_ok pb (rd + j) d) eqn:Ev; [|discriminate]. destruct (in_domain pb s d) eqn:Ed; [|discriminate].
      simpl in Hr. apply (proj1 (complete_eq _ _)) in Hc. simpl in Hc.
      destruct (cached_dec x) as [Hcx|Hcx].
      { right. exists [], (d :: ds), x, s. split; [reflexivity|]. split; [apply lp_nil; assumption|].
        split; [simpl; lia|right; exact Hcx]. }
      destruct (branched_dec x) as [Hb|Hb].
      + apply (var_ok_spec pb nv_static (rd + j) d []) in Ev. apply in_domain_In in Ed.
        destruct (H_SC j x s (d_var d) (d_val d) Hl Hv Hcx Ha ltac:(lia) Hb Ev Ed) as (c & eid & C1 & C2 & C3 & C4 & C5 & C6 & C7).
        cbv zeta in C3, C6, C7. rewrite mkdec_eta in C3, C6, C7.
        replace (S (rd + j)) with (rd + S j)%nat in Hr by lia.
        destruct (IH (S j) c _ _ _ _ C1 C2 C3 Hr) as [[T HT]|HF].
        * apply (proj2 (complete_eq _ _)). lia.
        * left. exists T. eapply lp_cons; eauto.
        * right. destruct HF as (ds1 & ds2 & y & s1 & E & Hp & Hlt & Hnb).
          exists (d :: ds1), ds2, y, s1. split; [simpl; rewrite E; reflexivity|]. split; [eapply lp_cons; eauto|].
          split; [simpl; lia|exact Hnb].
      + right. exists [], (d :: ds), x, s. split; [reflexivity|]. split; [apply lp_nil; assumption|].
        split; [simpl; lia|left; exact Hb].
  Qed.

  Lemma run_isize j s r ds s' r' : Start j s r -> frun pb (rd + j) s r ds = Some (s', r') ->
    forall ds1 ds2 s1 v1, ds = ds1 ++ ds2 -> frun pb (rd + j) s r ds1 = Some (s1, v1) -> in_isize (r' - v1).
  Proof.
    intros HS Hr ds1 ds2 s1 v1 _ Hr1. apply isize_diff.
    - apply (Start_guard _ _ _ (Start_ext _ _ _ _ _ _ HS Hr)).
    - apply (Start_guard _ _ _ (Start_ext _ _ _ _ _ _ HS Hr1)).
  Qed.

  (* a run from an exact node at its own value that follows a live path ds1 to y arrives there with a real value <= vt y *)
  Lemma fall_split j x ds1 ds2 y s1 s' r' : lay j x -> live x -> isex x ->
    frun pb (rd + j) (st x) (vt x) (ds1 ++ ds2) = Some (s', r') -> complete j (ds1 ++ ds2) -> lpath j x (st x) ds1 y s1 ->
    exists v1, lay (j + length ds1) y /\ live y /\ cov (st y) s1 /\ v1 <= vt y /\ Start (j + length ds1) s1 v1 /\
      frun pb (rd + (j + length ds1)) s1 v1 ds2 = Some (s', r') /\ complete (j + length ds1) ds2.
  Proof.
    intros Hl Hv Hx Hr Hcomp Hp. rewrite frun_app in Hr.
    destruct (frun pb (rd + j) (st x) (vt x) ds1) as [[s1' v1]|] eqn:E1; [|discriminate].
    destruct (lpath_end _ _ _ _ _ _ Hp) as (L1 & L2 & L3 & L4).
    assert (s1' = s1) by (rewrite L4; apply (frun_state pb _ _ _ _ _ _ E1)). subst s1'.
    exists v1. split; [exact L1|]. split; [exact L2|]. split; [exact (proj1 L3)|].
    split; [exact (H_vtop j x ds1 y s1 v1 Hl Hv Hx Hp E1)|].
    split; [exact (Start_ext _ _ _ _ _ _ (H_real j x Hl Hv Hx) E1)|].
    split; [replace (rd + (j + length ds1))%nat with (rd + j + length ds1)%nat by lia; exact Hr|].
    apply (proj2 (complete_eq _ _)). apply (proj1 (complete_eq _ _)) in Hcomp. rewrite app_length in Hcomp. lia.
  Qed.

  (* ---------------------------------------------------------------- leaving the diagram from a cut-set node whose threshold is its value *)
  Lemma cut_vtop_fall j x r ds1 ds2 y s1 s' r' : lay j x -> live x -> isex x ->
    Start j (st x) r -> frun pb (rd + j) (st x) r (ds1 ++ ds2) = Some (s', r') -> complete j (ds1 ++ ds2) ->
    lpath j x (st x) ds1 y s1 -> (rd + j + length ds1 < N)%nat -> (~ branched y \/ cached y) ->
    forall dl, r + dl <= vt x -> r' + dl <= bk \/ LostAt (j + length ds1) (r' + dl).
  Proof.
    intros Hl Hv Hx HS Hr Hcomp Hp Hlt Hnb dl Hdl.
    set (a := vt x - r).
    pose proof (frun_shift pb _ _ _ _ a _ _ Hr) as Hr2. replace (r + a) with (vt x) in Hr2 by (unfold a; lia).
    destruct (fall_split j x ds1 ds2 y s1 s' (r' + a) Hl Hv Hx Hr2 Hcomp Hp) as (v1 & L1 & L2 & L3 & Hv1 & HS1 & Hr3 & Hc2).
    destruct Hnb as [Hnb|Hcy].
    - left.
      pose proof (cost_le_rub _ y s1 v1 ds2 s' (r' + a) L1 L3 HS1 Hr3 Hc2) as Hcr.
      pose proof (Start_guard _ _ _ (Start_ext _ _ _ _ _ _ HS1 Hr3)) as HgV.
      assert (HV : r' + a <= sat_add (rb y) (vt y)).
      { apply sat_add_ge; [unfold in_isize, IMIN, IMAX in *; lia|lia]. }
      unfold branched in Hnb. fold lb in Hnb. unfold a in *. lia.
    - right. destruct (H_cached _ y L1 L2 Hcy) as (tc & _ & Htc & Hold).
      apply (cached_lost (j + length ds1) y s1 v1 ds2 s' (r' + a) tc L1 L2 Hcy Hold L3 Hr3 Hc2).
      unfold a. lia.
  Qed.

  (* capture by a drained cut-set node; with e = true the node is met strictly deeper than the starting point *)
  Definition CaptD (e : bool) (j : nat) (s : St) (w : Z) (ds : list decision) : Prop :=
    exists ds1 ds2 y s1 w1, ds = ds1 ++ ds2 /\ frun pb (rd + j) s w ds1 = Some (s1, w1) /\
      Drained y /\ st y = s1 /\ n_depth (gn m0 y) = (rd + j + length ds1)%nat /\ w1 <= vt y /\ (e = true -> ds1 <> []).

  Lemma CaptD_weaken e j s w ds : CaptD e j s w ds -> CaptD false j s w ds.
  Proof.
    intros (ds1 & ds2 & y & s1 & w1 & A1 & A2 & A3 & A4 & A5 & A6 & _).
    exists ds1, ds2, y, s1, w1. repeat split; auto. discriminate.
  Qed.

  Definition cutb (x : nat) : bool := f_cutset (n_flags (gn m0 x)).

  Lemma capt_here j x w ds : lay j x -> live x -> Drained x -> w <= vt x -> CaptD false j (st x) w ds.
  Proof.
    intros Hl Hv Hd Hw. exists [], ds, x, (st x), w. split; [reflexivity|]. split; [reflexivity|].
    split; [exact Hd|]. split; [reflexivity|]. split; [|split; [exact Hw|discriminate]].
    rewrite (H_depth j x Hl Hv). simpl. fold rd. lia.
  Qed.

  Lemma Capt_cons j x d ds c r e e' :
    var_ok pb (rd + j) d = true -> in_domain pb (st x) d = true -> transition pb (st x) d = st c ->
    CaptD e (S j) (st c) (r + rcost (st x) d) ds -> CaptD e' j (st x) r (d :: ds).
  Proof.
    intros V1 V2 Etr (ds1 & ds2 & y & s1 & w1 & E & Hf & Hd & Hs & Hdep & Hw & _).
    exists (d :: ds1), ds2, y, s1, w1. split; [simpl; rewrite E; reflexivity|]. split.
    { change (frun pb (rd + j) (st x) r (d :: ds1) = Some (s1, w1)). cbn [frun]. rewrite V1, V2. cbn [andb].
      replace (S (rd + j)) with (rd + S j)%nat by lia.
      change (transition_cost pb (st x) (transition pb (st x) d) d) with (rcost (st x) d).
      rewrite Etr. exact Hf. }
    split; [exact Hd|]. split; [exact Hs|]. split; [rewrite Hdep; simpl; lia|]. split; [exact Hw|discriminate].
  Qed.

  (* one step of a run along a live path from an exact node above the cut-set: the child is exact, above, and the run goes on from it *)
  Lemma exact_step j x r d ds T s' r' : lay j x -> live x -> isex x -> above x -> ~ cuts x -> Start j (st x) r ->
    frun pb (rd + j) (st x) r (d :: ds) = Some (s', r') -> complete j (d :: ds) -> lpath j x (st x) (d :: ds) T s' ->
    exists c eid, lay (S j) c /\ live c /\ isex c /\ above c /\ In eid (n_inb (gn m0 c)) /\ e_from (get_edge m0 eid) = x /\
      e_dec (get_edge m0 eid) = d /\ rcost (st x) d <= e_cost (get_edge m0 eid) /\
      var_ok pb (rd + j) d = true /\ in_domain pb (st x) d = true /\ transition pb (st x) d = st c /\
      Start (S j) (st c) (r + rcost (st x) d) /\ frun pb (rd + S j) (st c) (r + rcost (st x) d) ds = Some (s', r') /\
      complete (S j) ds /\ lpath (S j) c (st c) ds T s'.
  Proof.
    intros Hl Hv Hex Hab Hnc HS Hr Hcomp Hp.
    destruct (lpath_cons_inv _ _ _ _ _ _ _ Hp) as (c & eid & A4 & A5 & A6 & A7 & Hp').
    destruct (lpath_start _ _ _ _ _ _ Hp') as (C1 & C2 & C3).
    destruct (H_kid j x c eid Hl Hv Hex Hab Hnc C1 C2 A4 A5) as [Hexc Habc].
    assert (Etr : transition pb (st x) d = st c) by exact (proj2 C3 Hexc).
    change (lpath (S j) c (transition pb (st x) d) ds T s') in Hp'.
    destruct (frun_cons_inv _ _ _ _ _ _ _ Hr) as (V1 & V2 & Hr').
    fold pb in V1, V2, Hr'.
    replace (S (rd + j)) with (rd + S j)%nat in Hr' by lia.
    pose proof (Start_step j (st x) r _ HS V1 V2) as HSc.
    fold pb in HSc. rewrite Etr in Hr', HSc, Hp'.
    exists c, eid. repeat (split; [assumption|]). split; [|exact Hp'].
    apply (proj2 (complete_eq _ _)). apply (proj1 (complete_eq _ _)) in Hcomp. simpl in Hcomp. lia.
  Qed.

  (* ---------------------------------------------------------------- the two semantic invariants *)
  Definition GB (x : nat) (th : option Z) : Prop :=
    forall j s r ds s' r', lay j x -> Adm x s -> Start j s r ->
      frun pb (rd + j) s r ds = Some (s', r') -> complete j ds -> Fall j x s ds ->
      exists t, th = Some t /\ forall dl, IMIN + B < dl -> r + dl <= t -> r' + dl <= bk \/ LostAt (cj x j) (r' + dl).

  Definition GA (x : nat) (th : option Z) : Prop :=
    isex x -> above x ->
    forall j r ds s' r' T, lay j x -> Start j (st x) r ->
      frun pb (rd + j) (st x) r ds = Some (s', r') -> complete j ds -> lpath j x (st x) ds T s' ->
      exists t, th = Some t /\
        forall dl, IMIN + B < dl -> r + dl <= t ->
          r' + dl <= bk \/ CaptD (negb (cutb x)) j (st x) (r + dl) ds \/ LostAt (cj x j) (r' + dl).

  Lemma cj_ge x j : (j <= cj x j)%nat.
  Proof. unfold cj. destruct (f_cache _); lia. Qed.
  Lemma cj_nc x j : ~ cached x -> cj x j = S j.
  Proof. unfold cj, cached. destruct (f_cache _); [intros H; exfalso; apply H; reflexivity|reflexivity]. Qed.
  Lemma cj_c x j : cached x -> cj x j = j.
  Proof. unfold cj, cached. intros ->. reflexivity. Qed.

  Section Core.
    Variables (x j : nat) (pre : option Z) (thk : nat -> option Z).
    Hypothesis Hl : lay j x.
    Hypothesis Hv : live x.
    Hypothesis KB : forall c, lay (S j) c -> live c -> GB c (thk c).
    Hypothesis KA : forall c, lay (S j) c -> live c -> GA c (thk c).
    Hypothesis KQ : forall c eid tc, lay (S j) c -> live c -> thk c = Some tc ->
      In eid (n_inb (gn m0 c)) -> e_from (get_edge m0 eid) = x ->
      exists tp, pre = Some tp /\ tp <= sat_sub tc (e_cost (get_edge m0 eid)).
    Hypothesis KT : isex x -> above x -> (rd + j = N)%nat -> exists t, pre = Some t /\ t <= bk.
    Hypothesis KM : cached x -> tle pre (thc0 x).

    Lemma own_theta_nd :
      own_theta bk (nd x pre) =
        if negb (f_cache (n_flags (gn m0 x))) then
          if sat_add (vt x) (rb x) <=? bk then Some (sat_sub bk (rb x))
          else if f_cutset (n_flags (gn m0 x)) then
            if sat_add (vt x) (vb x) <=? bk then Some (Z.min (opt_default IMAX pre) (sat_sub bk (vb x)))
            else Some (vt x)
          else if fl_is_exact (n_flags (gn m0 x)) && match pre with None => true | Some _ => false end
            then Some IMAX else pre
        else pre.
    Proof. unfold own_theta, nd. cbn [n_flags n_vtop n_rub n_vbot n_theta set_theta]. reflexivity. Qed.

    (* a node dropped by the cache: its threshold is (at most) the recorded one *)
    Lemma cached_case : cached x ->
      exists t tc, pre = Some t /\ t <= tc /\ Old (rd + j) (st x) tc /\
        own_theta bk (nd x pre) = Some t.
    Proof.
      intros Hc. destruct (H_cached j x Hl Hv Hc) as (tc & E0 & _ & Hold).
      pose proof (KM Hc) as Ht. rewrite E0 in Ht. simpl in Ht. destruct Ht as (t & Et & Hle).
      exists t, tc. split; [exact Et|]. split; [exact Hle|]. split; [exact Hold|].
      rewrite own_theta_nd. unfold cached in Hc. rewrite Hc. simpl. exact Et.
    Qed.

    Lemma core_GB : GB x (own_theta bk (nd x pre)).
    Proof.
      intros j' s r ds s' r' Hl' Ha HS Hr Hcomp HF.
      assert (j' = j) by (eapply H_uniq; eauto). subst j'.
      destruct (cached_dec x) as [Hcx|Hcx].
      { destruct (cached_case Hcx) as (t & tc & Et & Hle & Hold & Eo). rewrite Eo.
        exists t. split; [reflexivity|]. intros dl Hdl Hrt. right. rewrite (cj_c x j Hcx).
        apply (cached_lost j x s r ds s' r' tc Hl Hv Hcx Hold (proj1 Ha) Hr Hcomp). lia. }
      rewrite (cj_nc x j Hcx).
      rewrite own_theta_nd. assert (Efc : f_cache (n_flags (gn m0 x)) = false).
      { unfold cached in Hcx. destruct (f_cache (n_flags (gn m0 x))); [exfalso; apply Hcx; reflexivity|reflexivity]. }
      rewrite Efc. cbn [negb].
      destruct (sat_add (vt x) (rb x) <=? bk) eqn:E1.
      { eexists. split; [reflexivity|]. intros dl Hdl Hle. left.
        exact (rub_case_sound j x s r ds s' r' Hl (proj1 Ha) HS Hr Hcomp dl Hdl Hle). }
      pose proof (not_rub_branched x E1) as Hbr.
      destruct HF as (ds1 & ds2 & y & s1 & E & Hp & Hlt & Hnb). subst ds.
      destruct ds1 as [|d ds1].
      { destruct (lpath_nil_inv _ _ _ _ _ Hp) as [-> _]. destruct Hnb; contradiction. }
      destruct (lpath_cons_inv _ _ _ _ _ _ _ Hp) as (c & eid & A4 & A5 & A6 & A7 & Hp').
      destruct (lpath_start _ _ _ _ _ _ Hp') as (C1 & C2 & C3).
      change ((d :: ds1) ++ ds2) with (d :: (ds1 ++ ds2)) in Hr, Hcomp.
      destruct (frun_cons_inv _ _ _ _ _ _ _ Hr) as (V1 & V2 & Hr').
      fold pb in V1, V2, Hr'.
      replace (S (rd + j)) with (rd + S j)%nat in Hr' by lia.
      pose proof (Start_step j s r _ HS V1 V2) as HSc.
      assert (Hcc : complete (S j) (ds1 ++ ds2)).
      { apply (proj2 (complete_eq _ _)). apply (proj1 (complete_eq _ _)) in Hcomp. simpl in Hcomp. lia. }
      assert (HFc : Fall (S j) c (transition pb s d) (ds1 ++ ds2)).
      { exists ds1, ds2, y, s1. split; [reflexivity|]. split; [exact Hp'|]. split; [simpl in Hlt; lia|exact Hnb]. }
      destruct (KB c C1 C2 (S j) _ _ _ _ _ C1 C3 HSc Hr' Hcc HFc) as (tc & Etc & Hsc).
      destruct (KQ c eid tc C1 C2 Etc A4 A5) as (tp & -> & Htp).
      pose proof (Start_guard _ _ _ HS) as Hg.
      assert (Hs : forall dl, IMIN + B < dl -> r + dl <= tp -> r' + dl <= bk \/ LostAt (S j) (r' + dl)).
      { apply (via_child (fun dl => r' + dl <= bk \/ LostAt (S j) (r' + dl)) r (rcost s d)
                 (e_cost (get_edge m0 eid)) tp tc A7 (proj1 Hg) Htp).
        intros dl Hdl Hle. destruct (Hsc dl Hdl ltac:(lia)) as [H1|H1]; [left; exact H1|right].
        eapply LostAt_mono; [apply cj_ge|apply Z.le_refl|exact H1]. }
      destruct (f_cutset (n_flags (gn m0 x))) eqn:E2.
      - destruct (sat_add (vt x) (vb x) <=? bk) eqn:E3.
        + eexists. split; [reflexivity|]. intros dl Hdl Hle. apply Hs; [exact Hdl|]. simpl in Hle. lia.
        + eexists. split; [reflexivity|]. intros dl Hdl Hle.
          pose proof (H_cut_ex j x Hl E2) as Hex. pose proof (proj2 Ha Hex) as Es. subst s.
          destruct (cut_vtop_fall j x r (d :: ds1) ds2 y s1 s' r' Hl Hv Hex HS Hr Hcomp Hp Hlt Hnb dl Hle) as [H1|H1];
            [left; exact H1|right].
          eapply LostAt_mono; [|apply Z.le_refl|exact H1]. simpl. lia.
      - rewrite andb_false_r. eexists. split; [reflexivity|]. exact Hs.
    Qed.

    Lemma core_GA : GA x (own_theta bk (nd x pre)).
    Proof.
      intros Hex Hab j' r ds s' r' T Hl' HS Hr Hcomp Hp.
      assert (j' = j) by (eapply H_uniq; eauto). subst j'.
      destruct (lpath_start _ _ _ _ _ _ Hp) as (_ & _ & Ha).
      destruct (cached_dec x) as [Hcx|Hcx].
      { destruct (cached_case Hcx) as (t & tc & Et & Hle & Hold & Eo). rewrite Eo.
        exists t. split; [reflexivity|]. intros dl Hdl Hrt. right; right. rewrite (cj_c x j Hcx).
        apply (cached_lost j x (st x) r ds s' r' tc Hl Hv Hcx Hold (proj1 Ha) Hr Hcomp). lia. }
      rewrite (cj_nc x j Hcx).
      rewrite own_theta_nd. assert (Efc : f_cache (n_flags (gn m0 x)) = false).
      { unfold cached in Hcx. destruct (f_cache (n_flags (gn m0 x))); [exfalso; apply Hcx; reflexivity|reflexivity]. }
      rewrite Efc. cbn [negb].
      pose proof (Start_guard _ _ _ HS) as Hg.
      destruct (sat_add (vt x) (rb x) <=? bk) eqn:E1.
      { eexists. split; [reflexivity|]. intros dl Hdl Hle. left.
        exact (rub_case_sound j x (st x) r ds s' r' Hl (proj1 Ha) HS Hr Hcomp dl Hdl Hle). }
      destruct (f_cutset (n_flags (gn m0 x))) eqn:E2.
      - destruct (sat_add (vt x) (vb x) <=? bk) eqn:E3.
        + eexists. split; [reflexivity|]. intros dl Hdl Hle. left.
          pose proof (H_locb j x ds T s' r r' Hl Hv E2 Hp Hcomp Hr (run_isize _ _ _ _ _ _ HS Hr)) as Hlb.
          assert (Hle2 : r + dl <= sat_sub bk (vb x)) by lia.
          pose proof (sat_sub_sound bk (vb x) (r + dl) ltac:(lia) Hle2). lia.
        + eexists. split; [reflexivity|]. intros dl Hdl Hle. right; left.
          unfold cutb. rewrite E2. apply (capt_here j x (r + dl) ds Hl Hv); [|exact Hle].
          exact (H_drain j x ds T s' r r' Hl Hv E2 Hp Hcomp Hr (run_isize _ _ _ _ _ _ HS Hr)).
      - destruct ds as [|d ds].
        + destruct (KT Hex Hab) as (t0 & -> & Ht0).
          { apply (proj1 (complete_eq _ _)) in Hcomp. simpl in Hcomp. lia. }
          rewrite andb_false_r. eexists. split; [reflexivity|]. intros dl Hdl Hle. left.
          simpl in Hr. inversion Hr; subst. lia.
        + assert (Hnc : ~ cuts x) by (unfold cuts; rewrite E2; discriminate).
          destruct (exact_step j x r d ds T s' r' Hl Hv Hex Hab Hnc HS Hr Hcomp Hp)
            as (c & eid & C1 & C2 & Hexc & Habc & A4 & A5 & A6 & A7 & V1 & V2 & Etr & HSc & Hr' & Hcc & Hp').
          destruct (KA c C1 C2 Hexc Habc (S j) _ _ _ _ T C1 HSc Hr' Hcc Hp') as (tc & Etc & Hsc).
          destruct (KQ c eid tc C1 C2 Etc A4 A5) as (tp & -> & Htp).
          rewrite andb_false_r. eexists. split; [reflexivity|].
          apply (via_child
                   (fun dl => r' + dl <= bk \/ CaptD (negb (cutb x)) j (st x) (r + dl) (d :: ds) \/ LostAt (S j) (r' + dl)) r (rcost (st x) d)
                   (e_cost (get_edge m0 eid)) tp tc A7 (proj1 Hg) Htp).
          intros dl Hdl Hle. destruct (Hsc dl Hdl Hle) as [H1|[H1|H1]]; [left; exact H1|right; left|right; right].
          * replace (r + rcost (st x) d + dl) with (r + dl + rcost (st x) d) in H1 by lia.
            exact (Capt_cons j x d ds c (r + dl) _ _ V1 V2 Etr H1).
          * eapply LostAt_mono; [apply cj_ge|apply Z.le_refl|exact H1].
    Qed.
  End Core.

  (* ---------------------------------------------------------------- what a sound threshold of a node above the cut-set means *)
  Definition SafeAt (j : nat) (s : St) (t : Z) (e : bool) : Prop :=
    (exists r, Start j s r) /\
    forall v ds s' v', IMIN + 2 * B < v -> v <= t ->
      frun pb (rd + j) s v ds = Some (s', v') -> complete j ds ->
      v' <= bk \/ CaptD e j s v ds \/ LostAt (S j) v'.

  Lemma node_safe x j t : lay j x -> live x -> above x -> ~ cached x -> GA x (Some t) -> GB x (Some t) ->
    SafeAt j (st x) t (negb (cutb x)).
  Proof.
    intros Hl Hv Hab Hnc HA HG.
    pose proof (H_above_ex j x Hl Hv Hab) as Hex.
    pose proof (H_real j x Hl Hv Hex) as HS. pose proof (Start_guard _ _ _ HS) as Hg.
    split; [exists (vt x); exact HS|].
    intros v ds s' v' Hv1 Hv2 Hr Hcomp.
    set (dl := v - vt x).
    pose proof (frun_shift pb _ _ _ _ (- dl) _ _ Hr) as Hr2. replace (v + - dl) with (vt x) in Hr2 by (unfold dl; lia).
    assert (Ha : Adm x (st x)) by (split; [apply cov_refl|reflexivity]).
    assert (Hdl : IMIN + B < dl) by (unfold dl; lia).
    assert (Hle : vt x + dl <= t) by (unfold dl; lia).
    destruct (path_dich ds j x (st x) (vt x) s' (v' + - dl) Hl Hv Ha Hr2 Hcomp) as [[T HT]|HF].
    - destruct (HA Hex Hab j (vt x) ds s' (v' + - dl) T Hl HS Hr2 Hcomp HT) as (t' & Et & Hs).
      inversion Et; subst t'. destruct (Hs dl Hdl Hle) as [H1|[H1|H1]].
      + left. lia.
      + right; left. replace (vt x + dl) with v in H1 by (unfold dl; lia). exact H1.
      + right; right. rewrite (cj_nc x j Hnc) in H1. eapply LostAt_mono; [apply Nat.le_refl| |exact H1]. lia.
    - destruct (HG j (st x) (vt x) ds s' (v' + - dl) Hl Ha HS Hr2 Hcomp HF) as (t' & Et & Hs).
      inversion Et; subst t'. destruct (Hs dl Hdl Hle) as [H1|H1].
      + left. lia.
      + right; right. rewrite (cj_nc x j Hnc) in H1. eapply LostAt_mono; [apply Nat.le_refl| |exact H1]. lia.
  Qed.

  (* ---------------------------------------------------------------- the cache: every entry is an initial one, or sound *)
  Definition CacheOKg (c : @cache St) : Prop :=
    forall d s th, cget st_eqb c s d = Some th ->
      cget st_eqb c0 s d = Some th \/ exists j, d = (rd + j)%nat /\ SafeAt j s (th_value th) (th_explored th).

  Lemma CacheOKg_update c s d v e c' j :
    update_threshold st_eqb c s d v e = Some c' -> CacheOKg c -> d = (rd + j)%nat -> SafeAt j s v e -> CacheOKg c'.
  Proof.
    intros Hu HC Hd HS d' s' th Hg.
    assert (Hlen : length c' = length c) by (apply (cstep_length st_eqb c (OpUpdate s d v e) c'); exact Hu).
    assert (Hd' : (d' < length c)%nat).
    { unfold cget in Hg. destruct (nth_error c' d') eqn:E; [|discriminate].
      rewrite <- Hlen. apply nth_error_Some. congruence. }
    rewrite (cget_step st_eqb st_eqb_spec c (OpUpdate s d v e) c' s' d' Hu Hd') in Hg.
    destruct (Nat.eqb d d' && st_eqb s s') eqn:Ek; [|apply HC; exact Hg].
    apply andb_true_iff in Ek. destruct Ek as [E1 E2]. apply Nat.eqb_eq in E1. apply st_eqb_spec in E2. subst d' s'.
    unfold omax_th in Hg. destruct (cget st_eqb c s d) as [t0|] eqn:E0.
    - inversion Hg; subst th. unfold th_max. destruct (is_gt _).
      + right. exists j. split; [exact Hd|exact HS].
      + apply HC. exact E0.
    - inversion Hg; subst th. right. exists j. split; [exact Hd|exact HS].
  Qed.

  (* the same, read on the lists of the cache instead of through [cget]: it also speaks of entries shadowed by an earlier key *)
  Definition CacheOKl (c : @cache St) : Prop :=
    forall d l s th, nth_error c d = Some l -> In (s, th) l ->
      (exists l0, nth_error c0 d = Some l0 /\ In (s, th) l0) \/
      exists j, d = (rd + j)%nat /\ SafeAt j s (th_value th) (th_explored th).

  Lemma CacheOKl_update c s d v e c' j :
    update_threshold st_eqb c s d v e = Some c' -> CacheOKl c -> d = (rd + j)%nat -> SafeAt j s v e -> CacheOKl c'.
  Proof.
    unfold update_threshold. destruct (nth_error c d) as [l0|] eqn:E0; [|discriminate].
    intros H HC Hd HS. inversion H; subst c'. clear H.
    intros d' l s' th Hn Hin.
    destruct (nth_error_upd_nth_cases _ _ _ _ _ Hn) as [[H1 H2]|[H1 (y0 & H2 & H3)]].
    - eapply HC; eauto.
    - subst d' l. rewrite E0 in H2. inversion H2; subst y0.
      destruct (lupdate_In _ _ _ _ _ Hin) as [H|(-> & [->|(t0 & H & ->)])].
      + eapply HC; eauto.
      + right. exists j. split; [exact Hd|exact HS].
      + eapply HC; eauto.
  Qed.

  (* ---------------------------------------------------------------- the invariant of the fold *)
  Definition PA (a : mdd) (done : list nat) : Prop :=
    forall x, In x done -> live x -> GA x (theta_of a x) /\ GB x (theta_of a x).
  Definition PQ (a : mdd) (done : list nat) : Prop :=
    forall c eid tc, In c done -> live c -> theta_of a c = Some tc -> In eid (n_inb (gn m0 c)) ->
      ~ In (e_from (get_edge m0 eid)) done ->
      exists tp, theta_of a (e_from (get_edge m0 eid)) = Some tp /\ tp <= sat_sub tc (e_cost (get_edge m0 eid)).
  Definition PT (a : mdd) (done : list nat) : Prop :=
    forall x j, ~ In x done -> lay j x -> live x -> isex x -> above x -> (rd + j = N)%nat ->
      exists t, theta_of a x = Some t /\ t <= bk.
  Definition PM (a : mdd) : Prop := forall x, cached x -> tle (theta_of a x) (thc0 x).
  Definition FI (a : mdd) (done : list nat) : Prop :=
    Fr a /\ PA a done /\ PQ a done /\ PT a done /\ PM a /\ CacheOKg (m_cache a) /\ CacheOKl (m_cache a).

  Lemma th_own_cached bk0 (a : mdd) x : f_cache (n_flags (gn a x)) = true -> th_own bk0 a x = a.
  Proof. intros H. unfold th_own. cbv zeta. rewrite H. reflexivity. Qed.

  Lemma th_step_FI (a : mdd) done x rest :
    bottom_up m0 = done ++ x :: rest -> FI a done -> FI (th_step bk a x) (done ++ [x]).
  Proof.
    intros HBU (HF & HPA & HPQ & HPT & HPM & HC & HCl).
    destruct (H_ord _ _ _ HBU) as (O1 & O2 & O3).
    assert (Hxin : In x (bottom_up m0)) by (rewrite HBU; apply in_or_app; right; left; reflexivity).
    destruct (bu_lay x Hxin) as [j Hl].
    pose proof (H_range j x Hl) as Hxlt.
    pose proof HF as (F1 & F2 & F3).
    pose proof (Fr_node a x HF) as Hgx.
    unfold th_step. rewrite Hgx. unfold nd at 1. cbn [n_flags set_theta].
    destruct (f_deleted (n_flags (gn m0 x))) eqn:Edel.
    { (* deleted: skipped *)
      split; [exact HF|]. split; [|split; [|split; [|split]]].
      - intros y Hy Hvy. apply in_app_or in Hy. destruct Hy as [Hy|[<-|[]]]; [apply HPA; assumption|].
        unfold live in Hvy. congruence.
      - intros c eid tc Hc Hvc Et Hin Hnp. apply in_app_or in Hc. destruct Hc as [Hc|[<-|[]]].
        + apply (HPQ c eid tc Hc Hvc Et Hin). intros Hp. apply Hnp. apply in_or_app. left; exact Hp.
        + unfold live in Hvc. congruence.
      - intros y jy Hny. apply HPT. intros Hy. apply Hny. apply in_or_app. left; exact Hy.
      - exact HPM.
      - split; [exact HC|exact HCl]. }
    assert (Hv : live x) by exact Edel.
    set (pre := theta_of a x) in *.
    set (th1 := own_theta bk (nd x pre)).
    set (a1 := th_own bk a x).
    assert (Hlta : (x < length (m_nodes a))%nat) by (rewrite F1; exact Hxlt).
    assert (G1 : forall y, gn a1 y = if Nat.eqb y x then set_theta (gn a x) th1 else gn a y).
    { intros y. unfold a1. rewrite (th_own_gn bk a x y Hlta). rewrite Hgx. reflexivity. }
    assert (G1x : gn a1 x = nd x th1).
    { rewrite G1, Nat.eqb_refl, Hgx. unfold nd. destruct (gn m0 x); reflexivity. }
    assert (G1o : forall y, y <> x -> gn a1 y = gn a y).
    { intros y Hne. rewrite G1. apply Nat.eqb_neq in Hne. rewrite Hne. reflexivity. }
    assert (HF1 : Fr a1).
    { split; [unfold a1; rewrite th_own_nodes; unfold own_upd; simpl; rewrite upd_nth_length; exact F1|].
      split; [|unfold a1; rewrite th_own_edges; exact F3].
      intros y. rewrite G1. destruct (Nat.eqb y x) eqn:E; [|apply F2].
      apply Nat.eqb_eq in E. subst y. rewrite sk_set_theta. apply F2. }
    set (a2 := th_prop a1 x).
    destruct (th_prop_spec a1 x HF1 (fun eid Hin => H_efrom j x eid Hl Hin)) as (HF2 & P5 & P2 & P3 & P4).
    fold a2 in HF2, P5, P2, P3, P4.
    assert (Hth1 : theta_of a1 x = th1) by (unfold theta_of; rewrite G1x; reflexivity). rewrite Hth1 in P4.
    assert (Hfroz : forall y, In y (done ++ [x]) -> gn a2 y = gn a1 y).
    { intros y Hy. apply P3. intros eid Hin E. apply (O2 eid Hin). rewrite E. exact Hy. }
    assert (Hold : forall y, In y done -> theta_of a2 y = theta_of a y).
    { intros y Hy. unfold theta_of. rewrite Hfroz by (apply in_or_app; left; exact Hy).
      rewrite G1o; [reflexivity|]. intros ->. contradiction. }
    assert (Hthx : theta_of a2 x = th1).
    { unfold theta_of. rewrite Hfroz by (apply in_or_app; right; left; reflexivity). rewrite G1x. reflexivity. }
    (* the semantic core *)
    assert (Hcore : GA x th1 /\ GB x th1).
    { assert (KB : forall c, lay (S j) c -> live c -> GB c (theta_of a c)).
      { intros c Hc Hvc. apply HPA; [apply (O3 j c Hl Hc)|exact Hvc]. }
      assert (KA : forall c, lay (S j) c -> live c -> GA c (theta_of a c)).
      { intros c Hc Hvc. apply HPA; [apply (O3 j c Hl Hc)|exact Hvc]. }
      assert (KQ : forall c eid tc, lay (S j) c -> live c -> theta_of a c = Some tc ->
                In eid (n_inb (gn m0 c)) -> e_from (get_edge m0 eid) = x ->
                exists tp, pre = Some tp /\ tp <= sat_sub tc (e_cost (get_edge m0 eid))).
      { intros c eid tc Hc Hvc Et Hin Ef.
        destruct (HPQ c eid tc (O3 j c Hl Hc) Hvc Et Hin) as (tp & Etp & Hle); [rewrite Ef; exact O1|].
        rewrite Ef in Etp. exists tp. auto. }
      assert (KT : isex x -> above x -> (rd + j = N)%nat -> exists t, pre = Some t /\ t <= bk).
      { intros Hex Hab HN. apply (HPT x j O1 Hl Hv Hex Hab HN). }
      assert (KM : cached x -> tle pre (thc0 x)) by (intros Hc; apply HPM; exact Hc).
      split; [exact (core_GA x j pre (theta_of a) Hl Hv KA KQ KT KM)|exact (core_GB x j pre (theta_of a) Hl Hv KB KQ KT KM)]. }
    split; [|split; [|split; [|split; [|split]]]].
    - exact HF2.
    - intros y Hy Hvy. apply in_app_or in Hy. destruct Hy as [Hy|[<-|[]]].
      + rewrite (Hold y Hy). apply HPA; assumption.
      + rewrite Hthx. exact Hcore.
    - intros c eid tc Hc Hvc Et Hin Hnp.
      assert (Hpne : e_from (get_edge m0 eid) <> x).
      { intros E. apply Hnp. rewrite E. apply in_or_app. right; left; reflexivity. }
      apply in_app_or in Hc. destruct Hc as [Hc|[<-|[]]].
      + rewrite (Hold c Hc) in Et.
        destruct (HPQ c eid tc Hc Hvc Et Hin) as (tp & Etp & Hle).
        { intros Hp. apply Hnp. apply in_or_app. left; exact Hp. }
        pose proof (P2 (e_from (get_edge m0 eid))) as Ht. unfold theta_of at 2 in Ht. rewrite (G1o _ Hpne) in Ht.
        fold (theta_of a (e_from (get_edge m0 eid))) in Ht. rewrite Etp in Ht. simpl in Ht.
        destruct Ht as (t2 & E2 & Hle2). exists t2. split; [exact E2|lia].
      + rewrite Hthx in Et. apply (P4 tc Et eid Hin).
    - intros y jy Hny Hly Hvy Hexy Haby HN.
      assert (Hyne : y <> x) by (intros ->; apply Hny; apply in_or_app; right; left; reflexivity).
      destruct (HPT y jy) as (t & Et & Hle); auto.
      { intros Hy. apply Hny. apply in_or_app. left; exact Hy. }
      pose proof (P2 y) as Ht. unfold theta_of at 2 in Ht. rewrite (G1o _ Hyne) in Ht. fold (theta_of a y) in Ht.
      rewrite Et in Ht. simpl in Ht. destruct Ht as (t2 & E2 & Hle2). exists t2. split; [exact E2|lia].
    - (* thresholds of the dropped nodes only decrease *)
      intros y Hcy. eapply tle_trans; [apply P2|].
      destruct (Nat.eq_dec y x) as [->|Hne].
      + unfold theta_of. rewrite G1x. unfold nd. cbn [n_theta set_theta]. unfold th1.
        unfold own_theta, nd. cbn [n_flags set_theta n_theta]. unfold cached in Hcy. rewrite Hcy. simpl.
        apply HPM. exact Hcy.
      + unfold theta_of. rewrite (G1o y Hne). apply HPM. exact Hcy.
    - rewrite P5. unfold a1.
      destruct (cached_dec x) as [Hcx|Hcx].
      { rewrite th_own_cached; [split; [exact HC|exact HCl]|]. rewrite Hgx. unfold nd. cbn [n_flags set_theta]. exact Hcx. }
      destruct (th_own_cache bk a x) as [Ec|(t & c' & T1 & T2 & T3 & T4)]; [rewrite Ec; split; [exact HC|exact HCl]|].
      rewrite T4.
      assert (Gu : gn (own_upd bk a x) x = nd x th1).
      { unfold own_upd. rewrite gn_upd_same by exact Hlta. rewrite Hgx. unfold th1, nd. destruct (gn m0 x); reflexivity. }
      rewrite Gu in T1, T2, T3. unfold nd in T1, T2, T3. cbn [n_theta n_flags n_state n_depth set_theta] in T1, T2, T3.
      assert (HSx : SafeAt j (st x) t (negb (cutb x))).
      { destruct Hcore as [HA HG]. fold th1 in T1. rewrite T1 in HA, HG. apply (node_safe x j t Hl Hv T2 Hcx HA HG). }
      split.
      + exact (CacheOKg_update _ _ _ _ _ _ j T3 HC (H_depth j x Hl Hv) HSx).
      + exact (CacheOKl_update _ _ _ _ _ _ j T3 HCl (H_depth j x Hl Hv) HSx).
  Qed.

  Lemma th_fold_FI rest : forall done (a : mdd),
    bottom_up m0 = done ++ rest -> FI a done -> FI (fold_left (th_step bk) rest a) (bottom_up m0).
  Proof.
    induction rest as [|x rest IH]; intros done a HBU HI; simpl.
    - rewrite HBU, app_nil_r. exact HI.
    - apply (IH (done ++ [x])).
      + rewrite HBU, <- app_assoc. reflexivity.
      + eapply th_step_FI; eauto.
  Qed.

  Theorem theta_fold_soundC :
    PT m0 [] -> CacheOKg (m_cache m0) -> CacheOKl (m_cache m0) ->
    let af := fold_left (th_step bk) (bottom_up m0) m0 in
    Fr af /\ CacheOKg (m_cache af) /\ CacheOKl (m_cache af) /\
    (forall x j t, lay j x -> live x -> above x -> ~ cached x -> theta_of af x = Some t ->
       SafeAt j (st x) t (negb (cutb x))).
  Proof.
    intros HT HC HCl af.
    assert (HI : FI af (bottom_up m0)).
    { apply (th_fold_FI (bottom_up m0) [] m0); [reflexivity|].
      split; [repeat split; auto|]. split; [intros x []|]. split; [intros c eid tc []|]. split; [exact HT|].
      split; [intros x _; apply tle_refl|split; [exact HC|exact HCl]]. }
    destruct HI as (HF & HPA & _ & _ & _ & HC' & HCl'). split; [exact HF|]. split; [exact HC'|]. split; [exact HCl'|].
    intros x j t Hl Hv Hab Hnc Et.
    destruct (HPA x (lay_bu j x Hl) Hv) as [HA HG].
    rewrite Et in HA, HG. exact (node_safe x j t Hl Hv Hab Hnc HA HG).
  Qed.

  (* ---------------------------------------------------------------- (A) every run from an exact node above the cut-set *)
  Hypothesis H_term : forall j x, lay j x -> live x -> isex x -> above x -> (rd + j = N)%nat -> vt x <= bk.

  Lemma lpath_cases ds : forall j x r s' r' T, lay j x -> live x -> isex x -> above x ->
    Start j (st x) r -> r <= vt x ->
    frun pb (rd + j) (st x) r ds = Some (s', r') -> complete j ds -> lpath j x (st x) ds T s' ->
    r' <= bk \/ CaptD false j (st x) r ds.
  Proof.
    (* at a cut-set node the run is captured, whatever follows *)
    induction ds as [|d ds IH]; intros j x r s' r' T Hl Hv Hex Hab HS Hrv Hr Hcomp Hp;
      (destruct (f_cutset (n_flags (gn m0 x))) eqn:E2;
       [right; apply (capt_here j x r _ Hl Hv); [|exact Hrv];
        exact (H_drain j x _ T s' r r' Hl Hv E2 Hp Hcomp Hr (run_isize _ _ _ _ _ _ HS Hr))|]).
    - left. simpl in Hr. inversion Hr; subst.
      pose proof (H_term j x Hl Hv Hex Hab ltac:(apply (proj1 (complete_eq _ _)) in Hcomp; simpl in Hcomp; lia)). lia.
    - assert (Hnc : ~ cuts x) by (unfold cuts; rewrite E2; discriminate).
      destruct (exact_step j x r d ds T s' r' Hl Hv Hex Hab Hnc HS Hr Hcomp Hp)
        as (c & eid & C1 & C2 & Hexc & Habc & A4 & A5 & A6 & A7 & V1 & V2 & Etr & HSc & Hr' & Hcc & Hp').
      (* the arrival value at the child stays below its value *)
      assert (Hvc : r + rcost (st x) d <= vt c).
      { assert (Hp1 : lpath j x (st x) [d] c (st c)).
        { eapply (lp_cons j x (st x) d [] c eid c (st c)); eauto.
          - split; [apply cov_refl|reflexivity].
          - fold pb. rewrite Etr. apply lp_nil; [exact C1|exact C2|split; [apply cov_refl|reflexivity]]. }
        assert (Hr1 : frun pb (rd + j) (st x) (vt x) [d] = Some (st c, vt x + rcost (st x) d)).
        { cbn [frun]. rewrite V1, V2. cbn [andb].
          change (transition_cost pb (st x) (transition pb (st x) d) d) with (rcost (st x) d). rewrite Etr. reflexivity. }
        pose proof (H_vtop j x [d] c (st c) _ Hl Hv Hex Hp1 Hr1). lia. }
      destruct (IH (S j) c (r + rcost (st x) d) s' r' T C1 C2 Hexc Habc HSc Hvc Hr' Hcc Hp') as [H1|H1]; [left; exact H1|right].
      apply (Capt_cons j x d ds c r false false V1 V2 Etr H1).
  Qed.

  Lemma run_cases j x r ds s' r' : lay j x -> live x -> isex x -> above x -> ~ cached x ->
    Start j (st x) r -> r <= vt x ->
    frun pb (rd + j) (st x) r ds = Some (s', r') -> complete j ds ->
    r' <= bk \/ CaptD false j (st x) r ds \/ LostAt (S j) r'.
  Proof.
    intros Hl Hv Hex Hab Hnc HS Hrv Hr Hcomp.
    assert (Ha : Adm x (st x)) by (split; [apply cov_refl|reflexivity]).
    destruct (path_dich ds j x (st x) r s' r' Hl Hv Ha Hr Hcomp) as [[T HT]|HF].
    - destruct (lpath_cases ds j x r s' r' T Hl Hv Hex Hab HS Hrv Hr Hcomp HT) as [H1|H1]; [left; exact H1|right; left; exact H1].
    - destruct HF as (ds1 & ds2 & y & s1 & E & Hp & Hlt & Hnb). subst ds.
      destruct ds1 as [|d ds1].
      + destruct (lpath_nil_inv _ _ _ _ _ Hp) as [-> _].
        destruct Hnb as [Hnb|Hcy]; [|contradiction]. left.
        pose proof (cost_le_rub j x (st x) r ds2 s' r' Hl (proj1 Ha) HS Hr Hcomp) as Hcr.
        pose proof (Start_guard _ _ _ (Start_ext _ _ _ _ _ _ HS Hr)) as HgV.
        assert (HV : r' <= sat_add (rb x) (vt x)).
        { apply sat_add_ge; [unfold in_isize, IMIN, IMAX in *; lia|lia]. }
        unfold branched in Hnb. fold lb in Hnb. lia.
      + destruct (cut_vtop_fall j x r (d :: ds1) ds2 y s1 s' r' Hl Hv Hex HS Hr Hcomp Hp Hlt Hnb 0 ltac:(lia)) as [H1|H1].
        * left. lia.
        * right; right. eapply LostAt_mono; [| |exact H1]; [simpl; lia|lia].
  Qed.

  (* ---------------------------------------------------------------- (B) the three components of the upper bound of a cut-set node *)
  Lemma ub_cases j x ds s' r' : lay j x -> live x -> cuts x -> ~ cached x ->
    frun pb (rd + j) (st x) (vt x) ds = Some (s', r') -> complete j ds ->
    r' <= lb \/ LostAt (S j) r' \/
    (r' <= sat_add (vt x) (rb x) /\ r' <= sat_add (vt x) (vb x) /\
     exists T, lay (j + length ds) T /\ live T /\ r' <= vt T).
  Proof.
    intros Hl Hv Hc Hnc Hr Hcomp.
    pose proof (H_cut_ex j x Hl Hc) as Hex.
    pose proof (H_real j x Hl Hv Hex) as HS.
    assert (Ha : Adm x (st x)) by (split; [apply cov_refl|reflexivity]).
    pose proof (Start_guard _ _ _ (Start_ext _ _ _ _ _ _ HS Hr)) as HgV.
    pose proof (Start_guard _ _ _ HS) as Hg0.
    destruct (path_dich ds j x (st x) (vt x) s' r' Hl Hv Ha Hr Hcomp) as [[T HT]|HF].
    - right; right.
      pose proof (cost_le_rub j x (st x) (vt x) ds s' r' Hl (proj1 Ha) HS Hr Hcomp) as Hcr.
      pose proof (H_locb j x ds T s' (vt x) r' Hl Hv Hc HT Hcomp Hr (run_isize _ _ _ _ _ _ HS Hr)) as Hlb.
      split; [apply sat_add_ge; [unfold in_isize, IMIN, IMAX in *; lia|lia]|].
      split; [apply sat_add_ge; [unfold in_isize, IMIN, IMAX in *; lia|lia]|].
      destruct (lpath_end _ _ _ _ _ _ HT) as (T1 & T2 & _ & _).
      exists T. split; [exact T1|]. split; [exact T2|]. apply (H_vtop j x ds T s' r' Hl Hv Hex HT Hr).
    - destruct HF as (ds1 & ds2 & y & s1 & E & Hp & Hlt & Hnb). subst ds.
      destruct (fall_split j x ds1 ds2 y s1 s' r' Hl Hv Hex Hr Hcomp Hp) as (v1 & L1 & L2 & L3 & Hv1 & HS1 & Hr3 & Hc2).
      destruct Hnb as [Hnb|Hcy].
      + (* the run leaves the diagram at a node pruned by its rough upper bound *)
        left. pose proof (cost_le_rub _ y s1 v1 ds2 s' r' L1 L3 HS1 Hr3 Hc2) as Hcr.
        assert (HV : r' <= sat_add (rb y) (vt y)).
        { apply sat_add_ge; [unfold in_isize, IMIN, IMAX in *; lia|lia]. }
        unfold branched in Hnb. fold lb in Hnb. lia.
      + right; left. destruct ds1 as [|d ds1].
        { destruct (lpath_nil_inv _ _ _ _ _ Hp) as [-> _]. contradiction. }
        destruct (H_cached _ y L1 L2 Hcy) as (tc & _ & Htc & Hold).
        eapply LostAt_mono; [| |apply (cached_lost _ y s1 v1 ds2 s' r' tc L1 L2 Hcy Hold L3 Hr3 Hc2 r')]; [simpl; lia|lia|lia].
  Qed.
End ThetaFold.

(* ================================================================== 3. with and without the cache *)
Local Open Scope nat_scope.

(* the same input without the cache *)
Definition nc {St} (i : @cinput St) : @cinput St :=
  {| ci_flavour := ci_flavour i; ci_type := ci_type i; ci_problem := ci_problem i; ci_relax := ci_relax i;
     ci_ranking := ci_ranking i; ci_domcmp := ci_domcmp i; ci_width := ci_width i; ci_root := ci_root i;
     ci_best_lb := ci_best_lb i; ci_use_cache := false; ci_domrule := ci_domrule i; ci_cutoff := ci_cutoff i |}.

Section CacheFrame.
  Context {St : Type}.
  Variable st_eqb : St -> St -> bool.
  Variable inp : @cinput St.
  Notation mdd := (@mdd St).

  Lemma mc_append_edge (m : mdd) e : m_cache (append_edge inp m e) = m_cache m.
  Proof. reflexivity. Qed.
  Lemma mc_cache_get (m : mdd) s d : m_cache (fst (cache_get st_eqb inp m s d)) = m_cache m.
  Proof.
    unfold cache_get. destruct (ci_use_cache inp); [|reflexivity].
    destruct (get_threshold _ _ _ _); reflexivity.
  Qed.

  Lemma cache_get_facts (m : mdd) s d :
    m_nodes (fst (cache_get st_eqb inp m s d)) = m_nodes m /\
    m_cache (fst (cache_get st_eqb inp m s d)) = m_cache m /\
    (d < length (m_cache m) -> m_crash (fst (cache_get st_eqb inp m s d)) = m_crash m) /\
    (forall th, snd (cache_get st_eqb inp m s d) = Some th ->
       ci_use_cache inp = true /\ cget st_eqb (m_cache m) s d = Some th).
  Proof.
    unfold cache_get. destruct (ci_use_cache inp); [|cbn [fst snd]; repeat split; auto; intros; discriminate].
    cbn [m_cache add_log]. unfold get_threshold, cget.
    destruct (nth_error (m_cache m) d) as [l|] eqn:E; cbn [fst snd].
    - repeat split; auto.
    - split; [reflexivity|]. split; [reflexivity|]. split; [|intros; discriminate].
      intros Hlt. apply nth_error_None in E. lia.
  Qed.

  Lemma mc_filter_with_cache l : forall (m : mdd), m_cache (fst (filter_with_cache st_eqb inp m l)) = m_cache m.
  Proof.
    induction l as [|id l IH]; intros m; [reflexivity|].
    cbn [filter_with_cache]. cbv zeta.
    pose proof (mc_cache_get m (n_state (get_node inp m id)) (n_depth (get_node inp m id))) as Hg.
    destruct (cache_get st_eqb inp m (n_state (get_node inp m id)) (n_depth (get_node inp m id))) as [m1 th].
    cbn [fst] in Hg. destruct th as [t|].
    - destruct (_ >? _)%Z.
      + specialize (IH m1). destruct (filter_with_cache st_eqb inp m1 l) as [m2 r]. cbn [fst] in *. congruence.
      + match goal with |- context [filter_with_cache st_eqb inp ?mm l] => specialize (IH mm) end.
        rewrite IH. exact Hg.
    - specialize (IH m1). destruct (filter_with_cache st_eqb inp m1 l) as [m2 r]. cbn [fst] in *. congruence.
  Qed.
  Lemma mc_dom_query (m : mdd) s d v : m_cache (fst (dom_query inp m s d v)) = m_cache m.
  Proof.
    unfold dom_query. destruct (ci_domrule inp) as [[[[key nd] coord] usev]|]; [|reflexivity].
    destruct (is_dominated_or_insert _ _ _ _ _ _ _ _ _) as [[st' r]|]; reflexivity.
  Qed.
  Lemma mc_dom_retain l : forall (m : mdd), m_cache (fst (dom_retain inp m l)) = m_cache m.
  Proof.
    induction l as [|id l IH]; intros m; [reflexivity|].
    cbn [dom_retain]. cbv zeta. destruct (fl_is_exact _).
    - pose proof (mc_dom_query m (n_state (get_node inp m id)) (n_depth (get_node inp m id)) (n_vtop (get_node inp m id))) as Hq.
      destruct (dom_query inp m _ _ _) as [m1 r]. cbn [fst] in Hq. destruct (dc_dominated r).
      + match goal with |- context [dom_retain inp ?mm l] => specialize (IH mm) end. rewrite IH. exact Hq.
      + specialize (IH m1). destruct (dom_retain inp m1 l) as [m2 k]. cbn [fst] in *. congruence.
    - specialize (IH m). destruct (dom_retain inp m l) as [m2 k]. cbn [fst] in *. exact IH.
  Qed.
  Lemma mc_move (m : mdd) : 1 <= ci_width inp -> m_cache (fst (move_to_next_layer_clean st_eqb inp m)) = m_cache m.
  Proof.
    intros Hw. rewrite move_clean_unfold. destruct (m_next m) as [|c0 cs]; [reflexivity|].
    set (curr := c0 :: cs).
    assert (Hb : m_cache (fst (prefilter st_eqb inp (with_next m []) curr)) = m_cache m).
    { unfold prefilter. destruct (Nat.ltb 0 _); [rewrite mc_filter_with_cache; reflexivity|reflexivity]. }
    destruct (prefilter st_eqb inp (with_next m []) curr) as [mb lb0]. cbn [fst] in Hb.
    assert (Hc : m_cache (fst (filter_with_dominance inp mb lb0)) = m_cache mb).
    { unfold filter_with_dominance. apply mc_dom_retain. }
    destruct (filter_with_dominance inp mb lb0) as [mc0 lc]. cbn [fst] in Hc.
    pose proof (inert_squash_if_needed st_eqb inp _ (inert_cache inp) (fun _ _ _ => eq_refl) mc0 lc Hw) as Hd.
    destruct (squash_if_needed st_eqb inp mc0 lc) as [md ld]. cbn [fst m_cache push_layer] in *. congruence.
  Qed.
  Hypothesis Hclean : ci_flavour inp = CleanLEL \/ ci_flavour inp = CleanFC.
  Lemma mc_layer_loop : 1 <= ci_width inp -> forall fuel (m : mdd), m_cache (fst (layer_loop st_eqb inp fuel m)) = m_cache m.
  Proof.
    intros Hw. induction fuel as [|fuel IH]; intros m; [reflexivity|].
    rewrite layer_loop_iteration. cbv zeta.
    destruct (next_variable _ _ _) as [var|]; [|reflexivity].
    destruct (_ && _); [reflexivity|].
    unfold loop_move. rewrite (not_pooled inp Hclean).
    match goal with |- context [move_to_next_layer_clean st_eqb inp ?mm] =>
      pose proof (mc_move mm Hw) as Hmv; destruct (move_to_next_layer_clean st_eqb inp mm) as [m3 ol] end.
    cbn [fst] in Hmv. destruct ol as [l|]; [|exact Hmv].
    rewrite IH. cbn [m_cache with_depth].
    rewrite (inert_fold_expand st_eqb inp _ (inert_cache inp)). exact Hmv.
  Qed.
End CacheFrame.

Section Twin.
  Context {St : Type}.
  Variable st_eqb : St -> St -> bool.
  Variable inp : @cinput St.
  Notation mdd := (@mdd St).
  Notation inp' := (nc inp).

  (* nc only clears ci_use_cache, which none of the operations below reads: both sides unfold to the same term.
     branch_on is unfolded by hand: left to itself, the conversion test compares a let-bound diagram again at each
     of its occurrences. *)
  Lemma tw_gn (m : mdd) x : get_node inp' m x = get_node inp m x.
  Proof. reflexivity. Qed.
  Lemma tw_branch_on (m : mdd) id d : branch_on st_eqb inp' m id d = branch_on st_eqb inp m id d.
  Proof. unfold branch_on. cbv zeta. destruct (find_next _ _ _ _); reflexivity. Qed.
  Lemma tw_expand_node var (m : mdd) id : expand_node st_eqb inp' var m id = expand_node st_eqb inp var m id.
  Proof.
    unfold expand_node. cbv zeta. destruct (_ >? _)%Z; [|reflexivity].
    apply fold_left_ext. intros a val. apply tw_branch_on.
  Qed.
  Lemma tw_initialize c ds p : initialize inp' c ds p = initialize inp c ds p.
  Proof. reflexivity. Qed.
  Lemma tw_filter_with_dominance (m : mdd) l : filter_with_dominance inp' m l = filter_with_dominance inp m l.
  Proof. reflexivity. Qed.
  Lemma tw_squash (m : mdd) l : squash_if_needed st_eqb inp' m l = squash_if_needed st_eqb inp m l.
  Proof. reflexivity. Qed.
  Lemma tw_finalize_layers (m : mdd) : finalize_layers inp' m = finalize_layers inp m.
  Proof. reflexivity. Qed.
  Lemma tw_find_best_node a b (m : mdd) : find_best_node inp' a b m = find_best_node inp a b m.
  Proof. reflexivity. Qed.
  Lemma tw_finalize_exact (m : mdd) : finalize_exact inp' m = finalize_exact inp m.
  Proof. reflexivity. Qed.
  Lemma tw_finalize_cutset (m : mdd) : finalize_cutset inp' m = finalize_cutset inp m.
  Proof. reflexivity. Qed.
  Lemma tw_compute_local_bounds (m : mdd) : compute_local_bounds inp' m = compute_local_bounds inp m.
  Proof. reflexivity. Qed.
  Lemma tw_drain (m : mdd) : drain_cutset inp' m = drain_cutset inp m.
  Proof. reflexivity. Qed.
End Twin.

Definition blank {St} (N : nat) (c : @cache St) : Prop :=
  (forall d l, nth_error c d = Some l -> l = []) /\ N < length c.

Lemma blank_init {St} N : @blank St N (init_cache N).
Proof.
  unfold init_cache. split.
  - intros d l H. apply nth_error_In in H. apply repeat_spec in H. exact H.
  - rewrite repeat_length. lia.
Qed.

(* ---------------------------------------------------------------- the statement *)
Definition bk_of {St} (inp : @cinput St) (m : @mdd St) : Z :=
  match m_best_exact m with
  | Some be => Z.max (ci_best_lb inp) (n_vtop (get_node inp m be))
  | None => ci_best_lb inp
  end.

(* arriving at (depth k, state s) with value v is hopeless or taken care of by a sub-problem of the cut-set of m *)
Definition Safe {St} (inp : @cinput St) (m : @mdd St) (k : nat) (s : St) (v : Z) : Prop :=
  forall ds s' v', frun (ci_problem inp) k s v ds = Some (s', v') -> k + length ds = nb_vars (ci_problem inp) ->
    (v' <= bk_of inp m)%Z \/
    exists x ds1 ds2 s1 w, In x (drain_cutset inp m) /\ ds = ds1 ++ ds2 /\
      frun (ci_problem inp) k s v ds1 = Some (s1, w) /\
      sp_depth x = k + length ds1 /\ sp_state x = s1 /\ (w <= sp_value x)%Z.

(* ================================================================== 4. the layer loop of a RELAXED compilation started from ANY cache, and the flags of _finalize *)
Local Open Scope nat_scope.

Lemma classic_in (x : nat) (l : list nat) : In x l \/ ~ In x l.
Proof. destruct (in_dec Nat.eq_dec x l); auto. Qed.

Section Loop.
  Context {St : Type}.
  Variable st_eqb : St -> St -> bool.
  Hypothesis st_eqb_spec : forall a b, st_eqb a b = true <-> a = b.
  Variable inp : @cinput St.
  Let pb := ci_problem inp.
  Let rlx := ci_relax inp.
  Let root := ci_root inp.
  Let lb := ci_best_lb inp.
  Let N := nb_vars pb.
  Let rd := sp_depth root.
  Hypothesis Hclean : ci_flavour inp = CleanLEL \/ ci_flavour inp = CleanFC.
  Hypothesis Hnodom : ci_domrule inp = None.
  Hypothesis Hnocut : ci_cutoff inp = 0.
  Hypothesis Hwidth : 1 <= ci_width inp.
  Hypothesis Hrel : ci_type inp = Relaxed.
  Hypothesis Hrd : rd <= N.
  Hypothesis nv_static : forall k l1 l2, next_variable pb k l1 = next_variable pb k l2.
  Hypothesis nv_some : forall k l, k < N -> exists x, next_variable pb k l = Some x.
  Hypothesis nv_none : forall k l, N <= k -> next_variable pb k l = None.
  Variable cov : St -> St -> Prop.
  Hypothesis cov_refl : forall s, cov s s.
  Hypothesis cov_sim : forall s s' x v, cov s s' -> In v (domain pb x s') ->
    let d := {| d_var := x; d_val := v |} in
    In v (domain pb x s) /\ cov (transition pb s d) (transition pb s' d) /\
    (transition_cost pb s' (transition pb s' d) d <= transition_cost pb s (transition pb s d) d)%Z.
  Hypothesis merge_cov : forall L s s', In s L -> cov s s' -> cov (merge rlx L) s'.
  Hypothesis relax_ge : forall src dst mg d c, (c <= relax rlx src dst mg d c)%Z.

  Notation mdd := (@mdd St).
  Notation node := (@node St).
  Notation gn := (get_node inp).
  Notation dpath := (dpath inp cov).

  Lemma len_upd_node (m : mdd) id f : length (m_nodes (upd_node m id f)) = length (m_nodes m).
  Proof. apply upd_nth_length. Qed.

  (* ---------------------------------------------------------------- frames: closed nodes, deleted flags *)
  Definition del (m : mdd) (x : nat) : bool := f_deleted (n_flags (gn m x)).
  Definition same_below (b : nat) (m m' : mdd) : Prop := forall x, x < b -> gn m' x = gn m x.

  Lemma same_below_refl b m : same_below b m m.
  Proof. intros x _. reflexivity. Qed.
  Lemma same_below_trans b m1 m2 m3 : same_below b m1 m2 -> same_below b m2 m3 -> same_below b m1 m3.
  Proof. intros H1 H2 x Hx. rewrite H2, H1; auto. Qed.
  Lemma same_below_nodes b (m m' : mdd) : m_nodes m' = m_nodes m -> same_below b m m'.
  Proof. intros H x _. apply gn_nodes_eq. exact H. Qed.
  Lemma same_below_upd b (m : mdd) id f : b <= id -> same_below b m (upd_node m id f).
  Proof. intros H x Hx. apply gn_upd_other. lia. Qed.
  Lemma same_below_append b (m : mdd) e : b <= e_to e -> same_below b m (append_edge inp m e).
  Proof. intros H x Hx. apply gn_append_other. lia. Qed.
  Lemma same_below_snoc b (m : mdd) n : b <= length (m_nodes m) -> same_below b m (with_nodes m (m_nodes m ++ [n])).
  Proof. intros H x Hx. apply gn_snoc_old. lia. Qed.
  Lemma same_below_fold {X} b (f : mdd -> X -> mdd) l m :
    (forall a x, In x l -> same_below b a (f a x)) -> same_below b m (fold_left f l m).
  Proof.
    revert m. induction l as [|x l IH]; intros m Hf; simpl; [apply same_below_refl|].
    eapply same_below_trans; [apply Hf; left; reflexivity|]. apply IH. intros a y Hy. apply Hf. right; exact Hy.
  Qed.

  Lemma del_append (m : mdd) e x : del (append_edge inp m e) x = del m x.
  Proof.
    unfold del. destruct (Nat.eq_dec x (e_to e)) as [->|Hne].
    - destruct (Nat.lt_ge_cases (e_to e) (length (m_nodes m))) as [Hlt|Hge].
      + rewrite gn_append_same by exact Hlt. cbv zeta. simpl. reflexivity.
      + unfold get_node. simpl. rewrite upd_nth_out by exact Hge. reflexivity.
    - rewrite gn_append_other by exact Hne. reflexivity.
  Qed.
  Lemma del_same_nodes (m m' : mdd) x : m_nodes m' = m_nodes m -> del m' x = del m x.
  Proof. intros H. unfold del. rewrite (gn_nodes_eq inp m m' x H). reflexivity. Qed.
  Lemma del_upd_keep (m : mdd) id f x : (forall n, f_deleted (n_flags (f n)) = f_deleted (n_flags n)) ->
    del (upd_node m id f) x = del m x.
  Proof. intros Hf. unfold del. apply (get_node_upd_node_proj inp (fun n => f_deleted (n_flags n))). exact Hf. Qed.
  Lemma del_upd_set (m : mdd) id b x : id < length (m_nodes m) ->
    del (upd_node m id (fun n => set_flags n (fl_set_deleted (n_flags n) b))) x = if Nat.eqb x id then b else del m x.
  Proof.
    intros Hlt. unfold del. destruct (Nat.eqb x id) eqn:E.
    - apply Nat.eqb_eq in E. subst x. rewrite gn_upd_same by exact Hlt. reflexivity.
    - apply Nat.eqb_neq in E. rewrite gn_upd_other by congruence. reflexivity.
  Qed.
  Lemma del_snoc_old (m : mdd) n x : x < length (m_nodes m) -> del (with_nodes m (m_nodes m ++ [n])) x = del m x.
  Proof. intros H. unfold del. rewrite gn_snoc_old by exact H. reflexivity. Qed.

  Lemma redirect_step_len merged mid (a : mdd) eid :
    length (m_nodes (redirect_step inp merged mid a eid)) = length (m_nodes a).
  Proof. unfold redirect_step. cbv zeta. rewrite append_edge_nodes_length. reflexivity. Qed.

  Lemma drop_step_del merged mid (a : mdd) did x : did < length (m_nodes a) ->
    del (drop_step inp merged mid a did) x = if Nat.eqb x did then true else del a x.
  Proof.
    intros Hlt. unfold drop_step. rewrite redirect_edges_fold.
    rewrite (fold_left_proj (fun b : mdd => del b x)).
    - apply del_upd_set. exact Hlt.
    - intros b eid. unfold redirect_step. cbv zeta. rewrite del_append. apply del_same_nodes. reflexivity.
  Qed.

  Lemma drop_fold_del merged mid mrg : forall (a : mdd) x, (forall y, In y mrg -> y < length (m_nodes a)) ->
    del (fold_left (drop_step inp merged mid) mrg a) x = if existsb (Nat.eqb x) mrg then true else del a x.
  Proof.
    induction mrg as [|y mrg IH]; intros a x Hy; simpl; [reflexivity|].
    rewrite IH.
    - rewrite drop_step_del by (apply Hy; left; reflexivity).
      destruct (Nat.eqb x y); simpl; [destruct (existsb _ _); reflexivity|reflexivity].
    - intros z Hz. rewrite drop_step_nodes_length. apply Hy. right; exact Hz.
  Qed.

  Lemma drop_step_below b merged mid (a : mdd) did : b <= mid -> b <= did -> same_below b a (drop_step inp merged mid a did).
  Proof.
    intros H1 H2. unfold drop_step. rewrite redirect_edges_fold.
    eapply same_below_trans; [apply same_below_upd; exact H2|].
    apply same_below_fold. intros c eid _. unfold redirect_step. cbv zeta.
    match goal with |- same_below b c (append_edge inp ?mm ?ee) =>
      apply (same_below_trans b c mm); [apply same_below_nodes; reflexivity|apply same_below_append; simpl; exact H1] end.
  Qed.

  (* dropping the merged nodes mrg (all in the open layer, from index b on) into the node mid *)
  Lemma drop_fold_frame b merged mid mrg (a : mdd) :
    b <= mid -> (forall y, In y mrg -> b <= y < length (m_nodes a)) ->
    let a' := fold_left (drop_step inp merged mid) mrg a in
    same_below b a a' /\ length (m_nodes a') = length (m_nodes a) /\
    (forall x, del a' x = if existsb (Nat.eqb x) mrg then true else del a x).
  Proof.
    intros Hmid Hmrg. cbv zeta. split; [|split].
    - apply same_below_fold. intros c y Hy. apply drop_step_below; [exact Hmid|apply (Hmrg y Hy)].
    - apply (fold_left_proj (fun c : mdd => length (m_nodes c))). intros c y. apply drop_step_nodes_length.
    - intros x. apply drop_fold_del. intros y Hy. apply (Hmrg y Hy).
  Qed.

  Lemma existsb_eqb_In x l : existsb (Nat.eqb x) l = true <-> In x l.
  Proof.
    rewrite existsb_exists. split.
    - intros (y & Hy & E). apply Nat.eqb_eq in E. subst; exact Hy.
    - intros H. exists x. split; [exact H|apply Nat.eqb_refl].
  Qed.

  (* ---------------------------------------------------------------- relax_layer: growth, frames, deleted flags *)
  Lemma relax_layer_gr (m : mdd) l w1 : ci_width inp = S w1 -> gr inp m (fst (relax_layer st_eqb inp m l)).
  Proof.
    intros Ew. destruct (note_squash_fields inp Hclean m) as (F1 & _).
    rewrite (relax_layer_unfold st_eqb inp m l w1 Ew). cbv zeta.
    set (m0 := note_squash inp m) in *.
    assert (G0 : gr inp m m0) by (split; [apply ext_note_squash|apply inbinc_same_nodes; exact F1]).
    match goal with |- context [add_log m0 ?ev] => set (m1 := add_log m0 ev) end.
    assert (G1 : gr inp m m1) by (eapply gr_trans; [exact G0|apply gr_add_log]).
    match goal with |- context [find ?f ?k] => destruct (find f k) as [rid|] end; cbn [fst].
    - set (m2 := upd_node m1 rid set_relaxed_flag).
      assert (G2 : gr inp m m2) by (eapply gr_trans; [exact G1|unfold m2; apply gr_upd_node; intros; reflexivity]).
      match goal with |- gr inp m (upd_node ?mm _ _) => set (m3 := mm) end.
      assert (G3 : gr inp m m3).
      { eapply gr_trans; [exact G2|]. unfold m3. apply gr_fold. intros; apply gr_drop_step. }
      eapply gr_trans; [exact G3|]. apply gr_upd_node; intros; reflexivity.
    - match goal with |- gr inp m (fold_left _ _ ?mm) => set (m2 := mm) end.
      assert (G2 : gr inp m m2).
      { eapply gr_trans; [exact G1|]. eapply gr_trans; [apply gr_snoc|]. unfold m2. apply gr_upd_node; intros; reflexivity. }
      eapply gr_trans; [exact G2|]. apply gr_fold. intros; apply gr_drop_step.
  Qed.

  Lemma squash_gr (m : mdd) l : gr inp m (fst (squash_if_needed st_eqb inp m l)).
  Proof.
    unfold squash_if_needed. rewrite Hrel. destruct (_ && _); [|apply gr_refl].
    assert (Hex : exists w1, ci_width inp = S w1) by (exists (ci_width inp - 1); lia).
    destruct Hex as [w1 Ew]. apply (relax_layer_gr m l w1 Ew).
  Qed.

  Lemma In_firstn_skipn_NoDup {A} (l : list A) n x : NoDup l -> In x (firstn n l) -> In x (skipn n l) -> False.
  Proof.
    intros Hnd H1 H2. rewrite <- (firstn_skipn n l) in Hnd. apply NoDup_app_inv in Hnd.
    destruct Hnd as (_ & _ & Hd). exact (Hd x H1 H2).
  Qed.

  Lemma relax_layer_extra (m : mdd) l w1 :
    ci_width inp = S w1 -> S w1 < length l ->
    m_layer_end m <= length (m_nodes m) ->
    (forall x, In x l -> m_layer_end m <= x < length (m_nodes m)) -> NoDup l ->
    (forall x, In x l -> del m x = false) ->
    let m' := fst (relax_layer st_eqb inp m l) in
    let l' := snd (relax_layer st_eqb inp m l) in
    same_below (m_layer_end m) m m' /\
    (forall x, In x l' -> del m' x = false /\ m_layer_end m <= x < length (m_nodes m')) /\
    (forall x, In x l -> ~ In x l' -> del m' x = true) /\
    length (m_nodes m) <= length (m_nodes m') <= S (length (m_nodes m)) /\
    (length (m_nodes m') = S (length (m_nodes m)) -> In (length (m_nodes m)) l').
  Proof.
    intros Ew Hw Hle Hl Hnd Hdel. cbv zeta.
    destruct (note_squash_fields inp Hclean m) as (F1 & _ & _ & _ & F5 & _).
    rewrite (relax_layer_unfold st_eqb inp m l w1 Ew). cbv zeta.
    set (m0 := note_squash inp m) in *.
    set (sorted := sort_by (rank_order inp m0) l).
    assert (Hsorted : forall x, In x sorted <-> In x l) by (intros x; apply sort_by_In).
    assert (Hsnd : NoDup sorted) by (apply (proj2 (sub_sort_by (rank_order inp m0) l)); exact Hnd).
    assert (Hslen : length sorted = length l) by apply sort_by_length.
    set (keep := firstn w1 sorted). set (mrg := skipn w1 sorted).
    assert (Hsplit : sorted = keep ++ mrg) by (symmetry; apply firstn_skipn).
    assert (Hkeep : forall x, In x keep -> In x l).
    { intros x Hx. apply Hsorted. rewrite Hsplit. apply in_or_app; left; exact Hx. }
    assert (Hmrg : forall x, In x mrg -> In x l).
    { intros x Hx. apply Hsorted. rewrite Hsplit. apply in_or_app; right; exact Hx. }
    assert (Hdisj : forall x, In x keep -> In x mrg -> False).
    { intros x H1 H2. exact (In_firstn_skipn_NoDup sorted w1 x Hsnd H1 H2). }
    assert (Hcases : forall x, In x l -> In x keep \/ In x mrg).
    { intros x Hx. apply Hsorted in Hx. rewrite Hsplit in Hx. apply in_app_or in Hx. exact Hx. }
    match goal with |- context [add_log m0 ?ev] => set (m1 := add_log m0 ev) end.
    assert (Hn1 : m_nodes m1 = m_nodes m) by exact F1.
    assert (Hgn1 : forall k, gn m1 k = gn m k) by (intros k; apply gn_nodes_eq; exact Hn1).
    assert (Hle1 : m_layer_end m1 = m_layer_end m) by exact F5.
    set (b := m_layer_end m) in *.
    assert (Hb1 : same_below b m m1) by (apply same_below_nodes; exact Hn1).
    assert (Hd1 : forall x, del m1 x = del m x) by (intros x; apply del_same_nodes; exact Hn1).
    match goal with |- context [find ?f ?k] => destruct (find f k) as [rid|] eqn:Hrec end; cbn [fst snd].
    - (* recycled *)
      apply find_some in Hrec. destruct Hrec as [Hrin _].
      pose proof (Hl rid (Hkeep rid Hrin)) as Hrr.
      set (m2 := upd_node m1 rid set_relaxed_flag).
      assert (Hlen2 : length (m_nodes m2) = length (m_nodes m)) by (unfold m2; rewrite len_upd_node, Hn1; reflexivity).
      assert (Hd2 : forall x, del m2 x = del m x).
      { intros x. unfold m2. rewrite del_upd_keep by (intros n; reflexivity). apply Hd1. }
      match goal with |- context [fold_left (drop_step inp ?mg rid) mrg m2] =>
        destruct (drop_fold_frame b mg rid mrg m2 (proj1 Hrr)) as (Hb3 & Hlen3 & Hd3);
        [intros y Hy; rewrite Hlen2; apply (Hl y (Hmrg y Hy))|]; set (m3 := fold_left (drop_step inp mg rid) mrg m2) in * end.
      rewrite Hlen2 in Hlen3.
      destruct mrg as [|sv mrg'] eqn:Emrg.
      { exfalso. pose proof (skipn_length w1 sorted) as Hs. fold mrg in Hs. rewrite Emrg in Hs. simpl in Hs. lia. }
      assert (Esv : nth w1 sorted 0 = sv).
      { rewrite <- (firstn_skipn w1 sorted). fold keep. fold mrg. rewrite Emrg.
        rewrite app_nth2 by (unfold keep; rewrite firstn_length; lia).
        unfold keep. rewrite firstn_length. replace (w1 - Nat.min w1 (length sorted)) with 0 by lia. reflexivity. }
      assert (Efs : firstn (S w1) sorted = keep ++ [sv]).
      { apply (firstn_S_skipn w1 sorted sv mrg'). fold mrg. exact Emrg. }
      rewrite Esv, Efs.
      assert (Hsvl : In sv l) by (apply Hmrg; left; reflexivity).
      pose proof (Hl sv Hsvl) as Hsvr.
      set (m4 := upd_node m3 sv clear_deleted_flag).
      assert (Hd4 : forall x, del m4 x = if Nat.eqb x sv then false else del m3 x).
      { intros x. unfold m4, clear_deleted_flag. apply del_upd_set. rewrite Hlen3. apply Hsvr. }
      split; [|split; [|split; [|split]]].
      + apply (same_below_trans b m m1); [exact Hb1|]. apply (same_below_trans b m1 m2).
        { unfold m2. apply same_below_upd. apply Hrr. }
        apply (same_below_trans b m2 m3); [exact Hb3|]. unfold m4. apply same_below_upd. apply Hsvr.
      + intros x Hx. split.
        * rewrite Hd4. destruct (Nat.eqb x sv) eqn:E; [reflexivity|]. rewrite Hd3.
          apply in_app_or in Hx. destruct Hx as [Hx|[<-|[]]].
          -- destruct (existsb (Nat.eqb x) (sv :: mrg')) eqn:Ee.
             ++ apply existsb_eqb_In in Ee. exfalso. exact (Hdisj x Hx Ee).
             ++ rewrite Hd2. apply Hdel. apply Hkeep. exact Hx.
          -- rewrite Nat.eqb_refl in E. discriminate.
        * unfold m4. rewrite len_upd_node. rewrite Hlen3.
          apply in_app_or in Hx. destruct Hx as [Hx|[<-|[]]]; [apply (Hl x (Hkeep x Hx))|exact Hsvr].
      + intros x Hx Hnx. rewrite Hd4.
        assert (Hxne : x <> sv) by (intros ->; apply Hnx; apply in_or_app; right; left; reflexivity).
        apply Nat.eqb_neq in Hxne. rewrite Hxne. rewrite Hd3.
        destruct (Hcases x Hx) as [Hk|Hm]; [exfalso; apply Hnx; apply in_or_app; left; exact Hk|].
        apply existsb_eqb_In in Hm. rewrite Hm. reflexivity.
      + unfold m4. rewrite len_upd_node. rewrite Hlen3. lia.
      + unfold m4. rewrite len_upd_node. rewrite Hlen3. lia.
    - (* fresh merged node *)
      set (mid := length (m_nodes m1)).
      assert (Hmid : mid = length (m_nodes m)) by (unfold mid; rewrite Hn1; reflexivity).
      match goal with |- context [merged_node ?mg ?dp] => set (n := merged_node mg dp) end.
      set (m1' := with_nodes m1 (m_nodes m1 ++ [n])).
      set (m2 := upd_node m1' mid set_relaxed_flag).
      assert (Hlen1' : length (m_nodes m1') = S mid) by apply len_snoc.
      assert (Hlen2 : length (m_nodes m2) = S mid) by (unfold m2; rewrite len_upd_node; exact Hlen1').
      assert (Hd2o : forall x, x < mid -> del m2 x = del m x).
      { intros x Hx. unfold m2. rewrite del_upd_keep by (intros n0; reflexivity).
        unfold m1'. rewrite del_snoc_old by exact Hx. apply Hd1. }
      assert (Hd2n : del m2 mid = false).
      { unfold del, m2. rewrite gn_upd_same by lia. unfold m1', mid. rewrite gn_snoc_new. reflexivity. }
      assert (Hbmid : b <= mid) by (rewrite Hmid; exact Hle).
      match goal with |- context [fold_left (drop_step inp ?mg mid) mrg m2] =>
        destruct (drop_fold_frame b mg mid mrg m2 Hbmid) as (Hb3 & Hlen3 & Hd3);
        [intros y Hy; rewrite Hlen2, Hmid; pose proof (Hl y (Hmrg y Hy)); lia|];
        set (m3 := fold_left (drop_step inp mg mid) mrg m2) in * end.
      rewrite Hlen2 in Hlen3.
      assert (Hmidmrg : ~ In mid mrg).
      { intros Hin. pose proof (Hl mid (Hmrg mid Hin)). lia. }
      split; [|split; [|split; [|split]]].
      + apply (same_below_trans b m m1); [exact Hb1|]. apply (same_below_trans b m1 m1').
        { unfold m1'. apply same_below_snoc. rewrite Hn1. exact Hle. }
        apply (same_below_trans b m1' m2); [unfold m2; apply same_below_upd; exact Hbmid|exact Hb3].
      + intros x Hx. apply in_app_or in Hx. destruct Hx as [Hx|[<-|[]]].
        * pose proof (Hl x (Hkeep x Hx)) as Hxr. split; [|rewrite Hlen3, Hmid; lia].
          rewrite Hd3. destruct (existsb (Nat.eqb x) mrg) eqn:Ee.
          -- apply existsb_eqb_In in Ee. exfalso. exact (Hdisj x Hx Ee).
          -- rewrite Hd2o by lia. apply Hdel. apply Hkeep. exact Hx.
        * split; [|rewrite Hlen3, Hmid; lia].
          rewrite Hd3. destruct (existsb (Nat.eqb mid) mrg) eqn:Ee.
          -- apply existsb_eqb_In in Ee. contradiction.
          -- exact Hd2n.
      + intros x Hx Hnx. rewrite Hd3.
        destruct (Hcases x Hx) as [Hk|Hm]; [exfalso; apply Hnx; apply in_or_app; left; exact Hk|].
        apply existsb_eqb_In in Hm. rewrite Hm. reflexivity.
      + rewrite Hlen3, Hmid. lia.
      + intros _. rewrite <- Hmid. apply in_or_app. right; left; reflexivity.
  Qed.

  Lemma squash_extra (m : mdd) l :
    m_layer_end m <= length (m_nodes m) ->
    (forall x, In x l -> m_layer_end m <= x < length (m_nodes m)) -> NoDup l ->
    (forall x, In x l -> del m x = false) ->
    let m' := fst (squash_if_needed st_eqb inp m l) in
    let l' := snd (squash_if_needed st_eqb inp m l) in
    same_below (m_layer_end m) m m' /\
    (forall x, In x l' -> del m' x = false /\ m_layer_end m <= x < length (m_nodes m')) /\
    (forall x, In x l -> ~ In x l' -> del m' x = true) /\
    length (m_nodes m) <= length (m_nodes m') <= S (length (m_nodes m)) /\
    (length (m_nodes m') = S (length (m_nodes m)) -> In (length (m_nodes m)) l') /\
    (m_lel m' = m_lel m \/ (m_lel m = None /\ m_lel m' = Some (length (m_layers m) - 1) /\ 1 < length (m_layers m))).
  Proof.
    intros Hle Hl Hnd Hdel. cbv zeta. unfold squash_if_needed. rewrite Hrel.
    destruct (Nat.ltb (ci_width inp) (length l) && Nat.ltb 1 (length (m_layers m))) eqn:Eg; cbn [fst snd].
    - apply andb_true_iff in Eg. destruct Eg as [E1 E1']. apply Nat.ltb_lt in E1. apply Nat.ltb_lt in E1'.
      assert (Hex : exists w1, ci_width inp = S w1) by (exists (ci_width inp - 1); lia).
      destruct Hex as [w1 Ew]. rewrite Ew in E1.
      destruct (relax_layer_extra m l w1 Ew E1 Hle Hl Hnd Hdel) as (R1 & R2 & R3 & R4 & R5).
      cbv zeta in R1, R2, R3, R4, R5.
      split; [exact R1|]. split; [exact R2|]. split; [exact R3|]. split; [exact R4|]. split; [exact R5|].
      assert (Hlel : m_lel (fst (relax_layer st_eqb inp m l)) = m_lel (note_squash inp m)).
      { rewrite (relax_layer_unfold st_eqb inp m l w1 Ew). cbv zeta.
        match goal with |- context [find ?f ?k] => destruct (find f k) as [rid|] end; cbn [fst].
        - simpl. rewrite (fold_left_proj (fun a : mdd => m_lel a)); [reflexivity|].
          intros a y. unfold drop_step. rewrite redirect_edges_fold.
          rewrite (fold_left_proj (fun a0 : mdd => m_lel a0)); [reflexivity|]. intros; reflexivity.
        - rewrite (fold_left_proj (fun a : mdd => m_lel a)); [reflexivity|].
          intros a y. unfold drop_step. rewrite redirect_edges_fold.
          rewrite (fold_left_proj (fun a0 : mdd => m_lel a0)); [reflexivity|]. intros; reflexivity. }
      rewrite Hlel. destruct (note_squash_fields inp Hclean m) as (_ & _ & _ & _ & _ & _ & _ & F8 & _).
      rewrite F8. destruct (m_lel m); [left; reflexivity|right; auto].
    - split; [apply same_below_refl|]. split; [intros x Hx; split; [apply Hdel; exact Hx|apply Hl; exact Hx]|].
      split; [intros x Hx Hnx; contradiction|]. split; [lia|]. split; [intros E; lia|left; reflexivity].
  Qed.

  Definition tr (m m' : mdd) : Prop :=
    length (m_nodes m) <= length (m_nodes m') /\
    (forall x, x < length (m_nodes m) -> n_state (gn m' x) = n_state (gn m x)) /\
    (forall x, incl (n_inb (gn m x)) (n_inb (gn m' x))) /\
    (exists k, m_edges m' = m_edges m ++ k).

  Lemma tr_gr m m' : gr inp m m' -> tr m m'.
  Proof.
    intros G. split; [apply (gr_nodes inp _ _ G)|]. split; [intros x Hx; apply (gr_state inp _ _ x G Hx)|].
    split; [apply G|]. destruct G as [E _]. apply (ext_edges _ _ _ E).
  Qed.
  Lemma tr_trans a b c : tr a b -> tr b c -> tr a c.
  Proof.
    intros (A1 & A2 & A3 & [k1 A4]) (B1 & B2 & B3 & [k2 B4]). split; [lia|]. split; [|split].
    - intros x Hx. rewrite B2 by lia. apply A2. exact Hx.
    - intros x. eapply incl_tran; [apply A3|apply B3].
    - exists (k1 ++ k2). rewrite B4, A4, app_assoc. reflexivity.
  Qed.
  Lemma tr_same (m m' : mdd) : m_nodes m' = m_nodes m -> m_edges m' = m_edges m -> tr m m'.
  Proof.
    intros Hn He. split; [rewrite Hn; lia|]. split; [intros x _; rewrite (gn_nodes_eq inp m m' x Hn); reflexivity|].
    split; [intros x; rewrite (gn_nodes_eq inp m m' x Hn); apply incl_refl|]. exists []. rewrite app_nil_r. exact He.
  Qed.
  Lemma tr_edge m m' eid : tr m m' -> eid < length (m_edges m) -> get_edge m' eid = get_edge m eid.
  Proof. intros (_ & _ & _ & [k Hk]) H. unfold get_edge. rewrite Hk. apply app_nth1. exact H. Qed.

  Lemma dpath_tr m m' i u s ds t s' :
    tr m m' -> (forall k x, In x (nth k (m_layers m) []) -> In x (nth k (m_layers m') [])) ->
    dpath m i u s ds t s' -> dpath m' i u s ds t s'.
  Proof.
    intros (T1 & T2 & T3 & [k T4]) Hl Hp. eapply dpath_transport; eauto.
    - rewrite T4, app_length. lia.
    - intros eid He. unfold get_edge. rewrite T4. apply app_nth1. exact He.
  Qed.

  (* ---------------------------------------------------------------- the open layer *)
  Definition OI (m : mdd) : Prop :=
    m_layer_end m <= length (m_nodes m) /\
    (forall x, In x (m_next m) <-> m_layer_end m <= x < length (m_nodes m)) /\
    (forall x, In x (m_next m) -> del m x = false).

  Lemma OI_same (m m' : mdd) :
    m_nodes m' = m_nodes m -> m_next m' = m_next m -> m_layer_end m' = m_layer_end m -> OI m -> OI m'.
  Proof.
    intros Hn Hx Hl (O1 & O2 & O3). unfold OI. rewrite Hn, Hx, Hl. split; [exact O1|]. split; [exact O2|].
    intros x Hin. rewrite (del_same_nodes m m' x Hn). apply O3. exact Hin.
  Qed.

  Lemma branch_on_OI (a : mdd) id d :
    OI a -> OI (branch_on st_eqb inp a id d) /\ m_layer_end (branch_on st_eqb inp a id d) = m_layer_end a /\
            same_below (m_layer_end a) a (branch_on st_eqb inp a id d).
  Proof.
    intros (O1 & O2 & O3). unfold branch_on. cbv zeta.
    set (s := n_state (gn a id)).
    set (ns := transition (ci_problem inp) s d).
    set (cost := transition_cost (ci_problem inp) s ns d).
    set (m1 := add_log (add_log a (EvTransition s d ns)) (EvCost s ns d cost)).
    assert (Hg1 : forall k, gn m1 k = gn a k) by reflexivity.
    destruct (find_next st_eqb inp m1 ns) as [t|] eqn:Hfind.
    - unfold find_next in Hfind. apply find_some in Hfind. destruct Hfind as [Hin _].
      change (m_next m1) with (m_next a) in Hin. pose proof (proj1 (O2 t) Hin) as Htr.
      set (e := {| e_from := id; e_to := t; e_dec := d; e_cost := cost |}).
      split; [|split; [reflexivity|]].
      + split; [rewrite append_edge_nodes_length; exact O1|]. split.
        * intros x. rewrite append_edge_nodes_length. apply O2.
        * intros x Hx. rewrite del_append. change (del m1 x) with (del a x). apply O3. exact Hx.
      + apply (same_below_trans _ a m1); [apply same_below_nodes; reflexivity|].
        apply same_below_append. simpl. apply Htr.
    - set (t := length (m_nodes m1)).
      match goal with |- context [with_nodes m1 (m_nodes m1 ++ [?nn])] => set (n := nn) end.
      set (m2 := with_nodes m1 (m_nodes m1 ++ [n])).
      set (e := {| e_from := id; e_to := t; e_dec := d; e_cost := cost |}).
      set (m3 := append_edge inp m2 e).
      assert (Hlen2 : length (m_nodes m2) = S t) by apply len_snoc.
      assert (Hlen3 : length (m_nodes m3) = S t) by (unfold m3; rewrite append_edge_nodes_length; exact Hlen2).
      assert (Ht : t = length (m_nodes a)) by reflexivity.
      split; [|split; [reflexivity|]].
      + split; [change (m_layer_end a <= length (m_nodes m3)); lia|]. split.
        * intros x. change (In x (m_next a ++ [t]) <-> m_layer_end a <= x < length (m_nodes m3)).
          rewrite Hlen3, in_app_iff, O2. simpl. lia.
        * intros x Hx. change (In x (m_next a ++ [t])) in Hx. change (del m3 x = false).
          unfold m3. rewrite del_append. apply in_app_or in Hx. destruct Hx as [Hx|[<-|[]]].
          -- unfold m2. rewrite del_snoc_old by (apply O2; exact Hx). apply O3. exact Hx.
          -- unfold del, m2, t. rewrite gn_snoc_new. reflexivity.
      + apply (same_below_trans _ a m1); [apply same_below_nodes; reflexivity|].
        apply (same_below_trans _ m1 m2); [unfold m2; apply same_below_snoc; exact O1|].
        apply (same_below_trans _ m2 m3); [unfold m3; apply same_below_append; simpl; lia|].
        apply same_below_nodes. reflexivity.
  Qed.

  Lemma set_rub_idem (n : node) v : set_rub (set_rub n v) v = set_rub n v.
  Proof. destruct n; reflexivity. Qed.

  Lemma expand_node_OI var (a : mdd) id :
    OI a -> id < m_layer_end a ->
    let a' := expand_node st_eqb inp var a id in
    OI a' /\ m_layer_end a' = m_layer_end a /\
    (forall x, x < m_layer_end a -> x <> id -> gn a' x = gn a x) /\
    gn a' id = set_rub (gn a id) (fast_upper_bound rlx (n_state (gn a id))).
  Proof.
    intros HO Hid. cbv zeta. unfold expand_node. cbv zeta.
    set (rub := fast_upper_bound (ci_relax inp) (n_state (gn a id))).
    set (m1 := upd_node a id (fun n => set_rub n rub)).
    pose proof HO as (O1 & O2 & O3).
    assert (HO1 : OI m1).
    { split; [unfold m1; rewrite len_upd_node; exact O1|]. split.
      - intros x. unfold m1. rewrite len_upd_node. apply O2.
      - intros x Hx. unfold m1. rewrite del_upd_keep by (intros n; reflexivity). apply O3. exact Hx. }
    assert (Hg1 : gn m1 id = set_rub (gn a id) rub) by (unfold m1; rewrite gn_upd_same by lia; reflexivity).
    assert (Hg1o : forall x, x <> id -> gn m1 x = gn a x) by (intros x Hx; unfold m1; apply gn_upd_other; congruence).
    assert (Hfin : forall b : mdd, OI b -> m_layer_end b = m_layer_end a -> same_below (m_layer_end a) m1 b ->
              OI b /\ m_layer_end b = m_layer_end a /\
              (forall x, x < m_layer_end a -> x <> id -> gn b x = gn a x) /\ gn b id = set_rub (gn a id) rub).
    { intros b Hb Hl Hs. split; [exact Hb|]. split; [exact Hl|]. split.
      - intros x Hx Hne. rewrite Hs by exact Hx. apply Hg1o. exact Hne.
      - rewrite Hs by exact Hid. exact Hg1. }
    destruct (_ >? _)%Z.
    - set (m2 := add_log m1 (EvDomain var (n_state (gn a id)))).
      assert (G : let b := fold_left (fun m0 val => branch_on st_eqb inp m0 id {| d_var := var; d_val := val |})
                              (domain (ci_problem inp) var (n_state (gn a id))) m2 in
                  OI b /\ m_layer_end b = m_layer_end a /\ same_below (m_layer_end a) m1 b).
      { cbv zeta. apply (MddExact.fold_left_inv (fun b : mdd => OI b /\ m_layer_end b = m_layer_end a /\ same_below (m_layer_end a) m1 b)).
        - split; [apply (OI_same m1 m2); auto; reflexivity|]. split; [reflexivity|apply same_below_nodes; reflexivity].
        - intros b val _ (Hb & Hl & Hs). destruct (branch_on_OI b id {| d_var := var; d_val := val |} Hb) as (B1 & B2 & B3).
          split; [exact B1|]. split; [congruence|]. eapply same_below_trans; [exact Hs|]. rewrite <- Hl. exact B3. }
      cbv zeta in G. destruct G as (G1 & G2 & G3). apply Hfin; assumption.
    - apply Hfin; [exact HO1|reflexivity|apply same_below_refl].
  Qed.

  Lemma expand_layer_OI var l : forall (m : mdd),
    OI m -> (forall id, In id l -> id < m_layer_end m) ->
    let m' := fold_left (expand_node st_eqb inp var) l m in
    OI m' /\ m_layer_end m' = m_layer_end m /\
    (forall x, x < m_layer_end m -> ~ In x l -> gn m' x = gn m x) /\
    (forall x, In x l -> gn m' x = set_rub (gn m x) (fast_upper_bound rlx (n_state (gn m x)))).
  Proof.
    induction l as [|id l IH]; intros m HO Hl; cbv zeta; simpl.
    - split; [exact HO|]. split; [reflexivity|]. split; [reflexivity|intros x []].
    - destruct (expand_node_OI var m id HO) as (E1 & E2 & E3 & E4); [apply Hl; left; reflexivity|].
      cbv zeta in E1, E2, E3, E4.
      set (m1 := expand_node st_eqb inp var m id) in *.
      destruct (IH m1 E1) as (I1 & I2 & I3 & I4).
      { intros y Hy. rewrite E2. apply Hl. right; exact Hy. }
      cbv zeta in I1, I2, I3, I4.
      split; [exact I1|]. split; [congruence|]. split.
      + intros x Hx Hnx. rewrite I3; [|rewrite E2; exact Hx|intros H; apply Hnx; right; exact H].
        apply E3; [exact Hx|]. intros ->. apply Hnx. left; reflexivity.
      + intros x Hx. assert (Hxl : x < m_layer_end m) by (apply Hl; exact Hx).
        destruct (classic_in x l) as [Hin|Hnin].
        * rewrite (I4 x Hin). destruct (Nat.eq_dec x id) as [->|Hne].
          -- rewrite E4. cbn [n_state set_rub]. apply set_rub_idem.
          -- rewrite (E3 x Hxl Hne). reflexivity.
        * rewrite I3; [|rewrite E2; exact Hxl|exact Hnin].
          destruct Hx as [<-|Hx]; [exact E4|contradiction].
  Qed.

  (* ---------------------------------------------------------------- successors created by an expansion *)
  Definition mkd (var : nat) (val : Z) : decision := {| d_var := var; d_val := val |}.

  Lemma expand_node_succ var (a : mdd) id j s val :
    OI a -> id < length (m_nodes a) -> In id (nth j (m_layers a) []) ->
    (sat_add (fast_upper_bound rlx (n_state (gn a id))) (n_vtop (gn a id)) >? lb)%Z = true ->
    cov (n_state (gn a id)) s -> In val (domain pb var s) ->
    let a' := expand_node st_eqb inp var a id in
    exists t', In t' (m_next a') /\ dpath a' j id s [mkd var val] t' (transition pb s (mkd var val)).
  Proof.
    intros HO Hid Hlay Hub Hcov Hval. cbv zeta.
    destruct (cov_sim _ _ var val Hcov Hval) as (Sd & Scov & Scost). fold (mkd var val) in Scov, Scost.
    unfold expand_node. cbv zeta.
    set (state := n_state (gn a id)) in *.
    set (m1 := upd_node a id (fun n => set_rub n (fast_upper_bound (ci_relax inp) state))).
    assert (Hvt1 : n_vtop (gn m1 id) = n_vtop (gn a id)) by (unfold m1; rewrite gn_upd_same by exact Hid; reflexivity).
    rewrite Hvt1. fold rlx. fold lb. rewrite Hub.
    set (m2 := add_log m1 (EvDomain var state)).
    assert (G2 : gr inp a m2).
    { apply (gr_trans inp a m1 m2); [unfold m1; apply gr_upd_node; intros; reflexivity|apply gr_add_log]. }
    assert (HO2 : OI m2).
    { pose proof HO as (O1 & O2 & O3). split; [change (m_nodes m2) with (m_nodes m1); unfold m1; rewrite len_upd_node; exact O1|]. split.
      - intros x. change (m_nodes m2) with (m_nodes m1). unfold m1. rewrite len_upd_node. apply O2.
      - intros x Hx. change (del m1 x = false). unfold m1. rewrite del_upd_keep by (intros n; reflexivity). apply O3. exact Hx. }
    set (d := mkd var val).
    set (P := fun b : mdd => exists t', In t' (m_next b) /\ dpath b j id s [d] t' (transition pb s d)).
    apply (fold_left_hit (fun b : mdd => OI b /\ gr inp a b) P
             (fun m0 v => branch_on st_eqb inp m0 id {| d_var := var; d_val := v |})
             (domain (ci_problem inp) var state) m2 val Sd).
    - split; assumption.
    - intros b v _ (Hb & Gb). split; [apply (branch_on_OI b id _ Hb)|].
      eapply gr_trans; [exact Gb|apply gr_branch_on].
    - intros b (Hb & Gb).
      destruct (branch_on_spec st_eqb st_eqb_spec inp Hnocut Hwidth Hrd b id d) as (t & T1 & T2 & T3 & T4 & T5 & T6).
      { intros x Hx. apply (proj1 (proj2 Hb) x). exact Hx. }
      cbv zeta in T1, T2, T3, T4, T5, T6.
      set (b' := branch_on st_eqb inp b id d) in *.
      assert (Gab : gr inp b b') by apply gr_branch_on.
      assert (Gb' : gr inp a b') by (eapply gr_trans; eauto).
      assert (Hst : n_state (gn b id) = state) by (apply (gr_state inp _ _ id Gb Hid)).
      exists t. split; [exact T1|].
      change [d] with ([] ++ [d]).
      apply (dp_snoc inp cov b' j id s [] id s d (length (m_edges b)) t).
      + apply dp_nil; [pose proof (gr_nodes inp _ _ Gb'); lia|]. rewrite (gr_state inp _ _ id Gb' Hid). exact Hcov.
      + simpl. rewrite Nat.add_0_r. rewrite (gr_layers inp _ _ Gb'). exact Hlay.
      + exact T2.
      + lia.
      + exact T3.
      + rewrite T4. reflexivity.
      + rewrite T4. reflexivity.
      + rewrite T4. simpl. rewrite Hst. exact Scost.
      + rewrite T5, Hst. exact Scov.
    - intros b v _ (Hb & Gb) (t' & Ht' & Hp').
      pose proof (gr_branch_on st_eqb inp b id {| d_var := var; d_val := v |}) as Gab.
      exists t'. split; [eapply gr_next; eauto|eapply dpath_gr; eauto].
  Qed.

  (* expanding a whole layer: the successors of x are created when the fold reaches x (its first occurrence in l),
     and survive the rest of the fold *)
  Lemma expand_layer_succ var j x s val l : forall (a : mdd),
    OI a -> (forall y, In y l -> y < m_layer_end a) -> In x l -> In x (nth j (m_layers a) []) ->
    (lb < sat_add (fast_upper_bound rlx (n_state (gn a x))) (n_vtop (gn a x)))%Z ->
    cov (n_state (gn a x)) s -> In val (domain pb var s) ->
    let a' := fold_left (expand_node st_eqb inp var) l a in
    exists t', In t' (m_next a') /\ dpath a' j x s [mkd var val] t' (transition pb s (mkd var val)).
  Proof.
    induction l as [|y l IH]; intros a Ha Hla Hin Hlay Hbr Hcov Hval; [destruct Hin|]. cbv zeta. simpl.
    destruct (expand_node_OI var a y Ha (Hla y (or_introl eq_refl))) as (E1 & E2 & E3 & _). cbv zeta in E1, E2, E3.
    pose proof (gr_expand_node st_eqb inp var a y) as Gay.
    destruct (Nat.eq_dec y x) as [->|Hne].
    - destruct (expand_node_succ var a x j s val Ha) as (t' & Ht' & Hp); try assumption.
      + pose proof (Hla x (or_introl eq_refl)). destruct Ha as (A1 & _). lia.
      + apply Z.gtb_lt. exact Hbr.
      + cbv zeta in Ht', Hp.
        assert (Grest : gr inp (expand_node st_eqb inp var a x) (fold_left (expand_node st_eqb inp var) l (expand_node st_eqb inp var a x))).
        { apply gr_fold. intros; apply gr_expand_node. }
        exists t'. split; [eapply gr_next; eauto|eapply dpath_gr; eauto].
    - destruct Hin as [E|Hin]; [congruence|].
      assert (Ex : gn (expand_node st_eqb inp var a y) x = gn a x).
      { apply E3; [apply Hla; right; exact Hin|congruence]. }
      apply IH; rewrite ?Ex; try assumption.
      + intros z Hz. rewrite E2. apply Hla. right; exact Hz.
      + rewrite (gr_layers inp _ _ Gay). exact Hlay.
  Qed.

  (* ---------------------------------------------------------------- successor completeness of a node
     [brd]: the node is not pruned by its rough bound; [SCn]: every transition of a state it covers has its arc, into
     a node of [tgt]; [SCr]: the same, read on the arcs of the finished diagram, whose layers are given as a function. *)
  Definition brd (m : mdd) (x : nat) : Prop := (lb < sat_add (n_rub (gn m x)) (n_vtop (gn m x)))%Z.

  Definition SCn (m : mdd) (j x : nat) (tgt : nat -> Prop) : Prop :=
    brd m x -> forall s var val, cov (n_state (gn m x)) s -> next_variable pb (rd + j) [] = Some var ->
      In val (domain pb var s) ->
      exists t', tgt t' /\ dpath m j x s [mkd var val] t' (transition pb s (mkd var val)).

  Notation lyr m j := (nth j (m_layers m) []).

  Lemma nth_app_cases {A} (l : list (list A)) (x : list A) j y :
    In y (nth j (l ++ [x]) []) -> (j < length l /\ In y (nth j l [])) \/ (j = length l /\ In y x).
  Proof.
    intros H. destruct (Nat.lt_ge_cases j (length l)) as [Hlt|Hge].
    - left. split; [exact Hlt|]. rewrite app_nth1 in H by exact Hlt. exact H.
    - right. rewrite app_nth2 in H by exact Hge. destruct (j - length l) as [|k] eqn:E.
      + split; [lia|exact H].
      + destruct k; simpl in H; destruct H.
  Qed.
  Lemma nth_app_old {A} (l : list (list A)) (x : list A) j : j < length l -> nth j (l ++ [x]) [] = nth j l [].
  Proof. intros H. apply app_nth1. exact H. Qed.
  Lemma nth_app_new {A} (l : list (list A)) (x : list A) : nth (length l) (l ++ [x]) [] = x.
  Proof. rewrite app_nth2 by lia. rewrite Nat.sub_diag. reflexivity. Qed.

  Definition SCr (m : mdd) (lay : nat -> list nat) (j x : nat) : Prop :=
    brd m x -> forall s var val, cov (n_state (gn m x)) s -> next_variable pb (rd + j) [] = Some var ->
      In val (domain pb var s) ->
      let d := mkd var val in
      exists t' eid, In t' (lay (S j)) /\ del m t' = false /\ t' < length (m_nodes m) /\
        eid < length (m_edges m) /\ In eid (n_inb (gn m t')) /\ e_from (get_edge m eid) = x /\
        e_dec (get_edge m eid) = d /\
        (transition_cost pb s (transition pb s d) d <= e_cost (get_edge m eid))%Z /\
        cov (n_state (gn m t')) (transition pb s d).

  Lemma dpath1_inv (m : mdd) j x s d t' s'' : dpath m j x s [d] t' s'' ->
    s'' = transition pb s d /\ t' < length (m_nodes m) /\
    exists eid, eid < length (m_edges m) /\ In eid (n_inb (gn m t')) /\ e_from (get_edge m eid) = x /\
      e_dec (get_edge m eid) = d /\
      (transition_cost pb s (transition pb s d) d <= e_cost (get_edge m eid))%Z /\
      cov (n_state (gn m t')) (transition pb s d).
  Proof.
    intros Hp. destruct (dpath_snoc_inv inp cov _ _ _ _ _ _ _ Hp ltac:(discriminate))
      as (ds0 & d0 & t & s0 & eid0 & E & Es & P0 & P1 & P2 & P3 & P4 & P5 & P6 & P7 & P8).
    destruct ds0 as [|a ds0]; [|destruct ds0; discriminate].
    simpl in E. inversion E; subst d0.
    assert (t = x /\ s0 = s).
    { inversion P0; subst; [auto|]. match goal with H : _ ++ [_] = [] |- _ => destruct (app_cons_not_nil _ _ _ (eq_sym H)) end. }
    destruct H as [-> ->]. split; [exact Es|]. split; [exact P2|]. exists eid0. auto 10.
  Qed.

  Definition LF (ml : mdd) : list (list nat) := m_layers (finalize_layers inp ml).

  (* ---------------------------------------------------------------- the flags set by _finalize *)
  Lemma fold_upd_flags (F : flags -> flags) ids : forall (m : mdd) x,
    let a := fold_left (fun m0 id => upd_node m0 id (fun n => set_flags n (F (n_flags n)))) ids m in
    (~ In x ids -> gn a x = gn m x) /\
    (forall h : flags -> bool, (forall f, h (F f) = h f) -> h (n_flags (gn a x)) = h (n_flags (gn m x))) /\
    (forall h : flags -> bool, (forall f, h (F f) = true) -> In x ids -> x < length (m_nodes m) -> h (n_flags (gn a x)) = true) /\
    length (m_nodes a) = length (m_nodes m).
  Proof.
    induction ids as [|id ids IH]; intros m x; cbv zeta; simpl.
    - split; [reflexivity|]. split; [reflexivity|]. split; [intros h _ []|reflexivity].
    - set (m1 := upd_node m id (fun n => set_flags n (F (n_flags n)))).
      destruct (IH m1 x) as (I1 & I2 & I3 & I4). cbv zeta in I1, I2, I3, I4.
      assert (L1 : length (m_nodes m1) = length (m_nodes m)) by (unfold m1; apply len_upd_node).
      split; [|split; [|split]].
      + intros Hn. rewrite I1 by (intros H; apply Hn; right; exact H).
        unfold m1. apply gn_upd_other. intros ->. apply Hn. left; reflexivity.
      + intros h Hh. rewrite (I2 h Hh). unfold m1.
        apply (get_node_upd_node_proj inp (fun n => h (n_flags n))). intros n. simpl. apply Hh.
      + intros h Hh Hin Hlt. destruct (classic_in x ids) as [Hi|Hi].
        * apply (I3 h Hh Hi). rewrite L1. exact Hlt.
        * rewrite I1 by exact Hi. destruct Hin as [->|Hin]; [|contradiction].
          unfold m1. rewrite gn_upd_same by exact Hlt. simpl. apply Hh.
      + rewrite I4. exact L1.
  Qed.

  Lemma lel_cutset_flags (m : mdd) k x :
    let a := lel_cutset m k in
    (f_cutset (n_flags (gn a x)) = true -> f_cutset (n_flags (gn m x)) = true \/ In x (nth k (m_layers m) [])) /\
    (f_above (n_flags (gn a x)) = true ->
       f_above (n_flags (gn m x)) = true \/ exists j, j <= k /\ In x (nth j (m_layers m) [])) /\
    (forall j, j <= k -> In x (nth j (m_layers m) []) -> x < length (m_nodes m) -> f_above (n_flags (gn a x)) = true) /\
    (forall h : flags -> bool, (forall f b, h (fl_set_above f b) = h f) -> (forall f b, h (fl_set_cutset f b) = h f) ->
       h (n_flags (gn a x)) = h (n_flags (gn m x))) /\
    (In x (nth k (m_layers m) []) -> x < length (m_nodes m) -> f_cutset (n_flags (gn a x)) = true).
  Proof.
    cbv zeta. unfold lel_cutset. cbv zeta.
    match goal with |- context [fold_left _ (concat (rev (firstn k (m_layers ?mm)))) ?mm] => set (m1 := mm) end.
    assert (Hly1 : m_layers m1 = m_layers m).
    { unfold m1. destruct (nth_error (m_layers m) k); [|reflexivity]. simpl.
      apply (fold_left_proj (fun b : mdd => m_layers b)). intros; reflexivity. }
    rewrite Hly1.
    set (rest := concat (rev (firstn k (m_layers m)))).
    assert (H1 : (~ In x (nth k (m_layers m) []) -> gn m1 x = gn m x) /\
                 (forall h : flags -> bool, (forall f b, h (fl_set_above f b) = h f) -> (forall f b, h (fl_set_cutset f b) = h f) ->
                    h (n_flags (gn m1 x)) = h (n_flags (gn m x))) /\
                 (In x (nth k (m_layers m) []) -> x < length (m_nodes m) ->
                    f_above (n_flags (gn m1 x)) = true /\ f_cutset (n_flags (gn m1 x)) = true) /\
                 length (m_nodes m1) = length (m_nodes m)).
    { unfold m1. destruct (nth_error (m_layers m) k) as [ids|] eqn:En.
      - assert (Eids : nth k (m_layers m) [] = ids) by (apply nth_error_nth; exact En).
        rewrite Eids.
        destruct (fold_upd_flags (fun f => fl_set_above (fl_set_cutset f true) true) ids m x) as (G1 & G2 & G3 & G4).
        cbv zeta in G1, G2, G3, G4.
        match goal with |- context [with_cutset ?AA ?cc] => set (A := AA) in *; set (cs := cc) end.
        assert (Hw : forall y, gn (with_cutset A cs) y = gn A y) by reflexivity.
        change (length (m_nodes (with_cutset A cs))) with (length (m_nodes A)).
        split; [intros Hn; rewrite Hw; apply G1; exact Hn|]. split; [|split].
        + intros h Ha Hc. rewrite Hw. apply G2. intros f. rewrite Ha, Hc. reflexivity.
        + intros Hin Hlt. rewrite Hw. split; [apply (G3 f_above); auto|apply (G3 f_cutset); auto].
        + exact G4.
      - split; [reflexivity|]. split; [reflexivity|]. split; [|reflexivity].
        intros Hin. rewrite nth_overflow in Hin; [destruct Hin|]. apply nth_error_None. exact En. }
    destruct H1 as (A1 & A2 & A3 & A4).
    destruct (fold_upd_flags (fun f => fl_set_above f true) rest m1 x) as (B1 & B2 & B3 & B4).
    cbv zeta beta in B1, B2, B3, B4.
    assert (Hrest : In x rest <-> exists j, j < k /\ In x (nth j (m_layers m) [])).
    { unfold rest. rewrite in_concat_rev. apply in_concat_firstn. }
    split; [|split; [|split; [|split]]].
    - intros Hc. rewrite (B2 f_cutset) in Hc by (intros; reflexivity).
      destruct (classic_in x (nth k (m_layers m) [])) as [Hin|Hnin]; [right; exact Hin|left].
      rewrite <- (A1 Hnin). exact Hc.
    - intros Ha. destruct (classic_in x rest) as [Hr|Hr].
      + right. apply Hrest in Hr. destruct Hr as (j & Hj & Hx). exists j. split; [lia|exact Hx].
      + rewrite (B1 Hr) in Ha. destruct (classic_in x (nth k (m_layers m) [])) as [Hin|Hnin].
        * right. exists k. split; [lia|exact Hin].
        * left. rewrite <- (A1 Hnin). exact Ha.
    - intros j Hj Hx Hlt. destruct (Nat.eq_dec j k) as [->|Hne].
      + destruct (classic_in x rest) as [Hr|Hr].
        * apply (B3 f_above); [reflexivity|exact Hr|rewrite A4; exact Hlt].
        * rewrite (B1 Hr). apply A3; assumption.
      + apply (B3 f_above); [reflexivity| |rewrite A4; exact Hlt].
        apply Hrest. exists j. split; [lia|exact Hx].
    - intros h Ha Hc. rewrite (B2 h) by (intros f; apply Ha). apply A2; assumption.
    - intros Hin Hlt. rewrite (B2 f_cutset) by (intros; reflexivity). apply A3; assumption.
  Qed.

  Lemma flag_compute_local_bounds (h : flags -> bool) (m : mdd) x :
    (forall f b, h (fl_set_marked f b) = h f) ->
    h (n_flags (gn (compute_local_bounds inp m) x)) = h (n_flags (gn m x)).
  Proof.
    intros Hh.
    apply (compute_local_bounds_steps inp (fun a b : mdd => h (n_flags (gn b x)) = h (n_flags (gn a x))));
      [reflexivity|congruence|].
    intros a k v. apply (get_node_upd_node_proj inp (fun n => h (n_flags n))). intros n. apply Hh.
  Qed.

  (* frontier cut-set: the flags of a, a diagram met while the cut-set of m is computed. With m := a, the last two
     parts say that a further step only ever sets flags. *)
  Definition FQ (m a : mdd) : Prop :=
    FInv inp m a /\
    (forall x, f_above (n_flags (gn a x)) = true -> f_above (n_flags (gn m x)) = true \/ is_ex inp m x = true) /\
    (forall x, f_cutset (n_flags (gn a x)) = true -> f_cutset (n_flags (gn m x)) = true \/ is_ex inp m x = true) /\
    (forall x (h : flags -> bool), (forall f b, h (fl_set_above f b) = h f) -> (forall f b, h (fl_set_cutset f b) = h f) ->
       h (n_flags (gn a x)) = h (n_flags (gn m x))) /\
    (forall x, f_above (n_flags (gn m x)) = true -> f_above (n_flags (gn a x)) = true) /\
    (forall x, f_cutset (n_flags (gn m x)) = true -> f_cutset (n_flags (gn a x)) = true).

  Lemma upd_flag_cases (a : mdd) id (F : flags -> flags) x :
    gn (upd_node a id (fun n => set_flags n (F (n_flags n)))) x = gn a x \/
    (x = id /\ id < length (m_nodes a) /\
     gn (upd_node a id (fun n => set_flags n (F (n_flags n)))) x = set_flags (gn a id) (F (n_flags (gn a id)))).
  Proof.
    destruct (Nat.eq_dec id x) as [<-|Hne].
    - destruct (Nat.lt_ge_cases id (length (m_nodes a))) as [Hlt|Hge].
      + right. split; [reflexivity|]. split; [exact Hlt|]. rewrite gn_upd_same by exact Hlt. reflexivity.
      + left. apply gn_upd_out. exact Hge.
    - left. apply gn_upd_other. exact Hne.
  Qed.

  Lemma FQ_refl m : (forall x, x < length (m_nodes m) -> f_cutset (n_flags (gn m x)) = true -> In x (m_cutset m)) -> FQ m m.
  Proof. intros H0. split; [repeat split; auto|]. repeat split; auto. Qed.

  (* raising a flag of a node that is exact in m, by an F that clears neither the above nor the cut-set flag and is
     invisible to whatever ignores those two *)
  Lemma FQ_upd (m a a1 : mdd) id (F : flags -> flags) :
    FQ m a -> (forall y, gn a1 y = gn a y) -> is_ex inp m id = true ->
    FInv inp m (upd_node a1 id (fun n => set_flags n (F (n_flags n)))) ->
    (forall f, f_above f = true -> f_above (F f) = true) -> (forall f, f_cutset f = true -> f_cutset (F f) = true) ->
    (forall h : flags -> bool, (forall f b, h (fl_set_above f b) = h f) -> (forall f b, h (fl_set_cutset f b) = h f) ->
       forall f, h (F f) = h f) ->
    FQ m (upd_node a1 id (fun n => set_flags n (F (n_flags n)))).
  Proof.
    intros (_ & Q2 & Q3 & Q4 & Q5 & Q6) Hg Hex HI Fa Fc Fh. split; [exact HI|].
    assert (C : forall x, gn (upd_node a1 id (fun n => set_flags n (F (n_flags n)))) x = gn a x \/
                (x = id /\ n_flags (gn (upd_node a1 id (fun n => set_flags n (F (n_flags n)))) x) = F (n_flags (gn a id)))).
    { intros x. destruct (upd_flag_cases a1 id F x) as [E|(-> & _ & E)]; rewrite E, Hg; [left|right; split]; reflexivity. }
    split; [|split; [|split; [|split]]]; intros x.
    - intros Ha. destruct (C x) as [E|[-> _]]; [rewrite E in Ha; apply Q2; exact Ha|right; exact Hex].
    - intros Hc. destruct (C x) as [E|[-> _]]; [rewrite E in Hc; apply Q3; exact Hc|right; exact Hex].
    - intros h Ha Hc. destruct (C x) as [E|[-> E]]; rewrite E; [|rewrite (Fh h Ha Hc)]; apply Q4; assumption.
    - intros Hx. destruct (C x) as [E|[-> E]]; rewrite E; [|apply Fa]; apply Q5; exact Hx.
    - intros Hx. destruct (C x) as [E|[-> E]]; rewrite E; [|apply Fc]; apply Q6; exact Hx.
  Qed.

  Lemma FQ_above (m a : mdd) id : FQ m a -> is_ex inp a id = true ->
    FQ m (upd_node a id (fun n => set_flags n (fl_set_above (n_flags n) true))).
  Proof.
    intros HQ Hex. pose proof HQ as ((_ & _ & F3 & _) & _). destruct (F3 id) as [_ Hexm]. rewrite Hex in Hexm.
    apply (FQ_upd m a a id (fun f => fl_set_above f true) HQ); auto.
    apply FInv_upd_above. apply HQ.
  Qed.

  Lemma FQ_inner (m a : mdd) eid : FQ m a -> FQ m (fc_inner inp a eid).
  Proof.
    intros HQ. pose proof (proj1 (FInv_fc_inner inp m a eid (proj1 HQ))) as HI.
    unfold fc_inner in *. cbv zeta in *. set (p := e_from (get_edge a eid)) in *.
    destruct (fl_is_exact (n_flags (gn a p)) && negb (f_cutset (n_flags (gn a p)))) eqn:Ec; [|exact HQ].
    apply andb_true_iff in Ec. destruct Ec as [Hex _].
    pose proof HQ as ((_ & _ & F3 & _) & _). destruct (F3 p) as [_ Hexm]. unfold is_ex in Hexm. rewrite Hex in Hexm.
    apply (FQ_upd m a (with_cutset a (m_cutset a ++ [p])) p (fun f => fl_set_cutset f true) HQ); auto.
  Qed.

  Lemma FQ_step (m a : mdd) id : FQ m a -> FQ m (fc_step inp a id).
  Proof.
    intros HQ. unfold fc_step. cbv zeta. destruct (fl_is_exact (n_flags (gn a id))) eqn:Ex.
    - apply FQ_above; [exact HQ|exact Ex].
    - apply (MddExact.fold_left_inv (FQ m)); [exact HQ|]. intros b eid _ Hb. apply FQ_inner. exact Hb.
  Qed.

  Lemma frontier_flags (m : mdd) :
    (forall x, x < length (m_nodes m) -> f_cutset (n_flags (gn m x)) = true -> In x (m_cutset m)) ->
    FQ m (frontier_cutset inp m true) /\
    (forall x, In x (bottom_up m) -> x < length (m_nodes m) -> is_ex inp m x = true ->
       f_above (n_flags (gn (frontier_cutset inp m true) x)) = true) /\
    (forall c c' eid, In c' (bottom_up m) -> is_ex inp m c' = false -> In eid (n_inb (gn m c')) ->
       e_from (get_edge m eid) = c -> is_ex inp m c = true -> c < length (m_nodes m) ->
       f_cutset (n_flags (gn (frontier_cutset inp m true) c)) = true).
  Proof.
    intros H0. rewrite frontier_cutset_unfold.
    split; [|split].
    - apply (fold_left_inv2 (FQ m)); [apply FQ_refl; exact H0|]. intros a y Ha. apply FQ_step. exact Ha.
    - intros x Hx Hlt Hex.
      apply (fold_left_hit (FQ m) (fun a : mdd => f_above (n_flags (gn a x)) = true) (fc_step inp) (bottom_up m) m x Hx (FQ_refl m H0)).
      + intros a y _ Ha. apply FQ_step. exact Ha.
      + intros a Ha. pose proof Ha as ((_ & F2 & F3 & _) & _). destruct (F3 x) as [_ E]. rewrite Hex in E.
        unfold fc_step. cbv zeta. unfold is_ex in E. rewrite E. rewrite gn_upd_same by lia. reflexivity.
      + intros a y _ ((_ & _ & _ & F4) & _) Hp. apply (FQ_step a a y (FQ_refl a F4)). exact Hp.
    - intros c c' eid Hc' Hnx Hin Hf Hx Hlt.
      apply (fold_left_hit (FQ m) (fun a : mdd => f_cutset (n_flags (gn a c)) = true) (fc_step inp) (bottom_up m) m c' Hc' (FQ_refl m H0)).
      + intros a y _ Ha. apply FQ_step. exact Ha.
      + intros a Ha. pose proof Ha as ((F1 & F2 & F3 & F4) & _). unfold fc_step. cbv zeta.
        destruct (F3 c') as [i1 x1]. unfold is_ex in x1, Hnx. rewrite x1, Hnx, i1.
        apply (fold_left_hit (FQ m) (fun b : mdd => f_cutset (n_flags (gn b c)) = true) (fc_inner inp) (n_inb (gn m c')) a eid Hin Ha).
        * intros b y _ Hb. apply FQ_inner. exact Hb.
        * intros b Hb. pose proof Hb as ((G1 & G2 & G3 & G4) & _). unfold fc_inner. cbv zeta.
          rewrite (ge_edges_eq m b eid G1), Hf.
          destruct (G3 c) as [_ x2]. unfold is_ex in x2, Hx. rewrite x2, Hx. simpl andb.
          destruct (f_cutset (n_flags (gn b c))) eqn:Ec; simpl negb; cbv iota; [exact Ec|].
          rewrite gn_upd_same by (change (length (m_nodes (with_cutset b (m_cutset b ++ [c])))) with (length (m_nodes b)); lia).
          reflexivity.
        * intros b y _ ((_ & _ & _ & G4) & _) Hp. apply (FQ_inner b b y (FQ_refl b G4)). exact Hp.
      + intros a y _ ((_ & _ & _ & F4) & _) Hp. apply (FQ_step a a y (FQ_refl a F4)). exact Hp.
  Qed.

  Lemma frontier_all_exact (m : mdd) : (forall y, is_ex inp m y = true) ->
    forall x, f_cutset (n_flags (gn (frontier_cutset inp m true) x)) = f_cutset (n_flags (gn m x)).
  Proof.
    intros Hall x. rewrite frontier_cutset_unfold.
    apply (fold_left_inv2 (fun a : mdd => (forall y, is_ex inp a y = true) /\
                             f_cutset (n_flags (gn a x)) = f_cutset (n_flags (gn m x)))).
    - split; [exact Hall|reflexivity].
    - intros a y (Ha & Hc). unfold fc_step. cbv zeta. pose proof (Ha y) as Hy. unfold is_ex in Hy. rewrite Hy. split.
      + intros z. unfold is_ex. rewrite (get_node_upd_node_proj inp (fun n => fl_is_exact (n_flags n))) by (intros n; reflexivity).
        apply Ha.
      + rewrite (get_node_upd_node_proj inp (fun n => f_cutset (n_flags n))) by (intros n; reflexivity). exact Hc.
  Qed.

  Lemma dpath_cons (m : mdd) j x s d c eid :
    x < length (m_nodes m) -> cov (n_state (gn m x)) s -> In x (nth j (m_layers m) []) ->
    c < length (m_nodes m) -> eid < length (m_edges m) -> In eid (n_inb (gn m c)) ->
    e_from (get_edge m eid) = x -> e_dec (get_edge m eid) = d ->
    (transition_cost pb s (transition pb s d) d <= e_cost (get_edge m eid))%Z ->
    cov (n_state (gn m c)) (transition pb s d) ->
    forall ds T s', dpath m (S j) c (transition pb s d) ds T s' -> dpath m j x s (d :: ds) T s'.
  Proof.
    intros Hx Hcx Hlx Hc He Hin Hf Hd Hcost Hcc ds T s' Hp.
    remember (S j) as i eqn:Ei. remember (transition pb s d) as sc eqn:Es.
    induction Hp as [i u s0 Hu Hc0|i u s0 ds0 t s1 d' eid' t' Hp IH Hlay Ht' He' Hin' Hf' Hd' Hcost' Hcov']; subst i s0.
    - change [d] with ([] ++ [d]).
      apply (dp_snoc inp cov m j x s [] x s d eid u); auto.
      + apply dp_nil; assumption.
      + simpl. rewrite Nat.add_0_r. exact Hlx.
    - change (d :: ds0 ++ [d']) with ((d :: ds0) ++ [d']).
      apply (dp_snoc inp cov m j x s (d :: ds0) t s1 d' eid' t'); auto.
      simpl. replace (j + S (length ds0)) with (S j + length ds0) by lia. exact Hlay.
  Qed.

  (* ---------------------------------------------------------------- nodes outside a set are not touched *)
  Definition outside (S : nat -> Prop) (m m' : mdd) : Prop := forall x, ~ S x -> gn m' x = gn m x.

  Lemma outside_refl (S : nat -> Prop) m : outside S m m. Proof. intros x _. reflexivity. Qed.
  Lemma outside_trans (S : nat -> Prop) a b c : outside S a b -> outside S b c -> outside S a c.
  Proof. intros H1 H2 x Hx. rewrite H2, H1; auto. Qed.
  Lemma outside_nodes (S : nat -> Prop) (m m' : mdd) : m_nodes m' = m_nodes m -> outside S m m'.
  Proof. intros H x _. apply gn_nodes_eq. exact H. Qed.
  Lemma outside_upd (S : nat -> Prop) (m : mdd) id f : S id -> outside S m (upd_node m id f).
  Proof. intros H x Hx. apply gn_upd_other. intros ->. contradiction. Qed.
  Lemma outside_append (S : nat -> Prop) (m : mdd) e : S (e_to e) -> outside S m (append_edge inp m e).
  Proof. intros H x Hx. apply gn_append_other. intros ->. contradiction. Qed.
  Lemma outside_snoc (S : nat -> Prop) (m : mdd) n : S (length (m_nodes m)) -> outside S m (with_nodes m (m_nodes m ++ [n])).
  Proof.
    intros H x Hx. destruct (Nat.lt_ge_cases x (length (m_nodes m))) as [Hlt|Hge].
    - apply gn_snoc_old. exact Hlt.
    - assert (x <> length (m_nodes m)) by (intros ->; contradiction).
      rewrite (gn_out_of_range inp m x) by lia.
      apply gn_out_of_range. msimpl. rewrite app_length. simpl. lia.
  Qed.
  Lemma outside_fold {X} (S : nat -> Prop) (f : mdd -> X -> mdd) l : forall m,
    (forall a x, In x l -> outside S a (f a x)) -> outside S m (fold_left f l m).
  Proof.
    induction l as [|x l IH]; intros m Hf; simpl; [apply outside_refl|].
    eapply outside_trans; [apply Hf; left; reflexivity|]. apply IH. intros a y Hy. apply Hf. right; exact Hy.
  Qed.

  Lemma outside_drop_step (S : nat -> Prop) merged mid (a : mdd) did : S mid -> S did -> outside S a (drop_step inp merged mid a did).
  Proof.
    intros H1 H2. unfold drop_step. rewrite redirect_edges_fold.
    eapply outside_trans; [apply outside_upd; exact H2|].
    apply outside_fold. intros c eid _. unfold redirect_step. cbv zeta.
    match goal with |- outside S c (append_edge inp ?mm ?ee) =>
      apply (outside_trans S c mm); [apply outside_nodes; reflexivity|apply outside_append; nsimpl; exact H1] end.
  Qed.

  Lemma squash_outside (m : mdd) l :
    outside (fun x => In x l \/ x = length (m_nodes m)) m (fst (squash_if_needed st_eqb inp m l)).
  Proof.
    unfold squash_if_needed. rewrite Hrel.
    destruct (Nat.ltb (ci_width inp) (length l) && Nat.ltb 1 (length (m_layers m))) eqn:Eg; [|apply outside_refl]. cbn [fst].
    apply andb_true_iff in Eg. destruct Eg as [Eg _]. apply Nat.ltb_lt in Eg.
    assert (Hex : exists w1, ci_width inp = S w1) by (exists (ci_width inp - 1); lia).
    destruct Hex as [w1 Ew]. rewrite Ew in Eg. rewrite (relax_layer_unfold st_eqb inp m l w1 Ew). cbv zeta.
    destruct (note_squash_fields inp Hclean m) as (F1 & _).
    set (m0 := note_squash inp m) in *.
    set (S := fun x => In x l \/ x = length (m_nodes m)).
    set (sorted := sort_by (rank_order inp m0) l).
    assert (Hslen : length sorted = length l) by apply sort_by_length.
    assert (Hsorted : forall x, In x sorted -> In x l) by (intros x Hx; apply sort_by_In in Hx; exact Hx).
    assert (Hkeep : forall x, In x (firstn w1 sorted) -> S x).
    { intros x Hx. left. apply Hsorted. rewrite <- (firstn_skipn w1 sorted). apply in_or_app; left; exact Hx. }
    assert (Hmrg : forall x, In x (skipn w1 sorted) -> S x).
    { intros x Hx. left. apply Hsorted. rewrite <- (firstn_skipn w1 sorted). apply in_or_app; right; exact Hx. }
    match goal with |- context [add_log m0 ?ev] => set (m1 := add_log m0 ev) end.
    assert (O1 : outside S m m1) by (apply outside_nodes; exact F1).
    match goal with |- context [find ?f ?k] => destruct (find f k) as [rid|] eqn:Hrec end; cbn [fst].
    - apply find_some in Hrec. destruct Hrec as [Hrin _].
      match goal with |- outside S m (upd_node ?m3 ?sv _) =>
        apply (outside_trans S m m3); [|apply outside_upd; left; apply Hsorted; apply nth_In; lia] end.
      match goal with |- outside S m (fold_left ?f ?L ?m2) =>
        apply (outside_trans S m m2);
          [|apply outside_fold; intros a y Hy; apply outside_drop_step; [apply Hkeep; exact Hrin|apply Hmrg; exact Hy]] end.
      apply (outside_trans S m m1); [exact O1|]. apply outside_upd. apply Hkeep. exact Hrin.
    - assert (Hmid : S (length (m_nodes m1))) by (right; unfold m1; msimpl; rewrite F1; reflexivity).
      match goal with |- outside S m (fold_left ?f ?L ?m2) =>
        apply (outside_trans S m m2);
          [|apply outside_fold; intros a y Hy; apply outside_drop_step; [exact Hmid|apply Hmrg; exact Hy]] end.
      match goal with |- outside S m (upd_node ?m1' _ _) =>
        apply (outside_trans S m m1'); [|apply outside_upd; exact Hmid] end.
      apply (outside_trans S m m1); [exact O1|]. apply outside_snoc. exact Hmid.
  Qed.

  (* ---------------------------------------------------------------- what the cache filter does to the nodes *)
  Definition dropnode (n : node) (t : Z) : node := set_theta (set_flags n (fl_set_cache (n_flags n) true)) (Some t).

  Lemma fwc_nodes l : forall (m : mdd), NoDup l -> (forall x, In x l -> x < length (m_nodes m)) ->
    (forall x, ~ In x l -> gn (fst (filter_with_cache st_eqb inp m l)) x = gn m x) /\
    (forall x, In x (snd (filter_with_cache st_eqb inp m l)) ->
       In x l /\ gn (fst (filter_with_cache st_eqb inp m l)) x = gn m x) /\
    (forall x, In x l -> ~ In x (snd (filter_with_cache st_eqb inp m l)) ->
       exists th, ci_use_cache inp = true /\
         cget st_eqb (m_cache m) (n_state (gn m x)) (n_depth (gn m x)) = Some th /\
         (n_vtop (gn m x) <= th_value th)%Z /\
         gn (fst (filter_with_cache st_eqb inp m l)) x = dropnode (gn m x) (th_value th)) /\
    NoDup (snd (filter_with_cache st_eqb inp m l)).
  Proof.
    induction l as [|id l IH]; intros m Hnd Hr; cbn [filter_with_cache].
    - cbn [fst snd]. split; [reflexivity|]. split; [intros x []|]. split; [intros x []|constructor].
    - cbv zeta. inversion Hnd as [|? ? Hnin Hnd']; subst.
      destruct (cache_get_facts st_eqb inp m (n_state (gn m id)) (n_depth (gn m id))) as (G1 & G2 & _ & G4).
      destruct (cache_get st_eqb inp m (n_state (gn m id)) (n_depth (gn m id))) as [m1 th]. cbn [fst snd] in G1, G2, G4.
      assert (Hg1 : forall k, gn m1 k = gn m k) by (intros k; apply gn_nodes_eq; exact G1).
      assert (Hr1 : forall x, In x l -> x < length (m_nodes m1)) by (intros x Hx; rewrite G1; apply Hr; right; exact Hx).
      assert (Hkeepcase : forall (HH : True),
                let r := (let '(m2, r0) := filter_with_cache st_eqb inp m1 l in (m2, id :: r0)) in
                (forall x, ~ In x (id :: l) -> gn (fst r) x = gn m x) /\
                (forall x, In x (snd r) -> In x (id :: l) /\ gn (fst r) x = gn m x) /\
                (forall x, In x (id :: l) -> ~ In x (snd r) ->
                   exists th0, ci_use_cache inp = true /\
                     cget st_eqb (m_cache m) (n_state (gn m x)) (n_depth (gn m x)) = Some th0 /\
                     (n_vtop (gn m x) <= th_value th0)%Z /\ gn (fst r) x = dropnode (gn m x) (th_value th0)) /\
                NoDup (snd r)).
      { intros _. cbv zeta. destruct (IH m1 Hnd' Hr1) as (I1 & I2 & I3 & I4).
        destruct (filter_with_cache st_eqb inp m1 l) as [m2 r0]. cbn [fst snd] in *.
        split; [|split; [|split]].
        - intros x Hx. rewrite I1 by (intros H; apply Hx; right; exact H). apply Hg1.
        - intros x [<-|Hx].
          + split; [left; reflexivity|]. rewrite I1 by exact Hnin. apply Hg1.
          + destruct (I2 x Hx) as [a b]. split; [right; exact a|]. rewrite b. apply Hg1.
        - intros x [<-|Hx] Hn; [exfalso; apply Hn; left; reflexivity|].
          destruct (I3 x Hx) as (th0 & T1 & T2 & T3 & T4); [intros H; apply Hn; right; exact H|].
          exists th0. rewrite !Hg1, G2 in T2. rewrite Hg1 in T3, T4. auto.
        - constructor; [|exact I4]. intros H. apply Hnin. apply (I2 id H). }
      destruct th as [t|].
      + destruct (n_vtop (gn m id) >? th_value t)%Z eqn:Ev; [apply (Hkeepcase I)|].
        clear Hkeepcase. destruct (G4 t eq_refl) as [Huse Hcg].
        rewrite Z.gtb_ltb in Ev. apply Z.ltb_ge in Ev.
        set (f := fun n : node => set_theta (set_flags n (fl_set_cache (n_flags n) true)) (Some (th_value t))).
        set (m1' := upd_node m1 id f).
        assert (Hidlt : id < length (m_nodes m1)) by (rewrite G1; apply Hr; left; reflexivity).
        assert (Hg1' : forall k, k <> id -> gn m1' k = gn m k).
        { intros k Hk. unfold m1'. rewrite gn_upd_other by congruence. apply Hg1. }
        assert (Hgid : gn m1' id = dropnode (gn m id) (th_value t)).
        { unfold m1'. rewrite gn_upd_same by exact Hidlt. unfold f, dropnode. rewrite Hg1. reflexivity. }
        destruct (IH m1' Hnd') as (I1 & I2 & I3 & I4).
        { intros x Hx. unfold m1'. msimpl. rewrite upd_nth_length. apply Hr1. exact Hx. }
        destruct (filter_with_cache st_eqb inp m1' l) as [m2 r0]. cbn [fst snd] in *.
        split; [|split; [|split]].
        * intros x Hx. rewrite I1 by (intros H; apply Hx; right; exact H). apply Hg1'. intros ->. apply Hx. left; reflexivity.
        * intros x Hx. destruct (I2 x Hx) as [a b]. split; [right; exact a|]. rewrite b. apply Hg1'. intros ->. contradiction.
        * intros x [<-|Hx] Hn.
          -- exists t. split; [exact Huse|]. split; [exact Hcg|]. split; [exact Ev|]. rewrite I1 by exact Hnin. exact Hgid.
          -- assert (Hxid : x <> id) by (intros ->; contradiction).
             destruct (I3 x Hx Hn) as (th0 & T1 & T2 & T3 & T4).
             exists th0. rewrite !(Hg1' x Hxid) in T2, T3, T4. change (m_cache m1') with (m_cache m1) in T2. rewrite G2 in T2. auto.
        * exact I4.
      + apply (Hkeepcase I).
  Qed.

  (* theta and the cache flag of the existing nodes are left alone *)
  Definition thc (m m' : mdd) : Prop :=
    forall x, x < length (m_nodes m) ->
      f_cache (n_flags (gn m' x)) = f_cache (n_flags (gn m x)) /\ n_theta (gn m' x) = n_theta (gn m x).
  Lemma thc_refl m : thc m m. Proof. intros x _. split; reflexivity. Qed.
  Lemma thc_trans a b c : length (m_nodes a) <= length (m_nodes b) -> thc a b -> thc b c -> thc a c.
  Proof. intros Hl H1 H2 x Hx. destruct (H1 x Hx) as [a1 a2]. destruct (H2 x ltac:(lia)) as [b1 b2]. split; congruence. Qed.
  Lemma thc_nodes (m m' : mdd) : m_nodes m' = m_nodes m -> thc m m'.
  Proof. intros H x _. rewrite (gn_nodes_eq inp m m' x H). split; reflexivity. Qed.
  Lemma thc_upd (m : mdd) id f :
    (forall n, f_cache (n_flags (f n)) = f_cache (n_flags n) /\ n_theta (f n) = n_theta n) -> thc m (upd_node m id f).
  Proof.
    intros Hf x _. split.
    - apply (get_node_upd_node_proj inp (fun n => f_cache (n_flags n))). intros n. apply Hf.
    - apply (get_node_upd_node_proj inp (fun n => n_theta n)). intros n. apply Hf.
  Qed.
  Lemma thc_append (m : mdd) e : thc m (append_edge inp m e).
  Proof.
    intros x Hx. destruct (Nat.eq_dec x (e_to e)) as [->|Hne].
    - rewrite gn_append_same by exact Hx. cbv zeta. nsimpl. split; reflexivity.
    - rewrite gn_append_other by exact Hne. split; reflexivity.
  Qed.
  Lemma thc_snoc (m : mdd) n : thc m (with_nodes m (m_nodes m ++ [n])).
  Proof. intros x Hx. rewrite gn_snoc_old by exact Hx. split; reflexivity. Qed.

  Lemma thc_drop_step merged mid (a : mdd) did :
    thc a (drop_step inp merged mid a did) /\ length (m_nodes (drop_step inp merged mid a did)) = length (m_nodes a).
  Proof.
    split; [|apply drop_step_nodes_length].
    unfold drop_step. rewrite redirect_edges_fold.
    set (a1 := upd_node a did (fun n => set_flags n (fl_set_deleted (n_flags n) true))).
    assert (H1 : thc a a1) by (apply thc_upd; intros n; split; reflexivity).
    assert (L1 : length (m_nodes a1) = length (m_nodes a)) by (unfold a1; msimpl; apply upd_nth_length).
    assert (G : forall L (b : mdd), length (m_nodes b) = length (m_nodes a) -> thc a b ->
              thc a (fold_left (redirect_step inp merged mid) L b)).
    { induction L as [|eid L IH]; intros b Lb Hb; simpl; [exact Hb|].
      apply IH.
      - unfold redirect_step. cbv zeta. msimpl. rewrite upd_nth_length. exact Lb.
      - apply (thc_trans a b); [lia|exact Hb|]. unfold redirect_step. cbv zeta.
        match goal with |- thc b (append_edge inp ?mm ?ee) =>
          apply (thc_trans b mm); [apply Nat.le_refl|apply thc_nodes; reflexivity|apply thc_append] end. }
    apply G; assumption.
  Qed.

  Lemma thc_drop_fold mg mid L : forall (b : mdd),
    thc b (fold_left (drop_step inp mg mid) L b) /\
    length (m_nodes (fold_left (drop_step inp mg mid) L b)) = length (m_nodes b).
  Proof.
    induction L as [|y L IH]; intros b; simpl; [split; [apply thc_refl|reflexivity]|].
    destruct (thc_drop_step mg mid b y) as [T1 T2].
    destruct (IH (drop_step inp mg mid b y)) as [I1 I2].
    split; [apply (thc_trans b (drop_step inp mg mid b y)); [lia|exact T1|exact I1]|]. rewrite I2. exact T2.
  Qed.

  Lemma squash_thc (m : mdd) l : thc m (fst (squash_if_needed st_eqb inp m l)).
  Proof.
    unfold squash_if_needed. rewrite Hrel.
    destruct (Nat.ltb (ci_width inp) (length l) && Nat.ltb 1 (length (m_layers m))) eqn:Eg; [|apply thc_refl]. cbn [fst].
    assert (Hex : exists w1, ci_width inp = S w1) by (exists (ci_width inp - 1); lia).
    destruct Hex as [w1 Ew]. rewrite (relax_layer_unfold st_eqb inp m l w1 Ew). cbv zeta.
    destruct (note_squash_fields inp Hclean m) as (F1 & _).
    set (m0 := note_squash inp m) in *.
    match goal with |- context [add_log m0 ?ev] => set (m1 := add_log m0 ev) end.
    assert (O1 : thc m m1) by (apply thc_nodes; exact F1).
    assert (L1 : length (m_nodes m1) = length (m_nodes m)) by (unfold m1; msimpl; rewrite F1; reflexivity).
    match goal with |- context [find ?f ?k] => destruct (find f k) as [rid|] end; cbn [fst].
    - set (m2 := upd_node m1 rid set_relaxed_flag).
      assert (H2 : thc m m2).
      { apply (thc_trans m m1); [lia|exact O1|]. apply thc_upd. intros n. split; reflexivity. }
      assert (L2 : length (m_nodes m2) = length (m_nodes m)) by (unfold m2; msimpl; rewrite upd_nth_length; exact L1).
      match goal with |- thc m (upd_node (fold_left (drop_step inp ?mg ?mid) ?L m2) ?sv ?g) => destruct (thc_drop_fold mg mid L m2) as [G1 G2] end.
      match goal with |- thc m (upd_node ?m3 ?sv ?g) =>
        apply (thc_trans m m3); [rewrite G2; lia|apply (thc_trans m m2); [lia|exact H2|exact G1]|apply thc_upd; intros n; split; reflexivity] end.
    - match goal with |- thc m (fold_left ?f ?L ?m2') => set (m2 := m2') end.
      assert (H2 : thc m m2).
      { unfold m2. match goal with |- thc m (upd_node ?m1' _ _) =>
          apply (thc_trans m m1'); [msimpl; rewrite app_length; lia| |apply thc_upd; intros n; split; reflexivity] end.
        apply (thc_trans m m1); [lia|exact O1|apply thc_snoc]. }
      assert (L2 : length (m_nodes m) <= length (m_nodes m2)).
      { unfold m2. msimpl. rewrite upd_nth_length, app_length. lia. }
      apply (thc_trans m m2); [exact L2|exact H2|apply thc_drop_fold].
  Qed.

  (* ---------------------------------------------------------------- _move_to_next_layer, simulation part (MddSim.move_sim with the cache) *)
  Notation Cinv := (MddSim.Cinv inp).
  Notation Einv := (MddSim.Einv inp).
  Notation gr := (MddSim.gr inp).
  Notation enabled := (MddSim.enabled inp).

  Definition kept (m : mdd) : list nat := snd (prefilter st_eqb inp (with_next m []) (m_next m)).

  Lemma move_simC (m : mdd) d :
    Cinv d m -> m_next m <> [] ->
    exists m3 l ids, move_to_next_layer_clean st_eqb inp m = (m3, Some l) /\
      Cinv (S d) m3 /\ m_next m3 = [] /\
      (forall id, In id l -> id < m_layer_end m3 /\ n_depth (gn m3 id) = d) /\
      m_curr_depth m3 = m_curr_depth m /\ m_layers m3 = m_layers m ++ [ids] /\
      (forall id, In id l -> In id ids) /\
      (enabled m3 -> enabled m) /\
      (forall i0 c0 sc0 u ds s', In u (kept m) -> (1 < length (m_layers m) -> ds <> []) -> enabled m3 ->
        dpath m i0 c0 sc0 ds u s' -> exists u', In u' l /\ dpath m3 i0 c0 sc0 ds u' s') /\
      MddSim.srcs m m3 /\
      (forall x, x < m_layer_end m -> core_eq (gn m x) (gn m3 x)) /\
      (forall x, MddSim.Src m3 x -> ~ In x ids) /\
      (forall x, In x ids -> m_layer_end m <= x) /\
      m_layer_end m <= m_layer_end m3 /\
      (forall i u s ds t s', dpath m i u s ds t s' -> dpath m3 i u s ds t s').
  Proof.
    intros (HD & HX & Hnd & HE) Hne. unfold kept.
    rewrite move_clean_unfold.
    destruct (m_next m) as [|c0 cs] eqn:En; [congruence|].
    set (curr := c0 :: cs) in *.
    set (ma := with_next m []).
    assert (Hpa : peq inp m ma) by (apply peq_same_nodes; reflexivity).
    assert (HDa : Dinv inp ma).
    { eapply (Dg_peq inp Hclean); [exact Hpa|exact HD|apply Nat.le_refl|apply (D_le _ _ _ HD)|]. intros id []. }
    assert (HXa : Xinv inp ma) by (eapply Xg_peq; [exact Hpa|reflexivity|reflexivity|reflexivity|exact HX]).
    assert (HEa : Einv ma).
    { eapply (MddSim.Einv_frame inp Hnocut Hwidth Hrd); [| | | |exact HE]; try reflexivity. apply (MddSim.E_le _ _ HE). }
    assert (Hla : layer_ok inp ma curr d).
    { intros id Hid. rewrite <- En in Hid. split; [apply (D_next _ _ _ HD id Hid)|apply Hnd; exact Hid]. }
    (* cache filter *)
    pose proof (prefilter_ceq st_eqb inp Hclean ma curr) as Hb.
    destruct (prefilter st_eqb inp ma curr) as [mb lb0]. cbn [fst snd] in Hb. destruct Hb as [Hcb Hib].
    (* dominance filter *)
    pose proof (filter_with_dominance_ceq inp mb lb0) as [Hcc _].
    pose proof (MddSim.filter_with_dominance_nodom inp Hnodom mb lb0) as Hlc.
    destruct (filter_with_dominance inp mb lb0) as [mc lc]. cbn [fst snd] in Hcc, Hlc.
    assert (Hac : ceq inp ma mc) by (eapply ceq_trans; eauto).
    assert (HDc : Dinv inp mc) by (eapply (Dg_ceq inp Hclean); eauto).
    assert (HXc : Xinv inp mc) by (eapply Xinv_ceq; eauto).
    assert (HEc : Einv mc) by (eapply (MddSim.Einv_ceq inp Hnocut Hwidth Hrd); eauto).
    assert (Hlcl : layer_ok inp mc lc d).
    { eapply layer_ok_stable; [apply ceq_stable; exact Hac|exact Hla|]. intros x Hx. apply Hib. apply Hlc. exact Hx. }
    assert (Hnc : m_next mc = []) by (destruct Hac as (_ & Hn & _); rewrite Hn; reflexivity).
    (* squash *)
    destruct (squash_if_needed_inv st_eqb inp Hclean mc lc d HDc HXc Hlcl) as (Q1 & Q2 & Q3 & Q4 & Q5).
    destruct (MddSim.squash_sim st_eqb st_eqb_spec inp Hclean Hnocut Hwidth Hrd cov merge_cov relax_ge mc lc d HDc HXc HEc Hlcl)
      as (S1 & S2 & S2s & S3 & S4).
    destruct (squash_if_needed st_eqb inp mc lc) as [md ld]. cbn [fst snd] in *.
    set (from := m_layer_end md). set (to := length (m_nodes md)).
    assert (Hft : from <= to) by apply (D_le _ _ _ Q1).
    set (m3 := push_layer md (seq from (to - from)) to).
    assert (Hp : peq inp md m3) by (apply peq_same_nodes; reflexivity).
    exists m3, ld, (seq from (to - from)).
    split; [reflexivity|].
    assert (Hlay3 : m_layers m3 = m_layers m ++ [seq from (to - from)]).
    { unfold m3. msimpl. f_equal. rewrite (MddSim.gr_layers inp _ _ S2).
      destruct Hac as (_ & _ & _ & Hl & _). rewrite Hl. reflexivity. }
    assert (Hle_mc : m_layer_end mc = m_layer_end m).
    { destruct Hac as (_ & _ & Hl & _). rewrite Hl. reflexivity. }
    assert (Hle_md : m_layer_end md = m_layer_end m).
    { destruct Q3 as (q1 & _). rewrite q1. exact Hle_mc. }
    assert (Htrack : forall i0 cc0 sc0 u ds s', In u lb0 -> (1 < length (m_layers m) -> ds <> []) -> enabled m3 ->
              dpath m i0 cc0 sc0 ds u s' -> exists u', In u' ld /\ dpath m3 i0 cc0 sc0 ds u' s').
    { intros i0 cc0 sc0 u ds s' Hu Hds Hen Hpth.
      assert (Hpc : dpath mc i0 cc0 sc0 ds u s').
      { eapply (MddSim.dpath_ceq inp Hnocut Hwidth Hrd); [exact Hac|].
        eapply (MddSim.dpath_peq inp Hnocut Hwidth Hrd); [exact Hpa| |exact Hpth]. auto. }
      destruct (S4 i0 cc0 sc0 u ds s') as (u' & Hu' & Hp').
      + apply Hlc. exact Hu.
      + intros H1. apply Hds. destruct Hac as (_ & _ & _ & Hl & _). rewrite Hl in H1. exact H1.
      + exact Hen.
      + exact Hpc.
      + exists u'. split; [exact Hu'|]. eapply (MddSim.dpath_peq inp Hnocut Hwidth Hrd); [exact Hp| |exact Hp'].
        intros k x. unfold m3. msimpl. apply MddSim.nth_layers_app. }
    split; [|split; [|split; [|split; [|split; [|split; [|split; [|split; [|split; [|split; [|split; [|split; [|split]]]]]]]]]]]].
    - split; [|split; [|split]].
      + eapply (Dg_peq inp Hclean); [exact Hp|exact Q1|exact Hft|apply Nat.le_refl|].
        intros id Hid. unfold m3 in Hid. msimpl_in Hid. rewrite Q4, Hnc in Hid. destruct Hid.
      + apply Xg_push_layer.
        * eapply Xg_weaken; [|exact Q2]. exact Hft.
        * apply Nat.le_refl.
        * intros id Hid. apply in_seq in Hid. unfold m3. msimpl. unfold from, to in *. lia.
      + intros id Hid. unfold m3 in Hid. msimpl_in Hid. rewrite Q4, Hnc in Hid. destruct Hid.
      + apply (MddSim.Einv_frame inp Hnocut Hwidth Hrd md m3); [reflexivity|reflexivity|exact Hft|apply Nat.le_refl|exact S1].
    - unfold m3. msimpl. rewrite Q4. exact Hnc.
    - intros id Hid. destruct (Q5 id Hid) as [Hr Hdp]. unfold m3. msimpl. split; [unfold to; lia|exact Hdp].
    - unfold m3. msimpl. destruct Q3 as (_ & _ & _ & _ & q5). rewrite q5.
      destruct Hac as (_ & _ & _ & _ & _ & _ & a7). rewrite a7. reflexivity.
    - exact Hlay3.
    - intros id Hid. destruct (Q5 id Hid) as [Hr _]. apply in_seq. unfold from, to. lia.
    - intros Hen. assert (Hmc : enabled mc) by (apply S3; exact Hen).
      intros Ht. specialize (Hmc Ht). destruct Hac as (_ & _ & _ & _ & Hlel & _). rewrite Hlel in Hmc. exact Hmc.
    - exact Htrack.
    - eapply MddSim.srcs_trans; [|eapply MddSim.srcs_trans; [exact S2s|apply MddSim.srcs_edges_eq; reflexivity]].
      apply MddSim.srcs_edges_eq. destruct Hac as ((Hce & _) & _). rewrite Hce. reflexivity.
    - intros x Hx.
      destruct Hpa as (_ & _ & _ & A4a). destruct Hac as ((_ & _ & _ & A4c) & _).
      destruct Q3 as (_ & _ & q3 & _). destruct Hp as (_ & _ & _ & A4p).
      eapply (core_eq_trans inp Hclean); [apply A4a|]. eapply (core_eq_trans inp Hclean); [apply A4c|].
      eapply (core_eq_trans inp Hclean); [apply q3; rewrite Hle_mc; exact Hx|apply A4p].
    - intros x (eid & He1 & He2) Hin. apply in_seq in Hin.
      change (m_edges m3) with (m_edges md) in He1. change (get_edge m3 eid) with (get_edge md eid) in He2.
      pose proof (MddSim.E_from _ _ S1 eid He1) as Hf. rewrite He2 in Hf. unfold from in Hin. lia.
    - intros x Hin. apply in_seq in Hin. unfold from in Hin. lia.
    - unfold m3. msimpl. unfold to, from in *. lia.
    - intros i u s ds t s' Hpth.
      assert (Hpc : dpath mc i u s ds t s').
      { eapply (MddSim.dpath_ceq inp Hnocut Hwidth Hrd); [exact Hac|].
        eapply (MddSim.dpath_peq inp Hnocut Hwidth Hrd); [exact Hpa| |exact Hpth]. auto. }
      eapply (MddSim.dpath_peq inp Hnocut Hwidth Hrd); [exact Hp| |eapply (MddSim.dpath_gr inp Hnocut Hwidth Hrd); [exact S2|exact Hpc]].
      intros k x. unfold m3. msimpl. apply MddSim.nth_layers_app.
  Qed.

  Lemma squash_ld_sub (m : mdd) l : forall x, In x (snd (squash_if_needed st_eqb inp m l)) -> In x l \/ x = length (m_nodes m).
  Proof.
    intros x. unfold squash_if_needed. rewrite Hrel.
    destruct (Nat.ltb (ci_width inp) (length l) && Nat.ltb 1 (length (m_layers m))) eqn:Eg; [|cbn [snd]; auto].
    assert (Hex : exists w1, ci_width inp = S w1) by (exists (ci_width inp - 1); lia).
    destruct Hex as [w1 Ew]. rewrite (relax_layer_unfold st_eqb inp m l w1 Ew). cbv zeta.
    destruct (note_squash_fields inp Hclean m) as (F1 & _).
    set (m0 := note_squash inp m) in *.
    set (sorted := sort_by (rank_order inp m0) l).
    assert (Hsorted : forall y, In y sorted -> In y l) by (intros y Hy; apply sort_by_In in Hy; exact Hy).
    match goal with |- context [find ?f ?k] => destruct (find f k) as [rid|] end; cbn [snd]; intros Hx.
    - left. apply Hsorted. rewrite <- (firstn_skipn (S w1) sorted). apply in_or_app. left; exact Hx.
    - apply in_app_or in Hx. destruct Hx as [Hx|[<-|[]]].
      + left. apply Hsorted. rewrite <- (firstn_skipn w1 sorted). apply in_or_app. left; exact Hx.
      + right. msimpl. rewrite F1. reflexivity.
  Qed.

  Lemma squash_new_node (m : mdd) l :
    length (m_nodes m) < length (m_nodes (fst (squash_if_needed st_eqb inp m l))) ->
    f_cache (n_flags (gn (fst (squash_if_needed st_eqb inp m l)) (length (m_nodes m)))) = false.
  Proof.
    unfold squash_if_needed. rewrite Hrel.
    destruct (Nat.ltb (ci_width inp) (length l) && Nat.ltb 1 (length (m_layers m))) eqn:Eg; [|cbn [fst]; lia].
    assert (Hex : exists w1, ci_width inp = S w1) by (exists (ci_width inp - 1); lia).
    destruct Hex as [w1 Ew]. rewrite (relax_layer_unfold st_eqb inp m l w1 Ew). cbv zeta.
    destruct (note_squash_fields inp Hclean m) as (F1 & _).
    set (m0 := note_squash inp m) in *.
    match goal with |- context [add_log m0 ?ev] => set (m1 := add_log m0 ev) end.
    assert (L1 : length (m_nodes m1) = length (m_nodes m)) by (unfold m1; msimpl; rewrite F1; reflexivity).
    match goal with |- context [find ?f ?k] => destruct (find f k) as [rid|] end; cbn [fst].
    - intros Hlt. exfalso. revert Hlt. msimpl. rewrite upd_nth_length.
      match goal with |- context [fold_left (drop_step inp ?mg ?mid) ?L ?b] => destruct (thc_drop_fold mg mid L b) as [_ G2] end.
      rewrite G2. msimpl. rewrite upd_nth_length. fold (m_nodes m1). rewrite L1. lia.
    - intros _.
      match goal with |- context [fold_left (drop_step inp ?mg ?mid) ?L ?b] => set (m2 := b); destruct (thc_drop_fold mg mid L b) as [G1 _] end.
      fold m2 in G1.
      assert (Hlt2 : length (m_nodes m) < length (m_nodes m2)).
      { unfold m2. msimpl. rewrite upd_nth_length, app_length. fold (m_nodes m1). rewrite L1. simpl. lia. }
      destruct (G1 (length (m_nodes m)) Hlt2) as [G1a _]. rewrite G1a.
      unfold m2. rewrite <- L1. rewrite gn_upd_same by (msimpl; rewrite app_length; simpl; lia).
      rewrite gn_snoc_new. reflexivity.
  Qed.

  (* ---------------------------------------------------------------- _move_to_next_layer, frames and flags  *)
  Definition fcache (m : mdd) (x : nat) : bool := f_cache (n_flags (gn m x)).

  Lemma move_extraC (m : mdd) :
    m_next m <> [] -> m_layer_end m <= length (m_nodes m) ->
    (forall x, In x (m_next m) <-> m_layer_end m <= x < length (m_nodes m)) -> NoDup (m_next m) ->
    (forall x, In x (m_next m) -> del m x = false) ->
    (forall x, In x (m_next m) -> fcache m x = false) ->
    exists m3 l, move_to_next_layer_clean st_eqb inp m = (m3, Some l) /\
      m_layer_end m3 = length (m_nodes m3) /\
      m_layers m3 = m_layers m ++ [seq (m_layer_end m) (length (m_nodes m3) - m_layer_end m)] /\
      same_below (m_layer_end m) m m3 /\ tr m m3 /\
      (forall x, In x l -> del m3 x = false /\ m_layer_end m <= x < length (m_nodes m3)) /\
      (forall x, m_layer_end m <= x < length (m_nodes m3) -> del m3 x = false -> fcache m3 x = false -> In x l) /\
      (m_lel m3 = m_lel m \/ (m_lel m = None /\ m_lel m3 = Some (length (m_layers m) - 1) /\ 1 < length (m_layers m))) /\
      (forall x, In x l -> fcache m3 x = false) /\
      incl (kept m) (m_next m) /\
      (forall x, In x (m_next m) -> ~ In x (kept m) ->
         del m3 x = false /\
         exists th, ci_use_cache inp = true /\
           cget st_eqb (m_cache m) (n_state (gn m x)) (n_depth (gn m x)) = Some th /\
           (n_vtop (gn m x) <= th_value th)%Z /\ gn m3 x = dropnode (gn m x) (th_value th)) /\
      (forall x, In x (kept m) -> fcache m3 x = false) /\
      (forall x, m_layer_end m <= x < length (m_nodes m3) -> In x (m_next m) \/ In x l).
  Proof.
    intros Hne Hle Hopen Hnd Hdel Hfc. unfold kept.
    rewrite move_clean_unfold. destruct (m_next m) as [|c0 cs] eqn:En; [congruence|].
    set (curr := c0 :: cs) in *.
    set (ma := with_next m []).
    (* cache filter *)
    assert (Hpre : let r := prefilter st_eqb inp ma curr in
              ceq inp ma (fst r) /\ length (m_nodes (fst r)) = length (m_nodes m) /\ NoDup (snd r) /\
              (forall x, ~ In x curr -> gn (fst r) x = gn m x) /\
              (forall x, In x (snd r) -> In x curr /\ gn (fst r) x = gn m x) /\
              (forall x, In x curr -> ~ In x (snd r) ->
                 exists th, ci_use_cache inp = true /\
                   cget st_eqb (m_cache m) (n_state (gn m x)) (n_depth (gn m x)) = Some th /\
                   (n_vtop (gn m x) <= th_value th)%Z /\ gn (fst r) x = dropnode (gn m x) (th_value th))).
    { cbv zeta. unfold prefilter. destruct (Nat.ltb 0 (length (m_layers ma))).
      - destruct (filter_with_cache_ceq st_eqb inp Hclean curr ma) as [C1 C2].
        destruct (fwc_nodes curr ma Hnd) as (W1 & W2 & W3 & W4).
        { intros x Hx. apply Hopen. exact Hx. }
        split; [exact C1|]. split; [destruct C1 as ((_ & _ & c & _) & _); exact c|]. split; [exact W4|].
        split; [exact W1|]. split; [exact W2|exact W3].
      - cbn [fst snd]. split; [apply ceq_refl|]. split; [reflexivity|]. split; [exact Hnd|].
        split; [reflexivity|]. split; [intros x Hx; split; [exact Hx|reflexivity]|]. intros x Hx Hn. contradiction. }
    cbv zeta in Hpre.
    destruct (prefilter st_eqb inp ma curr) as [mb lb0]. cbn [fst snd] in Hpre.
    destruct Hpre as (Hcb & Hlenb & Hndb & Wout & Wkept & Wdrop).
    (* dominance filter *)
    pose proof (filter_with_dominance_ceq inp mb lb0) as [Hcc _].
    pose proof (MddSim.filter_with_dominance_nodom inp Hnodom mb lb0) as Hlc.
    assert (Hncc : m_nodes (fst (filter_with_dominance inp mb lb0)) = m_nodes mb).
    { unfold filter_with_dominance. apply (MddSim.dom_retain_nodes inp Hnodom). }
    assert (Hndc : NoDup (snd (filter_with_dominance inp mb lb0))).
    { unfold filter_with_dominance. rewrite (MddSim.dom_retain_nodom inp Hnodom).
      apply (proj2 (sub_sort_by _ lb0)). exact Hndb. }
    destruct (filter_with_dominance inp mb lb0) as [mc lc]. cbn [fst snd] in Hcc, Hlc, Hncc, Hndc.
    assert (Hac : ceq inp ma mc) by (eapply ceq_trans; eauto).
    assert (Hgc : forall k, gn mc k = gn mb k) by (intros k; apply gn_nodes_eq; exact Hncc).
    assert (Hlenc : length (m_nodes mc) = length (m_nodes m)) by (rewrite Hncc; exact Hlenb).
    destruct Hac as ((Hec & _) & _ & Hlec & Hlyc & Hlelc & _).
    change (m_layer_end ma) with (m_layer_end m) in Hlec. change (m_layers ma) with (m_layers m) in Hlyc.
    change (m_lel ma) with (m_lel m) in Hlelc. change (m_edges ma) with (m_edges m) in Hec.
    assert (Hlcin : forall x, In x lc -> In x curr /\ gn mc x = gn m x).
    { intros x Hx. apply Hlc in Hx. rewrite Hgc. apply Wkept. exact Hx. }
    assert (Hdc : forall x, del mc x = del m x).
    { intros x. unfold del. rewrite Hgc.
      destruct (classic_in x curr) as [Hin|Hnin]; [|rewrite (Wout x Hnin); reflexivity].
      destruct (classic_in x lb0) as [Hk|Hk]; [rewrite (proj2 (Wkept x Hk)); reflexivity|].
      destruct (Wdrop x Hin Hk) as (th & _ & _ & _ & E). rewrite E. reflexivity. }
    (* squash *)
    destruct (squash_extra mc lc) as (S1 & S2 & S3 & S4 & S5 & S6).
    { rewrite Hlec, Hlenc. exact Hle. }
    { intros x Hx. rewrite Hlec, Hlenc. apply Hopen. apply (Hlcin x Hx). }
    { exact Hndc. }
    { intros x Hx. rewrite Hdc. apply Hdel. apply (Hlcin x Hx). }
    cbv zeta in S1, S2, S3, S4, S5, S6.
    pose proof (squash_gr mc lc) as Gcd.
    pose proof (squash_outside mc lc) as Oout.
    pose proof (squash_thc mc lc) as Othc.
    destruct (squash_if_needed st_eqb inp mc lc) as [md ld] eqn:Esq. cbn [fst snd] in *.
    rewrite Hlec in S1, S2. rewrite Hlenc in S4, S5. rewrite Hlelc, Hlyc in S6.
    pose proof (MddSim.gr_layers inp _ _ Gcd) as Hlyd. rewrite Hlyc in Hlyd.
    assert (Hled : m_layer_end md = m_layer_end m).
    { destruct Gcd as [E _]. rewrite (ext_lend _ _ _ E). exact Hlec. }
    set (m3 := push_layer md (seq (m_layer_end md) (length (m_nodes md) - m_layer_end md)) (length (m_nodes md))).
    exists m3, ld. split; [reflexivity|].
    assert (Hd3 : forall x, del m3 x = del md x) by (intros x; apply del_same_nodes; reflexivity).
    assert (Hg3 : forall x, gn m3 x = gn md x) by (intros x; apply gn_nodes_eq; reflexivity).
    change (length (m_nodes m3)) with (length (m_nodes md)).
    split; [reflexivity|]. split; [unfold m3; msimpl; rewrite Hled, Hlyd; reflexivity|].
    assert (Hbm : same_below (m_layer_end m) m md).
    { apply (same_below_trans _ m mc); [|exact S1].
      intros x Hx. rewrite Hgc. apply Wout. intros Hin. apply Hopen in Hin. lia. }
    split; [intros x Hx; rewrite Hg3; apply Hbm; exact Hx|].
    split.
    { apply (tr_trans m md m3); [|apply tr_same; reflexivity].
      apply (tr_trans m mc md); [|apply tr_gr; exact Gcd].
      (* m -> mc: same states, same inbound lists, same edges *)
      split; [rewrite Hlenc; apply Nat.le_refl|]. split; [|split; [|exists []; rewrite app_nil_r; exact Hec]].
      - intros x Hx. rewrite Hgc. destruct (classic_in x curr) as [Hin|Hnin]; [|rewrite (Wout x Hnin); reflexivity].
        destruct (classic_in x lb0) as [Hk|Hk]; [rewrite (proj2 (Wkept x Hk)); reflexivity|].
        destruct (Wdrop x Hin Hk) as (th & _ & _ & _ & E). rewrite E. reflexivity.
      - intros x. rewrite Hgc. destruct (classic_in x curr) as [Hin|Hnin]; [|rewrite (Wout x Hnin); apply incl_refl].
        destruct (classic_in x lb0) as [Hk|Hk]; [rewrite (proj2 (Wkept x Hk)); apply incl_refl|].
        destruct (Wdrop x Hin Hk) as (th & _ & _ & _ & E). rewrite E. apply incl_refl. }
    assert (Hfcd : forall x, x < length (m_nodes m) -> fcache md x = fcache mc x).
    { intros x Hx. unfold fcache. apply Othc. rewrite Hlenc. exact Hx. }
    assert (Hfc_kept : forall x, In x lb0 -> fcache mc x = false).
    { intros x Hx. unfold fcache. rewrite Hgc, (proj2 (Wkept x Hx)). apply Hfc. apply (Wkept x Hx). }
    assert (Hfc_ld : forall x, In x ld -> fcache md x = false).
    { intros x Hx. destruct (Nat.lt_ge_cases x (length (m_nodes m))) as [Hlt|Hge].
      - rewrite (Hfcd x Hlt).
        destruct (classic_in x lc) as [Hin|Hnin]; [apply Hfc_kept; apply Hlc; exact Hin|].
        (* x < length nodes, in ld but not in lc: impossible (ld is a sublist of lc plus the new node) *)
        exfalso. destruct (S2 x Hx) as [_ Hr].
        assert (Hxc : In x curr) by (apply Hopen; lia).
        destruct (classic_in x lb0) as [Hk|Hk]; [apply Hnin; apply Hlc; exact Hk|].
        (* a dropped node is outside lc: untouched by the squash, hence not in ld unless ld ⊆ lc ∪ {new} *)
        pose proof (squash_ld_sub mc lc) as Hsub. rewrite Esq in Hsub. cbn [snd] in Hsub.
        destruct (Hsub x Hx) as [H1|H1]; [contradiction|]. rewrite Hlenc in H1. lia.
      - (* the new merged node *)
        destruct (S2 x Hx) as [_ Hr]. assert (x = length (m_nodes m)) by lia. subst x.
        pose proof (squash_new_node mc lc) as Hnew. rewrite Esq in Hnew. cbn [fst] in Hnew.
        rewrite Hlenc in Hnew. apply Hnew. lia. }
    split; [intros x Hx; rewrite Hd3; apply S2; exact Hx|]. split.
    { intros x Hx Hdx Hfx. rewrite Hd3 in Hdx. unfold fcache in Hfx. rewrite Hg3 in Hfx. fold (fcache md x) in Hfx.
      destruct (classic_in x ld) as [Hin|Hnin]; [exact Hin|]. exfalso.
      destruct (Nat.lt_ge_cases x (length (m_nodes m))) as [Hlt|Hge].
      - assert (Hxc : In x curr) by (apply Hopen; lia).
        destruct (classic_in x lb0) as [Hk|Hk].
        + assert (Hxl : In x lc) by (apply Hlc; exact Hk). rewrite (S3 x Hxl Hnin) in Hdx. discriminate.
        + rewrite (Hfcd x Hlt) in Hfx. unfold fcache in Hfx. rewrite Hgc in Hfx.
          destruct (Wdrop x Hxc Hk) as (th & _ & _ & _ & E). rewrite E in Hfx. unfold dropnode in Hfx. nsimpl_in Hfx. discriminate.
      - assert (x = length (m_nodes m)) by lia. subst x. apply Hnin. apply S5. lia. }
    split; [exact S6|].
    split; [intros x Hx; unfold fcache; rewrite Hg3; apply Hfc_ld; exact Hx|].
    split; [intros x Hx; apply (Wkept x Hx)|].
    split.
    { intros x Hx Hk.
      assert (Hxr : m_layer_end m <= x < length (m_nodes m)) by (apply Hopen; exact Hx).
      assert (Hnlc : ~ In x lc) by (intros H; apply Hk; apply Hlc; exact H).
      assert (Hgd : gn md x = gn mc x).
      { apply Oout. intros [H|H]; [contradiction|]. rewrite Hlenc in H. lia. }
      destruct (Wdrop x Hx Hk) as (th & T1 & T2 & T3 & T4).
      split.
      - rewrite Hd3. unfold del. rewrite Hgd, Hgc, T4. unfold dropnode. nsimpl. apply Hdel. exact Hx.
      - exists th. split; [exact T1|]. split; [exact T2|]. split; [exact T3|]. rewrite Hg3, Hgd, Hgc. exact T4. }
    split.
    { intros x Hx. unfold fcache. rewrite Hg3. fold (fcache md x).
      assert (Hxr : x < length (m_nodes m)) by (apply Hopen; apply (Wkept x Hx)).
      rewrite (Hfcd x Hxr). apply Hfc_kept. exact Hx. }
    intros x Hx. destruct (Nat.lt_ge_cases x (length (m_nodes m))) as [Hlt|Hge].
    - left. apply Hopen. lia.
    - right. assert (x = length (m_nodes m)) by lia. subst x. apply S5. lia.
  Qed.

  (* ---------------------------------------------------------------- node-local invariant: no threshold unless dropped by the cache, no above flag *)
  Definition PnC (n : node) : Prop :=
    f_above (n_flags n) = false /\ (f_cache (n_flags n) = false -> n_theta n = None).
  Definition NinvC (m : mdd) : Prop := Forall PnC (m_nodes m).

  Lemma NinvC_same (m m' : mdd) : m_nodes m' = m_nodes m -> NinvC m -> NinvC m'.
  Proof. unfold NinvC. intros ->. auto. Qed.
  Lemma NinvC_upd (m : mdd) id f : (forall n, PnC n -> PnC (f n)) -> NinvC m -> NinvC (upd_node m id f).
  Proof. intros Hf H. unfold NinvC. msimpl. apply Forall_upd_nth; auto. Qed.
  Lemma NinvC_append_edge (m : mdd) e : NinvC m -> NinvC (append_edge inp m e).
  Proof.
    intros H. unfold NinvC. msimpl. apply Forall_upd_nth; [|exact H].
    intros n (P1 & P2). split; nsimpl; auto.
  Qed.
  Lemma NinvC_snoc (m : mdd) n : PnC n -> NinvC m -> NinvC (with_nodes m (m_nodes m ++ [n])).
  Proof. intros Hn H. unfold NinvC. msimpl. apply Forall_app. split; [exact H|constructor; auto]. Qed.
  Lemma NinvC_fold {X} (f : mdd -> X -> mdd) l m : (forall a x, NinvC a -> NinvC (f a x)) -> NinvC m -> NinvC (fold_left f l m).
  Proof. intros Hf. revert m. induction l as [|x l IH]; intros m Hm; simpl; auto. Qed.
  Lemma PnC_set_flag (n : node) fl :
    f_cache fl = f_cache (n_flags n) -> f_above fl = f_above (n_flags n) -> PnC n -> PnC (set_flags n fl).
  Proof. intros Hf Hg (P1 & P2). split; nsimpl; [congruence|]. intros E. apply P2. congruence. Qed.

  Lemma NinvC_gn (m : mdd) x : NinvC m -> PnC (gn m x).
  Proof.
    intros H. destruct (Nat.lt_ge_cases x (length (m_nodes m))) as [Hlt|Hge].
    - unfold NinvC in H. rewrite Forall_forall in H. apply H. apply nth_In. exact Hlt.
    - rewrite (gn_out_of_range inp m x Hge). split; [reflexivity|intros _; reflexivity].
  Qed.

  Lemma NinvC_branch_on (m : mdd) id d : NinvC m -> NinvC (branch_on st_eqb inp m id d).
  Proof.
    intros H. unfold branch_on. cbv zeta.
    match goal with |- context [find_next ?a ?b ?c ?d] => destruct (find_next a b c d) end.
    - apply NinvC_append_edge. eapply NinvC_same; [|exact H]. reflexivity.
    - eapply NinvC_same; [reflexivity|]. apply NinvC_append_edge. apply NinvC_snoc.
      + split; [reflexivity|intros _; reflexivity].
      + eapply NinvC_same; [|exact H]. reflexivity.
  Qed.

  Lemma NinvC_expand_node var (m : mdd) id : NinvC m -> NinvC (expand_node st_eqb inp var m id).
  Proof.
    intros H. unfold expand_node. cbv zeta.
    set (m1 := upd_node m id (fun n => set_rub n (fast_upper_bound (ci_relax inp) (n_state (gn m id))))).
    assert (H1 : NinvC m1).
    { unfold m1. apply NinvC_upd; [|exact H]. intros n (P1 & P2). split; nsimpl; auto. }
    destruct (_ >? _)%Z; [|exact H1].
    apply NinvC_fold; [intros; apply NinvC_branch_on; assumption|].
    eapply NinvC_same; [|exact H1]. reflexivity.
  Qed.

  Lemma NinvC_drop_step merged mid (a : mdd) did : NinvC a -> NinvC (drop_step inp merged mid a did).
  Proof.
    intros H. unfold drop_step. rewrite redirect_edges_fold.
    apply NinvC_fold.
    - intros b x Hb. unfold redirect_step. cbv zeta. apply NinvC_append_edge. eapply NinvC_same; [|exact Hb]. reflexivity.
    - apply NinvC_upd; [|exact H]. intros n Hn. apply PnC_set_flag; [reflexivity|reflexivity|exact Hn].
  Qed.

  Lemma NinvC_squash (m : mdd) l : NinvC m -> NinvC (fst (squash_if_needed st_eqb inp m l)).
  Proof.
    intros H. unfold squash_if_needed. rewrite Hrel.
    destruct (_ && _); [|exact H].
    assert (Hex : exists w1, ci_width inp = S w1) by (exists (ci_width inp - 1); lia).
    destruct Hex as [w1 Ew]. rewrite (relax_layer_unfold st_eqb inp m l w1 Ew). cbv zeta.
    assert (H0 : NinvC (note_squash inp m)) by (eapply NinvC_same; [apply (note_squash_fields inp Hclean m)|exact H]).
    set (m0 := note_squash inp m) in *.
    match goal with |- context [add_log m0 ?ev] => set (m1 := add_log m0 ev) end.
    assert (H1 : NinvC m1) by (eapply NinvC_same; [|exact H0]; reflexivity).
    match goal with |- context [find ?f ?k] => destruct (find f k) as [rid|] end; cbn [fst].
    + apply NinvC_upd; [intros n Hn; apply PnC_set_flag; [reflexivity|reflexivity|exact Hn]|].
      apply NinvC_fold; [intros; apply NinvC_drop_step; assumption|].
      apply NinvC_upd; [intros n Hn; apply PnC_set_flag; [reflexivity|reflexivity|exact Hn]|exact H1].
    + apply NinvC_fold; [intros; apply NinvC_drop_step; assumption|].
      apply NinvC_upd; [intros n Hn; apply PnC_set_flag; [reflexivity|reflexivity|exact Hn]|].
      apply NinvC_snoc; [|exact H1]. split; [reflexivity|intros _; reflexivity].
  Qed.

  Lemma NinvC_cache_get (m : mdd) s d : NinvC m -> NinvC (fst (cache_get st_eqb inp m s d)).
  Proof.
    intros H. eapply NinvC_same; [|exact H].
    apply (cache_get_facts st_eqb inp m s d).
  Qed.

  Lemma NinvC_fwc l : forall (m : mdd), NinvC m -> NinvC (fst (filter_with_cache st_eqb inp m l)).
  Proof.
    induction l as [|id l IH]; intros m H; cbn [filter_with_cache]; [exact H|]. cbv zeta.
    pose proof (NinvC_cache_get m (n_state (gn m id)) (n_depth (gn m id)) H) as H1.
    destruct (cache_get st_eqb inp m (n_state (gn m id)) (n_depth (gn m id))) as [m1 th]. cbn [fst] in H1.
    destruct th as [t|].
    - destruct (_ >? _)%Z.
      + specialize (IH m1 H1). destruct (filter_with_cache st_eqb inp m1 l) as [m2 r]. exact IH.
      + apply IH. apply NinvC_upd; [|exact H1]. intros n (P1 & P2). split; nsimpl; [exact P1|discriminate].
    - specialize (IH m1 H1). destruct (filter_with_cache st_eqb inp m1 l) as [m2 r]. exact IH.
  Qed.

  Lemma NinvC_move (m : mdd) : NinvC m -> NinvC (fst (move_to_next_layer_clean st_eqb inp m)).
  Proof.
    intros H. rewrite move_clean_unfold. destruct (m_next m) as [|c0 cs]; [exact H|].
    set (curr := c0 :: cs).
    assert (Hb : NinvC (fst (prefilter st_eqb inp (with_next m []) curr))).
    { unfold prefilter. destruct (Nat.ltb 0 _); [|exact H]. apply NinvC_fwc. exact H. }
    destruct (prefilter st_eqb inp (with_next m []) curr) as [mb lb0]. cbn [fst] in Hb.
    assert (Hcc : NinvC (fst (filter_with_dominance inp mb lb0))).
    { unfold filter_with_dominance. eapply NinvC_same; [apply (MddSim.dom_retain_nodes inp Hnodom)|exact Hb]. }
    destruct (filter_with_dominance inp mb lb0) as [mc lc]. cbn [fst] in Hcc.
    pose proof (NinvC_squash mc lc Hcc) as Hd.
    destruct (squash_if_needed st_eqb inp mc lc) as [md ld]. cbn [fst] in *. exact Hd.
  Qed.

  Lemma NinvC_initialize c ds polls : NinvC (initialize inp c ds polls).
  Proof. constructor; [|constructor]. split; [reflexivity|intros _; reflexivity]. Qed.

  (* ---------------------------------------------------------------- the cache flag of the nodes created by an expansion *)
  Definition fcQ (b : nat) (a : mdd) : Prop := forall x, b <= x -> fcache a x = false.

  Lemma fcache_append (a : mdd) e x : fcache (append_edge inp a e) x = fcache a x.
  Proof.
    unfold fcache. destruct (Nat.eq_dec x (e_to e)) as [->|Hne].
    - destruct (Nat.lt_ge_cases (e_to e) (length (m_nodes a))) as [Hlt|Hge].
      + rewrite gn_append_same by exact Hlt. cbv zeta. nsimpl. reflexivity.
      + unfold get_node. msimpl. rewrite upd_nth_out by exact Hge. reflexivity.
    - rewrite gn_append_other by exact Hne. reflexivity.
  Qed.

  Lemma fcache_with_next (a : mdd) nx x : fcache (with_next a nx) x = fcache a x.
  Proof. reflexivity. Qed.
  Lemma fcache_snoc (a : mdd) n x : f_cache (n_flags n) = false ->
    fcache (with_nodes a (m_nodes a ++ [n])) x = if Nat.ltb x (length (m_nodes a)) then fcache a x else false.
  Proof.
    intros Hn. unfold fcache. destruct (Nat.ltb_spec x (length (m_nodes a))) as [Hlt|Hge].
    - rewrite gn_snoc_old by exact Hlt. reflexivity.
    - destruct (Nat.eq_dec x (length (m_nodes a))) as [->|Hne].
      + rewrite gn_snoc_new. exact Hn.
      + rewrite gn_out_of_range; [reflexivity|]. msimpl. rewrite app_length. simpl. lia.
  Qed.

  Lemma fcQ_branch_on b (a : mdd) id d : fcQ b a -> fcQ b (branch_on st_eqb inp a id d).
  Proof.
    intros HQ x Hx. unfold branch_on. cbv zeta.
    match goal with |- context [find_next ?a0 ?b0 ?c0 ?d0] => destruct (find_next a0 b0 c0 d0) end.
    - rewrite fcache_append. apply (HQ x Hx).
    - rewrite fcache_with_next, fcache_append, fcache_snoc by reflexivity.
      destruct (Nat.ltb _ _); [apply (HQ x Hx)|reflexivity].
  Qed.

  Lemma fcQ_expand_node b var (a : mdd) id : fcQ b a -> fcQ b (expand_node st_eqb inp var a id).
  Proof.
    intros HQ. unfold expand_node. cbv zeta.
    set (m1 := upd_node a id (fun n => set_rub n (fast_upper_bound (ci_relax inp) (n_state (gn a id))))).
    assert (H1 : fcQ b m1).
    { intros x Hx. unfold fcache, m1. rewrite (get_node_upd_node_proj inp (fun n => f_cache (n_flags n))) by (intros n; reflexivity).
      apply (HQ x Hx). }
    destruct (_ >? _)%Z; [|exact H1].
    apply (MddExact.fold_left_inv (fcQ b)); [exact H1|]. intros a0 v _ Ha. apply fcQ_branch_on. exact Ha.
  Qed.

  Lemma fcQ_expand_layer b var l : forall (a : mdd), fcQ b a -> fcQ b (fold_left (expand_node st_eqb inp var) l a).
  Proof. induction l as [|id l IH]; intros a Ha; simpl; [exact Ha|]. apply IH. apply fcQ_expand_node. exact Ha. Qed.

  (* ---------------------------------------------------------------- the invariant of the layer loop, with the cache *)

  Record TIc (c : @cache St) (m : mdd) : Prop := {
    Tc_C : Cinv (m_curr_depth m) m;
    Tc_d1 : rd <= m_curr_depth m;
    Tc_d2 : m_curr_depth m <= N;
    Tc_len : length (m_layers m) = m_curr_depth m - rd;
    Tc_wf : wf inp m;
    Tc_oi : OI m;
    Tc_ord1 : forall j j' x y, j < j' -> In x (lyr m j) -> In y (lyr m j') -> x < y;
    Tc_ord2 : forall j, NoDup (lyr m j);
    Tc_ord3 : forall j x eid y, In x (lyr m j) -> In eid (n_inb (gn m x)) -> In y (lyr m j) ->
               e_from (get_edge m eid) < y;
    Tc_dep : forall j x, In x (lyr m j) -> del m x = false -> n_depth (gn m x) = rd + j;
    Tc_expC : forall j x, S j < length (m_layers m) -> In x (lyr m j) -> del m x = false -> fcache m x = false ->
               SCn m j x (fun t' => In t' (lyr m (S j)) /\ del m t' = false);
    Tc_expO : forall j x, S j = length (m_layers m) -> In x (lyr m j) -> del m x = false -> fcache m x = false ->
               SCn m j x (fun t' => In t' (m_next m));
    Tc_lel : forall k, m_lel m = Some k -> forall j x, j <= k -> In x (lyr m j) -> is_ex inp m x = true;
    Tc_nc : NinvC m;
    Tc_open : forall x, In x (m_next m) -> fcache m x = false;
    Tc_cached : forall j x, In x (lyr m j) -> del m x = false -> fcache m x = true ->
       exists th, ci_use_cache inp = true /\ cget st_eqb c (n_state (gn m x)) (n_depth (gn m x)) = Some th /\
         (n_vtop (gn m x) <= th_value th)%Z /\ n_theta (gn m x) = Some (th_value th);
    Tc_mc : m_cache m = c;
    Tc_src : forall x, MddSim.Src m x -> fcache m x = false;
    Tc_srcl : forall x, MddSim.Src m x -> del m x = false /\ exists j, In x (lyr m j);
    Tc_root : del m 0 = false /\ fcache m 0 = false /\ ((m_layers m = [] /\ m_next m = [0]) \/ In 0 (lyr m 0)) }.

  Lemma TIc_layer_below c (m : mdd) j x : TIc c m -> In x (lyr m j) -> x < m_layer_end m.
  Proof.
    intros HT Hx. destruct (Tc_C _ _ HT) as (_ & HX & _).
    apply (X_layers _ _ _ HX (lyr m j) x); [apply nth_In; eapply nth_in_len; eauto|exact Hx].
  Qed.

  (* the first layer is neither filtered by the cache nor squashed *)
  Lemma move_firstC (m : mdd) m3 ol : m_layers m = [] ->
    move_to_next_layer_clean st_eqb inp m = (m3, ol) -> m_nodes m3 = m_nodes m.
  Proof.
    intros Hl. rewrite move_clean_unfold. destruct (m_next m) as [|c0 cs] eqn:En.
    - intros E. inversion E. reflexivity.
    - unfold prefilter. change (m_layers (with_next m [])) with (m_layers m). rewrite Hl. cbn [length Nat.ltb Nat.leb].
      destruct (filter_with_dominance inp (with_next m []) (c0 :: cs)) as [mc lc] eqn:Ef.
      assert (Hn : m_nodes mc = m_nodes m).
      { pose proof (MddSim.dom_retain_nodes inp Hnodom (sort_by (dom_order inp (with_next m [])) (c0 :: cs)) (with_next m [])) as Hd.
        unfold filter_with_dominance in Ef. rewrite Ef in Hd. exact Hd. }
      assert (Hlc : m_layers mc = []).
      { rewrite (ext_layers inp _ _ (ext_filter_with_dominance inp _ _ _ _ Ef)). exact Hl. }
      unfold squash_if_needed. rewrite Hrel, Hlc. cbn [length Nat.ltb Nat.leb]. rewrite andb_false_r.
      intros E. inversion E. exact Hn.
  Qed.

  (* ---------------------------------------------------------------- one iteration of the loop
     What closing the open layer and expanding it does, read between the diagram [m] before and the diagram [m4]
     after (the diagram between the move and the expansion is not mentioned): [ids] is the layer the move closes,
     [l] the nodes of it that are expanded; the others were dropped by the cache filter or deleted by the squash. *)
  Record Step (m m4 : mdd) (var : nat) (l ids : list nat) : Prop := {
    It_C : Cinv (S (m_curr_depth m)) (with_depth m4 (S (m_curr_depth m4)));
    It_cd : m_curr_depth m4 = m_curr_depth m;
    It_var : next_variable pb (m_curr_depth m) [] = Some var;
    It_wf : wf inp m4;
    It_oi : OI m4;
    It_nc : NinvC m4;
    It_open : forall x, In x (m_next m4) -> fcache m4 x = false;
    It_mc : m_cache m4 = m_cache m;
    It_layers : m_layers m4 = m_layers m ++ [ids];
    It_old : forall x, x < m_layer_end m -> gn m4 x = gn m x;
    It_tr : tr m m4;
    It_ids : forall x, In x ids <-> m_layer_end m <= x < m_layer_end m4;
    It_nodup : NoDup ids;
    It_l : forall x, In x l ->
      In x ids /\ del m4 x = false /\ fcache m4 x = false /\ n_depth (gn m4 x) = m_curr_depth m;
    It_drop : forall x, In x ids -> ~ In x l -> del m4 x = false ->
      In x (m_next m) /\
      exists th, ci_use_cache inp = true /\
        cget st_eqb (m_cache m) (n_state (gn m x)) (n_depth (gn m x)) = Some th /\
        (n_vtop (gn m x) <= th_value th)%Z /\ gn m4 x = dropnode (gn m x) (th_value th);
    It_inb : forall x eid, In x ids -> In eid (n_inb (gn m4 x)) -> e_from (get_edge m4 eid) < m_layer_end m;
    (* an open node is merged into an expanded node, or stays in the layer, dropped by the cache filter *)
    It_succ : forall t', In t' (m_next m) ->
      (forall j x s ds s', ds <> [] -> dpath m j x s ds t' s' -> exists u', In u' l /\ dpath m4 j x s ds u' s') \/
      (In t' ids /\ del m4 t' = false);
    It_exp : forall x s val, In x l -> brd m4 x -> cov (n_state (gn m4 x)) s -> In val (domain pb var s) ->
      exists t', In t' (m_next m4) /\
        dpath m4 (length (m_layers m)) x s [mkd var val] t' (transition pb s (mkd var val));
    It_lel : m_lel m4 = m_lel m \/
            (m_lel m = None /\ m_lel m4 = Some (length (m_layers m) - 1) /\ 1 < length (m_layers m));
    It_src : forall x, MddSim.Src m4 x -> MddSim.Src m x \/ In x l;
    It_first : m_layers m = [] ->
      m_layer_end m4 = length (m_nodes m) /\
      forall x, x < length (m_nodes m) -> ~ In x l -> gn m4 x = gn m x }.

  Lemma iter_step c (m : mdd) var ev p :
    TIc c m -> m_curr_depth m < N -> next_variable pb (m_curr_depth m) [] = Some var -> m_next m <> [] ->
    let m2 := with_polls (add_log m ev) p in
    exists m3 l ids, move_to_next_layer_clean st_eqb inp m2 = (m3, Some l) /\
      Step m (fold_left (expand_node st_eqb inp var) l m3) var l ids.
  Proof.
    intros HT HdN Hvar Hne. cbv zeta.
    set (d := m_curr_depth m) in *.
    set (m2 := with_polls (add_log m ev) p).
    pose proof (Tc_C _ _ HT) as HC.
    assert (Hc2 : ceq inp m m2) by (eapply ceq_trans; [apply ceq_add_log|apply ceq_with_polls]).
    assert (HC2 : Cinv d m2).
    { destruct HC as (HD & HX & Hnd & HE).
      split; [eapply (Dg_ceq inp Hclean); eauto|]. split; [eapply Xinv_ceq; eauto|]. split; [exact Hnd|].
      eapply (MddSim.Einv_ceq inp Hnocut Hwidth Hrd); eauto. }
    assert (Hg2 : forall x, gn m2 x = gn m x) by reflexivity.
    assert (Hne2 : m_next m2 <> []) by exact Hne.
    destruct (move_simC m2 d HC2 Hne2)
      as (m3 & l & ids & Emv & C3 & N3 & L3 & D3 & Ly3 & Lids & En3 & T3 & Sr3 & Cl3 & Ns3 & Ge3 & Le3 & Tp3).
    pose proof (Tc_oi _ _ HT) as (O1 & O2 & O3).
    destruct (move_extraC m2) as (m3' & l' & Emv' & X1 & X2 & X3 & X4 & X5 & X6 & X7 & X8 & X9 & X10 & X11 & X12).
    { exact Hne. } { exact O1. } { exact O2. } { apply (wf_next_nodup _ _ (Tc_wf _ _ HT)). } { exact O3. }
    { exact (Tc_open _ _ HT). }
    rewrite Emv in Emv'. inversion Emv'; subst m3' l'. clear Emv'.
    change (m_layer_end m2) with (m_layer_end m) in *. change (m_layers m2) with (m_layers m) in *.
    change (m_lel m2) with (m_lel m) in *. change (m_next m2) with (m_next m) in *.
    change (m_cache m2) with (m_cache m) in *.
    set (b := m_layer_end m) in *.
    assert (Eids : ids = seq b (length (m_nodes m3) - b)).
    { rewrite Ly3 in X2. apply app_inv_head in X2. inversion X2. reflexivity. }
    exists m3, l, ids. split; [exact Emv|].
    assert (Hvar' : exists states : list St, next_variable pb d states = Some var) by (exists []; exact Hvar).
    destruct (MddSim.expand_layer_Cinv st_eqb st_eqb_spec inp Hclean Hnocut Hwidth Hrd var l d m3 C3 L3 Hvar') as (C4 & S4 & G4).
    assert (HO3 : OI m3).
    { split; [rewrite X1; lia|]. split; [|intros x Hx; rewrite N3 in Hx; destruct Hx].
      intros x. rewrite N3, X1. simpl. lia. }
    assert (Hl3 : forall id, In id l -> id < m_layer_end m3) by (intros id Hid; apply (L3 id Hid)).
    destruct (expand_layer_OI var l m3 HO3 Hl3) as (I1 & I2 & I3 & I4).
    cbv zeta in I1, I2, I3, I4.
    set (m4 := fold_left (expand_node st_eqb inp var) l m3) in *.
    assert (Hcd4 : m_curr_depth m4 = d).
    { destruct S4 as (_ & _ & _ & _ & s5). rewrite s5, D3. reflexivity. }
    assert (Hb3 : b <= length (m_nodes m3)) by (destruct X4 as (T1 & _); lia).
    assert (Hidsb : forall x, In x ids <-> b <= x < length (m_nodes m3)).
    { intros x. rewrite Eids, in_seq. lia. }
    assert (Hnl4 : forall x, x < length (m_nodes m3) -> ~ In x l -> gn m4 x = gn m3 x).
    { intros x Hx Hn. apply I3; [rewrite X1; exact Hx|exact Hn]. }
    split.
    - (* Cinv *)
      rewrite Hcd4. set (m5 := with_depth m4 (S d)).
      assert (Hp45 : peq inp m4 m5) by (apply peq_same_nodes; reflexivity).
      destruct C4 as (D4 & X4' & Nd4 & E4).
      split; [|split; [|split]].
      + eapply (Dg_peq inp Hclean); [exact Hp45|exact D4|apply Nat.le_refl|apply (D_le _ _ _ D4)|apply (D_next _ _ _ D4)].
      + eapply Xg_peq; [exact Hp45|reflexivity|reflexivity|reflexivity|exact X4'].
      + exact Nd4.
      + eapply (MddSim.Einv_frame inp Hnocut Hwidth Hrd); try exact E4; try reflexivity; try assumption. apply (MddSim.E_le _ _ E4).
    - exact Hcd4.
    - exact Hvar.
    - apply wf_fold_expand.
      + apply (proj1 (wf_move_clean st_eqb inp m2 m3 (Some l) Emv (wf_with_polls inp _ _ (wf_add_log inp _ _ (Tc_wf _ _ HT))))).
      + apply (proj1 (proj2 (wf_move_clean st_eqb inp m2 m3 (Some l) Emv (wf_with_polls inp _ _ (wf_add_log inp _ _ (Tc_wf _ _ HT)))) l eq_refl)).
    - exact I1.
    - apply NinvC_fold; [intros; apply NinvC_expand_node; assumption|].
      pose proof (NinvC_move m2) as Hmv. rewrite Emv in Hmv. cbn [fst] in Hmv. apply Hmv.
      eapply NinvC_same; [|exact (Tc_nc _ _ HT)]. reflexivity.
    - (* the nodes created by the expansion carry no cache flag *)
      intros x Hx. destruct I1 as (_ & I1b & _). apply I1b in Hx.
      assert (HQ : fcQ (length (m_nodes m3)) m4).
      { unfold m4. apply fcQ_expand_layer. intros y Hy. unfold fcache. rewrite gn_out_of_range by exact Hy. reflexivity. }
      apply HQ. rewrite I2, X1 in Hx. lia.
    - unfold m4. rewrite (inert_fold_expand st_eqb inp _ (inert_cache inp)).
      pose proof (mc_move st_eqb inp m2 Hwidth) as Hmc. rewrite Emv in Hmc. exact Hmc.
    - rewrite (MddSim.gr_layers inp _ _ G4). exact Ly3.
    - intros x Hx. rewrite I3; [apply X3; exact Hx|rewrite X1; lia|].
      intros Hin. destruct (X5 x Hin) as [_ Hr]. lia.
    - apply (tr_trans m m3 m4); [exact X4|apply tr_gr; exact G4].
    - intros x. rewrite I2, X1. apply Hidsb.
    - rewrite Eids. apply seq_NoDup.
    - intros x Hx. rewrite (I4 x Hx). unfold del, fcache. rewrite (I4 x Hx). nsimpl.
      split; [apply Lids; exact Hx|]. split; [apply (X5 x Hx)|]. split; [apply (X8 x Hx)|apply (L3 x Hx)].
    - (* a live node of the new layer that is not expanded was dropped by the cache filter *)
      intros x Hx Hnin Hd. apply Hidsb in Hx.
      destruct (X12 x Hx) as [Hxn|Hxl]; [|contradiction].
      assert (Hnk : ~ In x (kept m2)).
      { intros Hk. apply Hnin. apply X6; [exact Hx| |apply X11; exact Hk].
        unfold del in *. rewrite <- (Hnl4 x (proj2 Hx) Hnin). exact Hd. }
      split; [exact Hxn|].
      destruct (X10 x Hxn Hnk) as (_ & th & U1 & U2 & U3 & U4).
      exists th. rewrite !Hg2 in U2, U3, U4. rewrite (Hnl4 x (proj2 Hx) Hnin). auto.
    - (* an arc into the new layer comes from a closed layer *)
      intros x eid Hx Hin. apply Hidsb in Hx.
      assert (Hin3 : In eid (n_inb (gn m3 x))).
      { destruct (classic_in x l) as [Hxl|Hxl]; [rewrite (I4 x Hxl) in Hin; exact Hin|].
        rewrite Hnl4 in Hin; [exact Hin|lia|exact Hxl]. }
      destruct C3 as (_ & _ & _ & E3).
      destruct (MddSim.E_inb _ _ E3 x eid ltac:(lia) Hin3) as (He3 & _).
      rewrite (MddSim.gr_edge inp m3 m4 eid G4 He3).
      assert (HSrc : MddSim.Src m3 (e_from (get_edge m3 eid))) by (exists eid; auto).
      apply Sr3 in HSrc. destruct HSrc as (eid2 & He2 & Hf2).
      assert (HE2 : Einv m2) by apply HC2.
      pose proof (MddSim.E_from _ _ HE2 eid2 He2) as Hlt. rewrite Hf2 in Hlt. exact Hlt.
    - intros t' Ht'. destruct (classic_in t' (kept m2)) as [Hk|Hk]; [left|right].
      + intros j x s ds s' Hds Hp.
        destruct (T3 j x s t' ds s') as (u' & Hu' & Hp3).
        * exact Hk.
        * intros _. exact Hds.
        * intros E. rewrite Hrel in E. discriminate.
        * eapply (MddSim.dpath_ceq inp Hnocut Hwidth Hrd); eauto.
        * exists u'. split; [exact Hu'|]. eapply (MddSim.dpath_gr inp Hnocut Hwidth Hrd); eauto.
      + destruct (X10 t' Ht' Hk) as (Hdel3 & th & _ & _ & _ & E).
        assert (Ht'r : b <= t' < length (m_nodes m3)).
        { pose proof (proj1 (O2 t') Ht') as Hr0. destruct X4 as (T1 & _). change (m_nodes m2) with (m_nodes m) in T1. unfold b. lia. }
        assert (Hnl : ~ In t' l).
        { intros Hin. pose proof (X8 t' Hin) as Hf8. unfold fcache in Hf8. rewrite E in Hf8.
          unfold dropnode in Hf8. nsimpl_in Hf8. discriminate. }
        split; [apply Hidsb; exact Ht'r|]. unfold del in *. rewrite (Hnl4 t' (proj2 Ht'r) Hnl). exact Hdel3.
    - intros x s val Hxl Hbr Hcov Hval. unfold brd in Hbr. rewrite (I4 x Hxl) in Hbr, Hcov. nsimpl_in Hbr. nsimpl_in Hcov.
      apply (expand_layer_succ var (length (m_layers m)) x s val l m3 HO3 Hl3 Hxl); try assumption.
      rewrite Ly3, nth_app_new. apply Lids. exact Hxl.
    - unfold m4. rewrite MddSim.expand_layer_lel. exact X7.
    - intros x Hs. destruct (MddSim.Src_expand_layer st_eqb inp Hnocut Hwidth Hrd var l m3 x Hs) as [Hs3|Hxl]; [left|right; exact Hxl].
      apply Sr3 in Hs3. exact Hs3.
    - (* the first layer is neither filtered nor squashed *)
      intros R3. assert (Hn3 : m_nodes m3 = m_nodes m) by (apply (move_firstC m2 m3 (Some l)); [exact R3|exact Emv]).
      split; [rewrite I2, X1, Hn3; reflexivity|]. intros x Hx Hnin.
      rewrite Hnl4; [apply gn_nodes_eq; exact Hn3|rewrite Hn3; exact Hx|exact Hnin].
  Qed.

  Section StepFields.
    Variables (c : @cache St) (m m4 : mdd) (var : nat) (l ids : list nat).
    Hypothesis HT : TIc c m.
    Hypothesis HS : Step m m4 var l ids.
    Notation nl := (length (m_layers m)).
    Notation b := (m_layer_end m).

    Lemma step_lyr j x : In x (lyr m4 j) -> (j < nl /\ In x (lyr m j)) \/ (j = nl /\ In x ids).
    Proof. rewrite (It_layers _ _ _ _ _ HS). apply nth_app_cases. Qed.

    Lemma step_lyr_old j x : In x (lyr m j) -> In x (lyr m4 j).
    Proof. rewrite (It_layers _ _ _ _ _ HS). apply MddSim.nth_layers_app. Qed.

    Lemma step_lyr_new x : In x (lyr m4 nl) <-> In x ids.
    Proof. rewrite (It_layers _ _ _ _ _ HS), nth_app_new. reflexivity. Qed.

    (* the nodes of the closed layers are untouched *)
    Lemma step_old j x : In x (lyr m j) ->
      x < b /\ gn m4 x = gn m x /\ del m4 x = del m x /\ fcache m4 x = fcache m x.
    Proof.
      intros Hx. pose proof (TIc_layer_below c m j x HT Hx) as Hb. pose proof (It_old _ _ _ _ _ HS x Hb) as E.
      unfold del, fcache. rewrite E. auto.
    Qed.

    Lemma step_path i u s ds t s' : dpath m i u s ds t s' -> dpath m4 i u s ds t s'.
    Proof.
      intros Hp. eapply dpath_tr; [exact (It_tr _ _ _ _ _ HS)| |exact Hp]. intros k x. apply step_lyr_old.
    Qed.

    Lemma step_depth : m_curr_depth m = rd + nl.
    Proof. pose proof (Tc_len _ _ HT). pose proof (Tc_d1 _ _ HT). lia. Qed.

    Lemma step_ord :
      (forall j j' x y, j < j' -> In x (lyr m4 j) -> In y (lyr m4 j') -> x < y) /\
      (forall j, NoDup (lyr m4 j)) /\
      (forall j x eid y, In x (lyr m4 j) -> In eid (n_inb (gn m4 x)) -> In y (lyr m4 j) ->
         e_from (get_edge m4 eid) < y).
    Proof.
      split; [|split].
      - intros j j' x y Hjj Hx Hy. apply step_lyr in Hx. apply step_lyr in Hy.
        destruct Hx as [[Hj Hx]|[Hj Hx]]; destruct Hy as [[Hj' Hy]|[Hj' Hy]]; try lia.
        + apply (Tc_ord1 _ _ HT j j' x y Hjj Hx Hy).
        + pose proof (proj1 (step_old j x Hx)). pose proof (proj1 (It_ids _ _ _ _ _ HS y) Hy). lia.
      - intros j. rewrite (It_layers _ _ _ _ _ HS). destruct (Nat.lt_ge_cases j nl) as [Hj|Hj].
        + rewrite nth_app_old by exact Hj. apply (Tc_ord2 _ _ HT).
        + destruct (Nat.eq_dec j nl) as [->|Hjn].
          * rewrite nth_app_new. exact (It_nodup _ _ _ _ _ HS).
          * rewrite nth_overflow by (rewrite app_length; simpl; lia). constructor.
      - intros j x eid y Hx Hin Hy. apply step_lyr in Hx. apply step_lyr in Hy.
        destruct Hx as [[Hj Hx]|[Hj Hx]]; destruct Hy as [[Hj' Hy]|[Hj' Hy]]; try lia.
        + destruct (step_old j x Hx) as (Hxb & E & _). rewrite E in Hin.
          assert (HE : Einv m) by apply (Tc_C _ _ HT).
          assert (Hxl : x < length (m_nodes m)) by (pose proof (MddSim.E_le _ _ HE); lia).
          destruct (MddSim.E_inb _ _ HE x eid Hxl Hin) as (He & _).
          rewrite (tr_edge m m4 eid (It_tr _ _ _ _ _ HS) He).
          apply (Tc_ord3 _ _ HT j x eid y Hx Hin Hy).
        + pose proof (It_inb _ _ _ _ _ HS x eid Hx Hin). pose proof (proj1 (It_ids _ _ _ _ _ HS y) Hy). lia.
    Qed.

    (* depth of the live nodes; what the cache filter left on a dropped node *)
    Lemma step_nodes :
      (forall j x, In x (lyr m4 j) -> del m4 x = false -> n_depth (gn m4 x) = rd + j) /\
      (forall j x, In x (lyr m4 j) -> del m4 x = false -> fcache m4 x = true ->
         exists th, ci_use_cache inp = true /\ cget st_eqb c (n_state (gn m4 x)) (n_depth (gn m4 x)) = Some th /\
           (n_vtop (gn m4 x) <= th_value th)%Z /\ n_theta (gn m4 x) = Some (th_value th)).
    Proof.
      split.
      - intros j x Hx Hd. apply step_lyr in Hx. destruct Hx as [[Hj Hx]|[Hj Hx]].
        + destruct (step_old j x Hx) as (_ & E & Ed & _). rewrite E. apply (Tc_dep _ _ HT j x Hx). rewrite <- Ed. exact Hd.
        + subst j. rewrite <- step_depth. destruct (classic_in x l) as [Hxl|Hxl].
          * apply (It_l _ _ _ _ _ HS x Hxl).
          * destruct (It_drop _ _ _ _ _ HS x Hx Hxl Hd) as (Hxn & th & _ & _ & _ & E). rewrite E. unfold dropnode. nsimpl.
            destruct (Tc_C _ _ HT) as (_ & _ & Hnd & _). apply (Hnd x Hxn).
      - intros j x Hx Hd Hf. apply step_lyr in Hx. destruct Hx as [[Hj Hx]|[Hj Hx]].
        + destruct (step_old j x Hx) as (_ & E & Ed & Ef). rewrite E. apply (Tc_cached _ _ HT j x Hx); congruence.
        + assert (Hxl : ~ In x l).
          { intros Hin. destruct (It_l _ _ _ _ _ HS x Hin) as (_ & _ & Hf' & _). congruence. }
          destruct (It_drop _ _ _ _ _ HS x Hx Hxl Hd) as (_ & th & U1 & U2 & U3 & U4).
          exists th. rewrite U4. unfold dropnode. nsimpl. rewrite (Tc_mc _ _ HT) in U2. auto.
    Qed.

    (* every transition of a live, expanded node that is not pruned by its rough bound has its target *)
    Lemma step_targets :
      (forall j x, S j < length (m_layers m4) -> In x (lyr m4 j) -> del m4 x = false -> fcache m4 x = false ->
         SCn m4 j x (fun t' => In t' (lyr m4 (S j)) /\ del m4 t' = false)) /\
      (forall j x, S j = length (m_layers m4) -> In x (lyr m4 j) -> del m4 x = false -> fcache m4 x = false ->
         SCn m4 j x (fun t' => In t' (m_next m4))).
    Proof.
      split.
      - intros j x Hj Hx Hd Hf. rewrite (It_layers _ _ _ _ _ HS), app_length in Hj. cbn [length] in Hj.
        rewrite (It_layers _ _ _ _ _ HS), nth_app_old in Hx by lia.
        destruct (step_old j x Hx) as (_ & E & Ed & Ef). rewrite Ed in Hd. rewrite Ef in Hf.
        intros Hbr s var0 val Hcov Hv0 Hval. unfold brd in Hbr. rewrite E in Hbr, Hcov.
        destruct (Nat.lt_ge_cases (S j) nl) as [Hjn|Hjn].
        + destruct (Tc_expC _ _ HT j x Hjn Hx Hd Hf Hbr s var0 val Hcov Hv0 Hval) as (t' & [Ht' Hdt'] & Hp).
          exists t'. split; [|apply step_path; exact Hp].
          split; [apply step_lyr_old; exact Ht'|]. destruct (step_old (S j) t' Ht') as (_ & _ & Ed' & _). congruence.
        + assert (Ej : S j = nl) by lia.
          destruct (Tc_expO _ _ HT j x Ej Hx Hd Hf Hbr s var0 val Hcov Hv0 Hval) as (t' & Ht' & Hp).
          rewrite Ej. destruct (It_succ _ _ _ _ _ HS t' Ht') as [Hm|[Hi Hdt']].
          * destruct (Hm j x s [mkd var0 val] _ ltac:(discriminate) Hp) as (u' & Hu' & Hp4).
            exists u'. split; [|exact Hp4]. destruct (It_l _ _ _ _ _ HS u' Hu') as (Hi & Hdu & _).
            split; [apply step_lyr_new; exact Hi|exact Hdu].
          * exists t'. split; [|apply step_path; exact Hp]. split; [apply step_lyr_new; exact Hi|exact Hdt'].
      - intros j x Hj Hx Hd Hf. rewrite (It_layers _ _ _ _ _ HS), app_length in Hj. cbn [length] in Hj.
        assert (j = nl) by lia. subst j. apply step_lyr_new in Hx.
        assert (Hxl : In x l).
        { destruct (classic_in x l) as [Hin|Hnin]; [exact Hin|].
          destruct (It_drop _ _ _ _ _ HS x Hx Hnin Hd) as (_ & th & _ & _ & _ & E).
          unfold fcache in Hf. rewrite E in Hf. unfold dropnode in Hf. nsimpl_in Hf. discriminate. }
        intros Hbr s var0 val Hcov Hv0 Hval.
        assert (var0 = var).
        { rewrite <- step_depth in Hv0. pose proof (It_var _ _ _ _ _ HS) as Hv. congruence. }
        subst var0. apply (It_exp _ _ _ _ _ HS x s val Hxl Hbr Hcov Hval).
    Qed.
    Lemma step_lel k : m_lel m4 = Some k -> forall j x, j <= k -> In x (lyr m4 j) -> is_ex inp m4 x = true.
    Proof.
      intros Hk j x Hjk Hx. destruct (Tc_C _ _ HT) as (_ & HX & _ & HE).
      assert (Hkl : k < nl).
      { destruct (It_lel _ _ _ _ _ HS) as [E|(E1 & E2 & E3)]; [|rewrite E2 in Hk; inversion Hk; lia].
        rewrite E in Hk. apply (X_lel_lt _ _ _ HX Hrel k Hk). }
      rewrite (It_layers _ _ _ _ _ HS), nth_app_old in Hx by lia.
      destruct (step_old j x Hx) as (Hxb & E & _). unfold is_ex. rewrite E.
      destruct (It_lel _ _ _ _ _ HS) as [El|(E1 & E2 & _)].
      - rewrite El in Hk. apply (Tc_lel _ _ HT k Hk j x Hjk Hx).
      - apply (X_lel_none _ _ _ HX E1). pose proof (MddSim.E_le _ _ HE). lia.
    Qed.

    (* the source of an arc is a live node of a layer, and was expanded *)
    Lemma step_src :
      (forall x, MddSim.Src m4 x -> fcache m4 x = false) /\
      (forall x, MddSim.Src m4 x -> del m4 x = false /\ exists j, In x (lyr m4 j)).
    Proof.
      assert (HE : Einv m) by apply (Tc_C _ _ HT).
      assert (Hsb : forall x, MddSim.Src m x -> x < b).
      { intros x (eid & He & Hf). pose proof (MddSim.E_from _ _ HE eid He) as Hlt. rewrite Hf in Hlt. exact Hlt. }
      split; intros x Hs; destruct (It_src _ _ _ _ _ HS x Hs) as [Hsm|Hxl].
      - unfold fcache. rewrite (It_old _ _ _ _ _ HS x (Hsb x Hsm)). apply (Tc_src _ _ HT x Hsm).
      - apply (It_l _ _ _ _ _ HS x Hxl).
      - destruct (Tc_srcl _ _ HT x Hsm) as (Hdm & j & Hj).
        split; [unfold del; rewrite (It_old _ _ _ _ _ HS x (Hsb x Hsm)); exact Hdm|]. exists j. apply step_lyr_old. exact Hj.
      - destruct (It_l _ _ _ _ _ HS x Hxl) as (Hi & Hd & _). split; [exact Hd|]. exists nl. apply step_lyr_new. exact Hi.
    Qed.

    Lemma step_root :
      del m4 0 = false /\ fcache m4 0 = false /\ ((m_layers m4 = [] /\ m_next m4 = [0]) \/ In 0 (lyr m4 0)).
    Proof.
      destruct (Tc_root _ _ HT) as (R1 & R2 & [[R3 R4]|R3]).
      - destruct (It_first _ _ _ _ _ HS R3) as (Hend & Hsame).
        pose proof (Tc_oi _ _ HT) as (O1 & O2 & O3).
        assert (H0n : In 0 (m_next m)) by (rewrite R4; left; reflexivity).
        pose proof (proj1 (O2 0) H0n) as Hb0.
        assert (Hfl : del m4 0 = false /\ fcache m4 0 = false).
        { destruct (classic_in 0 l) as [Hin|Hnin]; [split; apply (It_l _ _ _ _ _ HS 0 Hin)|].
          unfold del, fcache in *. rewrite (Hsame 0 (proj2 Hb0) Hnin). auto. }
        split; [apply Hfl|]. split; [apply Hfl|]. right.
        rewrite (It_layers _ _ _ _ _ HS), R3. simpl. apply (It_ids _ _ _ _ _ HS). rewrite Hend. exact Hb0.
      - destruct (step_old 0 0 R3) as (_ & _ & Ed & Ef).
        split; [congruence|]. split; [congruence|]. right. apply step_lyr_old. exact R3.
    Qed.
  End StepFields.

  Lemma iter_TIc c (m : mdd) var ev p :
    TIc c m -> m_curr_depth m < N -> next_variable pb (m_curr_depth m) [] = Some var -> m_next m <> [] ->
    let m2 := with_polls (add_log m ev) p in
    exists m3 l, move_to_next_layer_clean st_eqb inp m2 = (m3, Some l) /\
      let m4 := fold_left (expand_node st_eqb inp var) l m3 in
      TIc c (with_depth m4 (S (m_curr_depth m4))).
  Proof.
    intros HT HdN Hvar Hne. cbv zeta.
    destruct (iter_step c m var ev p HT HdN Hvar Hne) as (m3 & l & ids & Emv & HS).
    exists m3, l. split; [exact Emv|].
    set (m4 := fold_left (expand_node st_eqb inp var) l m3) in *.
    set (m5 := with_depth m4 (S (m_curr_depth m4))).
    pose proof (It_cd _ _ _ _ _ HS) as Hcd. pose proof (Tc_d1 _ _ HT) as Hd1. pose proof (Tc_len _ _ HT) as Hlen.
    destruct (step_ord c m m4 var l ids HT HS) as (Ho1 & Ho2 & Ho3).
    destruct (step_nodes c m m4 var l ids HT HS) as (Hdep & Hcached).
    destruct (step_targets c m m4 var l ids HT HS) as (HexpC & HexpO).
    destruct (step_src c m m4 var l ids HT HS) as (Hsrc & Hsrcl).
    assert (Hp5 : forall i u s ds t s', dpath m4 i u s ds t s' -> dpath m5 i u s ds t s').
    { intros i u s ds t s' Hp. eapply (MddSim.dpath_frame inp Hnocut Hwidth Hrd); try exact Hp; reflexivity. }
    split.
    - change (m_curr_depth m5) with (S (m_curr_depth m4)). rewrite Hcd. exact (It_C _ _ _ _ _ HS).
    - change (m_curr_depth m5) with (S (m_curr_depth m4)). lia.
    - change (m_curr_depth m5) with (S (m_curr_depth m4)). lia.
    - change (m_curr_depth m5) with (S (m_curr_depth m4)). change (m_layers m5) with (m_layers m4).
      rewrite (It_layers _ _ _ _ _ HS), app_length, Hcd. cbn [length]. lia.
    - apply wf_with_depth. exact (It_wf _ _ _ _ _ HS).
    - apply (OI_same m4 m5); [reflexivity|reflexivity|reflexivity|exact (It_oi _ _ _ _ _ HS)].
    - exact Ho1.
    - exact Ho2.
    - exact Ho3.
    - exact Hdep.
    - intros j x Hj Hx Hd Hf Hbr s var0 val Hcov Hv0 Hval.
      destruct (HexpC j x Hj Hx Hd Hf Hbr s var0 val Hcov Hv0 Hval) as (t' & Ht' & Hp). exists t'. split; [exact Ht'|apply Hp5; exact Hp].
    - intros j x Hj Hx Hd Hf Hbr s var0 val Hcov Hv0 Hval.
      destruct (HexpO j x Hj Hx Hd Hf Hbr s var0 val Hcov Hv0 Hval) as (t' & Ht' & Hp). exists t'. split; [exact Ht'|apply Hp5; exact Hp].
    - exact (step_lel c m m4 var l ids HT HS).
    - exact (It_nc _ _ _ _ _ HS).
    - exact (It_open _ _ _ _ _ HS).
    - exact Hcached.
    - change (m_cache m4 = c). rewrite (It_mc _ _ _ _ _ HS). exact (Tc_mc _ _ HT).
    - exact Hsrc.
    - exact Hsrcl.
    - exact (step_root c m m4 var l ids HT HS).
  Qed.

  (* ---------------------------------------------------------------- what the loop leaves behind *)

  Record FSc (c : @cache St) (ml : mdd) (lay : nat -> list nat) : Prop := {
    Fc_einv : forall id eid, id < length (m_nodes ml) -> In eid (n_inb (gn ml id)) ->
      eid < length (m_edges ml) /\
      (sat_add (n_vtop (gn ml (e_from (get_edge ml eid)))) (e_cost (get_edge ml eid)) <= n_vtop (gn ml id))%Z /\
      (is_ex inp ml id = true ->
         is_ex inp ml (e_from (get_edge ml eid)) = true /\
         n_state (gn ml id) = transition pb (n_state (gn ml (e_from (get_edge ml eid)))) (e_dec (get_edge ml eid)));
    Fc_range : forall j x, In x (lay j) -> x < length (m_nodes ml);
    Fc_ord1 : forall j j' x y, j < j' -> In x (lay j) -> In y (lay j') -> x < y;
    Fc_ord2 : forall j, NoDup (lay j);
    Fc_ord3 : forall j x eid y, In x (lay j) -> In eid (n_inb (gn ml x)) -> In y (lay j) -> e_from (get_edge ml eid) < y;
    Fc_dep : forall j x, In x (lay j) -> del ml x = false -> n_depth (gn ml x) = rd + j;
    Fc_exp : forall j x, In x (lay j) -> del ml x = false -> fcache ml x = false -> SCr ml lay j x;
    Fc_lel : forall k, m_lel ml = Some k -> forall j x, j <= k -> In x (lay j) -> is_ex inp ml x = true;
    Fc_last : forall j x, In x (lay j) -> rd + j = N ->
      In x (m_next ml) /\ m_layer_end ml <= x < length (m_nodes ml) /\ length (m_layers ml) = j /\ fcache ml x = false;
    Fc_nc : NinvC ml;
    Fc_cached : forall j x, In x (lay j) -> del ml x = false -> fcache ml x = true ->
       exists th, ci_use_cache inp = true /\ cget st_eqb c (n_state (gn ml x)) (n_depth (gn ml x)) = Some th /\
         (n_vtop (gn ml x) <= th_value th)%Z /\ n_theta (gn ml x) = Some (th_value th);
    Fc_mc : m_cache ml = c;
    Fc_src : forall x, MddSim.Src ml x -> fcache ml x = false;
    Fc_srcl : forall x, MddSim.Src ml x -> del ml x = false /\ exists j, In x (lay j);
    Fc_root : In 0 (lay 0) /\ del ml 0 = false /\ fcache ml 0 = false;
    Fc_open : forall x, In x (m_next ml) -> fcache ml x = false }.

  Lemma FS_of_TIc c (m ml : mdd) lastl :
    TIc c m -> m_nodes ml = m_nodes m -> m_edges ml = m_edges m -> m_lel ml = m_lel m -> m_cache ml = m_cache m ->
    (forall x, In x (m_next ml) -> In x (m_next m)) ->
    (forall x, In x lastl <-> In x (m_next m)) -> NoDup lastl ->
    ((m_curr_depth m = N /\ m_next ml = m_next m /\ m_layer_end ml = m_layer_end m /\ m_layers ml = m_layers m) \/
     (m_curr_depth m < N /\ m_next m = [])) ->
    FSc c ml (fun j => nth j (m_layers m ++ [lastl]) []).
  Proof.
    intros HT Hn He Hlel Hmc Hnxt Hlast Hnd Hexit.
    assert (Hg : forall x, gn ml x = gn m x) by (intros x; apply gn_nodes_eq; exact Hn).
    assert (Hge : forall k, get_edge ml k = get_edge m k) by (intros k; apply ge_edges_eq; exact He).
    assert (Hdl : forall x, del ml x = del m x) by (intros x; apply del_same_nodes; exact Hn).
    assert (Hfl : forall x, fcache ml x = fcache m x) by (intros x; unfold fcache; rewrite Hg; reflexivity).
    pose proof (Tc_C _ _ HT) as (HD & HX & Hnd' & HE).
    pose proof (Tc_oi _ _ HT) as (O1 & O2 & O3). pose proof (Tc_len _ _ HT) as Hlen.
    set (nl := length (m_layers m)) in *.
    assert (Holdl : forall j x, In x (lyr m j) -> x < m_layer_end m) by (intros j x Hx; eapply TIc_layer_below; eauto).
    assert (Hlastr : forall x, In x lastl -> m_layer_end m <= x < length (m_nodes m)).
    { intros x Hx. apply O2. apply Hlast. exact Hx. }
    split.
    - intros id eid Hid Hin. rewrite Hn in Hid. rewrite Hg in Hin. unfold is_ex. rewrite He, !Hge, !Hg.
      destruct (MddSim.E_inb _ _ HE id eid Hid Hin) as (G1 & G2 & G3). split; [exact G1|]. split; [exact G2|].
      intros Hx. destruct (G3 Hx) as (Y1 & Y2 & _). auto.
    - intros j x Hx. rewrite Hn. apply nth_app_cases in Hx. destruct Hx as [[_ Hx]|[_ Hx]].
      + pose proof (Holdl j x Hx). lia.
      + apply Hlastr. exact Hx.
    - intros j j' x y Hjj Hx Hy. apply nth_app_cases in Hx. apply nth_app_cases in Hy. fold nl in Hx, Hy.
      destruct Hx as [[Hj Hx]|[Hj Hx]]; destruct Hy as [[Hj' Hy]|[Hj' Hy]]; try lia.
      + apply (Tc_ord1 _ _ HT j j' x y Hjj Hx Hy).
      + pose proof (Holdl j x Hx). pose proof (Hlastr y Hy). lia.
    - intros j. destruct (Nat.lt_ge_cases j nl) as [Hj|Hj].
      + rewrite nth_app_old by exact Hj. apply (Tc_ord2 _ _ HT).
      + destruct (Nat.eq_dec j nl) as [->|Hjn].
        * unfold nl. rewrite nth_app_new. exact Hnd.
        * rewrite nth_overflow by (rewrite app_length; simpl; fold nl; lia). constructor.
    - intros j x eid y Hx Hin Hy. rewrite Hg in Hin. rewrite Hge.
      apply nth_app_cases in Hx. apply nth_app_cases in Hy. fold nl in Hx, Hy.
      destruct Hx as [[Hj Hx]|[Hj Hx]]; destruct Hy as [[Hj' Hy]|[Hj' Hy]]; try lia.
      + apply (Tc_ord3 _ _ HT j x eid y Hx Hin Hy).
      + pose proof (Hlastr x Hx) as Hxr. destruct (MddSim.E_inb _ _ HE x eid ltac:(lia) Hin) as (G1 & _).
        pose proof (MddSim.E_from _ _ HE eid G1). pose proof (Hlastr y Hy). lia.
    - intros j x Hx Hd. rewrite Hdl in Hd. rewrite Hg. apply nth_app_cases in Hx. fold nl in Hx.
      destruct Hx as [[Hj Hx]|[Hj Hx]]; [apply (Tc_dep _ _ HT j x Hx Hd)|].
      subst j. rewrite (Hnd' x (proj1 (Hlast x) Hx)). pose proof (Tc_d1 _ _ HT). lia.
    - intros j x Hx Hd Hf. rewrite Hdl in Hd. rewrite Hfl in Hf. apply nth_app_cases in Hx. fold nl in Hx.
      intros Hbr s var val Hcov Hv Hval. unfold brd in Hbr. rewrite Hg in Hbr, Hcov. cbv zeta.
      destruct Hx as [[Hj Hx]|[Hj Hx]].
      + destruct (Nat.lt_ge_cases (S j) nl) as [Hjn|Hjn].
        * destruct (Tc_expC _ _ HT j x Hjn Hx Hd Hf Hbr s var val Hcov Hv Hval) as (t' & [Ht' Hdt'] & Hp).
          destruct (dpath1_inv _ _ _ _ _ _ _ Hp) as (_ & P2 & eid & Q1 & Q2 & Q3 & Q4 & Q5 & Q6).
          exists t', eid. rewrite nth_app_old by (fold nl; lia). rewrite Hdl, Hn, He, Hge, !Hg. auto 12.
        * assert (Ej : S j = nl) by lia.
          destruct (Tc_expO _ _ HT j x Ej Hx Hd Hf Hbr s var val Hcov Hv Hval) as (t' & Ht' & Hp).
          destruct (dpath1_inv _ _ _ _ _ _ _ Hp) as (_ & P2 & eid & Q1 & Q2 & Q3 & Q4 & Q5 & Q6).
          exists t', eid. rewrite Ej. unfold nl. rewrite nth_app_new. rewrite Hdl, Hn, He, Hge, !Hg.
          split; [apply Hlast; exact Ht'|]. split; [apply O3; exact Ht'|]. auto 12.
      + (* the last layer: no variable left, or no node *)
        exfalso. subst j. destruct Hexit as [(HdN & _)|(HdN & Hnx)].
        * change (next_variable pb (rd + nl) [] = Some var) in Hv.
          rewrite nv_none in Hv by (pose proof (Tc_d1 _ _ HT); lia). discriminate.
        * apply Hlast in Hx. rewrite Hnx in Hx. destruct Hx.
    - intros k Hk j x Hjk Hx. rewrite Hlel in Hk. unfold is_ex. rewrite Hg.
      pose proof (X_lel_lt _ _ _ HX Hrel k Hk) as Hkl. fold nl in Hkl.
      rewrite nth_app_old in Hx by (fold nl; lia). apply (Tc_lel _ _ HT k Hk j x Hjk Hx).
    - intros j x Hx HjN. apply nth_app_cases in Hx. fold nl in Hx.
      pose proof (Tc_d1 _ _ HT) as Hd1. pose proof (Tc_d2 _ _ HT) as Hd2.
      destruct Hexit as [(HdN & E1 & E2 & E3)|(HdN & Hnx)].
      + destruct Hx as [[Hj Hx]|[Hj Hx]]; [lia|]. subst j.
        rewrite E1, E2, E3, Hn. split; [apply Hlast; exact Hx|]. split; [apply Hlastr; exact Hx|]. split; [reflexivity|].
        rewrite Hfl. apply (Tc_open _ _ HT). apply Hlast. exact Hx.
      + destruct Hx as [[Hj Hx]|[Hj Hx]]; [lia|]. apply Hlast in Hx. rewrite Hnx in Hx. destruct Hx.
    - eapply NinvC_same; [exact Hn|exact (Tc_nc _ _ HT)].
    - intros j x Hx Hd Hf. rewrite Hdl in Hd. rewrite Hfl in Hf. rewrite !Hg. apply nth_app_cases in Hx. fold nl in Hx.
      destruct Hx as [[Hj Hx]|[Hj Hx]]; [apply (Tc_cached _ _ HT j x Hx Hd Hf)|].
      exfalso. rewrite (Tc_open _ _ HT x (proj1 (Hlast x) Hx)) in Hf. discriminate.
    - rewrite Hmc. exact (Tc_mc _ _ HT).
    - intros x (eid & He1 & He2). rewrite Hfl. apply (Tc_src _ _ HT). exists eid. rewrite He in He1. rewrite Hge in He2. auto.
    - intros x (eid & He1 & He2). rewrite Hdl.
      destruct (Tc_srcl _ _ HT x) as (Hd & j & Hj); [exists eid; rewrite He in He1; rewrite Hge in He2; auto|].
      split; [exact Hd|]. exists j. apply MddSim.nth_layers_app. exact Hj.
    - rewrite Hdl, Hfl. destruct (Tc_root _ _ HT) as (R1 & R2 & [[R3 R4]|R3]).
      + split; [|split; assumption]. rewrite R3. simpl. apply Hlast. rewrite R4. left; reflexivity.
      + split; [|split; assumption]. apply MddSim.nth_layers_app. exact R3.
    - intros x Hx. rewrite Hfl. apply (Tc_open _ _ HT). apply Hnxt. exact Hx.
  Qed.

  Lemma FSc_ext c (ml : mdd) (lay lay' : nat -> list nat) : (forall j, lay j = lay' j) -> FSc c ml lay -> FSc c ml lay'.
  Proof.
    intros Hext [G1 G2 G3 G4 G5 G6 G7 G8 G9 G10 G11 G12 G13 G14 G15 G16].
    split.
    - exact G1.
    - intros j x Hx. rewrite <- Hext in Hx. eauto.
    - intros j j' x y Hjj Hx Hy. rewrite <- Hext in Hx, Hy. eauto.
    - intros j. rewrite <- Hext. apply G4.
    - intros j x eid y Hx Hin Hy. rewrite <- Hext in Hx, Hy. eauto.
    - intros j x Hx. rewrite <- Hext in Hx. eauto.
    - intros j x Hx Hd Hf. rewrite <- Hext in Hx. intros Hbr s var val Hc Hv Hval. cbv zeta.
      destruct (G7 j x Hx Hd Hf Hbr s var val Hc Hv Hval) as (t' & eid & Q). exists t', eid. rewrite <- Hext. exact Q.
    - intros k Hk j x Hjk Hx. rewrite <- Hext in Hx. eauto.
    - intros j x Hx. rewrite <- Hext in Hx. eauto.
    - exact G10.
    - intros j x Hx. rewrite <- Hext in Hx. eauto.
    - exact G12.
    - exact G13.
    - intros x Hx. destruct (G14 x Hx) as (Hd & j & Hj). split; [exact Hd|]. exists j. rewrite <- Hext. exact Hj.
    - rewrite <- Hext. exact G15.
    - exact G16.
  Qed.

  Lemma TIc_initialize c ds polls : TIc c (initialize inp c ds polls).
  Proof.
    assert (Hnil : forall j (x : nat), In x (nth j (@nil (list nat)) []) -> False).
    { intros j x H. destruct j; simpl in H; destruct H. }
    split.
    - apply (MddSim.Linv_initialize inp Hnocut Hwidth Hrd cov cov_refl c ds polls).
    - simpl. apply Nat.le_refl.
    - simpl. exact Hrd.
    - simpl. fold root. fold rd. lia.
    - apply wf_initialize.
    - split; [simpl; lia|]. split; [intros x; simpl; lia|]. intros x [<-|[]]. reflexivity.
    - intros j j' x y _ Hx. exfalso. exact (Hnil _ _ Hx).
    - intros j. simpl. destruct j; constructor.
    - intros j x eid y Hx. exfalso. exact (Hnil _ _ Hx).
    - intros j x Hx. exfalso. exact (Hnil _ _ Hx).
    - intros j x _ Hx. exfalso. exact (Hnil _ _ Hx).
    - intros j x _ Hx. exfalso. exact (Hnil _ _ Hx).
    - intros k Hk. discriminate.
    - apply NinvC_initialize.
    - intros x [<-|[]]. reflexivity.
    - intros j x Hx. exfalso. exact (Hnil _ _ Hx).
    - reflexivity.
    - intros x (eid & He & _). simpl in He. lia.
    - intros x (eid & He & _). simpl in He. lia.
    - split; [reflexivity|]. split; [reflexivity|]. left. split; reflexivity.
  Qed.

  Lemma layer_loop_TIc c : forall fuel (m m' : mdd),
    TIc c m -> layer_loop st_eqb inp fuel m = (m', LoopDone) -> FSc c m' (fun j => nth j (LF m') []).
  Proof.
    induction fuel as [|fuel IH]; intros m m' HT Hloop; [simpl in Hloop; inversion Hloop|].
    set (d := m_curr_depth m) in *.
    cbn [layer_loop] in Hloop. cbv zeta in Hloop.
    set (states := map (fun id => n_state (gn m id)) (m_next m)) in *.
    fold pb in Hloop.
    pose proof (Tc_d1 _ _ HT) as Hd1. pose proof (Tc_d2 _ _ HT) as Hd2. pose proof (Tc_oi _ _ HT) as (O1 & O2 & O3).
    destruct (next_variable pb (m_curr_depth m) states) as [var|] eqn:Eov.
    2:{ (* the variables are exhausted *)
      inversion Hloop; subst m'. clear Hloop.
      assert (HdN : d = N).
      { destruct (Nat.lt_ge_cases d N) as [Hlt|Hge]; [|fold d in Hd2; lia].
        destruct (nv_some d states Hlt) as [x Hx]. unfold d in Hx. rewrite Hx in Eov. discriminate. }
      set (ml := add_log m (EvNextVar (m_curr_depth m) states None)).
      unfold LF. destruct (MddSim.finalize_layers_fields inp Hclean ml) as (_ & _ & _ & _ & F5). rewrite F5.
      change (m_next ml) with (m_next m). change (m_layers ml) with (m_layers m).
      change (m_layer_end ml) with (m_layer_end m). change (length (m_nodes ml)) with (length (m_nodes m)).
      set (lastl := seq (m_layer_end m) (length (m_nodes m) - m_layer_end m)).
      assert (Hlast : forall x, In x lastl <-> In x (m_next m)).
      { intros x. unfold lastl. rewrite in_seq, O2. lia. }
      pose proof (FS_of_TIc c m ml lastl HT eq_refl eq_refl eq_refl eq_refl (fun x Hx => Hx) Hlast (seq_NoDup _ _)
                    (or_introl (conj HdN (conj eq_refl (conj eq_refl eq_refl))))) as HF.
      destruct (m_next m) as [|c0 cs] eqn:En; [|exact HF].
      (* empty last layer: the same layers, as functions *)
      assert (Elast : lastl = []).
      { destruct lastl as [|z zs] eqn:E; [reflexivity|]. exfalso. apply (proj1 (Hlast z)). left; reflexivity. }
      rewrite Elast in HF.
      assert (Heq : forall j, nth j (m_layers m) [] = nth j (m_layers m ++ [[]]) []).
      { intros j. destruct (Nat.lt_ge_cases j (length (m_layers m))) as [Hlt|Hge].
        - rewrite app_nth1 by exact Hlt. reflexivity.
        - rewrite nth_overflow by exact Hge. rewrite app_nth2 by exact Hge.
          destruct (j - length (m_layers m)) as [|k]; [reflexivity|destruct k; reflexivity]. }
      apply (FSc_ext c ml (fun j => nth j (m_layers m ++ [[]]) []) (fun j => nth j (m_layers m) [])); [|exact HF].
      intros j. symmetry. apply Heq. }
    set (m1 := add_log m (EvNextVar (m_curr_depth m) states (Some var))) in *.
    set (m2 := with_polls m1 (S (m_polls m1))) in *.
    rewrite Hnocut in Hloop. cbn [Nat.ltb Nat.leb andb] in Hloop.
    rewrite (not_pooled inp Hclean) in Hloop.
    assert (HdN : d < N).
    { destruct (Nat.lt_ge_cases d N) as [Hlt|Hge]; [exact Hlt|].
      pose proof (nv_none d states Hge) as Hn. unfold d in Hn. rewrite Hn in Eov. discriminate. }
    assert (Hvar : next_variable pb (m_curr_depth m) [] = Some var) by (rewrite (nv_static _ [] states); exact Eov).
    destruct (m_next m) as [|c0 cs] eqn:En.
    - (* the next layer is empty: the loop stops *)
      rewrite move_clean_unfold in Hloop. change (m_next m2) with (m_next m) in Hloop. rewrite En in Hloop.
      inversion Hloop; subst m'. clear Hloop.
      set (ml := push_layer (with_next m2 []) [] 0).
      unfold LF. destruct (MddSim.finalize_layers_fields inp Hclean ml) as (_ & _ & _ & _ & F5). rewrite F5.
      change (m_next ml) with (@nil nat). change (m_layers ml) with (m_layers m ++ [[]]).
      apply (FS_of_TIc c m ml [] HT eq_refl eq_refl eq_refl eq_refl (fun x (Hx : In x []) => match Hx with end)).
      + intros x. rewrite En. reflexivity.
      + constructor.
      + right. split; [exact HdN|exact En].
    - destruct (iter_TIc c m var (EvNextVar (m_curr_depth m) states (Some var)) (S (m_polls m1)) HT HdN Hvar)
        as (m3 & l & Emv & HT5).
      { rewrite En. discriminate. }
      cbv zeta in HT5. fold m1 in Emv. fold m2 in Emv. rewrite Emv in Hloop.
      apply (IH _ m' HT5). exact Hloop.
  Qed.
End Loop.

Local Open Scope Z_scope.

Local Open Scope nat_scope.

(* ================================================================== 5. _finalize with the cache on: what _compute_thresholds leaves alone *)
Section TechC.
  Context {St : Type}.
  Variable st_eqb : St -> St -> bool.
  Variable inp : @cinput St.
  Notation mdd := (@mdd St).
  Notation node := (@node St).
  Notation gn := (get_node inp).
  Hypothesis Hclean : ci_flavour inp = CleanLEL \/ ci_flavour inp = CleanFC.

  Lemma hdr_ctC (m : mdd) : MddSim.hdr (compute_thresholds st_eqb inp m) = MddSim.hdr m.
  Proof. apply (proj_compute_thresholdsC st_eqb inp); intros; reflexivity. Qed.

  Lemma node_ctC {Y} (g : node -> Y) (m : mdd) x :
    (forall n t, g (set_theta n t) = g n) ->
    g (gn (compute_thresholds st_eqb inp m) x) = g (gn m x).
  Proof.
    intros Hg. apply (proj_compute_thresholdsC st_eqb inp (fun a : mdd => g (gn a x))); try (intros; reflexivity).
    intros a k t. apply (get_node_upd_node_proj inp g). intros n. apply Hg.
  Qed.

  Lemma finalize_hdrC tb tb2 (ml : mdd) :
    let m := finalize st_eqb inp tb tb2 ml in
    let m1 := finalize_layers inp ml in
    m_is_exact m = (match m_lel ml with None => true | Some _ => false end) /\
    (m_has_ebp m = true -> ci_type inp = Relaxed) /\
    m_best m = pick tb (argmax_candidates inp m1 (m_next ml)) /\
    m_best_exact m =
      (if m_has_ebp m then m_best m
       else pick tb2 (argmax_candidates inp m1 (filter (fun id => fl_is_exact (n_flags (gn m1 id))) (m_next ml)))).
  Proof.
    cbv zeta. unfold finalize.
    destruct (MddSim.finalize_layers_fields inp Hclean ml) as (F1 & F2 & F3 & F4 & F5).
    set (m1 := finalize_layers inp ml) in *.
    set (m2 := find_best_node inp tb tb2 m1).
    set (m3 := finalize_exact inp m2).
    assert (Hh : MddSim.hdr (compute_thresholds st_eqb inp (compute_local_bounds inp (finalize_cutset inp m3))) = MddSim.hdr m3).
    { rewrite hdr_ctC, MddSim.hdr_compute_local_bounds, (MddSim.hdr_finalize_cutset inp Hclean). reflexivity. }
    apply MddSim.hdr_eq in Hh. destruct Hh as (H1 & H2 & H3 & H4).
    rewrite H1, H2, H3, H4. clear H1 H2 H3 H4.
    set (ebp := is_relaxed_ct (ci_type inp) && has_exact_best_path inp (S (length (m_nodes m2))) m2 (m_best m2)).
    assert (A1 : m_is_exact m3 = match m_lel m2 with None => true | Some _ => false end).
    { unfold m3, finalize_exact. cbv zeta. cbn [m_is_exact]. rewrite (not_pooled inp Hclean). reflexivity. }
    assert (A2 : m_has_ebp m3 = ebp) by reflexivity.
    assert (A3 : m_best m3 = m_best m2) by reflexivity.
    assert (A4 : m_best_exact m3 = if ebp then m_best m2 else m_best_exact m2) by reflexivity.
    assert (B1 : m_best m2 = pick tb (argmax_candidates inp m1 (m_next m1))) by reflexivity.
    assert (B2 : m_best_exact m2 = pick tb2 (argmax_candidates inp m1
                   (filter (fun id => fl_is_exact (n_flags (gn m1 id))) (m_next m1)))) by reflexivity.
    rewrite A1, A2, A3, A4, B1, B2, F2. change (m_lel m2) with (m_lel m1). rewrite F3.
    split; [reflexivity|]. split; [|split; reflexivity].
    intros Hb. unfold ebp in Hb. apply andb_true_iff in Hb. destruct Hb as [Hb _].
    destruct (ci_type inp); simpl in Hb; try discriminate. reflexivity.
  Qed.

  Hypothesis Hnocut : ci_cutoff inp = 0.
  Hypothesis Hwidth : 1 <= ci_width inp.
  Hypothesis Hrd : sp_depth (ci_root inp) <= nb_vars (ci_problem inp).

  Lemma best_geC tb tb2 (ml : mdd) u :
    Sinv inp ml -> Xs inp ml -> In u (m_next ml) ->
    exists b, m_best (finalize st_eqb inp tb tb2 ml) = Some b /\ In b (m_next ml) /\
      (n_vtop (gn ml u) <= n_vtop (gn (finalize st_eqb inp tb tb2 ml) b))%Z.
  Proof.
    intros HS HX Hu. destruct (finalize_hdrC tb tb2 ml) as (_ & _ & Hb & _). cbv zeta in Hb.
    destruct (MddSim.pick_argmax_some inp Hnocut Hwidth Hrd tb (finalize_layers inp ml) (m_next ml)) as [b Eb].
    { intros E. rewrite E in Hu. destruct Hu. }
    destruct (MddSim.pick_argmax_spec inp tb _ _ _ Eb) as [Hin Hmax].
    exists b. split; [rewrite Hb; exact Eb|]. split; [exact Hin|].
    specialize (Hmax u Hu). rewrite !(MddSim.gn_finalize_layers inp Hclean) in Hmax.
    destruct (MddSim.finalize_core st_eqb inp Hclean tb tb2 ml b HS HX) as (_ & c2 & _). rewrite <- c2. exact Hmax.
  Qed.

  Lemma best_exact_geC tb tb2 (ml : mdd) u :
    Sinv inp ml -> Xs inp ml -> In u (m_next ml) -> is_ex inp ml u = true ->
    m_has_ebp (finalize st_eqb inp tb tb2 ml) = false ->
    exists b, m_best_exact (finalize st_eqb inp tb tb2 ml) = Some b /\ In b (m_next ml) /\
      (n_vtop (gn ml u) <= n_vtop (gn (finalize st_eqb inp tb tb2 ml) b))%Z.
  Proof.
    intros HS HX Hu Hex Hebp. destruct (finalize_hdrC tb tb2 ml) as (_ & _ & _ & Hb). cbv zeta in Hb.
    rewrite Hebp in Hb.
    set (m1 := finalize_layers inp ml) in *.
    set (ids := filter (fun id => fl_is_exact (n_flags (gn m1 id))) (m_next ml)) in *.
    assert (Huf : In u ids).
    { apply filter_In. split; [exact Hu|]. unfold m1. rewrite (MddSim.gn_finalize_layers inp Hclean). exact Hex. }
    destruct (MddSim.pick_argmax_some inp Hnocut Hwidth Hrd tb2 m1 ids) as [b Eb].
    { intros E. rewrite E in Huf. destruct Huf. }
    destruct (MddSim.pick_argmax_spec inp tb2 _ _ _ Eb) as [Hin Hmax].
    exists b. split; [rewrite Hb; exact Eb|]. split; [apply filter_In in Hin; apply Hin|].
    specialize (Hmax u Huf). unfold m1 in Hmax. rewrite !(MddSim.gn_finalize_layers inp Hclean) in Hmax.
    destruct (MddSim.finalize_core st_eqb inp Hclean tb tb2 ml b HS HX) as (_ & c2 & _). rewrite <- c2. exact Hmax.
  Qed.

  Variable cov : St -> St -> Prop.

  Lemma locb_from_pathC tb tb2 (ml : mdd) k i c sc vc ds2 u s' o :
    ci_type inp = Relaxed -> Sinv inp ml -> Xs inp ml -> m_lel ml = Some k ->
    length (m_layers ml) = i + length ds2 -> In u (m_next ml) ->
    m_layer_end ml <= u < length (m_nodes ml) ->
    MddSim.dpath inp cov ml i c sc ds2 u s' -> frun (ci_problem inp) (sp_depth (ci_root inp) + i) sc vc ds2 = Some (s', o) ->
    (forall da db s1 v1, ds2 = da ++ db -> frun (ci_problem inp) (sp_depth (ci_root inp) + i) sc vc da = Some (s1, v1) -> in_isize (o - v1)) ->
    f_marked (n_flags (gn (finalize st_eqb inp tb tb2 ml) c)) = true /\
    (o - vc <= n_vbot (gn (finalize st_eqb inp tb tb2 ml) c))%Z.
  Proof.
    intros Ht HS HX Hlel Hlen Hu Hur P2 Hrun Hiso.
    destruct (MddSim.pipe3 inp Hclean tb tb2 ml HS HX) as (G1 & G2 & G3 & G4 & G5 & S3 & X3 & Pl3). cbv zeta in G1, G2, G3, G4, G5, S3, X3, Pl3.
    set (m := finalize st_eqb inp tb tb2 ml).
    set (m3 := finalize_exact inp (find_best_node inp tb tb2 (finalize_layers inp ml))) in *.
    set (m4 := finalize_cutset inp m3) in *.
    set (m5 := compute_local_bounds inp m4).
    assert (Em : m = compute_thresholds st_eqb inp m5) by reflexivity.
    destruct (finalize_cutset_spec inp Hclean m3 S3 X3) as [B34 _]. fold m4 in B34.
    destruct B34 as (P34 & _).
    assert (Pl4 : peq inp ml m4) by (eapply peq_trans; eauto).
    destruct (MddSim.finalize_layers_fields inp Hclean ml) as (_ & _ & _ & _ & F5).
    assert (Hly4 : m_layers m4 = m_layers ml ++ [seq (m_layer_end ml) (length (m_nodes ml) - m_layer_end ml)]).
    { unfold m4. rewrite finalize_cutset_layers, G3, F5. destruct (m_next ml); [destruct Hu|reflexivity]. }
    assert (P2' : MddSim.dpath inp cov m4 i c sc ds2 u s').
    { eapply (MddSim.dpath_peq inp Hnocut Hwidth Hrd); [exact Pl4| |exact P2]. intros j x. rewrite Hly4. apply MddSim.nth_layers_app. }
    assert (Hgo4 : MddSim.lb_go inp m4 = true).
    { unfold MddSim.lb_go. rewrite Ht. unfold m4. rewrite (MddSim.lel_finalize_cutset inp Hclean m3 k) by (rewrite G4; exact Hlel).
      fold m4. rewrite Hly4, app_length. cbn [opt_default length is_relaxed_ct].
      pose proof (X_lel_lt _ _ _ HX Ht k Hlel). rewrite andb_true_r. apply Nat.ltb_lt. lia. }
    destruct (MddSim.local_bounds_path inp Hclean Hnocut Hwidth Hrd cov m4 i c sc ds2 u s' (sp_depth (ci_root inp) + i) vc o Hgo4 P2' Hrun) as [M1 M2].
    { rewrite Hly4, app_length. simpl. lia. }
    { rewrite Hly4, last_last. apply in_seq. lia. }
    { exact Hiso. }
    fold m5 in M1, M2. split.
    - rewrite Em. rewrite (node_ctC (fun n => f_marked (n_flags n))) by reflexivity. exact M1.
    - rewrite Em. rewrite (node_ctC (@n_vbot St)) by reflexivity. exact M2.
  Qed.
End TechC.

Local Open Scope nat_scope.

(* ================================================================== 6. what a relaxed compilation started from ANY cache guarantees *)
Section CompileLevel.
  Context {St : Type}.
  Variable st_eqb : St -> St -> bool.
  Variable inp : @cinput St.
  Let pb := ci_problem inp.
  (* a complete run of final value [val] was lost to an entry of the cache [c] at depth >= dmin *)
  Definition LostC (c : @cache St) (dmin : nat) (val : Z) : Prop :=
    exists d s0 th h, dmin <= d /\ cget st_eqb c s0 d = Some th /\ H pb d s0 = Some h /\ (val <= th_value th + h)%Z.
  (* the run (d, s, w) ds passes through a drained cut-set node, at a value no larger than the node's
     (with e = true: strictly deeper than d) *)
  Definition CaptC (m : @mdd St) (e : bool) (d : nat) (s : St) (w : Z) (ds : list decision) : Prop :=
    exists sp ds1 ds2 s1 w1, In sp (drain_cutset inp m) /\ ds = ds1 ++ ds2 /\ frun pb d s w ds1 = Some (s1, w1) /\
      sp_state sp = s1 /\ sp_depth sp = d + length ds1 /\ (w1 <= sp_value sp)%Z /\ (e = true -> ds1 <> []).

  Lemma LostC_mono c d d' v v' : d' <= d -> (v' <= v)%Z -> LostC c d v -> LostC c d' v'.
  Proof. intros H1 H2 (d0 & s0 & th & h & A & B0 & C & D). exists d0, s0, th, h. repeat split; auto; lia. Qed.
End CompileLevel.

(* ================================================================== 7. the bridge: Mdd.compile (relaxed, any cache with a layer per depth) *)
Section BridgeC.
  Context {St : Type}.
  Variable st_eqb : St -> St -> bool.
  Hypothesis st_eqb_spec : forall a b, st_eqb a b = true <-> a = b.
  Variable inp : @cinput St.
  Let pb := ci_problem inp.
  Let rlx := ci_relax inp.
  Let root := ci_root inp.
  Let lb := ci_best_lb inp.
  Let N := nb_vars pb.
  Let rd := sp_depth root.
  Let rs := sp_state root.
  Let rv := sp_value root.
  Hypothesis Hclean : ci_flavour inp = CleanLEL \/ ci_flavour inp = CleanFC.
  Hypothesis Hnodom : ci_domrule inp = None.
  Hypothesis Hnocut : ci_cutoff inp = 0.
  Hypothesis Hwidth : 1 <= ci_width inp.
  Hypothesis Hrel : ci_type inp = Relaxed.
  Hypothesis Hrd : rd <= N.
  Hypothesis nv_static : forall k l1 l2, next_variable pb k l1 = next_variable pb k l2.
  Hypothesis nv_some : forall k l, k < N -> exists x, next_variable pb k l = Some x.
  Hypothesis nv_none : forall k l, N <= k -> next_variable pb k l = None.
  Variable cov : St -> St -> Prop.
  Hypothesis cov_refl : forall s, cov s s.
  Hypothesis cov_sim : forall s s' x v, cov s s' -> In v (domain pb x s') ->
    let d := {| d_var := x; d_val := v |} in
    In v (domain pb x s) /\ cov (transition pb s d) (transition pb s' d) /\
    (transition_cost pb s' (transition pb s' d) d <= transition_cost pb s (transition pb s d) d)%Z.
  Hypothesis merge_cov : forall L s s', In s L -> cov s s' -> cov (merge rlx L) s'.
  Hypothesis relax_ge : forall src dst mg d c, (c <= relax rlx src dst mg d c)%Z.
  Hypothesis rub_adm : forall k s s' h, cov s s' -> H pb k s' = Some h -> (h <= fast_upper_bound rlx s)%Z.
  Variable B : Z.
  Hypothesis HB : (2 * B <= IMAX)%Z.
  Hypothesis Hguard : forall ds s' v', frun pb rd rs rv ds = Some (s', v') -> (- B <= v' <= B)%Z.

  Notation mdd := (@mdd St).
  Notation gn := (get_node inp).
  Notation LF := (LF inp).
  Notation sk := (@sk St).

  (* a has the static data of m: only thresholds may differ *)
  Definition same_static (m a : mdd) : Prop :=
    m_layers a = m_layers m /\ m_edges a = m_edges m /\ length (m_nodes a) = length (m_nodes m) /\
    m_cache a = m_cache m /\ (forall x, sk (gn a x) = sk (gn m x)) /\ m_is_exact a = m_is_exact m.

  Lemma same_static_set_theta (m a : mdd) id t :
    same_static m a -> same_static m (upd_node a id (fun n => set_theta n t)).
  Proof.
    intros (A1 & A2 & A3 & A4 & A5 & A6).
    split; [exact A1|]. split; [exact A2|]. split; [rewrite len_upd_node; exact A3|]. split; [exact A4|]. split; [|exact A6].
    intros x. rewrite <- A5. destruct (Nat.eq_dec id x) as [<-|Hne]; [|rewrite gn_upd_other by exact Hne; reflexivity].
    destruct (Nat.lt_ge_cases id (length (m_nodes a))) as [Hlt|Hge].
    - rewrite gn_upd_same by exact Hlt. apply sk_set_theta.
    - rewrite gn_upd_out by exact Hge. reflexivity.
  Qed.

  Lemma th_preset_frame bk (m : mdd) :
    let a := th_preset inp bk m in
    m_layers a = m_layers m /\ m_edges a = m_edges m /\ length (m_nodes a) = length (m_nodes m) /\
    m_cache a = m_cache m /\ (forall x, sk (gn a x) = sk (gn m x)) /\ m_is_exact a = m_is_exact m.
  Proof.
    cbv zeta. unfold th_preset. apply (MddExact.fold_left_inv (same_static m)); [repeat split; reflexivity|].
    intros a id _ Ha. cbv zeta. destruct (match ci_flavour inp with CleanLEL => _ | _ => _ end); [|exact Ha].
    apply same_static_set_theta. exact Ha.
  Qed.

  Lemma th_preset_theta bk (m : mdd) x : In x (m_next m) -> x < length (m_nodes m) ->
    (ci_flavour inp = CleanLEL -> m_is_exact m = true) ->
    fl_is_exact (n_flags (gn m x)) = true ->
    theta_of inp (th_preset inp bk m) x = Some bk.
  Proof.
    intros Hx Hlt Hlel Hex. unfold th_preset.
    apply (fold_left_hit (same_static m) (fun a : mdd => theta_of inp a x = Some bk) _ (m_next m) m x Hx).
    - repeat split; reflexivity.
    - intros a id _ Ha. cbv zeta. destruct (match ci_flavour inp with CleanLEL => _ | _ => _ end); [|exact Ha].
      apply same_static_set_theta. exact Ha.
    - intros a (_ & _ & A3 & _ & A5 & A6). cbv zeta.
      assert (Hc : match ci_flavour inp with CleanLEL => m_is_exact a | _ => fl_is_exact (n_flags (gn a x)) end = true).
      { destruct (sk_fields _ _ (A5 x)) as (_ & _ & _ & _ & Ef & _).
        destruct (ci_flavour inp) eqn:Ef'; [rewrite A6; apply Hlel; reflexivity|rewrite Ef; exact Hex|rewrite Ef; exact Hex]. }
      rewrite Hc. unfold theta_of. rewrite gn_upd_same by lia. reflexivity.
    - intros a y _ (_ & _ & A3 & _) Hp. cbv zeta.
      match goal with |- context [if ?c then _ else _] => destruct c end; [|exact Hp].
      unfold theta_of in *. destruct (Nat.eq_dec y x) as [->|Hne].
      + rewrite gn_upd_same by lia. reflexivity.
      + rewrite gn_upd_other by exact Hne. exact Hp.
  Qed.

  (* _compute_thresholds is the fold th_step over a diagram m0 that has the static data of its argument: the argument
     itself, or (when there is a best exact node) the argument with the terminal thresholds pre-set to best_known *)
  Lemma th_preset_other bk (m : mdd) x : ~ In x (m_next m) -> gn (th_preset inp bk m) x = gn m x.
  Proof.
    intros Hn. unfold th_preset.
    apply (MddExact.fold_left_inv (fun a : mdd => gn a x = gn m x)); [reflexivity|].
    intros a id Hid Ha. cbv zeta.
    match goal with |- context [if ?c then _ else _] => destruct c end; [|exact Ha].
    rewrite gn_upd_other; [exact Ha|]. intros ->. contradiction.
  Qed.

  Lemma compute_thresholds_fold (m5 : mdd) :
    exists m0 bk, compute_thresholds st_eqb inp m5 = fold_left (th_step st_eqb inp bk) (bottom_up m0) m0 /\
      m_layers m0 = m_layers m5 /\ m_edges m0 = m_edges m5 /\ length (m_nodes m0) = length (m_nodes m5) /\
      (forall x, sk (gn m0 x) = sk (gn m5 x)) /\ m_cache m0 = m_cache m5 /\ (lb <= bk)%Z /\
      bk = bk_of inp (compute_thresholds st_eqb inp m5) /\
      (forall x, In x (m_next m5) -> x < length (m_nodes m5) -> fl_is_exact (n_flags (gn m5 x)) = true ->
         (ci_flavour inp = CleanLEL -> m_is_exact m5 = true) ->
         (exists be, m_best_exact m5 = Some be) -> theta_of inp m0 x = Some bk) /\
      (forall x, ~ In x (m_next m5) -> gn m0 x = gn m5 x).
  Proof.
    set (M := compute_thresholds st_eqb inp m5).
    destruct (compute_thresholds_keq st_eqb inp m5) as ((_ & _ & _ & KC) & _ & _ & KBE & _). fold M in KC, KBE.
    unfold bk_of. rewrite KBE. unfold M at 1. rewrite compute_thresholds_unfold, Hrel. cbn [is_relaxed_ct orb].
    destruct (m_best_exact m5) as [be|].
    - cbv zeta. set (bk := Z.max (ci_best_lb inp) (n_vtop (gn m5 be))).
      destruct (th_preset_frame bk m5) as (F1 & F2 & F3 & F4 & F5 & F6). cbv zeta in F1, F2, F3, F4, F5, F6.
      exists (th_preset inp bk m5), bk. repeat (split; [assumption || reflexivity|]). split; [unfold bk, lb; lia|].
      split; [|split].
      + unfold bk. destruct (KC be) as (_ & Ev & _). rewrite Ev. reflexivity.
      + intros x Hx Hlt Hexx Hlel _. apply th_preset_theta; assumption.
      + intros x Hn. apply th_preset_other. exact Hn.
    - exists m5, (ci_best_lb inp). repeat (split; [reflexivity|]). split; [|reflexivity].
      intros x _ _ _ _ (be & Hbe). discriminate.
  Qed.

  (* ---------------------------------------------------------------- the diagram handed to _compute_thresholds *)
  Section UseC.
    Variable c0 : @cache St.
    Notation node := (@node St).
    Notation dpath := (MddSim.dpath inp cov).
    Notation del := (del inp).
    Notation FSc := (FSc st_eqb inp cov c0).
    Notation fcache := (fcache inp).

    Variables (tb tb2 : nat) (ml : mdd).
    Hypothesis HFS : FSc ml (fun j => nth j (LF ml) []).
    Hypothesis HS : Sinv inp ml.
    Hypothesis HX : Xs inp ml.
    Hypothesis HN : MddSim.Ninv inp ml.

    Let m3' := finalize_exact inp (find_best_node inp tb tb2 (finalize_layers inp ml)).
    Let m4 := finalize_cutset inp m3'.
    Let m5 := compute_local_bounds inp m4.
    Let mf := finalize st_eqb inp tb tb2 ml.
    Notation lyf j := (nth j (LF ml) []).

    Lemma gn3 x : gn m3' x = gn ml x.
    Proof. apply gn_nodes_eq. apply (pipe3 inp Hclean tb tb2 ml HS HX). Qed.

    Lemma m5_fields x :
      n_state (gn m5 x) = n_state (gn ml x) /\ n_vtop (gn m5 x) = n_vtop (gn ml x) /\
      n_inb (gn m5 x) = n_inb (gn ml x) /\ n_rub (gn m5 x) = n_rub (gn ml x) /\
      n_depth (gn m5 x) = n_depth (gn ml x) /\ n_theta (gn m5 x) = n_theta (gn ml x).
    Proof.
      assert (G : forall {Y} (g : node -> Y), (forall n f, g (set_flags n f) = g n) -> (forall n v, g (set_vbot n v) = g n) ->
                g (gn m5 x) = g (gn ml x)).
      { intros Y g H1 H2. unfold m5. rewrite (node_compute_local_bounds inp g) by assumption.
        unfold m4. rewrite (node_finalize_cutset inp Hclean g) by assumption. rewrite gn3. reflexivity. }
      repeat split; apply G; reflexivity.
    Qed.

    Lemma m5_flag (h : flags -> bool) x :
      (forall f b, h (fl_set_marked f b) = h f) -> (forall f b, h (fl_set_above f b) = h f) ->
      (forall f b, h (fl_set_cutset f b) = h f) -> h (n_flags (gn m5 x)) = h (n_flags (gn ml x)).
    Proof.
      intros H1 H2 H3. unfold m5. rewrite (flag_compute_local_bounds inp h) by exact H1.
      unfold m4. rewrite (flag_finalize_cutset inp Hclean h) by assumption. rewrite gn3. reflexivity.
    Qed.

    Lemma m5_cutflag (h : flags -> bool) x : (forall f b, h (fl_set_marked f b) = h f) ->
      h (n_flags (gn m5 x)) = h (n_flags (gn m4 x)).
    Proof. intros H1. unfold m5. apply (flag_compute_local_bounds inp h). exact H1. Qed.

    Lemma m5_layers : m_layers m5 = LF ml.
    Proof.
      unfold m5, m4. rewrite compute_local_bounds_layers, finalize_cutset_layers.
      apply (pipe3 inp Hclean tb tb2 ml HS HX).
    Qed.
    Lemma m5_edges : m_edges m5 = m_edges ml.
    Proof.
      destruct (compute_local_bounds_keq inp Hclean m4) as ((E5 & _) & _). fold m5 in E5.
      destruct (finalize_cutset_spec inp Hclean m3') as (((E4 & _) & _) & _).
      { apply (pipe3 inp Hclean tb tb2 ml HS HX). } { apply (pipe3 inp Hclean tb tb2 ml HS HX). }
      fold m4 in E4. rewrite E5, E4. apply (pipe3 inp Hclean tb tb2 ml HS HX).
    Qed.
    Lemma m5_len : length (m_nodes m5) = length (m_nodes ml).
    Proof.
      destruct (compute_local_bounds_keq inp Hclean m4) as ((_ & _ & E5 & _) & _). fold m5 in E5.
      destruct (finalize_cutset_spec inp Hclean m3') as (((_ & _ & E4 & _) & _) & _).
      { apply (pipe3 inp Hclean tb tb2 ml HS HX). } { apply (pipe3 inp Hclean tb tb2 ml HS HX). }
      fold m4 in E4. rewrite E5, E4. f_equal. apply (pipe3 inp Hclean tb tb2 ml HS HX).
    Qed.

    (* the effective index of the last exact layer *)
    Definition ke : nat := match m_lel ml with Some k => k | None => length (LF ml) end.
    Definition m1c : mdd :=
      match m_lel m3' with
      | None => with_lel_exact m3' (Some (length (m_layers m3'))) (m_is_exact m3')
      | Some _ => m3' end.

    Lemma m3_facts : m_nodes m3' = m_nodes ml /\ m_edges m3' = m_edges ml /\ m_layers m3' = LF ml /\
                     m_lel m3' = m_lel ml /\ m_cutset m3' = [].
    Proof.
      destruct (pipe3 inp Hclean tb tb2 ml HS HX) as (G1 & G2 & G3 & G4 & G5 & _). cbv zeta in G1, G2, G3, G4, G5.
      split; [exact G1|]. split; [exact G2|]. split; [exact G3|]. split; [exact G4|].
      transitivity (m_cutset ml); [exact G5|apply (X_cutset _ _ _ HX)].
    Qed.

    Lemma m4_eq : m4 = match ci_flavour inp with
                       | CleanLEL => lel_cutset m1c ke
                       | _ => frontier_cutset inp m1c true end.
    Proof.
      destruct m3_facts as (G1 & G2 & G3 & G4 & G5).
      unfold m4, finalize_cutset. cbv zeta. fold m1c. rewrite Hrel. cbn [is_relaxed_ct orb].
      assert (Eke : opt_default 0 (m_lel m1c) = ke).
      { unfold m1c, ke. rewrite <- G4. destruct (m_lel m3') as [k|] eqn:E3; cbn [m_lel with_lel_exact opt_default].
        - rewrite E3. reflexivity.
        - rewrite G3. reflexivity. }
      destruct Hclean as [Hf|Hf]; rewrite Hf; [rewrite Eke|]; reflexivity.
    Qed.

    Lemma gn1c x : gn m1c x = gn ml x.
    Proof. rewrite <- gn3. unfold m1c. destruct (m_lel m3'); reflexivity. Qed.
    Lemma m1c_layers : m_layers m1c = LF ml.
    Proof. destruct m3_facts as (_ & _ & G3 & _). rewrite <- G3. unfold m1c. destruct (m_lel m3'); reflexivity. Qed.
    Lemma m1c_len : length (m_nodes m1c) = length (m_nodes ml).
    Proof. destruct m3_facts as (G1 & _). rewrite <- G1. unfold m1c. destruct (m_lel m3'); reflexivity. Qed.
    Lemma m1c_edge k : get_edge m1c k = get_edge ml k.
    Proof. destruct m3_facts as (_ & G2 & _). apply ge_edges_eq. rewrite <- G2. unfold m1c. destruct (m_lel m3'); reflexivity. Qed.
    Lemma m1c_cutset : m_cutset m1c = [].
    Proof. destruct m3_facts as (_ & _ & _ & _ & G5). rewrite <- G5. unfold m1c. destruct (m_lel m3'); reflexivity. Qed.

    Lemma all_exact_no_lel x : m_lel ml = None -> x < length (m_nodes ml) -> is_ex inp ml x = true.
    Proof. intros Hn Hlt. apply (X_lel_none _ _ _ HX Hn x Hlt). Qed.

    Lemma mf_eqC : mf = compute_thresholds st_eqb inp m5.
    Proof. reflexivity. Qed.

    Lemma lay_uniqC j j' x : In x (lyf j) -> In x (lyf j') -> j = j'.
    Proof. exact (layers_uniq _ (Fc_ord1 _ _ _ _ _ _ HFS) j j' x). Qed.

    Lemma no_flagsC x : f_cutset (n_flags (gn ml x)) = false /\ f_above (n_flags (gn ml x)) = false.
    Proof.
      split.
      - destruct (Nat.lt_ge_cases x (length (m_nodes ml))) as [Hlt|Hge].
        + unfold MddSim.Ninv in HN. rewrite Forall_forall in HN. destruct (HN (gn ml x)) as (P1 & _); [apply nth_In; exact Hlt|exact P1].
        + rewrite (gn_out_of_range inp ml x Hge). reflexivity.
      - apply (NinvC_gn inp ml x (Fc_nc _ _ _ _ _ _ HFS)).
    Qed.

    Lemma cut_flagsC j x : In x (lyf j) ->
      (f_cutset (n_flags (gn m4 x)) = true -> is_ex inp ml x = true /\ In x (m_cutset m4)) /\
      (f_above (n_flags (gn m4 x)) = true -> is_ex inp ml x = true) /\
      (forall c eid, is_ex inp ml x = true -> f_above (n_flags (gn m4 x)) = true -> f_cutset (n_flags (gn m4 x)) = false ->
         In c (lyf (S j)) -> In eid (n_inb (gn ml c)) -> e_from (get_edge ml eid) = x ->
         is_ex inp ml c = true /\ f_above (n_flags (gn m4 c)) = true) /\
      (f_above (n_flags (gn m4 x)) = true -> rd + j = N -> ci_flavour inp = CleanLEL -> m_lel ml = None).
    Proof.
      intros Hx. pose proof (Fc_range _ _ _ _ _ _ HFS j x Hx) as Hxlt.
      destruct (no_flagsC x) as (Nc & Na).
      rewrite m4_eq. destruct Hclean as [Hf|Hf]; rewrite Hf.
      - (* last exact layer *)
        destruct (lel_cutset_flags inp Hnocut Hwidth Hrd m1c ke x) as (L1 & L2 & L3 & L4 & L5). cbv zeta in L1, L2, L3, L4, L5.
        rewrite m1c_layers in L1, L2, L3, L5. rewrite gn1c in L1, L2. rewrite m1c_len in L3, L5.
        assert (Hex_le : forall j' y, j' <= ke -> In y (lyf j') -> is_ex inp ml y = true).
        { intros j' y Hj' Hy. unfold ke in Hj'. destruct (m_lel ml) as [k|] eqn:El.
          - apply (Fc_lel _ _ _ _ _ _ HFS k El j' y Hj' Hy).
          - apply (all_exact_no_lel); [exact El|apply (Fc_range _ _ _ _ _ _ HFS j' y Hy)]. }
        split; [|split; [|split]].
        + intros Hc. destruct (L1 Hc) as [H|H]; [congruence|]. split; [apply (Hex_le ke x (Nat.le_refl _) H)|].
          destruct (lel_cutset_spec inp m1c ke) as [_ Ecs]. rewrite Ecs, m1c_cutset, m1c_layers. simpl.
          assert (Hk : ke < length (LF ml)) by (eapply nth_in_len; eauto).
          rewrite (nth_error_nth' (LF ml) [] Hk). exact H.
        + intros Ha. destruct (L2 Ha) as [H|(j' & Hj' & H)]; [congruence|]. apply (Hex_le j' x Hj' H).
        + intros c eid Hex Ha Hnc Hc Hin Hfrom.
          destruct (L2 Ha) as [H|(j' & Hj' & H)]; [congruence|].
          pose proof (lay_uniqC j j' x Hx H). subst j'.
          assert (Hjk : j <> ke).
          { intros ->. rewrite (L5 Hx Hxlt) in Hnc. discriminate. }
          pose proof (Fc_range _ _ _ _ _ _ HFS (S j) c Hc) as Hclt.
          split; [apply (Hex_le (S j) c ltac:(lia) Hc)|].
          destruct (lel_cutset_flags inp Hnocut Hwidth Hrd m1c ke c) as (_ & _ & C3 & _). cbv zeta in C3.
          rewrite m1c_layers, m1c_len in C3. apply (C3 (S j)); [lia|exact Hc|exact Hclt].
        + intros Ha HjN _. destruct (L2 Ha) as [H|(j' & Hj' & H)]; [congruence|].
          pose proof (lay_uniqC j j' x Hx H). subst j'.
          destruct (m_lel ml) as [k|] eqn:El; [exfalso|reflexivity].
          destruct (Fc_last _ _ _ _ _ _ HFS j x Hx HjN) as (_ & _ & Hlen & _).
          pose proof (X_lel_lt _ _ _ HX Hrel k El). unfold ke in Hj'. rewrite El in Hj'. lia.
      - (* frontier *)
        destruct (frontier_flags inp Hnocut Hwidth Hrd m1c) as ((FI & Q2 & Q3 & _) & Fab & Fhit).
        { intros y _ Hc. rewrite gn1c in Hc. destruct (no_flagsC y) as (E & _). congruence. }
        assert (Hexeq : forall y, is_ex inp m1c y = is_ex inp ml y) by (intros y; unfold is_ex; rewrite gn1c; reflexivity).
        split; [|split; [|split]].
        + intros Hc. destruct (Q3 x Hc) as [H|H]; [rewrite gn1c in H; congruence|]. rewrite Hexeq in H. split; [exact H|].
          destruct FI as (_ & F2 & _ & F4). apply F4; [rewrite F2, m1c_len; exact Hxlt|exact Hc].
        + intros Ha. destruct (Q2 x Ha) as [H|H]; [rewrite gn1c in H; congruence|]. rewrite Hexeq in H. exact H.
        + intros c eid Hex Ha Hnc Hc Hin Hfrom.
          pose proof (Fc_range _ _ _ _ _ _ HFS (S j) c Hc) as Hclt.
          assert (Hcbu : In c (bottom_up m1c)).
          { unfold bottom_up. rewrite m1c_layers. apply in_concat. exists (lyf (S j)). split; [|exact Hc].
            apply in_rev. rewrite rev_involutive. apply nth_In. eapply nth_in_len; eauto. }
          destruct (is_ex inp ml c) eqn:Exc.
          * split; [reflexivity|]. apply Fab; [exact Hcbu|rewrite m1c_len; exact Hclt|rewrite Hexeq; exact Exc].
          * exfalso. rewrite (Fhit x c eid Hcbu) in Hnc; [discriminate| | | | |].
            -- rewrite Hexeq. exact Exc.
            -- rewrite gn1c. exact Hin.
            -- rewrite m1c_edge. exact Hfrom.
            -- rewrite Hexeq. exact Hex.
            -- rewrite m1c_len. exact Hxlt.
        + intros _ _ E. discriminate.
    Qed.

    (* ---------------------------------------------------------------- any diagram with the static data of m5 *)
    Variable m0 : mdd.
    Hypothesis S_lay : m_layers m0 = LF ml.
    Hypothesis S_edg : m_edges m0 = m_edges ml.
    Hypothesis S_len : length (m_nodes m0) = length (m_nodes ml).
    Hypothesis S_sk : forall x, sk (gn m0 x) = sk (gn m5 x).
    Hypothesis S_cached_theta : forall x, f_cache (n_flags (gn ml x)) = true -> n_theta (gn m0 x) = n_theta (gn ml x).

    Lemma m0_fields x :
      n_state (gn m0 x) = n_state (gn ml x) /\ n_vtop (gn m0 x) = n_vtop (gn ml x) /\
      n_inb (gn m0 x) = n_inb (gn ml x) /\ n_rub (gn m0 x) = n_rub (gn ml x) /\
      n_depth (gn m0 x) = n_depth (gn ml x) /\ n_flags (gn m0 x) = n_flags (gn m5 x) /\
      n_vbot (gn m0 x) = n_vbot (gn m5 x).
    Proof.
      destruct (sk_fields _ _ (S_sk x)) as (a1 & a2 & a3 & a4 & a5 & a6 & a7).
      destruct (m5_fields x) as (b1 & b2 & b3 & b4 & b5 & _).
      repeat split; congruence.
    Qed.
    Lemma ge0 k : get_edge m0 k = get_edge ml k.
    Proof. apply ge_edges_eq. exact S_edg. Qed.

    Lemma lay_eq j x : lay m0 j x <-> In x (lyf j).
    Proof. unfold lay. rewrite S_lay. reflexivity. Qed.
    Lemma live_eq x : live inp m0 x <-> del ml x = false.
    Proof.
      unfold live, del. destruct (m0_fields x) as (_ & _ & _ & _ & _ & Ef & _). rewrite Ef.
      rewrite (m5_flag f_deleted) by (intros; reflexivity). reflexivity.
    Qed.
    Lemma isex_eq x : isex inp m0 x <-> is_ex inp ml x = true.
    Proof.
      unfold isex, is_ex. destruct (m0_fields x) as (_ & _ & _ & _ & _ & Ef & _). rewrite Ef.
      rewrite (m5_flag fl_is_exact) by (intros; reflexivity). reflexivity.
    Qed.
    Lemma above_eq x : above inp m0 x <-> f_above (n_flags (gn m4 x)) = true.
    Proof.
      unfold above. destruct (m0_fields x) as (_ & _ & _ & _ & _ & Ef & _). rewrite Ef.
      rewrite (m5_cutflag f_above) by (intros; reflexivity). reflexivity.
    Qed.
    Lemma cuts_eq x : cuts inp m0 x <-> f_cutset (n_flags (gn m4 x)) = true.
    Proof.
      unfold cuts. destruct (m0_fields x) as (_ & _ & _ & _ & _ & Ef & _). rewrite Ef.
      rewrite (m5_cutflag f_cutset) by (intros; reflexivity). reflexivity.
    Qed.
    Lemma st_eq x : st inp m0 x = n_state (gn ml x).
    Proof. apply m0_fields. Qed.
    Lemma vt_eq x : vt inp m0 x = n_vtop (gn ml x).
    Proof. apply m0_fields. Qed.
    Lemma rb_eq x : rb inp m0 x = n_rub (gn ml x).
    Proof. apply m0_fields. Qed.
    Lemma inb_eq x : n_inb (gn m0 x) = n_inb (gn ml x).
    Proof. apply m0_fields. Qed.

    (* ---------------------------------------------------------------- local bounds and the drained cut-set *)
    Lemma LF_old j : j < length (m_layers ml) -> lyf j = nth j (m_layers ml) [].
    Proof.
      intros Hj. unfold LF. destruct (finalize_layers_fields inp Hclean ml) as (_ & _ & _ & _ & F5). rewrite F5.
      destruct (m_next ml); [reflexivity|]. apply app_nth1. exact Hj.
    Qed.

    Definition Drn (x : nat) : Prop :=
      exists sp, In sp (drain_cutset inp mf) /\ sp_state sp = n_state (gn ml x) /\
                 sp_value sp = n_vtop (gn ml x) /\ sp_depth sp = n_depth (gn ml x).

    (* ---------------------------------------------------------------- the terminal thresholds are pre-set *)

    Local Notation lay := (lay m0).
    Local Notation live := (live inp m0).
    Local Notation isex := (isex inp m0).
    Local Notation above := (above inp m0).
    Local Notation cuts := (cuts inp m0).
    Local Notation st := (st inp m0).
    Local Notation vt := (vt inp m0).
    Local Notation vb := (vb inp m0).
    Local Notation rb := (rb inp m0).
    Local Notation branched := (branched inp m0).
    Local Notation Adm := (Adm inp cov m0).
    Local Notation rcost := (rcost inp).
    Local Notation Start := (Start inp).
    Local Notation complete := (complete inp).
    Local Notation lpath := (lpath inp cov m0).
    Local Notation cached := (cached inp m0).

    Lemma cached_eqC x : cached x <-> fcache ml x = true.
    Proof.
      unfold cached, fcache. destruct (m0_fields x) as (_ & _ & _ & _ & _ & Ef & _). rewrite Ef.
      rewrite (m5_flag f_cache) by (intros; reflexivity). reflexivity.
    Qed.

    Lemma PC_range j x : lay j x -> x < length (m_nodes m0).
    Proof. intros H. apply lay_eq in H. rewrite S_len. apply (Fc_range _ _ _ _ _ _ HFS j x H). Qed.

    Lemma PC_uniq j j' x : lay j x -> lay j' x -> j = j'.
    Proof. intros H1 H2. apply lay_eq in H1. apply lay_eq in H2. eapply lay_uniqC; eauto. Qed.

    Lemma PC_ord done x rest : bottom_up m0 = done ++ x :: rest ->
      ~ In x done /\
      (forall eid, In eid (n_inb (gn m0 x)) -> ~ In (e_from (get_edge m0 eid)) (done ++ [x])) /\
      (forall j c, lay j x -> lay (S j) c -> In c done).
    Proof.
      intros H. unfold bottom_up in H. rewrite S_lay in H.
      destruct (bu_order (LF ml) (fun y p => exists eid, In eid (n_inb (gn ml y)) /\ p = e_from (get_edge ml eid))
                  (Fc_ord1 _ _ _ _ _ _ HFS) (Fc_ord2 _ _ _ _ _ _ HFS)) with (done := done) (x := x) (rest := rest) as (B1 & B2 & B3).
      - intros j y p z Hy (eid & Hin & ->) Hz. apply (Fc_ord3 _ _ _ _ _ _ HFS j y eid z Hy Hin Hz).
      - exact H.
      - split; [exact B1|]. split.
        + intros eid Hin. rewrite inb_eq in Hin. rewrite ge0. apply B2. exists eid. auto.
        + intros j c Hx Hc. apply lay_eq in Hx. apply lay_eq in Hc. apply (B3 j c Hx Hc).
    Qed.

    Lemma PC_efrom j x eid : lay j x -> In eid (n_inb (gn m0 x)) -> e_from (get_edge m0 eid) < length (m_nodes m0).
    Proof.
      intros Hx Hin. apply lay_eq in Hx. rewrite inb_eq in Hin. rewrite ge0, S_len.
      pose proof (Fc_ord3 _ _ _ _ _ _ HFS j x eid x Hx Hin Hx). pose proof (Fc_range _ _ _ _ _ _ HFS j x Hx). lia.
    Qed.

    Lemma PC_depth j x : lay j x -> live x -> n_depth (gn m0 x) = rd + j.
    Proof.
      intros Hx Hv. apply lay_eq in Hx. apply live_eq in Hv. destruct (m0_fields x) as (_ & _ & _ & _ & E & _).
      rewrite E. apply (Fc_dep _ _ _ _ _ _ HFS j x Hx Hv).
    Qed.

    Lemma PC_SC j x s var val : lay j x -> live x -> ~ cached x -> Adm x s -> rd + j < N -> branched x ->
      next_variable pb (rd + j) [] = Some var -> In val (domain pb var s) ->
      let d := {| d_var := var; d_val := val |} in
      exists c eid, lay (S j) c /\ live c /\ Adm c (transition pb s d) /\
        In eid (n_inb (gn m0 c)) /\ e_from (get_edge m0 eid) = x /\ e_dec (get_edge m0 eid) = d /\
        (rcost s d <= e_cost (get_edge m0 eid))%Z.
    Proof.
      intros Hx Hv Hnc [Hcov Hexs] HjN Hbr Hvar Hval. cbv zeta.
      apply lay_eq in Hx. apply live_eq in Hv.
      assert (Hfc : fcache ml x = false).
      { destruct (fcache ml x) eqn:E; [exfalso; apply Hnc; apply cached_eqC; exact E|reflexivity]. }
      unfold branched in Hbr. rewrite rb_eq, vt_eq in Hbr. rewrite st_eq in Hcov.
      destruct (Fc_exp _ _ _ _ _ _ HFS j x Hx Hv Hfc Hbr s var val Hcov Hvar Hval) as (c & eid & Q1 & Q2 & Q3 & Q4 & Q5 & Q6 & Q7 & Q8 & Q9).
      cbv zeta in Q7, Q8, Q9.
      exists c, eid. split; [apply lay_eq; exact Q1|]. split; [apply live_eq; exact Q2|].
      split.
      - split; [rewrite st_eq; exact Q9|]. intros Hexc. apply isex_eq in Hexc.
        destruct (Fc_einv _ _ _ _ _ _ HFS c eid Q3 Q5) as (_ & _ & G3). destruct (G3 Hexc) as (Hexx & Est).
        rewrite Q6 in Hexx, Est. rewrite Q7 in Est. rewrite st_eq, Est.
        rewrite (Hexs (proj2 (isex_eq x) Hexx)), st_eq. reflexivity.
      - rewrite inb_eq, ge0. auto.
    Qed.

    Lemma PC_rub j x : lay j x -> rb x = IMAX \/ rb x = fast_upper_bound rlx (st x).
    Proof.
      intros Hx. apply lay_eq in Hx. pose proof (Fc_range _ _ _ _ _ _ HFS j x Hx) as Hlt. rewrite rb_eq, st_eq.
      unfold MddSim.Ninv in HN. rewrite Forall_forall in HN. destruct (HN (gn ml x)) as (_ & _ & P); [apply nth_In; exact Hlt|exact P].
    Qed.

    Definition OldC (d : nat) (s : St) (t : Z) : Prop := exists th, cget st_eqb c0 s d = Some th /\ th_value th = t.

    Lemma PC_cached j x : lay j x -> live x -> cached x ->
      exists tc, thc0 inp m0 x = Some tc /\ (vt x <= tc)%Z /\ OldC (rd + j) (st x) tc.
    Proof.
      intros Hx Hv Hc. apply lay_eq in Hx. apply live_eq in Hv. apply cached_eqC in Hc.
      destruct (Fc_cached _ _ _ _ _ _ HFS j x Hx Hv Hc) as (th & _ & T2 & T3 & T4).
      exists (th_value th). unfold thc0. rewrite (S_cached_theta x Hc), T4. split; [reflexivity|].
      rewrite vt_eq, st_eq. split; [exact T3|]. exists th. rewrite (Fc_dep _ _ _ _ _ _ HFS j x Hx Hv) in T2. auto.
    Qed.

    Lemma PC_cut_ex j x : lay j x -> cuts x -> isex x.
    Proof.
      intros Hx Hc. apply lay_eq in Hx. apply cuts_eq in Hc. apply isex_eq.
      destruct (cut_flagsC j x Hx) as (C1 & _). apply C1. exact Hc.
    Qed.

    Lemma PC_kid j x c eid : lay j x -> live x -> isex x -> above x -> ~ cuts x ->
      lay (S j) c -> live c -> In eid (n_inb (gn m0 c)) -> e_from (get_edge m0 eid) = x ->
      isex c /\ above c.
    Proof.
      intros Hx _ Hex Hab Hnc Hc _ Hin Hfrom.
      apply lay_eq in Hx. apply lay_eq in Hc. apply isex_eq in Hex. apply above_eq in Hab.
      rewrite inb_eq in Hin. rewrite ge0 in Hfrom.
      assert (Hnc' : f_cutset (n_flags (gn m4 x)) = false).
      { destruct (f_cutset (n_flags (gn m4 x))) eqn:E; [|reflexivity]. exfalso. apply Hnc. apply cuts_eq. exact E. }
      destruct (cut_flagsC j x Hx) as (_ & _ & C3 & _).
      destruct (C3 c eid Hex Hab Hnc' Hc Hin Hfrom) as [K1 K2].
      split; [apply isex_eq; exact K1|apply above_eq; exact K2].
    Qed.

    Lemma PC_above_ex j x : lay j x -> live x -> above x -> isex x.
    Proof.
      intros Hx _ Hab. apply lay_eq in Hx. apply above_eq in Hab. apply isex_eq.
      destruct (cut_flagsC j x Hx) as (_ & C2 & _). apply C2. exact Hab.
    Qed.

    Lemma PC_real j x : lay j x -> live x -> isex x -> Start j (st x) (vt x).
    Proof.
      intros Hx Hv Hex. apply lay_eq in Hx. apply live_eq in Hv. apply isex_eq in Hex.
      pose proof (Fc_range _ _ _ _ _ _ HFS j x Hx) as Hlt.
      pose proof (Sinv_exact_flag_clean_chain inp ml HS x Hlt Hex) as Hcc.
      destruct (MddSim.clean_chain_frun inp Hnocut Hwidth Hrd nv_static B HB Hguard ml x HS Hcc Hlt) as (ds & Hr & Hd).
      rewrite (Fc_dep _ _ _ _ _ _ HFS j x Hx Hv) in Hd.
      exists ds. rewrite st_eq, vt_eq. split; [exact Hr|]. fold root in Hd. fold rd in Hd. lia.
    Qed.

    Lemma lpath_vtopC j x s ds y s1 : lpath j x s ds y s1 ->
      forall v v1, (v <= vt x)%Z ->
        (forall ds1 s2 v2, frun pb (rd + j) s v ds1 = Some (s2, v2) -> in_isize v2) ->
        frun pb (rd + j) s v ds = Some (s1, v1) -> (v1 <= vt y)%Z.
    Proof.
      intros Hp. induction Hp as [j x s H1 H2 H3|j x s d ds c eid t s' H1 H2 H3 H4 H5 H6 H7 Hp IH]; intros v v1 Hv Hiso Hr.
      - simpl in Hr. inversion Hr; subst. exact Hv.
      - cbn [frun] in Hr.
        destruct (var_ok pb (rd + j) d && in_domain pb s d) eqn:Eg; [|discriminate].
        assert (Hiso1 : in_isize (v + transition_cost pb s (transition pb s d) d)%Z).
        { apply (Hiso [d] (transition pb s d)). cbn [frun]. rewrite Eg. reflexivity. }
        destruct (lpath_start _ _ _ _ _ _ _ _ _ Hp) as (C1 & _ & _).
        apply lay_eq in C1. pose proof (Fc_range _ _ _ _ _ _ HFS (S j) c C1) as Hclt.
        rewrite inb_eq in H4. rewrite ge0 in H5, H7.
        destruct (Fc_einv _ _ _ _ _ _ HFS c eid Hclt H4) as (_ & G2 & _). rewrite H5 in G2.
        apply (IH (v + transition_cost pb s (transition pb s d) d)%Z v1).
        + rewrite !vt_eq in *. eapply Z.le_trans; [|exact G2]. apply sat_add_ge; [exact Hiso1|].
          unfold rcost in H7. fold pb in H7. lia.
        + intros ds1 s2 v2 Hr2. apply (Hiso (d :: ds1) s2). cbn [frun]. rewrite Eg.
          replace (S (rd + j)) with (rd + S j) by lia. exact Hr2.
        + replace (rd + S j) with (S (rd + j)) by lia. exact Hr.
    Qed.

    Lemma PC_vtop j x ds1 y s1 v1 : lay j x -> live x -> isex x ->
      lpath j x (st x) ds1 y s1 ->
      frun pb (rd + j) (st x) (vt x) ds1 = Some (s1, v1) -> (v1 <= vt y)%Z.
    Proof.
      intros Hx Hv Hex Hp Hr.
      destruct (PC_real j x Hx Hv Hex) as (pre & Hpre & Hl).
      apply (lpath_vtopC j x _ ds1 y s1 Hp (vt x) v1 (Z.le_refl _)); [|exact Hr].
      assert (Hpre' : frun pb rd rs rv pre = Some (st x, vt x)) by exact Hpre.
      intros ds2 s2 v2 Hr2. destruct (Hguard (pre ++ ds2) s2 v2) as [G1 G2].
      { rewrite frun_app, Hpre', Hl. exact Hr2. }
      unfold in_isize, IMIN, IMAX in *. lia.
    Qed.

    Lemma lpath_dpathC j x s ds T s' : lpath j x s ds T s' ->
      j + length ds <= length (m_layers ml) -> dpath ml j x s ds T s'.
    Proof.
      intros Hp. induction Hp as [j x s H1 H2 H3|j x s d ds c eid t s' H1 H2 H3 H4 H5 H6 H7 Hp IH]; intros Hlen.
      - apply MddSim.dp_nil; [rewrite <- S_len; eapply PC_range; eauto|]. destruct H3 as [Hc _]. rewrite st_eq in Hc. exact Hc.
      - simpl in Hlen.
        destruct (lpath_start _ _ _ _ _ _ _ _ _ Hp) as (C1 & _ & [C3 _]).
        pose proof (PC_range _ _ H1) as Hxlt. pose proof (PC_range _ _ C1) as Hclt. rewrite S_len in Hxlt, Hclt.
        rewrite inb_eq in H4. rewrite ge0 in H5, H6, H7. rewrite st_eq in C3.
        destruct (Fc_einv _ _ _ _ _ _ HFS c eid Hclt H4) as (He & _).
        apply (dpath_cons inp Hnocut Hwidth Hrd cov ml j x s d c eid); auto.
        + destruct H3 as [Hc _]. rewrite st_eq in Hc. exact Hc.
        + apply lay_eq in H1. rewrite <- LF_old by lia. exact H1.
        + apply IH. lia.
    Qed.

    Lemma mf_fieldC {Y} (g : node -> Y) x : (forall n t, g (set_theta n t) = g n) -> g (gn mf x) = g (gn m5 x).
    Proof. intros Hg. exact (node_ctC st_eqb inp g m5 x Hg). Qed.

    Lemma cuts_lelC x : f_cutset (n_flags (gn m4 x)) = true -> exists k, m_lel ml = Some k.
    Proof.
      intros Hc. destruct (m_lel ml) as [k|] eqn:El; [exists k; reflexivity|]. exfalso.
      destruct (no_flagsC x) as (Nc & _).
      rewrite m4_eq in Hc. destruct Hclean as [Hf|Hf]; rewrite Hf in Hc.
      - destruct (lel_cutset_flags inp Hnocut Hwidth Hrd m1c ke x) as (L1 & _). cbv zeta in L1. rewrite m1c_layers, gn1c in L1.
        destruct (L1 Hc) as [H|H]; [congruence|]. unfold ke in H. rewrite El in H.
        rewrite nth_overflow in H by lia. destruct H.
      - rewrite frontier_all_exact in Hc; [rewrite gn1c in Hc; congruence|].
        intros y. unfold is_ex. rewrite gn1c.
        destruct (Nat.lt_ge_cases y (length (m_nodes ml))) as [Hlt|Hge]; [apply (all_exact_no_lel y El Hlt)|].
        rewrite (gn_out_of_range inp ml y Hge). reflexivity.
    Qed.

    Lemma locb_drainC j x ds T s' w0 w1 : lay j x -> live x -> cuts x ->
      lpath j x (st x) ds T s' -> complete j ds ->
      frun pb (rd + j) (st x) w0 ds = Some (s', w1) ->
      (forall ds1 ds2 s1 v1, ds = ds1 ++ ds2 -> frun pb (rd + j) (st x) w0 ds1 = Some (s1, v1) -> in_isize (w1 - v1)) ->
      f_marked (n_flags (gn mf x)) = true /\ (w1 - w0 <= n_vbot (gn mf x))%Z /\ In T (m_next ml).
    Proof.
      intros Hx Hv Hc Hp Hcomp Hr Hiso.
      apply cuts_eq in Hc. destruct (cuts_lelC x Hc) as [k Hk].
      destruct (lpath_end _ _ _ _ _ _ _ _ _ Hp) as (T1 & _ & _ & _). apply lay_eq in T1.
      change (rd + j + length ds = N) in Hcomp.
      assert (HjN : rd + (j + length ds) = N) by lia.
      destruct (Fc_last _ _ _ _ _ _ HFS (j + length ds) T T1 HjN) as (T2 & T3 & T4 & _).
      pose proof (lpath_dpathC j x _ ds T s' Hp ltac:(lia)) as Hdp.
      destruct (locb_from_pathC st_eqb inp Hclean Hnocut Hwidth Hrd cov tb tb2 ml k j x _ w0 ds T s' w1
                  Hrel HS HX Hk T4 T2 T3 Hdp Hr Hiso) as [M1 M2].
      split; [exact M1|]. split; [exact M2|exact T2].
    Qed.

    Lemma PC_locb j x ds T s' w0 w1 : lay j x -> live x -> cuts x ->
      lpath j x (st x) ds T s' -> complete j ds ->
      frun pb (rd + j) (st x) w0 ds = Some (s', w1) ->
      (forall ds1 ds2 s1 v1, ds = ds1 ++ ds2 -> frun pb (rd + j) (st x) w0 ds1 = Some (s1, v1) -> in_isize (w1 - v1)) ->
      (w1 - w0 <= vb x)%Z.
    Proof.
      intros Hx Hv Hc Hp Hcomp Hr Hiso.
      destruct (locb_drainC j x ds T s' w0 w1 Hx Hv Hc Hp Hcomp Hr Hiso) as (_ & M2 & _).
      unfold vb. destruct (m0_fields x) as (_ & _ & _ & _ & _ & _ & Eb). rewrite Eb.
      eapply Z.le_trans; [exact M2|]. rewrite (mf_fieldC (@n_vbot St) x) by reflexivity. apply Z.le_refl.
    Qed.

    Lemma PC_drain j x ds T s' w0 w1 : lay j x -> live x -> cuts x ->
      lpath j x (st x) ds T s' -> complete j ds ->
      frun pb (rd + j) (st x) w0 ds = Some (s', w1) ->
      (forall ds1 ds2 s1 v1, ds = ds1 ++ ds2 -> frun pb (rd + j) (st x) w0 ds1 = Some (s1, v1) -> in_isize (w1 - v1)) ->
      Drn x.
    Proof.
      intros Hx Hv Hc Hp Hcomp Hr Hiso.
      destruct (locb_drainC j x ds T s' w0 w1 Hx Hv Hc Hp Hcomp Hr Hiso) as (M1 & _ & HT).
      apply cuts_eq in Hc. apply lay_eq in Hx.
      destruct (cut_flagsC j x Hx) as (C1 & _). destruct (C1 Hc) as [_ Hin4].
      assert (Hcs : m_cutset mf = m_cutset m4).
      { destruct (compute_local_bounds_keq inp Hclean m4) as (_ & _ & _ & _ & K5). fold m5 in K5.
        destruct (compute_thresholds_keq st_eqb inp m5) as (_ & _ & _ & _ & K6). change (m_cutset (compute_thresholds st_eqb inp m5) = m_cutset m4). congruence. }
      destruct (best_geC st_eqb inp Hclean Hnocut Hwidth Hrd tb tb2 ml T HS HX HT) as (b & Hb & _).
      fold mf in Hb.
      unfold Drn, drain_cutset, dd_best_value. fold mf. rewrite Hb. cbn [option_map].
      eexists. split.
      - apply in_flat_map. exists x. split; [rewrite Hcs; exact Hin4|]. cbv zeta. rewrite M1. left. reflexivity.
      - cbn [sp_state sp_value sp_depth].
        rewrite (mf_fieldC (@n_state St) x), (mf_fieldC (@n_vtop St) x), (mf_fieldC (@n_depth St) x) by reflexivity.
        destruct (m5_fields x) as (b1 & b2 & _ & _ & b5 & _). auto.
    Qed.

    (* ---------------------------------------------------------------- the terminal nodes *)
    Lemma exact_terminal_bestC x : In x (m_next ml) -> is_ex inp ml x = true ->
      exists be, m_best_exact mf = Some be /\ (n_vtop (gn ml x) <= n_vtop (gn mf be))%Z.
    Proof.
      intros Hx Hex. destruct (m_has_ebp mf) eqn:Eb.
      - destruct (finalize_hdrC st_eqb inp Hclean tb tb2 ml) as (_ & _ & _ & H4). cbv zeta in H4. fold mf in H4.
        rewrite Eb in H4. destruct (best_geC st_eqb inp Hclean Hnocut Hwidth Hrd tb tb2 ml x HS HX Hx) as (b & Hb & _ & Hle).
        fold mf in Hb, Hle. exists b. rewrite H4. auto.
      - destruct (best_exact_geC st_eqb inp Hclean Hnocut Hwidth Hrd tb tb2 ml x HS HX Hx Hex Eb) as (b & Hb & _ & Hle).
        exists b. auto.
    Qed.

    Lemma terminal_aboveC j x : lay j x -> live x -> isex x -> above x -> rd + j = N ->
      In x (m_next ml) /\ is_ex inp ml x = true /\ (ci_flavour inp = CleanLEL -> m_lel ml = None) /\
      exists be, m_best_exact mf = Some be /\ (vt x <= n_vtop (gn mf be))%Z.
    Proof.
      intros Hx Hv Hex Hab HjN. apply lay_eq in Hx. apply isex_eq in Hex. apply above_eq in Hab.
      destruct (Fc_last _ _ _ _ _ _ HFS j x Hx HjN) as (T2 & _ & _).
      destruct (cut_flagsC j x Hx) as (_ & _ & _ & C4).
      split; [exact T2|]. split; [exact Hex|]. split; [intros Hf; apply (C4 Hab HjN Hf)|].
      rewrite vt_eq. apply (exact_terminal_bestC x T2 Hex).
    Qed.

    Lemma above_in_layerC x : f_above (n_flags (gn m4 x)) = true -> exists j, In x (lyf j).
    Proof.
      intros Ha. destruct (no_flagsC x) as (_ & Na).
      rewrite m4_eq in Ha. destruct Hclean as [Hf|Hf]; rewrite Hf in Ha.
      - destruct (lel_cutset_flags inp Hnocut Hwidth Hrd m1c ke x) as (_ & L2 & _). cbv zeta in L2. rewrite m1c_layers, gn1c in L2.
        destruct (L2 Ha) as [H|(j & _ & H)]; [congruence|]. exists j. exact H.
      - assert (G : f_above (n_flags (gn m1c x)) = true \/ In x (bottom_up m1c)).
        { revert Ha. rewrite (MddSim.frontier_cutset_unfold inp).
          apply (MddExact.fold_left_inv (fun a : mdd => f_above (n_flags (gn a x)) = true ->
                   f_above (n_flags (gn m1c x)) = true \/ In x (bottom_up m1c))); [auto|].
          intros a y Hy IHa. unfold MddSim.fc_step. cbv zeta. destruct (fl_is_exact (n_flags (gn a y))).
          - destruct (upd_flag_cases inp a y (fun f => fl_set_above f true) x) as [E|(-> & _ & E)]; cbv beta in E; rewrite E; [exact IHa|].
            intros _. right. exact Hy.
          - rewrite (fold_left_proj (fun b : mdd => f_above (n_flags (gn b x)))); [exact IHa|].
            intros b eid. unfold MddSim.fc_inner. cbv zeta. destruct (_ && _); [|reflexivity].
            rewrite (get_node_upd_node_proj inp (fun n => f_above (n_flags n))) by (intros n; reflexivity). reflexivity. }
        destruct G as [G|G]; [rewrite gn1c in G; congruence|].
        unfold bottom_up in G. rewrite m1c_layers in G. apply in_concat in G. destruct G as (l0 & Hl0 & Hx).
        apply in_rev in Hl0. apply (In_nth _ _ []) in Hl0. destruct Hl0 as (j & _ & Ej). exists j. rewrite Ej. exact Hx.
    Qed.
    (* ---------------------------------------------------------------- the cut-set flag of the frontier cut-set *)
    Lemma frontier_cutset_flagC (m : mdd) :
      Sinv inp m ->
      (forall x, x < length (m_nodes m) -> f_cutset (n_flags (gn m x)) = true -> In x (m_cutset m)) ->
      (forall c, In c (m_cutset m) -> f_cutset (n_flags (gn m c)) = true) ->
      forall c, In c (m_cutset (frontier_cutset inp m true)) ->
        f_cutset (n_flags (gn (frontier_cutset inp m true) c)) = true.
    Proof.
      intros HSm H0 H1. rewrite (MddSim.frontier_cutset_unfold inp).
      set (Q := fun a : mdd => MddSim.FInv inp m a /\ forall c, In c (m_cutset a) -> f_cutset (n_flags (gn a c)) = true).
      assert (HF0 : MddSim.FInv inp m m) by (repeat split; auto).
      assert (G : Q (fold_left (MddSim.fc_step inp) (bottom_up m) m)).
      { apply MddSim.fold_left_inv2; [split; [exact HF0|exact H1]|].
        intros a id (Fa & Ca). unfold MddSim.fc_step. cbv zeta. destruct (fl_is_exact _).
        - split; [apply MddSim.FInv_upd_above; exact Fa|].
          intros c Hc. change (In c (m_cutset a)) in Hc.
          destruct (upd_flag_cases inp a id (fun f => fl_set_above f true) c) as [E|(-> & _ & E)]; cbv beta in E; rewrite E.
          + apply Ca; exact Hc.
          + nsimpl. cbn [fl_set_above f_cutset]. apply Ca. exact Hc.
        - pose proof Fa as (_ & _ & F3 & _). destruct (F3 id) as [Hi _].
          assert (Hin : forall eid, In eid (n_inb (gn a id)) -> eid < length (m_edges m)).
          { intros eid He. rewrite Hi in He.
            destruct (Nat.lt_ge_cases id (length (m_nodes m))) as [Hlt|Hge].
            - apply (S_nodes _ _ HSm id Hlt). exact He.
            - rewrite (gn_out_of_range inp m id Hge) in He. destruct He. }
          apply (MddExact.fold_left_inv Q).
          + split; assumption.
          + intros b eid He (Fb & Cb). split; [apply (MddSim.FInv_fc_inner inp m b eid Fb)|].
            pose proof Fb as (G1 & G2 & _).
            assert (Hp : e_from (get_edge b eid) < length (m_nodes b)).
            { rewrite (ge_edges_eq m b eid G1), G2. apply (S_efrom _ _ HSm). apply Hin. exact He. }
            intros c. unfold MddSim.fc_inner. cbv zeta.
            destruct (fl_is_exact (n_flags (gn b (e_from (get_edge b eid)))) && negb (f_cutset (n_flags (gn b (e_from (get_edge b eid)))))).
            2:{ apply Cb. }
            intros Hc. msimpl_in Hc.
            destruct (Nat.eq_dec (e_from (get_edge b eid)) c) as [<-|Hne].
            * rewrite gn_upd_same by (msimpl; exact Hp). nsimpl. reflexivity.
            * rewrite gn_upd_other by exact Hne.
              apply in_app_or in Hc. destruct Hc as [Hc|[E|[]]]; [|congruence].
              change (f_cutset (n_flags (gn b c)) = true). apply Cb; exact Hc. }
      apply G.
    Qed.

    Lemma above_of_exC j x : In x (lyf j) -> is_ex inp ml x = true -> (ci_flavour inp = CleanLEL -> j <= ke) ->
      f_above (n_flags (gn m4 x)) = true.
    Proof.
      intros Hx Hex Hj. pose proof (Fc_range _ _ _ _ _ _ HFS j x Hx) as Hxlt.
      rewrite m4_eq. destruct Hclean as [Hf|Hf]; rewrite Hf.
      - destruct (lel_cutset_flags inp Hnocut Hwidth Hrd m1c ke x) as (_ & _ & L3 & _). cbv zeta in L3.
        rewrite m1c_layers, m1c_len in L3. apply (L3 j (Hj Hf) Hx Hxlt).
      - destruct (frontier_flags inp Hnocut Hwidth Hrd m1c) as (_ & Fab & _).
        { intros y _ Hc. rewrite gn1c in Hc. destruct (no_flagsC y) as (E & _). congruence. }
        apply Fab.
        + unfold bottom_up. rewrite m1c_layers. apply in_concat. exists (lyf j). split; [|exact Hx].
          apply in_rev. rewrite rev_involutive. apply nth_In. eapply nth_in_len; eauto.
        + rewrite m1c_len. exact Hxlt.
        + unfold is_ex. rewrite gn1c. exact Hex.
    Qed.

    Lemma root_factsC : In 0 (lyf 0) /\ del ml 0 = false /\ fcache ml 0 = false /\ is_ex inp ml 0 = true /\
      f_above (n_flags (gn m4 0)) = true.
    Proof.
      destruct (Fc_root _ _ _ _ _ _ HFS) as (R1 & R2 & R3).
      assert (Hex : is_ex inp ml 0 = true).
      { destruct (m_lel ml) as [k|] eqn:El.
        - apply (Fc_lel _ _ _ _ _ _ HFS k El 0 0 (Nat.le_0_l _) R1).
        - apply (all_exact_no_lel); [exact El|apply (Fc_range _ _ _ _ _ _ HFS 0 0 R1)]. }
      split; [exact R1|]. split; [exact R2|]. split; [exact R3|]. split; [exact Hex|].
      apply (above_of_exC 0 0 R1 Hex). intros _. lia.
    Qed.

    Lemma mcut_eqC : m_cutset mf = m_cutset m4.
    Proof.
      destruct (compute_local_bounds_keq inp Hclean m4) as (_ & _ & _ & _ & K5). fold m5 in K5.
      destruct (compute_thresholds_keq st_eqb inp m5) as (_ & _ & _ & _ & K6).
      change (m_cutset (compute_thresholds st_eqb inp m5) = m_cutset m4). congruence.
    Qed.

    (* a marked cut-set node is the source of an arc: a live node of a layer, not dropped by the cache *)
    Lemma drained_nodeC id : m_next ml <> [] -> In id (m_cutset mf) -> f_marked (n_flags (gn mf id)) = true ->
      exists j, In id (lyf j) /\ del ml id = false /\ fcache ml id = false /\ f_cutset (n_flags (gn m4 id)) = true.
    Proof.
      intros Hnn Hid Hmk. rewrite mcut_eqC in Hid.
      rewrite (mf_fieldC (fun n => f_marked (n_flags n)) id) in Hmk by reflexivity.
      destruct m3_facts as (G1 & G2 & G3 & G4 & G5).
      destruct (MddSim.pipe3 inp Hclean tb tb2 ml HS HX) as (_ & _ & _ & _ & _ & S3 & X3 & _). cbv zeta in S3, X3.
      change (Sinv inp m3') in S3. change (Xs inp m3') in X3.
      assert (Ee : m_edges m1c = m_edges ml).
      { unfold m1c. cbv zeta. destruct (m_lel _); exact G2. }
      assert (HSF : MddSim.Src ml id /\ f_cutset (n_flags (gn m4 id)) = true).
      { destruct Hclean as [Hf|Hf].
        - (* last exact layer *)
          rewrite m4_eq, Hf in Hid.
          destruct (lel_cutset_spec inp m1c ke) as [_ Ecs]. rewrite Ecs, m1c_cutset, m1c_layers in Hid. simpl in Hid.
          destruct (nth_error (LF ml) ke) as [ids|] eqn:Enk; [|destruct Hid].
          assert (Hlk : In id (lyf ke)) by (rewrite (nth_error_nth (LF ml) ke [] Enk); exact Hid).
          pose proof (Fc_range _ _ _ _ _ _ HFS ke id Hlk) as Hlt.
          split.
          + assert (S4' : Sinv inp m4).
            { destruct (finalize_cutset_spec inp Hclean m3' S3 X3) as [(P34 & N34 & _) _]. fold m4 in P34, N34.
              eapply (Sinv_peq inp Hclean); [exact P34| |exact S3].
              intros y Hy. rewrite N34 in Hy. destruct P34 as (_ & _ & L34 & _). rewrite L34. apply (S_next _ _ S3). exact Hy. }
            destruct (MddSim.marked_src inp Hclean m4 S4') with (x := id) as [Hl|Hs].
            * intros x. unfold m4. rewrite (MddSim.flag_finalize_cutset inp Hclean f_marked) by (intros; reflexivity).
              rewrite gn3.
              destruct (Nat.lt_ge_cases x (length (m_nodes ml))) as [Hlt'|Hge].
              -- unfold MddSim.Ninv in HN. rewrite Forall_forall in HN. apply (HN (gn ml x)). apply nth_In. exact Hlt'.
              -- rewrite (gn_out_of_range inp ml x Hge). reflexivity.
            * exact Hmk.
            * exfalso. unfold m4 in Hl. rewrite finalize_cutset_layers, G3 in Hl.
              assert (ELF : LF ml = m_layers ml ++ [seq (m_layer_end ml) (length (m_nodes ml) - m_layer_end ml)]).
              { unfold LF. destruct (MddSim.finalize_layers_fields inp Hclean ml) as (_ & _ & _ & _ & F5). rewrite F5.
                destruct (m_next ml); [congruence|reflexivity]. }
              assert (Hl2 : In id (lyf (length (m_layers ml)))).
              { rewrite ELF. rewrite app_nth2 by lia. rewrite Nat.sub_diag. simpl. rewrite ELF, last_last in Hl. exact Hl. }
              pose proof (lay_uniqC _ _ _ Hlk Hl2) as Ek.
              unfold ke in Ek. destruct (m_lel ml) as [k|] eqn:El.
              -- pose proof (X_lel_lt _ _ _ HX Hrel k El). lia.
              -- rewrite ELF, app_length in Ek. simpl in Ek. lia.
            * destruct Hs as (eid & E1 & E2).
              destruct (finalize_cutset_spec inp Hclean m3' S3 X3) as [((Pe & _) & _) _]. fold m4 in Pe.
              assert (G2' : m_edges m3' = m_edges ml) by exact G2.
              exists eid. rewrite Pe, G2' in E1. split; [exact E1|].
              rewrite (ge_edges_eq m3' m4 eid Pe) in E2. rewrite (ge_edges_eq ml m3' eid G2') in E2. exact E2.
          + destruct (lel_cutset_flags inp Hnocut Hwidth Hrd m1c ke id) as (_ & _ & _ & _ & L5). cbv zeta in L5.
            rewrite m1c_layers, m1c_len in L5. rewrite m4_eq, Hf. apply L5; assumption.
        - (* frontier *)
          rewrite m4_eq, Hf in Hid |- *.
          assert (S1c : Sinv inp m1c).
          { unfold m1c. cbv zeta. destruct (m_lel _); [exact S3|].
            apply (Sinv_peq inp Hclean m3'); [apply peq_same_nodes; reflexivity|exact (S_next _ _ S3)|exact S3]. }
          assert (H0 : forall x, x < length (m_nodes m1c) -> f_cutset (n_flags (gn m1c x)) = true -> In x (m_cutset m1c)).
          { intros y _ Hc. rewrite gn1c in Hc. destruct (no_flagsC y) as (E & _). congruence. }
          split.
          + destruct (MddSim.frontier_cutset_src inp m1c S1c H0 id Hid) as [Hc0|Hs].
            * rewrite m1c_cutset in Hc0. destruct Hc0.
            * destruct Hs as (eid & E1 & E2). exists eid. rewrite Ee in E1. split; [exact E1|].
              rewrite (ge_edges_eq ml m1c eid Ee) in E2. exact E2.
          + apply (frontier_cutset_flagC m1c S1c H0); [rewrite m1c_cutset; intros c []|exact Hid]. }
      destruct HSF as [Hsrc Hfl].
      destruct (Fc_srcl _ _ _ _ _ _ HFS id Hsrc) as (Hd & j & Hj).
      exists j. split; [exact Hj|]. split; [exact Hd|]. split; [apply (Fc_src _ _ _ _ _ _ HFS id Hsrc)|exact Hfl].
    Qed.

    (* ---------------------------------------------------------------- the three statements, on the diagram handed to _compute_thresholds *)
    Variable bk : Z.
    Hypothesis Hbk : (lb <= bk)%Z.
    Hypothesis Ebk : bk = bk_of inp mf.
    Hypothesis HCO : CacheOKg st_eqb inp B m0 bk Drn OldC c0 (m_cache mf).

    Lemma bk_best_exact be : m_best_exact mf = Some be -> (n_vtop (gn mf be) <= bk)%Z.
    Proof. intros E. rewrite Ebk. unfold bk_of. rewrite E. lia. Qed.

    Lemma Q_term j x : lay j x -> live x -> isex x -> above x -> rd + j = N -> (vt x <= bk)%Z.
    Proof.
      intros Hl Hv Hex Hab HjN.
      destruct (terminal_aboveC
                  j x Hl Hv Hex Hab HjN) as (_ & _ & _ & be & T4 & T5).
      eapply Z.le_trans; [exact T5|exact (bk_best_exact be T4)].
    Qed.

    Lemma mf_fields x :
      n_state (gn mf x) = n_state (gn ml x) /\ n_vtop (gn mf x) = n_vtop (gn ml x) /\ n_depth (gn mf x) = n_depth (gn ml x) /\
      n_rub (gn mf x) = n_rub (gn m0 x) /\ n_vbot (gn mf x) = n_vbot (gn m0 x).
    Proof.
      destruct (m5_fields x) as (a1 & a2 & _ & a4 & a5 & _). destruct (m0_fields x) as (_ & _ & _ & b4 & _ & _ & b7).
      rewrite !(mf_fieldC (@n_state St) x), (mf_fieldC (@n_vtop St) x),
        (mf_fieldC (@n_depth St) x), (mf_fieldC (@n_rub St) x),
        (mf_fieldC (@n_vbot St) x) by reflexivity.
      split; [exact a1|]. split; [exact a2|]. split; [exact a5|]. split; [congruence|]. symmetry. exact b7.
    Qed.

    Lemma lost_conv jm val : LostAt inp m0 OldC jm val -> LostC st_eqb inp c0 (rd + jm) val.
    Proof.
      intros (j' & y & tc & h & L1 & _ & _ & _ & (th & G1 & G2) & L6 & L7).
      exists (rd + j'), (st y), th, h. split; [lia|]. split; [exact G1|]. split; [exact L6|]. rewrite G2. exact L7.
    Qed.

    Lemma capt_conv e j s w ds : CaptD inp m0 Drn e j s w ds -> CaptC inp mf e (rd + j) s w ds.
    Proof.
      intros (ds1 & ds2 & y & s1 & w1 & E & Hf & (sp & Hsp & P1 & P2 & P3) & Hs & Hdep & Hw & He).
      destruct (m0_fields y) as (f1 & f2 & _ & _ & f5 & _).
      exists sp, ds1, ds2, s1, w1. split; [exact Hsp|]. split; [exact E|]. split; [exact Hf|].
      split; [rewrite P1, <- f1; exact Hs|]. split; [rewrite P3, <- f5; exact Hdep|]. split; [rewrite P2, <- f2; exact Hw|exact He].
    Qed.

    Theorem root_runC ds s' r' : frun pb rd rs rv ds = Some (s', r') -> rd + length ds = N ->
      (r' <= bk_of inp mf)%Z \/ CaptC inp mf false rd rs rv ds \/ LostC st_eqb inp c0 (S rd) r'.
    Proof.
      intros Hr Hlen.
      destruct (root_factsC) as (R1 & R2 & R3 & R4 & R5).
      assert (Hl : lay 0 0) by (apply lay_eq; exact R1).
      assert (Hv : live 0) by (apply live_eq; exact R2).
      assert (Hex : isex 0) by (apply isex_eq; exact R4).
      assert (Hab : above 0) by (apply above_eq; exact R5).
      assert (Hnc : ~ cached 0).
      { intros Hc. apply cached_eqC in Hc. rewrite R3 in Hc. discriminate. }
      destruct (S_root _ _ HS) as (_ & r2 & r3 & _).
      destruct (m0_fields 0) as (f1 & f2 & _).
      assert (Est : st 0 = rs) by (unfold st; rewrite f1; exact r2).
      assert (Evt : vt 0 = rv) by (unfold vt; rewrite f2; exact r3).
      assert (HSt : Start 0 (st 0) rv).
      { exists []. rewrite Est. split; reflexivity. }
      destruct (run_cases inp nv_static nv_none cov cov_refl rub_adm B HB Hguard m0 bk Hbk PC_rub Hrd nv_some cov_sim Drn OldC
                  PC_depth PC_SC PC_cached PC_kid PC_real PC_vtop PC_drain Q_term 0 0 rv ds s' r' Hl Hv Hex Hab Hnc HSt)
        as [H1|[H1|H1]].
      - rewrite Evt. apply Z.le_refl.
      - rewrite Est. replace (sp_depth (ci_root inp) + 0) with rd by (unfold rd, root; lia). exact Hr.
      - unfold complete. fold pb N. unfold rd, root in Hlen. lia.
      - left. rewrite <- Ebk. exact H1.
      - right; left. apply capt_conv in H1. rewrite Est in H1. replace (rd + 0) with rd in H1 by lia. exact H1.
      - right; right. apply lost_conv in H1. replace (rd + 1) with (S rd) in H1 by lia. exact H1.
    Qed.

    Theorem ub_runC sp ds s' r' : In sp (drain_cutset inp mf) ->
      frun pb (sp_depth sp) (sp_state sp) (sp_value sp) ds = Some (s', r') -> sp_depth sp + length ds = N ->
      (r' <= lb)%Z \/ LostC st_eqb inp c0 (S (sp_depth sp)) r' \/ (r' <= sp_ub sp)%Z.
    Proof.
      intros Hsp Hr Hlen.
      unfold drain_cutset in Hsp. destruct (dd_best_value inp mf) as [bv|] eqn:Ebv; [|destruct Hsp].
      apply in_flat_map in Hsp. destruct Hsp as (id & Hid & Hsp). cbv zeta in Hsp.
      destruct (f_marked (n_flags (gn mf id))) eqn:Emk; [|destruct Hsp].
      destruct Hsp as [<-|[]]. cbn [sp_ub sp_state sp_value sp_depth] in *.
      destruct (finalize_hdrC st_eqb inp Hclean tb tb2 ml) as (_ & _ & H3 & _). cbv zeta in H3. fold mf in H3.
      unfold dd_best_value in Ebv. destruct (m_best mf) as [b|] eqn:Eb; [|discriminate]. cbn [option_map] in Ebv.
      assert (Hnn : m_next ml <> []).
      { symmetry in H3. apply pick_In in H3. apply (argmax_candidates_In inp Hclean) in H3.
        intros E. rewrite E in H3. destruct H3. }
      destruct (drained_nodeC id Hnn Hid Emk)
        as (j & Hj & Hd & Hfc & Hcf).
      assert (Hl : lay j id) by (apply lay_eq; exact Hj).
      assert (Hv : live id) by (apply live_eq; exact Hd).
      assert (Hc : cuts id) by (apply cuts_eq; exact Hcf).
      assert (Hnc : ~ cached id).
      { intros Hc'. apply cached_eqC in Hc'. rewrite Hfc in Hc'. discriminate. }
      destruct (mf_fields id) as (g1 & g2 & g3 & g4 & g5).
      destruct (m0_fields id) as (f1 & f2 & _).
      pose proof (Fc_dep _ _ _ _ _ _ HFS j id Hj Hd) as Hdep.
      rewrite g1, g2, g3 in Hr. rewrite g3 in Hlen.
      destruct (ub_cases inp nv_static nv_none cov cov_refl rub_adm B HB Hguard m0 PC_rub Hrd nv_some cov_sim OldC
                  PC_SC PC_cached PC_cut_ex PC_real PC_vtop PC_locb j id ds s' r' Hl Hv Hc Hnc) as [H1|[H1|(U1 & U2 & T & T1 & T2 & T3)]].
      - unfold st, vt. rewrite f1, f2. rewrite <- Hdep. exact Hr.
      - unfold complete. fold pb N. rewrite Hdep in Hlen. unfold rd, root in Hlen. lia.
      - left. exact H1.
      - right; left. apply lost_conv in H1. rewrite g3, Hdep. eapply LostC_mono; [|apply Z.le_refl|exact H1]. unfold rd, root. lia.
      - right; right. unfold vt, rb, vb in U1, U2.
        rewrite g2, g4, g5. rewrite f2 in U1, U2.
        apply Z.min_glb; [apply Z.min_glb; assumption|].
        apply lay_eq in T1.
        destruct (Fc_last _ _ _ _ _ _ HFS (j + length ds) T T1) as (T4 & _).
        { rewrite Hdep in Hlen. unfold N, pb in Hlen. lia. }
        destruct (best_geC st_eqb inp Hclean Hnocut Hwidth Hrd tb tb2 ml T HS HX T4) as (b' & Hb' & _ & Hle).
        fold mf in Hb', Hle. rewrite Eb in Hb'. inversion Hb'; subst b'. inversion Ebv; subst bv.
        destruct (m0_fields T) as (_ & t2 & _). unfold vt in T3. rewrite t2 in T3. lia.
    Qed.

    Theorem cache_runC d s th : cget st_eqb (m_cache mf) s d = Some th ->
      cget st_eqb c0 s d = Some th \/
      exists j, d = rd + j /\ (exists pre r, frun pb rd rs rv pre = Some (s, r) /\ length pre = j) /\
        forall v ds s' v', (IMIN + 2 * B < v)%Z -> (v <= th_value th)%Z -> frun pb d s v ds = Some (s', v') -> d + length ds = N ->
          (v' <= bk_of inp mf)%Z \/ CaptC inp mf (th_explored th) d s v ds \/ LostC st_eqb inp c0 (S d) v'.
    Proof.
      intros Hg. destruct (HCO d s th Hg) as [H1|(j & -> & (r & pre & P1 & P2) & HSA)]; [left; exact H1|right].
      exists j. split; [reflexivity|]. split; [exists pre, r; auto|].
      intros v ds s' v' Hv1 Hv2 Hr Hlen.
      destruct (HSA v ds s' v' Hv1 Hv2 Hr) as [H1|[H1|H1]].
      - unfold complete. exact Hlen.
      - left. rewrite <- Ebk. exact H1.
      - right; left. apply capt_conv. exact H1.
      - right; right. apply lost_conv in H1. replace (rd + S j) with (S (rd + j)) in H1 by lia. exact H1.
    Qed.

    (* started from a cache without entries no node is dropped and no run is lost: the thresholds are sound in the sense of [Safe] *)
    Lemma blank_sound : blank N c0 ->
      CacheOKl inp B m0 bk Drn OldC c0 (m_cache mf) ->
      (forall x j t, lay j x -> live x -> above x -> ~ cached x -> n_theta (gn mf x) = Some t ->
         SafeAt inp B m0 bk Drn OldC j (st x) t (negb (cutb inp m0 x))) ->
      (forall u t, f_above (n_flags (gn mf u)) = true -> f_deleted (n_flags (gn mf u)) = false ->
         n_theta (gn mf u) = Some t -> forall v, (IMIN + 2 * B < v)%Z -> (v <= t)%Z ->
         Safe inp mf (n_depth (gn mf u)) (n_state (gn mf u)) v) /\
      (forall d l s th, nth_error (m_cache mf) d = Some l -> In (s, th) l ->
         forall v, (IMIN + 2 * B < v)%Z -> (v <= th_value th)%Z -> Safe inp mf d s v).
    Proof.
      intros [Hb1 _] HCl Hnode.
      assert (Hnoget : forall s d, cget st_eqb c0 s d = None).
      { intros s d. unfold cget. destruct (nth_error c0 d) as [l|] eqn:E; [|reflexivity]. rewrite (Hb1 d l E). reflexivity. }
      assert (Hconv : forall j s t e, SafeAt inp B m0 bk Drn OldC j s t e ->
                forall v, (IMIN + 2 * B < v)%Z -> (v <= t)%Z -> Safe inp mf (rd + j) s v).
      { intros j s t e [_ HSA] v Hv1 Hv2 ds0 s' v' Hr Hlen.
        destruct (HSA v ds0 s' v' Hv1 Hv2 Hr Hlen) as [H1|[H1|H1]].
        - left. rewrite <- Ebk. exact H1.
        - right. destruct (capt_conv e j s v ds0 H1) as (sp & ds1 & ds2 & s1 & w1 & A1 & A2 & A3 & A4 & A5 & A6 & _).
          exists sp, ds1, ds2, s1, w1. repeat split; assumption.
        - destruct H1 as (j' & y & tc & h & _ & _ & _ & _ & (th & G & _) & _). rewrite Hnoget in G. discriminate. }
      split.
      - intros u t Hab Hdel Hth v Hv1 Hv2.
        assert (Esk : sk (gn mf u) = sk (gn m0 u)).
        { rewrite S_sk. exact (mf_fieldC sk u (fun n t0 => sk_set_theta n t0)). }
        destruct (sk_fields _ _ Esk) as (g1 & _ & _ & _ & g5 & _ & g7).
        assert (Hab0 : above u) by (unfold above; rewrite <- g5; exact Hab).
        assert (Hv0 : live u) by (unfold live; rewrite <- g5; exact Hdel).
        destruct (above_in_layerC u (proj1 (above_eq u) Hab0))
          as [j Hj].
        assert (Hl0 : lay j u) by (apply lay_eq; exact Hj).
        assert (Hnc : ~ cached u).
        { intros Hcu. apply cached_eqC in Hcu.
          destruct (Fc_cached _ _ _ _ _ _ HFS j u Hj (proj1 (live_eq u) Hv0) Hcu) as (th & _ & G & _).
          rewrite Hnoget in G. discriminate. }
        rewrite g7, (PC_depth j u Hl0 Hv0), g1.
        exact (Hconv j _ t _ (Hnode u j t Hl0 Hv0 Hab0 Hnc Hth) v Hv1 Hv2).
      - intros d l s th Hn Hin v Hv1 Hv2.
        destruct (HCl d l s th Hn Hin) as [(l0 & Hn0 & Hin0)|(j & -> & HSA)].
        + rewrite (Hb1 d l0 Hn0) in Hin0. destruct Hin0.
        + exact (Hconv j s _ _ HSA v Hv1 Hv2).
    Qed.
  End UseC.

  Theorem bridgeC tb tb2 c ds polls (m : mdd) : N < length c ->
    compile st_eqb inp tb tb2 c ds polls = (m, Compiled) ->
    exists ml m0 bk,
      m = finalize st_eqb inp tb tb2 ml /\
      FSc st_eqb inp cov c ml (fun j => nth j (LF ml) []) /\ Sinv inp ml /\ Xs inp ml /\ MddSim.Ninv inp ml /\
      m_layers m0 = LF ml /\ m_edges m0 = m_edges ml /\ length (m_nodes m0) = length (m_nodes ml) /\
      (forall x, sk (gn m0 x) = sk (gn (compute_local_bounds inp (finalize_cutset inp (finalize_exact inp
                                          (find_best_node inp tb tb2 (finalize_layers inp ml))))) x)) /\
      (forall x, f_cache (n_flags (gn ml x)) = true -> n_theta (gn m0 x) = n_theta (gn ml x)) /\
      (lb <= bk)%Z /\ bk = bk_of inp m /\
      CacheOKg st_eqb inp B m0 bk (Drn tb tb2 ml) (OldC c) c (m_cache m) /\
      CacheOKl inp B m0 bk (Drn tb tb2 ml) (OldC c) c (m_cache m) /\
      (forall x j t, lay m0 j x -> live inp m0 x -> above inp m0 x -> ~ cached inp m0 x ->
         n_theta (gn m x) = Some t ->
         SafeAt inp B m0 bk (Drn tb tb2 ml) (OldC c) j (st inp m0 x) t (negb (cutb inp m0 x))).
  Proof.
    intros Hcl Hc.
    unfold compile in Hc. cbv zeta in Hc.
    destruct (layer_loop st_eqb inp (S (S (nb_vars (ci_problem inp)))) (initialize inp c ds polls)) as [ml e] eqn:El.
    destruct e; [|discriminate|discriminate]. inversion Hc as [Em]. clear Hc.
    destruct (layer_loop_Sinv st_eqb st_eqb_spec inp Hclean (S (S (nb_vars (ci_problem inp)))) c ds polls) as [HS HX].
    rewrite El in HS, HX. cbn [fst] in HS, HX.
    assert (Hcml : m_cache ml = c).
    { pose proof (mc_layer_loop st_eqb inp Hclean Hwidth (S (S (nb_vars (ci_problem inp)))) (initialize inp c ds polls)) as Hm.
      rewrite El in Hm. exact Hm. }
    pose proof (layer_loop_TIc st_eqb st_eqb_spec inp Hclean Hnodom Hnocut Hwidth Hrel Hrd nv_static nv_some nv_none
                  cov cov_sim merge_cov relax_ge c _ _ ml (TIc_initialize st_eqb inp Hnocut Hwidth Hrd cov cov_refl c ds polls) El) as HFS.
    pose proof (MddSim.layer_loop_Ninv_any st_eqb inp (S (S (nb_vars (ci_problem inp)))) _
                  (MddSim.Ninv_initialize inp c ds polls)) as HN.
    rewrite El in HN. cbn [fst] in HN.
    set (m5 := compute_local_bounds inp (finalize_cutset inp (finalize_exact inp
                 (find_best_node inp tb tb2 (finalize_layers inp ml))))).
    set (M := compute_thresholds st_eqb inp m5).
    assert (EM0 : finalize st_eqb inp tb tb2 ml = M) by reflexivity.
    pose proof (m5_layers tb tb2 ml HS HX) as L5. fold m5 in L5.
    pose proof (m5_edges tb tb2 ml HS HX) as E5. fold m5 in E5.
    pose proof (m5_len tb tb2 ml HS HX) as N5. fold m5 in N5.
    assert (Hins : MddProgress.insens (fun a : mdd => m_cache a)) by (repeat split).
    assert (C5 : m_cache m5 = c).
    { rewrite <- Hcml. unfold m5.
      rewrite (MddProgress.ins_compute_local_bounds inp _ Hins).
      rewrite (MddProgress.ins_finalize_cutset inp Hclean _ Hins) by (intros; reflexivity).
      unfold finalize_exact, find_best_node, finalize_layers. cbv zeta. rewrite (not_pooled inp Hclean).
      destruct (m_next ml); reflexivity. }
    destruct (compute_thresholds_keq st_eqb inp m5) as ((KE & KP & KL & KC) & KN & KB & KBE & KCS).
    fold M in KE, KP, KL, KC, KN, KB, KBE, KCS.
    assert (Hnext5 : m_next m5 = m_next ml).
    { assert (Hi : MddProgress.insens (fun a : mdd => m_next a)) by (repeat split). unfold m5.
      rewrite (MddProgress.ins_compute_local_bounds inp _ Hi).
      rewrite (MddProgress.ins_finalize_cutset inp Hclean _ Hi) by (intros; reflexivity).
      change (m_next (finalize_layers inp ml) = m_next ml). apply (finalize_layers_fields inp Hclean ml). }
    assert (Hex5 : m_is_exact m5 = match m_lel ml with None => true | Some _ => false end).
    { destruct (finalize_hdrC st_eqb inp Hclean tb tb2 ml) as (H1 & _). cbv zeta in H1. rewrite <- H1. rewrite EM0. symmetry.
      unfold M. apply (proj_compute_thresholdsC st_eqb inp (fun a : mdd => m_is_exact a)); intros; reflexivity. }
    assert (Hbe' : m_best_exact M = m_best_exact m5).
    { unfold M. apply (proj_compute_thresholdsC st_eqb inp (fun a : mdd => m_best_exact a)); intros; reflexivity. }
    assert (Hopen : forall x, f_cache (n_flags (gn ml x)) = true -> ~ In x (m_next ml)).
    { intros x Hf Hin. pose proof (Fc_open _ _ _ _ _ _ HFS x Hin) as Ho. unfold fcache in Ho. congruence. }
    destruct (compute_thresholds_fold m5)
      as (m0 & bk & EM & S_lay & S_edg & S_len & S_sk & S_cache & Hbk & Ebk & Hpre & Hoth).
    fold M in EM, Ebk. rewrite L5 in S_lay. rewrite E5 in S_edg. rewrite N5 in S_len. rewrite C5 in S_cache.
    assert (S_ct : forall x, f_cache (n_flags (gn ml x)) = true -> n_theta (gn m0 x) = n_theta (gn ml x)).
    { intros x Hf. rewrite Hoth by (rewrite Hnext5; apply Hopen; exact Hf).
      destruct (m5_fields tb tb2 ml HS HX x) as (_ & _ & _ & _ & _ & a6). exact a6. }
    set (Dr := Drn tb tb2 ml).
    assert (HPT : PT inp m0 bk m0 []).
    { intros x j _ Hl Hv Hex Hab HjN.
      destruct (terminal_aboveC c tb tb2 ml HFS HS HX HN m0 S_lay S_sk
                  j x Hl Hv Hex Hab HjN) as (T1 & T2 & T3 & (be & T4 & _)).
      exists bk. split; [|lia]. apply Hpre.
      - rewrite Hnext5. exact T1.
      - rewrite N5, <- S_len. apply (PC_range c ml HFS m0 S_lay S_len j x Hl).
      - exact (eq_trans (m5_flag tb tb2 ml HS HX fl_is_exact x (fun _ _ => eq_refl) (fun _ _ => eq_refl) (fun _ _ => eq_refl)) T2).
      - intros Hf. rewrite Hex5, (T3 Hf). reflexivity.
      - exists be. rewrite <- Hbe'. rewrite <- EM0. exact T4. }
    assert (HCO : CacheOKg st_eqb inp B m0 bk Dr (OldC c) c (m_cache m0)).
    { intros d s th Hg. left. rewrite S_cache in Hg. exact Hg. }
    assert (HCOl : CacheOKl inp B m0 bk Dr (OldC c) c (m_cache m0)).
    { intros d l s th Hn Hin. left. rewrite S_cache in Hn. exists l. split; assumption. }
    destruct (theta_fold_soundC st_eqb st_eqb_spec inp nv_static nv_none cov cov_refl rub_adm B HB Hguard m0 bk Hbk
                (PC_rub c tb tb2 ml HFS HS HX HN m0 S_lay S_sk)
                Hrd nv_some cov_sim Dr (OldC c) c
                (PC_range c ml HFS m0 S_lay S_len)
                (PC_uniq c ml HFS m0 S_lay)
                (PC_ord c tb tb2 ml HFS HS HX m0 S_lay S_edg S_sk)
                (PC_efrom c tb tb2 ml HFS HS HX m0 S_lay S_edg S_len S_sk)
                (PC_depth c tb tb2 ml HFS HS HX m0 S_lay S_sk)
                (PC_SC c tb tb2 ml HFS HS HX m0 S_lay S_edg S_sk)
                (PC_cached c tb tb2 ml HFS HS HX m0 S_lay S_sk S_ct)
                (PC_cut_ex c tb tb2 ml HFS HS HX HN m0 S_lay S_sk)
                (PC_kid c tb tb2 ml HFS HS HX HN m0 S_lay S_edg S_sk)
                (PC_real c tb tb2 ml HFS HS HX m0 S_lay S_len S_sk)
                (PC_vtop c tb tb2 ml HFS HS HX m0 S_lay S_edg S_len S_sk)
                (PC_locb c tb tb2 ml HFS HS HX HN m0 S_lay S_edg S_len S_sk)
                (PC_drain c tb tb2 ml HFS HS HX HN m0 S_lay S_edg S_len S_sk)
                (PC_above_ex c tb tb2 ml HFS HS HX HN m0 S_lay S_sk)
                HPT HCO HCOl) as (R1 & R2 & R3 & R4).
    cbv zeta in R1, R2, R3, R4. rewrite <- EM in R2, R3, R4.
    exists ml, m0, bk.
    split; [reflexivity|]. split; [exact HFS|]. split; [exact HS|]. split; [exact HX|]. split; [exact HN|].
    split; [exact S_lay|]. split; [exact S_edg|]. split; [exact S_len|]. split; [exact S_sk|]. split; [exact S_ct|].
    split; [exact Hbk|]. split; [rewrite EM0; exact Ebk|]. rewrite EM0. split; [exact R2|]. split; [exact R3|exact R4].
  Qed.
  (* ---------------------------------------------------------------- the three statements, for [compile] *)
  Theorem C_root_run tb tb2 c ds polls (m : mdd) : N < length c ->
    compile st_eqb inp tb tb2 c ds polls = (m, Compiled) ->
    forall ds' s' r', frun pb rd rs rv ds' = Some (s', r') -> rd + length ds' = N ->
      (r' <= bk_of inp m)%Z \/ CaptC inp m false rd rs rv ds' \/ LostC st_eqb inp c (S rd) r'.
  Proof.
    intros Hcl Hc ds' s' r' Hr Hlen.
    destruct (bridgeC tb tb2 c ds polls m Hcl Hc)
      as (ml & m0 & bk & -> & HFS & HS & HX & HN & S_lay & S_edg & S_len & S_sk & S_ct & Hbk & Ebk & HCO & _).
    exact (root_runC c tb tb2 ml HFS HS HX HN m0 S_lay S_edg S_len S_sk S_ct bk Hbk Ebk ds' s' r' Hr Hlen).
  Qed.

  Theorem C_ub_run tb tb2 c ds polls (m : mdd) : N < length c ->
    compile st_eqb inp tb tb2 c ds polls = (m, Compiled) ->
    forall sp ds' s' r', In sp (drain_cutset inp m) ->
      frun pb (sp_depth sp) (sp_state sp) (sp_value sp) ds' = Some (s', r') -> sp_depth sp + length ds' = N ->
      (r' <= lb)%Z \/ LostC st_eqb inp c (S (sp_depth sp)) r' \/ (r' <= sp_ub sp)%Z.
  Proof.
    intros Hcl Hc sp ds' s' r' Hsp Hr Hlen.
    destruct (bridgeC tb tb2 c ds polls m Hcl Hc)
      as (ml & m0 & bk & -> & HFS & HS & HX & HN & S_lay & S_edg & S_len & S_sk & S_ct & Hbk & Ebk & HCO & _).
    exact (ub_runC c tb tb2 ml HFS HS HX HN m0 S_lay S_edg S_len S_sk S_ct sp ds' s' r' Hsp Hr Hlen).
  Qed.

  Theorem C_cache_run tb tb2 c ds polls (m : mdd) : N < length c ->
    compile st_eqb inp tb tb2 c ds polls = (m, Compiled) ->
    forall d s th, cget st_eqb (m_cache m) s d = Some th ->
      cget st_eqb c s d = Some th \/
      exists j, d = rd + j /\ (exists pre r, frun pb rd rs rv pre = Some (s, r) /\ length pre = j) /\
        forall v ds' s' v', (IMIN + 2 * B < v)%Z -> (v <= th_value th)%Z -> frun pb d s v ds' = Some (s', v') -> d + length ds' = N ->
          (v' <= bk_of inp m)%Z \/ CaptC inp m (th_explored th) d s v ds' \/ LostC st_eqb inp c (S d) v'.
  Proof.
    intros Hcl Hc d s th Hg.
    destruct (bridgeC tb tb2 c ds polls m Hcl Hc)
      as (ml & m0 & bk & -> & HFS & HS & HX & HN & S_lay & S_edg & S_len & S_sk & S_ct & Hbk & Ebk & HCO & _).
    exact (cache_runC c tb tb2 ml HS HX m0 S_len S_sk bk Ebk HCO d s th Hg).
  Qed.

  Lemma drain_ub_le_best (m : mdd) sp : In sp (drain_cutset inp m) ->
    exists bv, dd_best_value inp m = Some bv /\ (sp_ub sp <= bv)%Z.
  Proof.
    unfold drain_cutset. destruct (dd_best_value inp m) as [bv|]; [|intros []].
    intros Hsp. apply in_flat_map in Hsp. destruct Hsp as (id & _ & Hsp). cbv zeta in Hsp.
    destruct (f_marked _); [|destruct Hsp]. destruct Hsp as [<-|[]]. exists bv. split; [reflexivity|].
    cbn [sp_ub]. apply Z.le_min_r.
  Qed.

  (* an exact diagram: the best value is an exact one *)
  Theorem C_exact_best tb tb2 c ds polls (m : mdd) : N < length c ->
    compile st_eqb inp tb tb2 c ds polls = (m, Compiled) -> dd_is_exact m = true ->
    forall bv, dd_best_value inp m = Some bv -> exists e, dd_best_exact_value inp m = Some e /\ (bv <= e)%Z.
  Proof.
    intros Hcl Hc Hex bv Hbv.
    unfold compile in Hc. cbv zeta in Hc.
    destruct (layer_loop st_eqb inp (S (S (nb_vars (ci_problem inp)))) (initialize inp c ds polls)) as [ml e] eqn:El.
    destruct e; [|discriminate|discriminate]. inversion Hc as [Em]. clear Hc.
    destruct (layer_loop_Sinv st_eqb st_eqb_spec inp Hclean (S (S (nb_vars (ci_problem inp)))) c ds polls) as [HS HX].
    rewrite El in HS, HX. cbn [fst] in HS, HX.
    assert (Hcml : m_cache ml = c).
    { pose proof (mc_layer_loop st_eqb inp Hclean Hwidth (S (S (nb_vars (ci_problem inp)))) (initialize inp c ds polls)) as Hm.
      rewrite El in Hm. exact Hm. } subst m.
    set (mf := finalize st_eqb inp tb tb2 ml) in *.
    destruct (finalize_hdrC st_eqb inp Hclean tb tb2 ml) as (H1 & _ & H3 & H4). cbv zeta in H1, H3, H4. fold mf in H1, H3, H4.
    unfold dd_best_value in Hbv. unfold dd_best_exact_value.
    destruct (m_best mf) as [b|] eqn:Eb; [|cbn [option_map] in Hbv; discriminate Hbv]. cbn [option_map] in Hbv. inversion Hbv; subst bv.
    destruct (m_has_ebp mf) eqn:Eebp.
    - rewrite H4. exists (n_vtop (gn mf b)). split; [reflexivity|apply Z.le_refl].
    - unfold dd_is_exact in Hex. rewrite Eebp, orb_false_r in Hex. rewrite Hex in H1.
      destruct (m_lel ml) as [k|] eqn:Elel; [discriminate|].
      assert (Hb : In b (m_next ml)).
      { symmetry in H3. apply pick_In in H3. apply (argmax_candidates_In inp Hclean) in H3. exact H3. }
      assert (Hxb : is_ex inp ml b = true).
      { apply (all_exact_no_lel ml HX b Elel). apply (S_next _ _ HS). exact Hb. }
      destruct (best_exact_geC st_eqb inp Hclean Hnocut Hwidth Hrd tb tb2 ml b HS HX Hb Hxb Eebp) as (be & Hbe & _ & Hle).
      fold mf in Hbe, Hle. rewrite Hbe. exists (n_vtop (gn mf be)). split; [reflexivity|].
      destruct (m5_fields tb tb2 ml HS HX b) as (_ & a2 & _).
      unfold mf at 1. rewrite (mf_fieldC tb tb2 ml (@n_vtop St) b) by reflexivity. rewrite a2. exact Hle.
  Qed.
  (* ---------------------------------------------------------------- the statement for a cache without entries *)
  Theorem thresholds_sound tb tb2 c ds polls (m : mdd) :
    blank N c -> compile st_eqb inp tb tb2 c ds polls = (m, Compiled) ->
    (forall u t, f_above (n_flags (gn m u)) = true -> f_deleted (n_flags (gn m u)) = false ->
       n_theta (gn m u) = Some t -> forall v, (IMIN + 2 * B < v)%Z -> (v <= t)%Z ->
       Safe inp m (n_depth (gn m u)) (n_state (gn m u)) v) /\
    (forall d l s th, nth_error (m_cache m) d = Some l -> In (s, th) l ->
       forall v, (IMIN + 2 * B < v)%Z -> (v <= th_value th)%Z -> Safe inp m d s v).
  Proof.
    intros Hb Hc.
    destruct (bridgeC tb tb2 c ds polls m (proj2 Hb) Hc)
      as (ml & m0 & bk & -> & HFS & HS & HX & HN & S_lay & S_edg & S_len & S_sk & S_ct & Hbk & Ebk & HCO & HCl & Hnode).
    exact (blank_sound c tb tb2 ml HFS HS HX HN m0 S_lay S_sk bk Ebk Hb HCl Hnode).
  Qed.
End BridgeC.

(* ================================================================== 8. statements and instances *)
Local Open Scope Z_scope.

(* Safe is downward closed in the arrival value *)
Lemma Safe_down {St} (inp : @cinput St) (m : @mdd St) k s v0 v : v <= v0 -> Safe inp m k s v0 -> Safe inp m k s v.
Proof.
  intros Hle HS ds0 s' v' Hr Hlen.
  pose proof (frun_shift (ci_problem inp) _ _ _ _ (v0 - v) _ _ Hr) as Hr0. replace (v + (v0 - v)) with v0 in Hr0 by lia.
  destruct (HS ds0 s' _ Hr0 Hlen) as [H1|(x & ds1 & ds2 & s1 & w & X1 & X2 & X3 & X4 & X5 & X6)].
  - left. lia.
  - right. exists x, ds1, ds2, s1, (w + - (v0 - v)). split; [exact X1|]. split; [exact X2|]. split.
    + pose proof (frun_shift (ci_problem inp) _ _ _ _ (- (v0 - v)) _ _ X3) as Hs. replace (v0 + - (v0 - v)) with v in Hs by lia. exact Hs.
    + split; [exact X4|]. split; [exact X5|lia].
Qed.

Section Statements.
  Context {St : Type}.
  Variable st_eqb : St -> St -> bool.
  Hypothesis st_eqb_spec : forall a b, st_eqb a b = true <-> a = b.
  Variable inp : @cinput St.
  Let pb := ci_problem inp.
  Let rlx := ci_relax inp.
  Let N := nb_vars pb.
  Let rd := sp_depth (ci_root inp).
  Let rs := sp_state (ci_root inp).
  Let rv := sp_value (ci_root inp).
  Hypothesis Hclean : ci_flavour inp = CleanLEL \/ ci_flavour inp = CleanFC.
  Hypothesis Hnodom : ci_domrule inp = None.
  Hypothesis Hnocut : ci_cutoff inp = 0%nat.
  Hypothesis Hwidth : (1 <= ci_width inp)%nat.
  Hypothesis Hrel : ci_type inp = Relaxed.
  Hypothesis Hrd : (rd <= N)%nat.
  Hypothesis nv_static : forall k l1 l2, next_variable pb k l1 = next_variable pb k l2.
  Hypothesis nv_some : forall k l, (k < N)%nat -> exists x, next_variable pb k l = Some x.
  Hypothesis nv_none : forall k l, (N <= k)%nat -> next_variable pb k l = None.
  Variable cov : St -> St -> Prop.
  Hypothesis cov_refl : forall s, cov s s.
  Hypothesis cov_sim : forall s s' x v, cov s s' -> In v (domain pb x s') ->
    let d := {| d_var := x; d_val := v |} in
    In v (domain pb x s) /\ cov (transition pb s d) (transition pb s' d) /\
    transition_cost pb s' (transition pb s' d) d <= transition_cost pb s (transition pb s d) d.
  Hypothesis merge_cov : forall L s s', In s L -> cov s s' -> cov (merge rlx L) s'.
  Hypothesis rub_adm : forall k s s' h, cov s s' -> H pb k s' = Some h -> h <= fast_upper_bound rlx s.
  Variable B : Z.
  Hypothesis HB : 2 * B <= IMAX.
  Hypothesis Hguard : forall ds s' v', frun pb rd rs rv ds = Some (s', v') -> - B <= v' <= B.

  Section Strong.
    Hypothesis relax_ge : forall src dst mg d c, c <= relax rlx src dst mg d c.

    (* every threshold above IMIN + 2B computed for a node at or above the cut-set is sound, for EVERY arrival value <= t *)
    Theorem threshold_sound tb tb2 c ds polls (m : @mdd St) :
      blank N c -> compile st_eqb inp tb tb2 c ds polls = (m, Compiled) ->
      forall u t, f_above (n_flags (get_node inp m u)) = true -> f_deleted (n_flags (get_node inp m u)) = false ->
        n_theta (get_node inp m u) = Some t -> IMIN + 2 * B < t ->
        forall v, v <= t -> Safe inp m (n_depth (get_node inp m u)) (n_state (get_node inp m u)) v.
    Proof.
      intros Hb Hc u t H1 H2 H3 Ht v Hv.
      apply (Safe_down inp m _ _ t v Hv).
      exact (proj1 (thresholds_sound st_eqb st_eqb_spec inp Hclean Hnodom Hnocut Hwidth Hrel Hrd nv_static nv_some nv_none
               cov cov_refl cov_sim merge_cov relax_ge rub_adm B HB Hguard tb tb2 c ds polls m Hb Hc) u t H1 H2 H3 t Ht (Z.le_refl _)).
    Qed.

    (* ... and so is every threshold written to the cache *)
    Corollary cache_writes_sound tb tb2 c ds polls (m : @mdd St) :
      blank N c -> compile st_eqb inp tb tb2 c ds polls = (m, Compiled) ->
      forall d l s th, nth_error (m_cache m) d = Some l -> In (s, th) l -> IMIN + 2 * B < th_value th ->
        forall v, v <= th_value th -> Safe inp m d s v.
    Proof.
      intros Hb Hc d l s th H1 H2 Ht v Hv.
      apply (Safe_down inp m _ _ (th_value th) v Hv).
      exact (proj2 (thresholds_sound st_eqb st_eqb_spec inp Hclean Hnodom Hnocut Hwidth Hrel Hrd nv_static nv_some nv_none
               cov cov_refl cov_sim merge_cov relax_ge rub_adm B HB Hguard tb tb2 c ds polls m Hb Hc) d l s th H1 H2 _ Ht (Z.le_refl _)).
    Qed.

    (* with a little more room in the guard, every arrival value a feasible run can carry is covered, whatever the threshold *)
    Corollary cache_writes_sound_guarded tb tb2 c ds polls (m : @mdd St) :
      3 * B <= IMAX ->
      blank N c -> compile st_eqb inp tb tb2 c ds polls = (m, Compiled) ->
      forall d l s th, nth_error (m_cache m) d = Some l -> In (s, th) l ->
        forall v, - B <= v -> v <= th_value th -> Safe inp m d s v.
    Proof.
      intros H3B Hb Hc d l s th H1 H2 v Hv1 Hv2.
      apply (proj2 (thresholds_sound st_eqb st_eqb_spec inp Hclean Hnodom Hnocut Hwidth Hrel Hrd nv_static nv_some nv_none
               cov cov_refl cov_sim merge_cov relax_ge rub_adm B HB Hguard tb tb2 c ds polls m Hb Hc) d l s th H1 H2 v); [|exact Hv2].
      unfold IMIN, IMAX in *. lia.
    Qed.
  End Strong.

  (* the machine-integer variant of relax_ge (the one real relaxations satisfy), through Assembly.clip_compile *)
  Section Isize.
    Hypothesis cost_isize : forall s d, in_isize (transition_cost pb s (transition pb s d) d).
    Hypothesis relax_isize : forall src dst mg d c, in_isize c -> in_isize (relax rlx src dst mg d c).
    Hypothesis relax_ge_isize : forall src dst mg d c, in_isize c -> c <= relax rlx src dst mg d c.

    Let inpc := set_relax inp (clip_relaxation (ci_relax inp)).

    Lemma clip_ge : forall src dst mg d c, c <= relax (ci_relax inpc) src dst mg d c.
    Proof.
      intros src dst mg d c. cbn [inpc set_relax ci_relax clip_relaxation relax].
      destruct (in_isize_b c) eqn:E; [|lia].
      apply relax_ge_isize. unfold in_isize_b in E. apply andb_true_iff in E. destruct E as [E1 E2].
      apply Z.leb_le in E1. apply Z.leb_le in E2. split; assumption.
    Qed.

    Theorem thresholds_sound_isize tb tb2 c ds polls (m : @mdd St) :
      blank N c -> compile st_eqb inp tb tb2 c ds polls = (m, Compiled) ->
      (forall u t, f_above (n_flags (get_node inp m u)) = true -> f_deleted (n_flags (get_node inp m u)) = false ->
         n_theta (get_node inp m u) = Some t ->
         forall v, IMIN + 2 * B < v -> v <= t ->
         Safe inp m (n_depth (get_node inp m u)) (n_state (get_node inp m u)) v) /\
      (forall d l s th, nth_error (m_cache m) d = Some l -> In (s, th) l ->
         forall v, IMIN + 2 * B < v -> v <= th_value th -> Safe inp m d s v).
    Proof.
      intros Hb Hc.
      rewrite <- (clip_compile st_eqb inp Hclean cost_isize relax_isize) in Hc. fold inpc in Hc.
      exact (thresholds_sound st_eqb st_eqb_spec inpc Hclean Hnodom Hnocut Hwidth Hrel Hrd nv_static nv_some nv_none
               cov cov_refl cov_sim merge_cov clip_ge rub_adm B HB Hguard tb tb2 c ds polls m Hb Hc).
    Qed.
  End Isize.
End Statements.

(* ---------------------------------------------------------------- non-vacuity: the table family of TableWf.v *)
Definition root0 (ti : tinst) : @subproblem tstate :=
  {| sp_state := [t_init ti]; sp_value := t_initval ti; sp_path := []; sp_ub := IMAX; sp_depth := 0 |}.

Section TableInst.
  Variable ti : tinst.
  Variable C : Z.
  Hypothesis Hwf : t_wf ti C.
  Variable flv : flavour.
  Hypothesis Hflv : flv = CleanLEL \/ flv = CleanFC.
  Variable width : nat.
  Hypothesis Hwidth : (1 <= width)%nat.
  Variable lb : Z.
  Variable usecache : bool.

  Let inp := tb_input ti flv Relaxed width lb usecache false 0 (root0 ti).

  Theorem table_thresholds tb tb2 ds polls (m : @mdd tstate) :
    compile tstate_eqb inp tb tb2 (tb_cache_init ti) ds polls = (m, Compiled) ->
    (forall u t, f_above (n_flags (get_node inp m u)) = true -> f_deleted (n_flags (get_node inp m u)) = false ->
       n_theta (get_node inp m u) = Some t ->
       forall v, IMIN + 2 * tB ti C < v -> v <= t ->
       Safe inp m (n_depth (get_node inp m u)) (n_state (get_node inp m u)) v) /\
    (forall d l s th, nth_error (m_cache m) d = Some l -> In (s, th) l ->
       forall v, IMIN + 2 * tB ti C < v -> v <= th_value th -> Safe inp m d s v).
  Proof.
    intros Hc.
    pose proof (Horder ti C Hwf) as Ho. pose proof (HC ti C Hwf) as [HC0 HC1]. pose proof (Hcosts ti C Hwf) as Hco.
    apply (thresholds_sound_isize tstate_eqb tstate_eqb_spec inp Hflv eq_refl eq_refl Hwidth eq_refl (Nat.le_0_l _)
             (nv_static ti) (nv_some ti Ho) (nv_none ti Ho) TableWf.cov cov_refl (cov_sim ti) (merge_cov ti (Hmerge ti C Hwf))
             (table_rub_adm ti C Hwf flv width Hwidth 0) (tB ti C) (HB ti C Hwf) (guard0 ti Ho C HC0 Hco)) with (c := tb_cache_init ti) (ds := ds) (polls := polls) (tb := tb) (tb2 := tb2).
    - intros s d. pose proof (t_cost_bound ti Ho C HC0 Hco s d) as Hb. unfold in_isize, IMIN, IMAX in *. 
      change (ci_problem inp) with (t_problem ti). lia.
    - intros src dst mg d c _. apply relax_isize.
    - intros src dst mg d c Hcc. apply (relax_ge_isize ti (Hslack ti C Hwf)). exact Hcc.
    - apply blank_init.
    - exact Hc.
  Qed.
End TableInst.

(* ---------------------------------------------------------------- ex_ti, last-exact-layer flavour, width 1, cache enabled, no incumbent *)
Definition ex_inp : @cinput tstate := tb_input ex_ti CleanLEL Relaxed 1 IMIN true false 0 (root0 ex_ti).
Definition ex_m : @mdd tstate := fst (compile tstate_eqb ex_inp 0 0 (tb_cache_init ex_ti) (tb_dom_init ex_ti) 0).

Lemma ex_compiled : compile tstate_eqb ex_inp 0 0 (tb_cache_init ex_ti) (tb_dom_init ex_ti) 0 = (ex_m, Compiled).
Proof. vm_compute. reflexivity. Qed.

(* the thresholds written: (state, depth, theta, explored) *)
Lemma ex_cache : m_cache ex_m =
  [ [([0], {| th_value := 0; th_explored := true |})];
    [([0], {| th_value := 0; th_explored := false |}); ([1], {| th_value := 5; th_explored := false |})];
    []; [] ].
Proof. vm_compute. reflexivity. Qed.

Lemma ex_drain : map (fun x => (sp_state x, sp_depth x, sp_value x)) (drain_cutset ex_inp ex_m) = [([0], 1%nat, 0); ([1], 1%nat, 5)].
Proof. vm_compute. reflexivity. Qed.

Lemma ex_safe_aux : forall v, IMIN + 42 < v -> v <= 5 -> Safe ex_inp ex_m 1 [1] v.
Proof.
  intros v Hv1 Hv2.
  destruct (table_thresholds ex_ti 7 ex_wf CleanLEL (or_introl eq_refl) 1 (le_n 1) IMIN true 0%nat 0%nat (tb_dom_init ex_ti) 0%nat ex_m ex_compiled) as [_ Hw].
  apply (Hw 1%nat [([0], {| th_value := 0; th_explored := false |}); ([1], {| th_value := 5; th_explored := false |})]
            [1] {| th_value := 5; th_explored := false |}).
  - rewrite ex_cache. reflexivity.
  - right. left. reflexivity.
  - exact Hv1.
  - exact Hv2.
Qed.

(* a state entered with any value <= 5 at depth 1 in state [1] is hopeless or covered by the cut-set *)
Example ex_safe : forall v, v <= 5 -> Safe ex_inp ex_m 1 [1] v.
Proof.
  intros v Hv. apply (Safe_down ex_inp ex_m 1%nat [1] 5 v Hv). apply ex_safe_aux; unfold IMIN; lia.
Qed.

(* ---------------------------------------------------------------- a threshold strictly above the node's own value:
   frontier cut-set, width 2: node 1 = (state [0], depth 1) has value 0, local bound 5, threshold 7 = 12 - 5 *)
Definition ex_inp2 : @cinput tstate := tb_input ex_ti CleanFC Relaxed 2 IMIN true false 0 (root0 ex_ti).
Definition ex_m2 : @mdd tstate := fst (compile tstate_eqb ex_inp2 0 0 (tb_cache_init ex_ti) (tb_dom_init ex_ti) 0).

Lemma ex_compiled2 : compile tstate_eqb ex_inp2 0 0 (tb_cache_init ex_ti) (tb_dom_init ex_ti) 0 = (ex_m2, Compiled).
Proof. vm_compute. reflexivity. Qed.

Lemma ex_cache2 : m_cache ex_m2 =
  [ [([0], {| th_value := 0; th_explored := true |})];
    [([0], {| th_value := 7; th_explored := false |}); ([1], {| th_value := 5; th_explored := false |})];
    [([1], {| th_value := 5; th_explored := true |})];
    [([1], {| th_value := 12; th_explored := true |}); ([2], {| th_value := 12; th_explored := true |})] ].
Proof. vm_compute. reflexivity. Qed.

Lemma ex_node1 :
  let n := get_node ex_inp2 ex_m2 1 in
  (n_state n, n_depth n, n_vtop n, n_vbot n, n_theta n, f_cutset (n_flags n), f_above (n_flags n), f_deleted (n_flags n)) =
  ([0], 1%nat, 0, 5, Some 7, true, true, false) /\ bk_of ex_inp2 ex_m2 = 12.
Proof. vm_compute. split; reflexivity. Qed.

Lemma ex_safe2_aux : forall v, IMIN + 42 < v -> v <= 7 -> Safe ex_inp2 ex_m2 1 [0] v.
Proof.
  intros v Hv1 Hv2.
  destruct (table_thresholds ex_ti 7 ex_wf CleanFC (or_intror eq_refl) 2 (le_S 1 1 (le_n 1)) IMIN true 0%nat 0%nat (tb_dom_init ex_ti) 0%nat ex_m2 ex_compiled2) as [Hn _].
  exact (Hn 1%nat 7 eq_refl eq_refl eq_refl v Hv1 Hv2).
Qed.

(* node 1 has value 0, yet any arrival with a value up to 7 in its state is hopeless or covered *)
Example ex_safe2 : forall v, v <= 7 -> Safe ex_inp2 ex_m2 1 [0] v.
Proof.
  intros v Hv. apply (Safe_down ex_inp2 ex_m2 1%nat [0] 7 v Hv). apply ex_safe2_aux; unfold IMIN; lia.
Qed.

(* ------------------------------------------------------------------ assumptions *)
Check @thresholds_sound.
Check @threshold_sound.
Check @cache_writes_sound.
Check @cache_writes_sound_guarded.
Check @thresholds_sound_isize.
Check @table_thresholds.
Check ex_cache.
Check ex_safe.
Check ex_cache2.
Check ex_node1.
Check ex_safe2.
Print Assumptions thresholds_sound.
Print Assumptions threshold_sound.
Print Assumptions cache_writes_sound.
Print Assumptions cache_writes_sound_guarded.
Print Assumptions thresholds_sound_isize.
Print Assumptions table_thresholds.
Print Assumptions ex_safe.
Print Assumptions ex_safe2.
