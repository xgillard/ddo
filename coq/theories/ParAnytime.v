(* ParAnytime.v — property C05, PARALLEL half: the bounds reported by the parallel solver stay sound when the search is
   cut off at any point.  Model: Par.v (ddo/src/implementation/solver/parallel.rs after the two repairs of abort_search:
   finding D3 -- the bound must cover the other workers' nodes and the top of the fringe -- and finding D9 -- no
   isize::MAX sentinels, see module Residual).  For EVERY schedule, EVERY fuel, EVERY number of workers T >= 1, EVERY feasible
   warm start and EVERY cutoff.  Configuration: sc_use_cache = false, sc_nodup = false (as ParProofs.v).

   WHAT THE MODEL DOES AT AN ABORT (Par.par_step, case PAbort n, worker w):
       cur  := maximum over ALL slots of p_upper_bounds (w's own slot included; idle slots hold IMIN, neutral for max),
               starting from max (sp_ub n, p_lb);
       cur' := max (cur, sp_ub (top of the fringe))   if the fringe is not empty (pq_pop_max: the top dominates the fringe);
       p_ub := if p_abort then max (cur', p_ub) else cur';   p_abort := true;   fringe := [];   cache cleared.
   So a SECOND abort_search (another worker) takes a maximum that includes the previous p_ub: the bound is kept
   (abort_val_old, used in abort_val_sound; ex3_second_abort and Residual.residual_steps show it on runs).
   [abort_val] below is this value, given the node popped from the fringe; [abort_ub] is its SimpleFringe form.

   STOREY 1 (abstract contracts; premises = those of ParProofs.par_optimal WITHOUT sc_cutoff cfg = 0, packaged as
   SolverCutoff.contracts / SolverCutoff.semantics: the contracts constrain only compilations whose outcome is
   Compiled, plus the absence of a model crash for all of them; NO other premise):
       par_anytime_sound            a finished run, 1 <= T, feasible warm start: no crash, pr_lb <= OPT <= pr_ub, no value
                                    if OPT = None, a reported value is pr_lb and comes with a feasible solution of that
                                    value, and pr_exact = true -> pr_value = OPT
       par_anytime_sound_any_end    [sound_result r] for ANY way the run ends (POutOfFuel included: the bounds are sound
                                    in every reachable state; only the last clause is conditional on PFinished)
   STOREY 2 (Mdd.compile, clean flavours; hypotheses of Assembly.Main / Assembly.Cutoffs; OPT = opt_enum pb):
       C05_parallel_anytime, C05_parallel_anytime_any_end      exactly the shape of Assembly.C05_sequential_anytime
   NON-VACUITY: C05_parallel_table_instances (every t_wf instance, every cutoff / schedule / fuel), ex3_* (3 workers,
     cutoff 7: three workers abort, two of them sit at PAbort at the same time; lb = 3 < 7 = optimum <= 8 = ub; the first
     abort_search is run by the worker whose own node has bound 6 < 7 -- what the code before the repair of D3 would have
     reported), ex3_out_of_fuel, ex_ti_abort; module Residual: regression for finding D9.
   NOT DONE: Par.v has no pre-fix variant of abort_search (the only `prefix` of the development is
     Run.tb_par_maximize_prefix = upper_bounds sized by the constructor, finding D2), so the pre-repair behaviours (D3, D9)
     are described in comments only; ParProofs.v contains no lemma named D3_*.

   THE INVARIANT (AInv, on top of ParProofs.PInv):
     Incumbent   the incumbent is a feasible solution (any regime);
     Slots       upper_bounds[w] = sp_ub n whenever worker w is busy with n (step_ubs: what each transition does to
                 upper_bounds, by plain computation on the model);
     CalmV       while p_abort = false: ParProofs.CalmV (section Calm there), where a compilation that is cut short goes
                 to PAbort n and KEEPS the responsibility for n (owner); + "no exit yet -> p_ub = IMAX";
     AbV         once p_abort = true: p_lb <= p_ub and OPT <= p_ub.
   abort_step: CalmV or AbV, Slots  ==>  AbV after abort_search (the optimum's witness is in the fringe: below the top;
   or held by the aborting worker: its own bound; or held by another worker: that worker's slot).
   The invariant and its preservation lemmas (all but step_ainv, AInv_init and the two theorems) are stated on views and on
   ParProofs.gstep and use neither sc_nodup cfg = false nor the order of the fringe: ParNoDup.v applies them to the
   NoDupFringe.
   Stdlib only, no axioms (Print Assumptions at the end). *)
Require Import DDO.Base DDO.Fringe DDO.FringeProofs DDO.Fringe2 DDO.DP DDO.Cache DDO.Dom DDO.Mdd DDO.Solver DDO.Par.
Require Import DDO.SolverProofs DDO.SolverCutoff DDO.ParProofs.
From Coq Require Import Permutation Arith Lia List ZArith Bool.
Import ListNotations.
Open Scope Z_scope.

(* the fold of abort_search over upper_bounds *)
Definition ubfold (ubs : list Z) (init : Z) : Z := fold_left (fun acc u => Z.max acc u) ubs init.

Lemma ubfold_ge_init ubs : forall init, init <= ubfold ubs init.
Proof.
  induction ubs as [|u ubs IH]; intros init; unfold ubfold; cbn [fold_left]; [lia|].
  fold (ubfold ubs (Z.max init u)). specialize (IH (Z.max init u)). lia.
Qed.

Lemma ubfold_ge_slot ubs : forall init w u, nth_error ubs w = Some u -> u <= ubfold ubs init.
Proof.
  induction ubs as [|x ubs IH]; intros init [|w] u H; cbn [nth_error] in H; try discriminate.
  - inversion H; subst x. unfold ubfold. cbn [fold_left].
    fold (ubfold ubs (Z.max init u)). pose proof (ubfold_ge_init ubs (Z.max init u)). lia.
  - unfold ubfold. cbn [fold_left]. fold (ubfold ubs (Z.max init x)). eapply IH; eauto.
Qed.

Section ParAnytime.
  Context {St : Type}.
  Variable st_eqb : St -> St -> bool.
  Variable cfg : @sconfig St.
  Let pb := sc_problem cfg.
  Let N := nb_vars pb.

  Notation pstate := (@pstate St).
  Notation pc := (@pc St).
  Notation subproblem := (@subproblem St).

  (* s1 has the pcs and the upper_bounds of s: what every helper of par_step guarantees, whichever fringe is configured *)
  Definition Fr (s s1 : pstate) : Prop := p_workers s1 = p_workers s /\ p_upper_bounds s1 = p_upper_bounds s.

  Lemma Fr_refl s : Fr s s. Proof. split; reflexivity. Qed.
  Lemma Fr_trans s s1 s2 : Fr s s1 -> Fr s1 s2 -> Fr s s2.
  Proof. intros [A1 A2] [B1 B2]. split; [rewrite B1; exact A1|rewrite B2; exact A2]. Qed.
  Lemma Fr_with_fringe s l nd : Fr s (with_fringe s l nd). Proof. split; reflexivity. Qed.
  Lemma Fr_with_open s a b : Fr s (with_open s a b). Proof. split; reflexivity. Qed.
  Lemma Fr_with_cache_fal s c f : Fr s (with_cache_fal s c f). Proof. split; reflexivity. Qed.
  Lemma Fr_crashed s : Fr s (p_crashed s). Proof. split; reflexivity. Qed.
  Lemma Fr_clear s : Fr s (pf_clear s). Proof. split; reflexivity. Qed.

  Lemma Fr_pf_pop s : Fr s (fst (pf_pop st_eqb cfg s)).
  Proof.
    unfold pf_pop. destruct (sc_nodup cfg).
    - destruct (k_pop st_eqb (sc_ranking cfg) (p_nodup s)) as [[f r]|]; cbn [fst]; [apply Fr_with_fringe|apply Fr_crashed].
    - destruct (pq_pop cfg (p_simple s)) as [[x rest]|]; cbn [fst]; [apply Fr_with_fringe|apply Fr_refl].
  Qed.

  Lemma Fr_pf_push s n : Fr s (pf_push st_eqb cfg s n).
  Proof.
    unfold pf_push. destruct (sc_nodup cfg).
    - destruct (k_push st_eqb (sc_ranking cfg) (p_nodup s) n); [apply Fr_with_fringe|apply Fr_crashed].
    - apply Fr_with_fringe.
  Qed.

  Lemma Fr_clean_loop fuel : forall s, Fr s (p_clean_cache_loop cfg fuel s).
  Proof.
    induction fuel as [|fuel IH]; intros s; cbn [p_clean_cache_loop]; [apply Fr_refl|].
    destruct (Nat.ltb (p_fal s) (nb_vars (sc_problem cfg))); [|apply Fr_refl].
    destruct (nth_error (p_open s) (p_fal s)) as [a|]; [|apply Fr_crashed].
    destruct (nth_error (p_ongoing_by_layer s) (p_fal s)) as [b|]; [|apply Fr_crashed].
    destruct (Nat.eqb (a + b) 0); [|apply Fr_refl].
    destruct (if sc_use_cache cfg then clear_layer (p_cache s) (p_fal s) else Some (p_cache s)) as [c|]; [|apply Fr_crashed].
    eapply Fr_trans; [|apply IH]. apply Fr_with_cache_fal.
  Qed.

  Lemma Fr_gw_select fuel : forall s nn, Fr s (fst (gw_select st_eqb cfg fuel s nn)).
  Proof.
    induction fuel as [|fuel IH]; intros s nn; cbn [gw_select]; [apply Fr_refl|].
    destruct (sp_ub nn <=? p_lb s); [cbn [fst]; eapply Fr_trans; [apply Fr_clear|apply Fr_with_open]|].
    destruct (if sc_use_cache cfg then must_explore st_eqb (p_cache s) (sp_state nn) (sp_depth nn) (sp_value nn) else Some true)
      as [[|]|]; [| |cbn [fst]; apply Fr_crashed].
    - destruct (if sc_use_cache cfg then update_threshold st_eqb (p_cache s) (sp_state nn) (sp_depth nn) (sp_value nn) true
                else Some (p_cache s)) as [c|]; cbn [fst]; [apply Fr_with_cache_fal|apply Fr_crashed].
    - destruct (nth_error (p_open s) (sp_depth nn)) as [[|k]|]; try (cbn [fst]; apply Fr_crashed).
      set (s1 := with_open s (upd_nth (sp_depth nn) (fun _ => k) (p_open s)) (p_ongoing_by_layer s)).
      assert (F1 : Fr s s1) by apply Fr_with_open.
      destruct (Nat.eqb (pf_len cfg s1) 0); [exact F1|].
      pose proof (Fr_pf_pop s1) as F2. destruct (pf_pop st_eqb cfg s1) as [s2 o]. cbn [fst] in F2.
      destruct o as [n'|].
      + eapply Fr_trans; [exact F1|]. eapply Fr_trans; [exact F2|apply IH].
      + cbn [fst]. eapply Fr_trans; [exact F1|]. eapply Fr_trans; [exact F2|apply Fr_crashed].
  Qed.

  Lemma get_workload_fr s w s1 r : get_workload st_eqb cfg s w = (s1, r) ->
    p_workers s1 = p_workers s /\
    (((forall n, r <> GWItem n) /\ p_upper_bounds s1 = p_upper_bounds s) \/
     (exists n, r = GWItem n /\ p_upper_bounds s1 = upd_nth w (fun _ => sp_ub n) (p_upper_bounds s))).
  Proof.
    (* every way out but the last returns a state that Fr relates to s, and no item *)
    assert (Hfr : forall s2 r2, Fr s s2 -> (forall n, r2 <> GWItem n) -> (s2, r2) = (s1, r) ->
              p_workers s1 = p_workers s /\
              (((forall n, r <> GWItem n) /\ p_upper_bounds s1 = p_upper_bounds s) \/
               (exists n, r = GWItem n /\ p_upper_bounds s1 = upd_nth w (fun _ => sp_ub n) (p_upper_bounds s)))).
    { intros s2 r2 [W U] Hr [= <- <-]. split; [exact W|]. left. split; assumption. }
    unfold get_workload. pose proof (Fr_clean_loop (S (nb_vars (sc_problem cfg))) s) as F0.
    set (s0 := p_clean_cache_loop cfg (S (nb_vars (sc_problem cfg))) s) in *.
    destruct (p_crash s0); [apply Hfr; [exact F0|discriminate]|].
    destruct (Nat.eqb (p_ongoing s0) 0 && Nat.eqb (pf_len cfg s0) 0 && negb (p_abort s0)); [apply Hfr; [exact F0|discriminate]|].
    destruct (p_abort s0); [apply Hfr; [exact F0|discriminate]|].
    destruct (Nat.eqb (pf_len cfg s0) 0); [apply Hfr; [exact F0|discriminate]|].
    pose proof (Fr_trans _ _ _ F0 (Fr_pf_pop s0)) as F2. destruct (pf_pop st_eqb cfg s0) as [s2 o]. cbn [fst] in F2.
    destruct o as [nn|]; [|apply Hfr; [exact F2|discriminate]].
    pose proof (Fr_trans _ _ _ F2 (Fr_gw_select (S (S (pf_len cfg s2))) s2 nn)) as F3.
    destruct (gw_select st_eqb cfg (S (S (pf_len cfg s2))) s2 nn) as [s3 r3]. cbn [fst] in F3.
    destruct r3 as [| | | |n|]; try (apply Hfr; [exact F3|discriminate]).
    cbn [mk p_workers p_upper_bounds p_open p_ongoing_by_layer].
    destruct (nth_error (p_upper_bounds s3) w) as [u|]; [|apply Hfr; [exact F3|discriminate]].
    destruct (nth_error (p_open s3) (sp_depth n)) as [[|k]|]; try (apply Hfr; [exact F3|discriminate]).
    destruct (nth_error (p_ongoing_by_layer s3) (sp_depth n)) as [j|]; [|apply Hfr; [exact F3|discriminate]].
    destruct F3 as [W U]. intros [= <- <-]. split; [exact W|]. right. exists n. split; [reflexivity|].
    cbn [mk p_upper_bounds]. rewrite U. reflexivity.
  Qed.

  Lemma Fr_enqueue s inp m ub : Fr s (p_enqueue_cutset st_eqb cfg s inp m ub).
  Proof.
    unfold p_enqueue_cutset. generalize (p_lb s) as blb. intros blb.
    generalize (drain_cutset inp m) as cs. intros cs. revert s.
    induction cs as [|c cs IH]; intros s; cbn [fold_left]; [apply Fr_refl|].
    eapply Fr_trans; [|apply IH].
    destruct (Z.min ub (sp_ub c) >? blb); [|apply Fr_refl].
    pose proof (Fr_pf_push s {| sp_state := sp_state c; sp_value := sp_value c; sp_path := sp_path c;
                                sp_ub := Z.min ub (sp_ub c); sp_depth := sp_depth c |}) as F1.
    set (s1 := pf_push st_eqb cfg s _) in *.
    destruct (nth_error (p_open s1) (sp_depth c));
      (eapply Fr_trans; [exact F1|]); [apply Fr_with_open|apply Fr_crashed].
  Qed.

  (* the value abort_search assigns to best_ub, [top] being the node it pops from the fringe (if any) *)
  Definition abort_val (s : pstate) (n : subproblem) (top : option subproblem) : Z :=
    let cur := ubfold (p_upper_bounds s) (Z.max (sp_ub n) (p_lb s)) in
    let cur' := match top with Some t => Z.max cur (sp_ub t) | None => cur end in
    if p_abort s then Z.max cur' (p_ub s) else cur'.

  Lemma abort_val_cur s n top : ubfold (p_upper_bounds s) (Z.max (sp_ub n) (p_lb s)) <= abort_val s n top.
  Proof. unfold abort_val. destruct top; destruct (p_abort s); lia. Qed.
  Lemma abort_val_lb s n top : p_lb s <= abort_val s n top.
  Proof.
    pose proof (abort_val_cur s n top). pose proof (ubfold_ge_init (p_upper_bounds s) (Z.max (sp_ub n) (p_lb s))). lia.
  Qed.
  Lemma abort_val_slot s n top w u : nth_error (p_upper_bounds s) w = Some u -> u <= abort_val s n top.
  Proof.
    intros H. pose proof (abort_val_cur s n top).
    pose proof (ubfold_ge_slot (p_upper_bounds s) (Z.max (sp_ub n) (p_lb s)) w u H). lia.
  Qed.
  Lemma abort_val_top s n t : sp_ub t <= abort_val s n (Some t).
  Proof. unfold abort_val. destruct (p_abort s); lia. Qed.
  (* a later abort_search (p_abort already set) takes the maximum with the previous best_ub *)
  Lemma abort_val_old s n top : p_abort s = true -> p_ub s <= abort_val s n top.
  Proof. intros H. unfold abort_val. rewrite H. lia. Qed.

  (* what a transition of worker w does to upper_bounds (plain computation on the model: no invariant, no premise on the
     configuration) *)
  Definition ubs_spec (s : pstate) (w : nat) (s' : pstate) : Prop :=
    match nth_error (p_workers s) w with
    | Some PGetWork =>
        (forall x, nth_error (p_workers s') w = Some (PReadLb1 x) ->
                   p_upper_bounds s' = upd_nth w (fun _ => sp_ub x) (p_upper_bounds s)) /\
        ((forall x, nth_error (p_workers s') w <> Some (PReadLb1 x)) -> p_upper_bounds s' = p_upper_bounds s)
    | Some (PNotify n ea) => p_crash s' = true \/ p_upper_bounds s' = upd_nth w (fun _ => IMIN) (p_upper_bounds s)
    | Some _ => p_upper_bounds s' = p_upper_bounds s
    | None => True
    end.

  Lemma step_ubs s w s' st : par_step st_eqb cfg s w = Some (s', st) -> ubs_spec s w s'.
  Proof.
    unfold par_step, ubs_spec. destruct (nth_error (p_workers s) w) as [p|] eqn:Ew; [|discriminate].
    destruct p; try discriminate.
    - (* PGetWork *)
      destruct (get_workload st_eqb cfg s w) as [s1 r] eqn:Eg. apply get_workload_fr in Eg.
      destruct Eg as [W [[Hni U]|(n & -> & U)]].
      + intros [= <- <-].
        destruct r; try (exfalso; eapply Hni; reflexivity);
          cbn [set_worker p_crashed mk p_workers p_upper_bounds]; rewrite W;
          (split; [intros x Hx; rewrite (nth_error_upd_nth_same _ _ _ _ Ew) in Hx; discriminate|intros _; exact U]).
      + intros [= <- <-].
        cbn [set_worker mk p_workers p_upper_bounds]. rewrite W. split.
        * intros x Hx. rewrite (nth_error_upd_nth_same _ _ _ _ Ew) in Hx. injection Hx as <-. exact U.
        * intros Hno. exfalso. apply (Hno n). apply (nth_error_upd_nth_same w (fun _ => PReadLb1 n) _ _ Ew).
    - (* PReadLb1 *)
      intros [= <- <-].
      destruct (sp_ub n <=? p_lb s); [reflexivity|].
      unfold p_compile.
      destruct (compile st_eqb (mk_input cfg Restricted n (p_lb s)) 0 0 (p_cache s) (p_dom s) (p_polls s)) as [m o].
      destruct o; reflexivity.
    - (* PUpdate1 *)
      intros [= <- <-].
      unfold p_maybe_update_best.
      destruct (opt_default IMIN (dd_best_exact_value inp m) >? p_lb s); destruct (dd_is_exact m); reflexivity.
    - (* PReadLb2 *)
      unfold p_compile.
      destruct (compile st_eqb (mk_input cfg Relaxed n (p_lb s)) 0 0 (p_cache s) (p_dom s) (p_polls s)) as [m o].
      intros [= <- <-]. destruct o; reflexivity.
    - (* PUpdate2 *)
      intros [= <- <-].
      unfold p_maybe_update_best.
      destruct (opt_default IMIN (dd_best_exact_value inp m) >? p_lb s); destruct (dd_is_exact m); reflexivity.
    - (* PEnqueue *)
      intros [= <- <-].
      cbn [set_worker mk p_upper_bounds]. apply (Fr_enqueue s inp m (sp_ub n)).
    - (* PAbort *)
      pose proof (Fr_pf_pop s) as [_ U]. destruct (pf_pop st_eqb cfg s) as [s1 top].
      intros [= <- <-]. exact U.
    - (* PNotify *)
      destruct (p_ongoing s) as [|k]; [intros [= <- <-]; left; reflexivity|].
      destruct (nth_error (p_ongoing_by_layer s) (sp_depth n)) as [[|j]|];
        try (intros [= <- <-]; left; reflexivity).
      destruct (nth_error (p_upper_bounds s) w) as [u|]; intros [= <- <-]; [right|left]; reflexivity.
  Qed.

  (* abort_search: popping the fringe touches no field that abort_val reads *)
  Lemma pf_pop_keeps s : p_abort (fst (pf_pop st_eqb cfg s)) = p_abort s /\ p_ub (fst (pf_pop st_eqb cfg s)) = p_ub s.
  Proof.
    unfold pf_pop. destruct (sc_nodup cfg);
      [destruct (k_pop st_eqb (sc_ranking cfg) (p_nodup s)) as [[f r]|]|destruct (pq_pop cfg (p_simple s)) as [[t rest]|]];
      split; reflexivity.
  Qed.

  Lemma step_abort_ub s w s' st n : par_step st_eqb cfg s w = Some (s', st) ->
    nth_error (p_workers s) w = Some (PAbort n) -> p_ub s' = abort_val s n (snd (pf_pop st_eqb cfg s)).
  Proof.
    intros H Ew. unfold par_step in H. rewrite Ew in H. revert H. destruct (pf_pop_keeps s) as [Ea Eu].
    destruct (pf_pop st_eqb cfg s) as [s1 top]. cbn [fst snd] in *. intros [= <- _].
    cbn [set_worker pf_clear with_fringe mk p_ub]. rewrite Ea, Eu. reflexivity.
  Qed.

  (* configuration: no cache, SimpleFringe (as ParProofs.v) *)
  Hypothesis no_cache : sc_use_cache cfg = false.
  Hypothesis simple_fringe : sc_nodup cfg = false.

  (* abort_val for the SimpleFringe *)
  Definition abort_ub (s : pstate) (n : subproblem) : Z :=
    let cur := ubfold (p_upper_bounds s) (Z.max (sp_ub n) (p_lb s)) in
    let cur' := match pq_pop cfg (p_simple s) with Some (t, _) => Z.max cur (sp_ub t) | None => cur end in
    if p_abort s then Z.max cur' (p_ub s) else cur'.

  Lemma abort_ub_val s n : abort_val s n (snd (pf_pop st_eqb cfg s)) = abort_ub s n.
  Proof.
    unfold abort_ub, abort_val. rewrite (pf_pop_simple st_eqb cfg simple_fringe).
    destruct (pq_pop cfg (p_simple s)) as [[t rest]|]; reflexivity.
  Qed.
  Lemma abort_ub_own s n : sp_ub n <= abort_ub s n.
  Proof.
    pose proof (ubfold_ge_init (p_upper_bounds s) (Z.max (sp_ub n) (p_lb s))).
    unfold abort_ub. destruct (pq_pop cfg (p_simple s)) as [[t rest]|]; destruct (p_abort s); lia.
  Qed.

  (* premises: the contracts of SolverCutoff.v
     (they constrain only compilations whose outcome is Compiled, plus the absence of a model crash) *)
  Variable good : subproblem -> Prop.
  Variable best : subproblem -> option Z.
  Variable feasible : list decision -> Z -> Prop.
  Hypothesis HK : contracts st_eqb good best feasible cfg.
  Hypothesis HS : semantics good best feasible cfg.
  Notation OPT := (@OPT St cfg best).
  Notation PInv := (ParProofs.PInv st_eqb cfg good).
  Notation gstep := (ParProofs.gstep st_eqb cfg).
  Notation Incumbent := (Incumbent feasible).

  Notation HA_cut_c := (HA_cut_c st_eqb cfg good best feasible HK).
  Notation CalmV := (CalmV cfg best).

  Lemma good_set_ub_c : forall c u, good c -> good (set_ub c u).
  Proof. apply HS. Qed.
  Notation gstep_calm := (gstep_calm st_eqb cfg good good_set_ub_c best feasible HK HS).
  Notation gstep_incumbent := (gstep_incumbent st_eqb cfg good best feasible HK).
  Notation gstep_fields := (gstep_fields st_eqb cfg).
  Notation PInv_busy := (PInv_busy st_eqb cfg good).

  Lemma step_cases s w s' st : PInv s -> par_step st_eqb cfg s w = Some (s', st) -> gstep no_key True s w s'.
  Proof. intros HI H. apply pstep_gstep. exact (par_step_cases st_eqb cfg no_cache simple_fringe good HA_cut_c s w s' st HI H). Qed.
  Lemma step_pinv (same : subproblem -> subproblem -> Prop) ord s w s' : (forall a b, same a b -> sp_depth a = sp_depth b) ->
    PInv s -> gstep same ord s w s' -> PInv s'.
  Proof. exact (gstep_pinv st_eqb cfg good good_set_ub_c best feasible HK same ord s w s'). Qed.

  (* equal to ParProofs.owner, which is the one the invariants are stated with *)
  Definition resp (p : pc) : option subproblem :=
    match p with
    | PReadLb1 n | PUpdate1 n _ _ | PReadLb2 n | PUpdate2 n _ _ | PEnqueue n _ _ | PAbort n => Some n
    | _ => None
    end.
  Lemma resp_wake p : resp (wake p) = resp p.
  Proof. destruct p; reflexivity. Qed.

  (* upper_bounds[w] holds the bound of the node worker w is busy with *)
  Definition Slots (s : pstate) : Prop :=
    forall w p n, nth_error (p_workers s) w = Some p -> busy_node p = Some n ->
                  nth_error (p_upper_bounds s) w = Some (sp_ub n).

  Lemma nth_error_upd_nth_inv {A} w (x : A) l q : nth_error (upd_nth w (fun _ => x) l) w = Some q -> q = x.
  Proof.
    destruct (nth_error l w) as [y|] eqn:E.
    - rewrite (nth_error_upd_nth_same w (fun _ => x) l y E). congruence.
    - intros H. apply nth_error_Some_lt in H. rewrite upd_nth_length in H. apply nth_error_None in E. lia.
  Qed.

  Lemma Slots_frame (ws ws0 : list pc) (ubs ubs' : list Z) w p' :
    (forall w' p n, nth_error ws w' = Some p -> busy_node p = Some n -> nth_error ubs w' = Some (sp_ub n)) ->
    (forall w' p0, nth_error ws0 w' = Some p0 -> exists p1, nth_error ws w' = Some p1 /\ busy_node p1 = busy_node p0) ->
    (forall w', w' <> w -> nth_error ubs' w' = nth_error ubs w') ->
    (forall n, busy_node p' = Some n -> nth_error ubs' w = Some (sp_ub n)) ->
    forall w' p n, nth_error (upd_nth w (fun _ => p') ws0) w' = Some p -> busy_node p = Some n ->
                   nth_error ubs' w' = Some (sp_ub n).
  Proof.
    intros HSl H0 Hoth Hw w' p n Hp Hb. destruct (Nat.eq_dec w w') as [<-|Hne].
    - apply nth_error_upd_nth_inv in Hp. subst p. apply Hw. exact Hb.
    - rewrite nth_error_upd_nth_other in Hp by exact Hne. destruct (H0 _ _ Hp) as (p1 & Hp1 & Hb1).
      rewrite Hoth by auto. eapply HSl; eauto. congruence.
  Qed.

  (* upper_bounds is left alone and w keeps its node or drops it *)
  Lemma Slots_same s (ubs' : list Z) w p p' : Slots s -> nth_error (p_workers s) w = Some p ->
    ubs' = p_upper_bounds s -> (forall n, busy_node p' = Some n -> busy_node p = Some n) ->
    forall w' p0 n, nth_error (setw s w p') w' = Some p0 -> busy_node p0 = Some n -> nth_error ubs' w' = Some (sp_ub n).
  Proof.
    intros HSl Ew -> Hp'. apply (Slots_frame (p_workers s) (p_workers s) (p_upper_bounds s)); eauto.
  Qed.

  Lemma gstep_slots same ord s w s' : PInv s -> PInv s' -> Slots s -> gstep same ord s w s' -> ubs_spec s w s' -> Slots s'.
  Proof.
    intros HI HI2 HSl Hst Hub. unfold Slots, ubs_spec in *.
    gstep_cases Hst;
      rewrite Ew in Hub; apply (f_equal v_workers) in Hv; unfold vW in Hv; cbn [view v_workers] in Hv; rewrite Hv in *.
    1-4: (apply (Slots_same s _ w PGetWork _ HSl Ew); [|discriminate]; apply Hub;
          intros x0 Hx0; apply nth_error_upd_nth_inv in Hx0; discriminate).
    - (* item *)
      destruct Hub as [Hub _]. rewrite (Hub x) by (apply (nth_error_upd_nth_same w (fun _ => PReadLb1 x) _ _ Ew)).
      eapply Slots_frame; eauto.
      + intros w' Hne. apply nth_error_upd_nth_other. auto.
      + intros n0 [= <-]. destruct (nth_error_lt_Some (p_upper_bounds s) w) as [u Hu].
        { destruct HI as (_ & _ & _ & _ & _ & _ & _ & _ & I9 & _). cbn [view v_nubs v_workers] in I9.
          rewrite I9. eapply nth_error_Some_lt; eauto. }
        apply (nth_error_upd_nth_same w (fun _ => sp_ub x) _ _ Hu).
    - apply (Slots_same s _ w _ _ HSl Ew Hub). auto.
    - apply (Slots_same s _ w _ _ HSl Ew Hub). intros n0 Hn0. destruct o; exact Hn0.
    - apply (Slots_same s _ w _ _ HSl Ew Hub). intros n0 Hn0. destruct (dd_is_exact m); exact Hn0.
    - apply (Slots_same s _ w _ _ HSl Ew Hub). intros n0 Hn0. destruct o; exact Hn0.
    - apply (Slots_same s _ w _ _ HSl Ew Hub). intros n0 Hn0. destruct (dd_is_exact m); exact Hn0.
    - apply (Slots_same s _ w _ _ HSl Ew Hub). auto.
    - apply (Slots_same s _ w _ _ HSl Ew Hub). auto.
    - (* notify *)
      assert (Hcr : p_crash s' = false) by apply HI2.
      destruct Hub as [Hub|Hub]; [congruence|]. rewrite Hub.
      eapply Slots_frame; [exact HSl| | |].
      + intros w' p0 Hp0. rewrite nth_error_map in Hp0. destruct (nth_error (p_workers s) w') as [p1|]; [|discriminate].
        injection Hp0 as <-. exists p1. split; [reflexivity|]. symmetry. apply busy_node_wake.
      + intros w' Hne. apply nth_error_upd_nth_other. auto.
      + intros n0 Hn0. destruct ea; discriminate.
  Qed.

  (* the regime after an abort: best_ub dominates the optimum and the incumbent *)
  Definition AbV (v : @vw St) : Prop :=
    v_abort v = true /\ v_lb v <= v_ub v /\ forall o, OPT = Some o -> o <= v_ub v.

  (* it is kept by whatever leaves best_ub and abort_proof alone and keeps the incumbent sound *)
  Lemma AbV_keep v v' : AbV v -> IMIN <= v_lb v -> v_abort v' = v_abort v -> v_ub v' = v_ub v ->
    Incumbent (v_lb v') (v_sol v') -> AbV v'.
  Proof.
    intros (A1 & A2 & A3) Hmin Ea Eu HInc. unfold AbV. rewrite Ea, Eu. split; [exact A1|]. split; [|exact A3].
    apply (SolverCutoff.incumbent_le_bound good best feasible cfg HS _ _ _ HInc A3). lia.
  Qed.

  Lemma gstep_ab same ord s w s' : Incumbent (p_lb s) (p_sol s) -> Incumbent (p_lb s') (p_sol s') -> AbV (view s) ->
    gstep same ord s w s' ->
    (forall n, nth_error (p_workers s) w <> Some (PAbort n)) -> AbV (view s').
  Proof.
    intros [Hmin _] HInc' HA Hst Hnab. pose proof HA as (A1 & _). cbn [view v_abort] in A1.
    destruct (gstep_fields same ord s w s' Hst) as (_ & _ & [[Ea [Eu|[Ea' _]]]|[n Ew]]); [|congruence|destruct (Hnab n Ew)].
    exact (AbV_keep (view s) (view s') HA Hmin Ea Eu HInc').
  Qed.

  (* the abort step: the witness of the optimum is in the fringe (below its top), or held by the
     aborting worker (its own bound), or held by another worker (that worker's slot of upper_bounds);
     a later abort_search only takes a maximum with the previous best_ub *)
  Lemma abort_val_sound s n top : Slots s -> CalmV (view s) \/ AbV (view s) ->
    (forall x, In x (p_simple s) -> exists t, top = Some t /\ sp_ub x <= sp_ub t) ->
    forall o, OPT = Some o -> o <= abort_val s n top.
  Proof.
    intros HSl [(C1 & C4 & _)|(A1 & _ & A3)] Htop o Ho.
    - cbn [view v_simple v_lb v_workers] in C4.
      destruct (C4 o Ho) as [Hle|(n0 & (_ & _ & _ & Hu) & [Hn0|(p0 & Hp0 & Hr0)])].
      + pose proof (abort_val_lb s n top). lia.
      + destruct (Htop n0 Hn0) as (t & -> & Ht). pose proof (abort_val_top s n t). lia.
      + apply In_nth_error in Hp0. destruct Hp0 as [w' Hw'].
        pose proof (abort_val_slot s n top w' _ (HSl _ _ _ Hw' (owner_busy _ _ Hr0))). lia.
    - cbn [view v_abort v_ub] in A1, A3. pose proof (A3 o Ho). pose proof (abort_val_old s n top A1). lia.
  Qed.

  Lemma gstep_abort same ord s w s' a : nth_error (p_workers s) w = Some (PAbort a) -> gstep same ord s w s' ->
    view s' = mkV [] (p_ongoing s) (p_open s) (p_ongoing_by_layer s) (p_lb s) (p_ub s') (p_sol s)
                  (length (p_upper_bounds s)) true (p_crash s) (setw s w (PNotify a true)).
  Proof.
    intros Ea Hst. gstep_cases Hst; try congruence.
    assert (n = a) by congruence. subst n. rewrite Hv. f_equal. symmetry. exact (f_equal v_ub Hv).
  Qed.

  Lemma abort_step same ord s w s' n top : Slots s -> CalmV (view s) \/ AbV (view s) ->
    nth_error (p_workers s) w = Some (PAbort n) -> gstep same ord s w s' -> p_ub s' = abort_val s n top ->
    (forall x, In x (p_simple s) -> exists t, top = Some t /\ sp_ub x <= sp_ub t) -> AbV (view s').
  Proof.
    intros HSl HR Ew Hst Hub Htop. rewrite (gstep_abort same ord s w s' n Ew Hst), Hub.
    split; [reflexivity|]. split; [apply abort_val_lb|exact (abort_val_sound s n top HSl HR Htop)].
  Qed.

  Definition AInv (s : pstate) : Prop :=
    Incumbent (p_lb s) (p_sol s) /\ Slots s /\ (CalmV (view s) \/ AbV (view s)).

  (* AInv is kept by every transition, for either fringe, provided abort_search gives best_ub the value [abort_val] for a
     node [top] that dominates the fringe *)
  Lemma gstep_ainv same (ord : Prop) s w s' top : key_ok good best same -> ord -> PInv s -> AInv s ->
    gstep same ord s w s' -> ubs_spec s w s' ->
    (forall n, nth_error (p_workers s) w = Some (PAbort n) ->
       p_ub s' = abort_val s n top /\ forall x, In x (p_simple s) -> exists t, top = Some t /\ sp_ub x <= sp_ub t) ->
    AInv s'.
  Proof.
    intros Hkey Hord HI (HInc & HSl & HR) Hst Hubs Hab.
    pose proof (gstep_incumbent _ _ s w s' HI HInc Hst) as HInc'.
    split; [exact HInc'|]. split; [exact (gstep_slots _ _ s w s' HI (step_pinv _ _ _ _ _ (proj1 (proj2 Hkey)) HI Hst) HSl Hst Hubs)|].
    assert (Hcase : (exists n, nth_error (p_workers s) w = Some (PAbort n)) \/
                    (forall n, nth_error (p_workers s) w <> Some (PAbort n))).
    { destruct (nth_error (p_workers s) w) as [[]|]; try (right; intros; discriminate). left. eauto. }
    destruct Hcase as [[n Ew]|Hnab].
    - right. destruct (Hab n Ew) as [Hub Htop]. exact (abort_step _ _ s w s' n top HSl HR Ew Hst Hub Htop).
    - destruct HR as [HC|HA]; [left; exact (gstep_calm _ _ s w s' Hkey Hord HI HC Hst Hnab)|right].
      exact (gstep_ab _ _ s w s' HInc HInc' HA Hst Hnab).
  Qed.

  Lemma step_ainv s w s' st : PInv s -> AInv s -> par_step st_eqb cfg s w = Some (s', st) -> AInv s'.
  Proof.
    intros HI HA Hstep.
    apply (gstep_ainv no_key True s w s' (snd (pf_pop st_eqb cfg s)) (no_key_ok good best) I HI HA
             (step_cases _ _ _ _ HI Hstep) (step_ubs _ _ _ _ Hstep)).
    intros n Ew. split; [exact (step_abort_ub _ _ _ _ n Hstep Ew)|].
    (* the top of the SimpleFringe dominates it *)
    rewrite (pf_pop_simple st_eqb cfg simple_fringe). intros x Hx.
    destruct (pq_pop cfg (p_simple s)) as [[t rest]|] eqn:Ep.
    - exists t. split; [reflexivity|exact (pq_pop_max cfg _ _ _ Ep x Hx)].
    - apply pq_pop_none in Ep. rewrite Ep in Hx. destruct Hx.
  Qed.

  Lemma AInv_init_view s op obl nubs T primal : primal_okP feasible primal ->
    view s = mkV [root_node cfg] O op obl (init_lb primal) IMAX (init_sol primal) nubs false false (repeat PGetWork T) ->
    AInv s.
  Proof.
    intros Hp Hv. split; [|split].
    - rewrite (f_equal v_lb Hv : p_lb s = _), (f_equal v_sol Hv : p_sol s = _). exact (Incumbent_init feasible primal Hp).
    - intros w p n Hw Hb. rewrite (f_equal v_workers Hv : p_workers s = _) in Hw.
      apply nth_error_In in Hw. apply repeat_spec in Hw. subst p. discriminate.
    - left. rewrite Hv. exact (CalmV_init cfg good best feasible HS _ _ _ _ _ _).
  Qed.

  Lemma AInv_init T primal : primal_okP feasible primal -> AInv (init_pstate st_eqb cfg T T primal).
  Proof. intros Hp. exact (AInv_init_view _ _ _ _ T primal Hp (view_init st_eqb cfg simple_fringe T T primal)). Qed.

  (* what the invariant says of ANY reachable state, and of a state where every worker has exited *)
  Definition SoundS (s : pstate) : Prop :=
    p_crash s = false /\ Incumbent (p_lb s) (p_sol s) /\ p_lb s <= p_ub s /\
    (forall o, OPT = Some o -> o <= p_ub s) /\
    (all_exited s = true -> p_abort s = false -> forall o, OPT = Some o -> o <= p_lb s).

  Lemma exited_dec (ws : list pc) : In PExited ws \/ ~ In PExited ws.
  Proof.
    induction ws as [|p ws IH]; [right; intros []|]. destruct IH as [IH|IH]; [left; right; exact IH|].
    destruct p; try (right; intros [H|H]; [discriminate|exact (IH H)]). left; left; reflexivity.
  Qed.

  Lemma ainv_sound s : p_workers s <> [] -> PInv s -> AInv s -> SoundS s.
  Proof.
    destruct HS as (_ & _ & Hisz & _).
    intros Hne HI (HInc & HSl & HR). pose proof HI as (I1 & _). cbn [view v_crash] in I1.
    split; [exact I1|]. split; [exact HInc|].
    destruct HR as [(C1 & C4 & C5 & _ & C7)|(A1 & A2 & A3)].
    - cbn [view v_abort v_simple v_ongoing v_lb v_ub v_workers] in C1, C4, C5, C7.
      assert (Hexit : In PExited (p_workers s) -> forall o, OPT = Some o -> o <= p_lb s).
      { intros Hin o Ho. destruct (C5 Hin) as (E1 & E2 & E3).
        destruct (C4 o Ho) as [H|(n & _ & [Hn|(p & Hp & Hr)])]; [exact H| |].
        - rewrite E1 in Hn. destruct Hn.
        - apply In_nth_error in Hp. destruct Hp as [w Hw].
          assert (Hb : is_busy p = true) by (unfold is_busy; rewrite (owner_busy _ _ Hr); reflexivity).
          pose proof (PInv_busy s w p HI Hw Hb). lia. }
      destruct (exited_dec (p_workers s)) as [Hin|Hno].
      + destruct (C5 Hin) as (E1 & E2 & E3). split; [lia|]. split; [intros o Ho; specialize (Hexit Hin o Ho); lia|].
        intros _ _. exact (Hexit Hin).
      + rewrite (C7 Hno). split; [|split; [intros o Ho; apply (Hisz o Ho)|]].
        * apply (SolverCutoff.incumbent_le_bound good best feasible cfg HS _ _ _ HInc); [|unfold IMIN, IMAX; lia].
          intros o Ho. apply (Hisz o Ho).
        * intros Hall _. exfalso. apply Hno. destruct (p_workers s) as [|p ws] eqn:E; [congruence|].
          rewrite (all_exited_spec s Hall p); [left; reflexivity|rewrite E; left; reflexivity].
    - cbn [view v_abort v_lb v_ub] in A1, A2, A3. split; [exact A2|]. split; [exact A3|]. intros _ E. congruence.
  Qed.

  (* the shape of the result, for ANY way the run ends (fuel exhaustion included) *)
  Definition sound_result (r : presult) : Prop :=
    pr_crash r = false /\ pr_lb r <= pr_ub r /\
    (forall o, OPT = Some o -> pr_lb r <= o <= pr_ub r) /\
    (OPT = None -> pr_value r = None /\ pr_sol r = None) /\
    (forall v, pr_value r = Some v ->
       pr_lb r = v /\ exists sol, pr_sol r = Some (sort_by dec_var_cmp sol) /\ feasible sol v) /\
    (pr_end r = PFinished -> pr_exact r = true -> pr_value r = OPT).

  Lemma sound_of_state s tr e : SoundS s -> (e = PFinished -> all_exited s = true) ->
    sound_result
      {| pr_exact := negb (p_abort s);
         pr_value := match option_map (sort_by dec_var_cmp) (p_sol s) with Some _ => Some (p_lb s) | None => None end;
         pr_lb := p_lb s; pr_ub := p_ub s; pr_sol := option_map (sort_by dec_var_cmp) (p_sol s);
         pr_explored := p_explored s; pr_polls := p_polls s; pr_crash := p_crash s; pr_tie := p_tie s;
         pr_end := e; pr_trace := tr |}.
  Proof.
    pose proof (SolverCutoff.incumbent_le_opt good best feasible cfg HS) as Hle.
    pose proof (SolverCutoff.incumbent_none good best feasible cfg HS) as Hnone.
    intros (F1 & F2 & F3 & F4 & F5) Hall. unfold sound_result.
    cbn [pr_exact pr_value pr_lb pr_ub pr_sol pr_crash pr_end].
    split; [exact F1|]. split; [exact F3|]. split; [|split; [|split]].
    - intros o Ho. split; [exact (Hle _ _ o F2 Ho)|exact (F4 o Ho)].
    - intros Ho. destruct (Hnone _ _ F2 Ho) as [_ ->]. cbn [option_map]. auto.
    - intros v Hv. destruct F2 as [_ [[Hs _]|(l & Hs & Hf)]]; rewrite Hs in Hv |- *; cbn [option_map] in Hv |- *; [discriminate|].
      inversion Hv; subst v. split; [reflexivity|]. exists l. auto.
    - intros He Hex. assert (Hab : p_abort s = false) by (destruct (p_abort s); [discriminate|reflexivity]).
      specialize (F5 (Hall He) Hab). destruct OPT as [o|] eqn:Ho.
      + pose proof (Hle _ _ o F2 eq_refl) as H1. pose proof (F5 o eq_refl) as H2.
        destruct F2 as [_ [[_ Hl]|(l & Hs & _)]].
        * destruct HS as (_ & _ & Hisz & _). pose proof (Hisz o Ho). lia.
        * rewrite Hs. cbn [option_map]. f_equal. lia.
      + destruct (Hnone _ _ F2 eq_refl) as [_ ->]. reflexivity.
  Qed.

  Theorem par_anytime_sound_any_end T primal fuel sched :
    (1 <= T)%nat -> primal_okP feasible primal ->
    sound_result (par_maximize st_eqb cfg fuel T T primal sched).
  Proof.
    intros HT Hp. unfold par_maximize.
    destruct (par_run st_eqb cfg fuel (init_pstate st_eqb cfg T T primal) sched None []) as [[s' tr] e] eqn:E.
    assert (Hstep : forall s w s1 st, PInv s /\ AInv s /\ length (p_workers s) = T ->
              par_step st_eqb cfg s w = Some (s1, st) -> PInv s1 /\ AInv s1 /\ length (p_workers s1) = T).
    { intros s w s1 st (HI & HA & Hlen) Hst. pose proof (step_cases _ _ _ _ HI Hst) as Hps.
      split; [exact (step_pinv _ _ _ _ _ (proj1 (proj2 (no_key_ok good best))) HI Hps)|]. split; [exact (step_ainv _ _ _ _ HI HA Hst)|].
      rewrite (proj1 (gstep_fields _ _ s w s1 Hps)). exact Hlen. }
    assert (Hinit : length (p_workers (init_pstate st_eqb cfg T T primal)) = T).
    { pose proof (view_init st_eqb cfg simple_fringe T T primal) as Hv. apply view_proj in Hv.
      destruct Hv as (_ & _ & _ & _ & _ & _ & _ & _ & _ & _ & ->). apply repeat_length. }
    destruct (par_run_preserves st_eqb cfg _ Hstep _ _ _ _ _ _ _ _
                (conj (PInv_init st_eqb cfg simple_fringe good (proj1 HS) T primal) (conj (AInv_init T primal Hp) Hinit)) E)
      as ((HI & HA & Hlen) & Hall & _).
    apply sound_of_state; [|exact Hall]. apply ainv_sound; [|exact HI|exact HA].
    intros E0. rewrite E0 in Hlen. cbn [length] in Hlen. lia.
  Qed.

  Theorem par_anytime_sound T primal fuel sched :
    (1 <= T)%nat -> primal_okP feasible primal ->
    let r := par_maximize st_eqb cfg fuel T T primal sched in
    pr_end r = PFinished ->
    pr_crash r = false /\ pr_lb r <= pr_ub r /\
    (forall o, OPT = Some o -> pr_lb r <= o <= pr_ub r) /\
    (OPT = None -> pr_value r = None /\ pr_sol r = None) /\
    (forall v, pr_value r = Some v ->
       pr_lb r = v /\ exists sol, pr_sol r = Some (sort_by dec_var_cmp sol) /\ feasible sol v) /\
    (pr_exact r = true -> pr_value r = OPT).
  Proof.
    intros HT Hp r He.
    destruct (par_anytime_sound_any_end T primal fuel sched HT Hp) as (A1 & A2 & A3 & A4 & A5 & A6).
    split; [exact A1|]. split; [exact A2|]. split; [exact A3|]. split; [exact A4|]. split; [exact A5|]. exact (A6 He).
  Qed.
End ParAnytime.

(* STOREY 2: the clean flavours of Mdd.compile
   Same hypotheses as Assembly.Main / Assembly.Cutoffs (st_eqb_spec, clean flavour, no cache, no dominance rule,
   sc_nodup = false, 1 <= width, static variable order, wf_relaxation, guard B); ANY cutoff; OPT = opt_enum pb. *)
Require Import DDO.MddProgress DDO.MddSim DDO.Assembly DDO.Table DDO.Run DDO.TableWf.

Section Storey2.
  Context {St : Type}.
  Variable st_eqb : St -> St -> bool.
  Hypothesis st_eqb_spec : forall a b, st_eqb a b = true <-> a = b.
  Variable cfg : @sconfig St.
  Local Notation pb := (sc_problem cfg).
  Local Notation N := (nb_vars (sc_problem cfg)).
  Hypothesis cfg_clean : sc_flavour cfg = CleanLEL \/ sc_flavour cfg = CleanFC.
  Hypothesis cfg_nocache : sc_use_cache cfg = false.
  Hypothesis cfg_nodom : sc_domrule cfg = None.
  Hypothesis cfg_nodup : sc_nodup cfg = false.
  Hypothesis cfg_width : (1 <= sc_width cfg)%nat.
  Hypothesis nv_static : forall k l1 l2, next_variable pb k l1 = next_variable pb k l2.
  Hypothesis nv_some : forall k l, (k < N)%nat -> exists x, next_variable pb k l = Some x.
  Hypothesis nv_none : forall k l, (N <= k)%nat -> next_variable pb k l = None.
  Hypothesis Hwf : wf_relaxation cfg.
  Variable B : Z.
  Hypothesis HB : 2 * B <= IMAX.
  Hypothesis guard0 : forall ds s' v', frun pb 0 (init_state pb) (init_value pb) ds = Some (s', v') -> - B <= v' <= B.

  Local Notation good := (sgood pb).
  Local Notation feas := (sfeasible pb).
  Local Notation bst := (MddSim.best cfg).

  Let HK : contracts st_eqb good bst feas cfg :=
    contracts_hold st_eqb st_eqb_spec cfg cfg_clean cfg_nocache cfg_nodom cfg_nodup cfg_width
                   nv_static nv_some nv_none Hwf B HB guard0.
  Let HSem : semantics good bst feas cfg := semantics_hold cfg cfg_width nv_static nv_some nv_none B HB guard0.

  (* the result shape of C05_sequential_anytime, for the record of Par.v; the clause on exactness needs a run that ended *)
  Definition sound_result_enum (r : @presult) : Prop :=
    pr_crash r = false /\ pr_lb r <= pr_ub r /\
    (forall o, opt_enum pb = Some o -> pr_lb r <= o <= pr_ub r) /\
    (opt_enum pb = None -> pr_value r = None /\ pr_sol r = None) /\
    (forall v, pr_value r = Some v ->
       pr_lb r = v /\ exists sol, pr_sol r = Some (sort_by dec_var_cmp sol) /\ feas sol v /\ MddProgress.feasible pb sol v) /\
    (pr_end r = PFinished -> pr_exact r = true -> pr_value r = opt_enum pb).

  Lemma sound_result_to_enum r : sound_result cfg bst feas r -> sound_result_enum r.
  Proof.
    unfold sound_result, sound_result_enum. rewrite (OPT_is_opt_enum cfg). intros (A1 & A2 & A3 & A4 & A5 & A6).
    split; [exact A1|]. split; [exact A2|]. split; [exact A3|]. split; [exact A4|]. split; [|exact A6].
    intros v Hv. destruct (A5 v Hv) as (E & sol & S1 & S2). split; [exact E|]. exists sol. split; [exact S1|].
    split; [exact S2|]. apply (sfeasible_feasible pb B HB guard0). exact S2.
  Qed.

  Theorem C05_parallel_anytime_any_end : forall T primal fuel sched,
    (1 <= T)%nat -> primal_okP feas primal ->
    sound_result_enum (par_maximize st_eqb cfg fuel T T primal sched).
  Proof.
    intros T primal fuel sched HT Hp. apply sound_result_to_enum.
    exact (par_anytime_sound_any_end st_eqb cfg cfg_nocache cfg_nodup good bst feas HK HSem T primal fuel sched HT Hp).
  Qed.

  Theorem C05_parallel_anytime : forall T primal fuel sched,
    (1 <= T)%nat -> primal_okP feas primal ->
    let r := par_maximize st_eqb cfg fuel T T primal sched in
    pr_end r = PFinished ->
    pr_crash r = false /\
    pr_lb r <= pr_ub r /\
    (forall o, opt_enum pb = Some o -> pr_lb r <= o <= pr_ub r) /\
    (opt_enum pb = None -> pr_value r = None /\ pr_sol r = None) /\
    (forall v, pr_value r = Some v ->
       pr_lb r = v /\ exists sol, pr_sol r = Some (sort_by dec_var_cmp sol) /\ feas sol v /\ MddProgress.feasible pb sol v) /\
    (pr_exact r = true -> pr_value r = opt_enum pb).
  Proof.
    intros T primal fuel sched HT Hp r He.
    destruct (C05_parallel_anytime_any_end T primal fuel sched HT Hp) as (A1 & A2 & A3 & A4 & A5 & A6).
    split; [exact A1|]. split; [exact A2|]. split; [exact A3|]. split; [exact A4|]. split; [exact A5|]. exact (A6 He).
  Qed.
End Storey2.

(* non-vacuity: the table family of TableWf.v *)
Section TableParallel.
  Variable ti : tinst.
  Variable C : Z.
  Hypothesis Hwf : t_wf ti C.
  Variable flv : flavour.
  Hypothesis Hflv : flv = CleanLEL \/ flv = CleanFC.
  Variable width : nat.
  Hypothesis Hwidth : (1 <= width)%nat.

  (* every instance of the family, every cutoff, every schedule, every fuel *)
  Theorem C05_parallel_table_instances : forall cutoff T fuel sched,
    (1 <= T)%nat ->
    sound_result_enum (tb_sconfig ti flv false false false width cutoff)
      (par_maximize tstate_eqb (tb_sconfig ti flv false false false width cutoff) fuel T T None sched).
  Proof.
    intros cutoff T fuel sched HT.
    destruct (table_premises ti C Hwf flv Hflv width Hwidth cutoff)
      as (P1 & P2 & P3 & P4 & P5 & P6 & P7 & P8 & P9 & P10 & P11 & P12 & P13).
    assert (Hp : primal_okP (sfeasible (t_problem ti)) None) by (intros pv psol E; discriminate).
    exact (C05_parallel_anytime_any_end tstate_eqb P1 (tb_sconfig ti flv false false false width cutoff) P2 P3 P4 P5 P6 P7 P8 P9 P10
             (tB ti C) P12 P13 T None fuel sched HT Hp).
  Qed.
End TableParallel.

(* a concrete instance: 3 variables (static order 0, 1, 2), 3 base states, rows (var, base, value, dst, cost):
     x0: 0 -0-> 0 (+3)   0 -1-> 1 (+2)   0 -2-> 2 (+1)
     x1: 0 -0-> 0 (+0)   1 -0-> 1 (+0)   2 -0-> 2 (+0)
     x2: 0 -0-> 0 (+0)   1 -0-> 1 (+5)   2 -0-> 2 (+0)
   optimum 7 (x0 = 1).  Width 1: the restricted diagram of the root says 3, the relaxed one 8; the cut-set of the root is
   A = ([0], 3, ub 8), B = ([1], 2, ub 7), C = ([2], 1, ub 6); the optimum lives under B.  The root costs 6 polls. *)
Definition ex3_ti : tinst := {|
  t_nvars := 3; t_nbase := 3; t_init := 0; t_initval := 0; t_slack := 0; t_rubkind := 0; t_domkind := 0;
  t_usevalue := false; t_ncoord := 0; t_order := [0; 1; 2]%nat;
  t_trans := [ (0%nat, 0, 0, 0, 3); (0%nat, 0, 1, 1, 2); (0%nat, 0, 2, 2, 1);
               (1%nat, 0, 0, 0, 0); (1%nat, 1, 0, 1, 0); (1%nat, 2, 0, 2, 0);
               (2%nat, 0, 0, 0, 0); (2%nat, 1, 0, 1, 5); (2%nat, 2, 0, 2, 0) ];
  t_notimp := []; t_rub := []; t_key := []; t_coords := []; t_mergekind := 0; t_pos := []; t_up := [] |}.

Example ex3_wf : t_wf ex3_ti 5.
Proof. apply t_wfb_spec. vm_compute. reflexivity. Qed.
Example ex3_opt : opt_enum (t_problem ex3_ti) = Some 7.
Proof. vm_compute. reflexivity. Qed.

(* cutoff 7: the first compilation after the root is cut at its first poll *)
Definition ex3_cfg (cutoff : nat) : @sconfig tstate := tb_sconfig ex3_ti CleanLEL false false false 1 cutoff.
(* 3 workers.  Worker 0 processes the root (7 transitions); workers 0, 1, 2 take A, B, C; worker 2 then worker 1 start
   compiling and are cut (both sit at PAbort); worker 2 then worker 1 run abort_search; the rest follows the default
   policy (worker 0's compilation is cut as well: a third abort_search) *)
Definition ex3_sched : list nat := [0;0;0;0;0;0;0; 0;1;2; 2;1; 2;1]%nat.

Definition pc_tag {St} (p : @pc St) : nat :=
  match p with
  | PGetWork => 0 | PParked => 1 | PReadLb1 _ => 2 | PUpdate1 _ _ _ => 3 | PReadLb2 _ => 4 | PUpdate2 _ _ _ => 5
  | PEnqueue _ _ _ => 6 | PAbort _ => 7 | PNotify _ _ => 8 | PExited => 9
  end.
Definition held_ub {St} (p : @pc St) : option Z := option_map (@sp_ub St) (busy_node p).
(* the state after k transitions of the run: (pcs, bounds of the nodes held, upper_bounds, abort flag, best_lb, best_ub) *)
Definition ex3_after (k : nat) :=
  let '(s, _, _) := par_run tstate_eqb (ex3_cfg 7) k (init_pstate tstate_eqb (ex3_cfg 7) 3 3 None) ex3_sched None [] in
  (map pc_tag (p_workers s), map held_ub (p_workers s), p_upper_bounds s, p_abort s, p_lb s, p_ub s).

(* two different workers are at PAbort at the same time (the situation finding D3 was about) *)
Example ex3_two_workers_at_abort :
  ex3_after 12 = ([2; 7; 7]%nat, [Some 8; Some 7; Some 6], [8; 7; 6], false, 3, IMAX).
Proof. vm_compute. reflexivity. Qed.

(* worker 2 aborts first: its own node C has bound 6 < 7 = optimum (the optimum is under B, held by worker 1); the
   repaired abort_search takes the maximum with upper_bounds[0] = 8 and upper_bounds[1] = 7 *)
Example ex3_first_abort : ex3_after 13 = ([2; 7; 8]%nat, [Some 8; Some 7; Some 6], [8; 7; 6], true, 3, 8).
Proof. vm_compute. reflexivity. Qed.
(* the second abort_search (worker 1) takes a maximum with the previous best_ub: the bound is kept *)
Example ex3_second_abort : ex3_after 14 = ([2; 8; 8]%nat, [Some 8; Some 7; Some 6], [8; 7; 6], true, 3, 8).
Proof. vm_compute. reflexivity. Qed.

Notation ex3_result := (par_maximize tstate_eqb (ex3_cfg 7) 200 3 3 None ex3_sched) (only parsing).

Example ex3_run :
  (pr_end ex3_result, pr_exact ex3_result, pr_crash ex3_result, pr_lb ex3_result, pr_ub ex3_result, pr_value ex3_result)
    = (PFinished, false, false, 3, 8, Some 3) /\
  filter (fun e => match snd e with SAbortSearch => true | _ => false end) (pr_trace ex3_result)
    = [(2%nat, SAbortSearch); (1%nat, SAbortSearch); (0%nat, SAbortSearch)].
Proof. vm_compute. split; reflexivity. Qed.

(* the theorem applies to this run (the inequalities come from the theorem, not from the computation) ... *)
Example ex3_by_theorem :
  pr_crash ex3_result = false /\ pr_lb ex3_result <= 7 <= pr_ub ex3_result /\
  (forall v, pr_value ex3_result = Some v ->
     exists sol, pr_sol ex3_result = Some (sort_by dec_var_cmp sol) /\ MddProgress.feasible (t_problem ex3_ti) sol v).
Proof.
  destruct (C05_parallel_table_instances ex3_ti 5 ex3_wf CleanLEL (or_introl eq_refl) 1 (le_n 1) 7 3 200 ex3_sched
              (le_S _ _ (le_S _ _ (le_n 1)))) as (A1 & A2 & A3 & A4 & A5 & A6).
  split; [exact A1|]. split; [exact (A3 7 ex3_opt)|].
  intros v Hv. destruct (A5 v Hv) as (_ & sol & S1 & _ & S3). exists sol. auto.
Qed.
(* ... and it is not vacuous: the run aborted, lb = 3 < optimum = 7 <= ub = 8 *)
Example ex3_strict : pr_exact ex3_result = false /\ pr_lb ex3_result < 7 /\ 7 <= pr_ub ex3_result /\ pr_ub ex3_result < IMAX.
Proof. vm_compute. repeat split; discriminate || reflexivity. Qed.

(* the theorem also speaks of runs stopped by the fuel, e.g. right after the first abort_search *)
Example ex3_out_of_fuel :
  let r := par_maximize tstate_eqb (ex3_cfg 7) 13 3 3 None ex3_sched in
  pr_end r = POutOfFuel /\ pr_lb r <= 7 <= pr_ub r.
Proof.
  split; [vm_compute; reflexivity|].
  destruct (C05_parallel_table_instances ex3_ti 5 ex3_wf CleanLEL (or_introl eq_refl) 1 (le_n 1) 7 3 13 ex3_sched
              (le_S _ _ (le_S _ _ (le_n 1)))) as (_ & _ & A3 & _).
  exact (A3 7 ex3_opt).
Qed.

(* the instance of TableWf.v (optimum 12): cutoff 5 stops the root during its relaxed compilation, after the restricted
   one has found 12; the run is not exact, and best_ub = isize::MAX (the root's own bound) *)
Example ex_ti_abort :
  let r := par_maximize tstate_eqb (tb_sconfig ex_ti CleanLEL false false false 1 5) 200 2 2 None [] in
  (pr_end r, pr_exact r, pr_lb r, pr_ub r) = (PFinished, false, 12, IMAX) /\ pr_lb r <= 12 <= pr_ub r.
Proof.
  split; [vm_compute; reflexivity|].
  destruct (C05_parallel_table_instances ex_ti 7 ex_wf CleanLEL (or_introl eq_refl) 1 (le_n 1) 5 2 200 []
              (le_S _ _ (le_n 1))) as (_ & _ & A3 & _).
  exact (A3 12 ex_opt).
Qed.


(* regression: the isize::MAX sentinels (finding D9)
   BEFORE the second repair of abort_search (not expressible here: Par.v models the repaired code only) the code used
   isize::MAX as a sentinel twice -- "slot of upper_bounds idle" (such slots were skipped in the maximum) and "best_ub not
   set yet" (`if best_ub == MAX { best_ub = cur } else { best_ub = max(cur, best_ub) }`).  A worker busy with a node whose
   bound IS isize::MAX was taken for idle, and a best_ub legitimately set to isize::MAX by a first abort_search was
   OVERWRITTEN by the next one.  On the configuration below (which meets every hypothesis of section Storey2:
   residual_premises) the pre-repair model returned, for the schedule schedR, a FINISHED run with best_lb = 6 and
   best_ub = 10 while the optimum is 15 (reproduced on the Rust code: 2 workers, cutoff 8, bounds [6, 10]); in the other
   abort order the bound was 10 right after the first abort_search, until worker 0's own abort_search raised it.
     states: 0 root; x0 = 0 -> X = 1 (+5), x0 = 1 -> Y = 2 (+0); X: x1 = 0 -> 3 (+1), x1 = 1 -> 6 (+0); Y: x1 = 0 -> 4 (+0);
             x2: 3 (+0), 6 (+10), 4 (+1); 9 = the merged state (covers every state, costs 5 / 1 / 10 per variable).
     relaxation: merge = 9, rough bound = isize::MAX, relax = isize::MAX on the edges that leave X (any over-estimate
             is a valid relaxation), the cost itself elsewhere.
   Width 1: the root's restricted diagram says 6, its cut-set is X (bound isize::MAX) and Y (bound 10); the optimum 15 is
   under X.  Two workers; worker 0 takes X, worker 1 takes Y; cutoff 7 cuts both compilations; worker 0 runs abort_search
   first, worker 1 second.
   AFTER the repair (idle slots hold isize::MIN, the maximum runs over every slot, the first abort_search is recognised by
   abort_proof being unset): the same run reports best_ub = isize::MAX >= 15 (residual_regression, by computation), and
   C05_parallel_anytime applies to it (residual_by_theorem). *)
Module Residual.
  Definition costR (s : Z) (d : decision) : Z :=
    match d_var d with
    | O => if s =? 9 then 5 else if d_val d =? 0 then 5 else 0
    | S O => if s =? 9 then 1 else if (s =? 1) && (d_val d =? 0) then 1 else 0
    | _ => if s =? 9 then 10 else if s =? 6 then 10 else if s =? 4 then 1 else 0
    end.
  Definition trR (s : Z) (d : decision) : Z :=
    if s =? 9 then 9
    else if s =? 0 then (if d_val d =? 0 then 1 else 2)
    else if s =? 1 then (if d_val d =? 0 then 3 else 6) else if s =? 2 then 4 else 5.
  Definition domR (x : nat) (s : Z) : list Z :=
    if s =? 9 then [0; 1]
    else if Nat.eqb x 0 then [0; 1] else if Nat.eqb x 1 then (if s =? 1 then [0; 1] else [0]) else [0].
  Definition pbR : problem Z := {|
    nb_vars := 3; init_state := 0; init_value := 0;
    transition := trR; transition_cost := fun s _ d => costR s d;
    next_variable := fun depth _ => if Nat.ltb depth 3 then Some depth else None;
    domain := domR; is_impacted_by := fun _ _ => true |}.
  Definition rlxR : relaxation Z := {|
    merge := fun _ => 9;
    relax := fun src _ _ _ c => if src =? 1 then IMAX else c;
    fast_upper_bound := fun _ => IMAX |}.
  Definition cfgR (k : nat) : @sconfig Z := {|
    sc_flavour := CleanLEL; sc_problem := pbR; sc_relax := rlxR; sc_ranking := Z.compare;
    sc_domcmp := fun a va b vb => cmp_then (Zcmp va vb) (Z.compare a b); sc_domrule := None; sc_width := 1;
    sc_use_cache := false; sc_nodup := false; sc_cutoff := k |}.

  Definition covR (s s' : Z) : Prop := s = s' \/ s = 9.

  Lemma costR_range s d : 0 <= costR s d <= 10.
  Proof.
    unfold costR. destruct (d_var d) as [|[|x]];
      repeat match goal with |- context [if ?b then _ else _] => destruct b end; lia.
  Qed.
  Lemma costR_9 s d : costR s d <= costR 9 d.
  Proof.
    unfold costR. destruct (d_var d) as [|[|x]]; rewrite Z.eqb_refl;
      repeat match goal with |- context [if ?b then _ else _] => destruct b end; lia.
  Qed.
  Lemma domR_9 x s v : In v (domR x s) -> In v (domR x 9).
  Proof.
    unfold domR. rewrite Z.eqb_refl.
    repeat match goal with |- context [if ?b then _ else _] => destruct b end; cbn [In]; tauto.
  Qed.

  Lemma fold_bound (c : Z -> Z) (g : Z -> option Z) lo hi l h :
    fold_right (fun val acc => omax (oadd (c val) (g val)) acc) None l = Some h ->
    (forall val h', In val l -> g val = Some h' -> lo <= c val + h' <= hi) -> lo <= h <= hi.
  Proof.
    revert h. induction l as [|a l IH]; intros h H Hb; cbn [fold_right] in H; [discriminate|].
    destruct (g a) as [ha|] eqn:Ea; cbn [oadd option_map omax] in H.
    - pose proof (Hb a ha (or_introl eq_refl) Ea) as Ha.
      destruct (fold_right (fun val acc => omax (oadd (c val) (g val)) acc) None l) as [hl|] eqn:El.
      + inversion H; subst h. assert (lo <= hl <= hi) by (apply IH; [reflexivity|intros; eapply Hb; eauto; right; assumption]). lia.
      + inversion H; subst h. lia.
    - apply IH; [exact H|]. intros; eapply Hb; eauto. right; assumption.
  Qed.

  Lemma hstar_bound : forall fuel k s h, hstar pbR fuel k s = Some h -> 0 <= h <= 10 * Z.of_nat fuel.
  Proof.
    induction fuel as [|fuel IH]; intros k s h H; cbn [hstar] in H; [inversion H; lia|].
    cbn [next_variable pbR] in H. destruct (Nat.ltb k 3); [|inversion H; lia].
    apply (fold_bound _ _ 0 (10 * Z.of_nat (S fuel))) in H; [exact H|].
    intros val h' _ Hh. apply IH in Hh. cbn [transition_cost pbR].
    pose proof (costR_range s {| d_var := k; d_val := val |}). lia.
  Qed.

  Lemma frun_bound : forall ds k s v s' v', frun pbR k s v ds = Some (s', v') -> v <= v' <= v + 10 * Z.of_nat (3 - k).
  Proof.
    induction ds as [|d ds IH]; intros k s v s' v' H; cbn [frun] in H; [inversion H; lia|].
    destruct (var_ok pbR k d) eqn:Ev; cbn [andb] in H; [|discriminate].
    destruct (in_domain pbR s d); [|discriminate]. apply IH in H.
    unfold var_ok in Ev. cbn [next_variable pbR] in Ev. destruct (Nat.ltb_spec k 3) as [Hk|Hk]; [|discriminate].
    cbn [transition_cost pbR] in H. pose proof (costR_range s d).
    replace (3 - k)%nat with (S (3 - S k)) by lia. lia.
  Qed.

  Lemma wf_coverR k : wf_cover (cfgR k) covR.
  Proof.
    split; [intros s; left; reflexivity|]. split; [|split].
    - intros s s' x v [<- | ->] Hin; cbn [sc_problem cfgR domain transition transition_cost pbR] in *.
      + split; [exact Hin|]. split; [left; reflexivity|lia].
      + split; [eapply domR_9; eauto|]. split; [right; unfold trR; rewrite Z.eqb_refl; reflexivity|apply costR_9].
    - intros L s s' _ _. right. reflexivity.
    - intros j s s' h _ Hh. cbn [sc_relax cfgR fast_upper_bound rlxR sc_problem] in *. unfold H in Hh.
      apply hstar_bound in Hh. cbn [nb_vars pbR] in Hh. unfold IMAX. lia.
  Qed.

  (* all the hypotheses of section Storey2 (those of Assembly.Main), with B = 100: the theorem applies to this configuration *)
  Theorem residual_premises k :
    (forall a b, Z.eqb a b = true <-> a = b) /\
    (sc_flavour (cfgR k) = CleanLEL \/ sc_flavour (cfgR k) = CleanFC) /\
    sc_use_cache (cfgR k) = false /\ sc_domrule (cfgR k) = None /\ sc_nodup (cfgR k) = false /\ (1 <= sc_width (cfgR k))%nat /\
    (forall j l1 l2, next_variable (sc_problem (cfgR k)) j l1 = next_variable (sc_problem (cfgR k)) j l2) /\
    (forall j l, (j < nb_vars (sc_problem (cfgR k)))%nat -> exists x, next_variable (sc_problem (cfgR k)) j l = Some x) /\
    (forall j l, (nb_vars (sc_problem (cfgR k)) <= j)%nat -> next_variable (sc_problem (cfgR k)) j l = None) /\
    wf_relaxation (cfgR k) /\
    2 * 100 <= IMAX /\
    (forall ds s' v', frun (sc_problem (cfgR k)) 0 (init_state (sc_problem (cfgR k))) (init_value (sc_problem (cfgR k))) ds = Some (s', v') ->
                      - 100 <= v' <= 100).
  Proof.
    split; [exact Z.eqb_eq|]. split; [left; reflexivity|]. split; [reflexivity|]. split; [reflexivity|].
    split; [reflexivity|]. split; [cbn; lia|]. split; [reflexivity|]. split; [|split; [|split; [|split]]].
    - intros j l Hj. cbn [sc_problem cfgR nb_vars next_variable pbR] in *. apply Nat.ltb_lt in Hj. rewrite Hj. eauto.
    - intros j l Hj. cbn [sc_problem cfgR nb_vars next_variable pbR] in *. apply Nat.ltb_ge in Hj. rewrite Hj. reflexivity.
    - exists covR. right. split; [apply wf_coverR|]. split; [|split].
      + intros s d. cbn [sc_problem cfgR transition_cost pbR]. pose proof (costR_range s d). unfold in_isize, IMIN, IMAX. lia.
      + intros src dst mg d c Hc. cbn [sc_relax cfgR relax rlxR]. destruct (src =? 1); [unfold in_isize, IMIN, IMAX; lia|exact Hc].
      + intros src dst mg d c Hc. cbn [sc_relax cfgR relax rlxR]. destruct (src =? 1); [apply Hc|lia].
    - unfold IMAX. lia.
    - intros ds s' v' Hr. cbn [sc_problem cfgR init_state init_value pbR] in Hr. apply frun_bound in Hr. cbn in Hr. lia.
  Qed.

  Example residual_opt : opt_enum pbR = Some 15.
  Proof. vm_compute. reflexivity. Qed.

  (* the cut-set of the root: (state, value, depth, bound) *)
  Example residual_cutset :
    let inp := mk_input (cfgR 7) Relaxed (root_node (cfgR 7)) 6 in
    map (fun x => (sp_state x, sp_value x, sp_depth x, sp_ub x))
        (drain_cutset inp (fst (compile Z.eqb inp 0 0 [] (init_dstore 3) 0))) = [(1, 5, 1%nat, IMAX); (2, 0, 1%nat, 10)].
  Proof. vm_compute. reflexivity. Qed.

  (* worker 0: root (7 transitions); workers 0, 1 take X, Y; both compilations are cut; abort_search of 0, then of 1 *)
  Definition schedR : list nat := [0;0;0;0;0;0;0; 0;1; 0;1; 0;1]%nat.

  Example residual_regression :
    let r := par_maximize Z.eqb (cfgR 7) 200 2 2 None schedR in
    (pr_end r, pr_exact r, pr_crash r, pr_lb r, pr_ub r, pr_value r) = (PFinished, false, false, 6, IMAX, Some 6).
  Proof. vm_compute. reflexivity. Qed.

  (* (upper_bounds, abort flag, best_lb, best_ub) after k transitions: worker 0's abort_search (transition 12) sets
     best_ub = isize::MAX, worker 1's (transition 13) takes the maximum with it instead of overwriting it *)
  Definition afterR (k : nat) :=
    let '(s, _, _) := par_run Z.eqb (cfgR 7) k (init_pstate Z.eqb (cfgR 7) 2 2 None) schedR None [] in
    (p_upper_bounds s, p_abort s, p_lb s, p_ub s).
  Example residual_steps :
    afterR 11 = ([IMAX; 10], false, 6, IMAX) /\ afterR 12 = ([IMAX; 10], true, 6, IMAX) /\
    afterR 13 = ([IMAX; 10], true, 6, IMAX) /\ afterR 15 = ([IMIN; IMIN], true, 6, IMAX).
  Proof. vm_compute. repeat split; reflexivity. Qed.

  (* the other abort order (worker 1 first, while worker 0 holds X): upper_bounds[0] = isize::MAX is not skipped *)
  Example residual_regression_other_order :
    let r := par_maximize Z.eqb (cfgR 7) 12 2 2 None [0;0;0;0;0;0;0; 0;1; 0;1; 1]%nat in
    (pr_end r, pr_exact r, pr_lb r, pr_ub r) = (POutOfFuel, false, 6, IMAX) /\
    let r := par_maximize Z.eqb (cfgR 7) 200 2 2 None [0;0;0;0;0;0;0; 0;1; 0;1; 1]%nat in
    (pr_end r, pr_exact r, pr_lb r, pr_ub r) = (PFinished, false, 6, IMAX).
  Proof. vm_compute. split; reflexivity. Qed.

  (* the theorem applies: every run of this configuration has sound bounds (here: 6 <= 15 <= best_ub) *)
  Theorem residual_by_theorem : forall T fuel sched, (1 <= T)%nat ->
    let r := par_maximize Z.eqb (cfgR 7) fuel T T None sched in
    pr_crash r = false /\ pr_lb r <= 15 <= pr_ub r.
  Proof.
    intros T fuel sched HT r.
    destruct (residual_premises 7) as (P1 & P2 & P3 & P4 & P5 & P6 & P7 & P8 & P9 & P10 & P12 & P13).
    assert (Hp : primal_okP (sfeasible pbR) None) by (intros pv psol E; discriminate).
    destruct (C05_parallel_anytime_any_end Z.eqb P1 (cfgR 7) P2 P3 P4 P5 P6 P7 P8 P9 P10 100 P12 P13 T None fuel sched HT Hp)
      as (A1 & _ & A3 & _).
    split; [exact A1|exact (A3 15 residual_opt)].
  Qed.
End Residual.

Print Assumptions step_ubs.
Print Assumptions step_ainv.
Print Assumptions par_anytime_sound.
Print Assumptions par_anytime_sound_any_end.
Print Assumptions C05_parallel_anytime.
Print Assumptions C05_parallel_anytime_any_end.
Print Assumptions C05_parallel_table_instances.
Print Assumptions ex3_two_workers_at_abort.
Print Assumptions ex3_by_theorem.
Print Assumptions ex3_out_of_fuel.
Print Assumptions ex_ti_abort.
Print Assumptions Residual.residual_premises.
Print Assumptions Residual.residual_regression.
Print Assumptions Residual.residual_by_theorem.
